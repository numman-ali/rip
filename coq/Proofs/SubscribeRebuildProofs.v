(* C06 - the thread sidecar being rebuilt while writers append and readers attach (Model/Subscribe.v, tfinal):
   exactly-once for the discipline "temporary file + rename, under the writers' mutex", refutations for the others. *)
From RipV Require Import Base.Prelude Model.Subscribe Proofs.SubscribeProofs.
Local Open Scope nat_scope.

(* the discipline of the theorem: temporary file + rename, under the writers' mutex *)
Definition okd : rdisc := {| rd_atomic := true; rd_locked := true |}.
Lemma rdisc_ok_eq d : rdisc_ok d = true -> d = okd.
Proof. destruct d as [[|] [|]]; cbn; intros H; try discriminate H; reflexivity. Qed.

Lemma side_served_seq j len : side_served (seq j len) = true -> j = 0 /\ 0 < len.
Proof.
  destruct len as [|len]; [discriminate|]. intros H. split; [exact (sidecar_ok_seq 0 j len H)|auto with arith].
Qed.

(* the program counters at which a reader holds the writers' mutex, at which its log read is current, and those it
   reaches at all under this discipline *)
Definition holds (pc : nat) : bool := match pc with 3 | 4 | 5 | 8 => true | _ => false end.
Definition snapped (pc : nat) : bool := holds pc && Nat.leb 5 pc.
Definition reached (pc : nat) : bool := match pc with 6 | 7 => false | _ => Nat.leb pc 9 end.

(* reader i: it holds the mutex exactly at the pcs of `holds`; its log read is the log (nobody appends under its mutex);
   since it subscribed at frame a its receiver holds a..wk-1, and once attached its history 0..q-1 reaches a *)
Definition RInv (wk : nat) (log : list nat) (lock : holder) (i : nat) (x : tsub) : Prop :=
  reached (t_pc x) = true /\
  (if holds (t_pc x) then lock = HReader i else lock <> HReader i) /\
  (snapped (t_pc x) = true -> t_snap x = log) /\
  match t_pc x with
  | 0 => t_live x = None
  | _ => exists a, a <= wk /\ t_live x = Some (seq a (wk - a)) /\
         (t_pc x = 9 -> exists q, t_hist x = seq 0 q /\ a <= q /\ q <= length log)
  end.
(* 1 once the writer's pc has passed the log line (b2) / the sidecar line (b3) of the append in flight *)
Definition b2 (wpc : nat) : nat := if Nat.leb 2 wpc then 1 else 0.
Definition b3 (wpc : nat) : nat := if Nat.leb 3 wpc then 1 else 0.
(* the writer inside an append (t_wpc 1..3) holds the mutex; the log is 0..wk-1 plus the frame in flight, and so is the
   sidecar from some j on: whole (j = 0) unless the cache file was lost *)
Definition SideInv (wk wpc : nat) (side : list nat) : Prop :=
  exists j, j <= wk + b3 wpc /\ side = seq j (wk + b3 wpc - j).
Definition GInv (s : tst) : Prop :=
  t_wpc s <= 3 /\ t_wk s <= t_n s /\ (t_wpc s <> 0 -> t_wk s < t_n s /\ t_lock s = HWriter) /\
  t_log s = seq 0 (t_wk s + b2 (t_wpc s)) /\ SideInv (t_wk s) (t_wpc s) (t_side s) /\
  forall i x, nth_error (t_subs s) i = Some x -> RInv (t_wk s) (t_log s) (t_lock s) i x.

Lemma RInv_lock wk log l l' i x : RInv wk log l i x -> l <> HReader i -> l' <> HReader i -> RInv wk log l' i x.
Proof.
  intros (Hv & HL & H) Hl Hl'. split; [exact Hv|]. split; [|exact H].
  destruct (holds (t_pc x)); [contradiction|exact Hl'].
Qed.
Lemma RInv_log wk log e l i x : RInv wk log l i x -> l <> HReader i -> RInv wk (log ++ e) l i x.
Proof.
  intros (Hv & HL & Hs & Hd) Hl. split; [exact Hv|]. split; [exact HL|]. split.
  - unfold snapped. destruct (holds (t_pc x)); [contradiction|discriminate].
  - destruct (t_pc x); [exact Hd|]. destruct Hd as (a & Ha & Hv' & Hq). exists a. repeat split; auto.
    intros Q. destruct (Hq Q) as (q & Eq & Haq & Hql). exists q. rewrite app_length. repeat split; auto. lia.
Qed.
Lemma RInv_pub wk log l i x : RInv wk log l i x -> RInv (S wk) log l i (tdeliver wk x).
Proof.
  intros (Hv & HL & Hs & Hd). unfold tdeliver. destruct (t_live x) as [q|] eqn:El; (split; [exact Hv|]);
    (split; [exact HL|]); (split; [exact Hs|]); cbn [t_pc t_live t_hist]; (destruct (t_pc x); [try exact Hd|]).
  - discriminate Hd.
  - destruct Hd as (a & Ha & Hv' & Hq). injection Hv' as ->. exists a. split; [lia|]. split; [|exact Hq].
    f_equal. apply seq_upto_snoc, Ha.
  - rewrite El. exact Hd.
  - destruct Hd as (a & _ & Q & _). discriminate Q.
Qed.

(* a reader step that leaves the receiver alone and does not end at pc 0 *)
Lemma RInv_move wk log lock lock' i x x' :
  RInv wk log lock i x -> t_pc x <> 0 -> t_live x' = t_live x -> t_pc x' <> 0 -> reached (t_pc x') = true ->
  (if holds (t_pc x') then lock' = HReader i else lock' <> HReader i) ->
  (snapped (t_pc x') = true -> t_snap x' = log) ->
  (t_pc x' = 9 -> forall a, a <= wk -> exists q, t_hist x' = seq 0 q /\ a <= q /\ q <= length log) ->
  RInv wk log lock' i x'.
Proof.
  intros (_ & _ & _ & Hd) Hx Hl Hx' Hv HL Hs Hq. split; [exact Hv|]. split; [exact HL|]. split; [exact Hs|].
  destruct (t_pc x); [contradiction|]. destruct (t_pc x'); [contradiction|].
  destruct Hd as (a & Ha & Hv' & _). exists a. rewrite Hl. repeat split; auto.
Qed.

Lemma GInv_init n m : GInv (tinit n m).
Proof.
  unfold GInv, tinit. cbn [t_wpc t_wk t_n t_lock t_log t_side t_subs b2 b3 Nat.leb].
  split; [lia|]. split; [lia|]. split; [intros H; contradiction|]. split; [reflexivity|].
  split; [exists 0; split; [lia | reflexivity]|].
  intros i x Hx. apply nth_error_In, repeat_spec in Hx. subst x.
  split; [reflexivity|]. split; [discriminate|]. split; [discriminate|reflexivity].
Qed.

Lemma GInv_writer s : GInv s -> GInv (twriter s).
Proof.
  intros G. pose proof G as (Hw & Hk & Hl & Hlog & (j & Hj & Hside) & Hr). unfold twriter.
  destruct (t_wpc s) as [|[|[|w]]] eqn:Ew.
  2-4: destruct Hl as (Hlt & El); [discriminate|].
  1: destruct (Nat.ltb_spec (t_wk s) (t_n s)) as [Hlt|Hge]; [destruct (t_lock s) eqn:El|]; try exact G.
  all: unfold GInv, SideInv; cbn [t_wpc t_wk t_n t_lock t_log t_side t_subs b2 b3 Nat.leb] in *;
    rewrite ?Nat.add_0_r, ?Nat.add_1_r in *; (split; [auto with arith|]).
  - (* the mutex is taken *)
    split; [exact Hk|]. split; [auto|]. split; [exact Hlog|]. split; [exists j; auto|].
    intros i x Hx. apply (RInv_lock _ _ HFree); [apply Hr, Hx | discriminate | discriminate].
  - (* the log line *)
    split; [exact Hk|]. split; [auto|]. split; [rewrite Hlog; symmetry; apply seq_S|]. split; [exists j; auto|].
    intros i x Hx. apply RInv_log; [apply Hr, Hx | rewrite El; discriminate].
  - (* the sidecar line *)
    split; [exact Hk|]. split; [auto|]. split; [exact Hlog|]. split; [|exact Hr].
    exists j. split; [auto with arith|]. rewrite Hside. apply seq_upto_snoc, Hj.
  - (* broadcast and release *)
    split; [exact Hlt|]. split; [intros Q; contradiction|]. split; [exact Hlog|]. split; [exists j; auto|].
    intros i x' Hx. rewrite nth_error_map in Hx. destruct (nth_error (t_subs s) i) as [x|] eqn:Ex; [|discriminate Hx].
    injection Hx as <-. apply (RInv_lock _ _ HWriter); [|discriminate | discriminate].
    apply RInv_pub. rewrite <- El. apply Hr, Ex.
Qed.

Lemma b3_le_b2 w : b3 w <= b2 w.
Proof. unfold b2, b3. destruct w as [|[|[|w]]]; cbn; lia. Qed.

Definition LockStep (i : nat) (lock lock' : holder) : Prop :=
  lock' = lock \/ (lock = HFree /\ lock' = HReader i) \/ (lock = HReader i /\ lock' = HFree).

Lemma LockStep_writer i l l' : LockStep i l l' -> l = HWriter -> l' = HWriter.
Proof. intros [->|[(-> & _)|(-> & _)]] Q; [exact Q|discriminate Q|discriminate Q]. Qed.

Lemma served_hist wk wpc side log a : SideInv wk wpc side -> log = seq 0 (wk + b2 wpc) -> a <= wk ->
  side_served side = true -> exists q, side = seq 0 q /\ a <= q /\ q <= length log.
Proof.
  intros (j & Hj & Hs) Hlog Ha Hv. rewrite Hs in Hv. apply side_served_seq in Hv. destruct Hv as [-> Hpos].
  exists (wk + b3 wpc). split; [rewrite Hs; f_equal; lia|]. split; [lia|].
  rewrite Hlog, seq_length. pose proof (b3_le_b2 wpc). lia.
Qed.

Lemma treader_ok i wk wpc log side lock x x' side' lock' :
  RInv wk log lock i x -> (wpc <> 0 -> lock = HWriter) -> log = seq 0 (wk + b2 wpc) -> SideInv wk wpc side ->
  treader okd i log side lock x = (x', side', lock') ->
  RInv wk log lock' i x' /\ SideInv wk wpc side' /\ LockStep i lock lock'.
Proof.
  intros R Hlk Hlog Hside E. pose proof R as (Hv & HL & Hs & _). unfold treader in E.
  (* while a reader holds the mutex no append is in flight *)
  assert (W0 : lock = HReader i -> wpc = 0).
  { intros Q. destruct (Nat.eq_dec wpc 0) as [W|W]; [exact W|]. rewrite (Hlk W) in Q. discriminate Q. }
  (* by the reader's pc (6, 7 and those above 9 are not reached).  From pc 1 on the new state satisfies the invariant by
     RInv_move; what that asks about the new pc is computed, and discriminate / reflexivity dispose of all of it but the
     lock clause and, at pc 9, the history *)
  destruct (t_pc x) as [|[|[|[|[|[|[|[|[|[|pc]]]]]]]]]] eqn:Ep; cbn [reached holds snapped Nat.leb andb] in Hv, HL, Hs;
    try discriminate Hv; cbn [okd rd_locked rd_atomic] in E.
  - (* subscribe *)
    injection E as <- <- <-. split; [|split; [exact Hside|left; reflexivity]].
    split; [reflexivity|]. split; [exact HL|]. split; [discriminate|]. exists wk. rewrite Nat.sub_diag.
    repeat split; [lia|discriminate].
  - (* unlocked try_replay: served, or on to the mutex *)
    destruct (negb (t_refuse x) && side_served side) eqn:Ev; injection E as <- <- <-;
      (split; [|split; [exact Hside|left; reflexivity]]); apply (RInv_move _ _ _ _ _ _ _ R);
      rewrite ?Ep; try discriminate; try reflexivity; try exact HL.
    intros _ a Ha. apply andb_prop in Ev. exact (served_hist wk wpc side log a Hside Hlog Ha (proj2 Ev)).
  - (* waiting for the mutex *)
    destruct lock eqn:El; injection E as <- <- <-; (split; [|split; [exact Hside|]]);
      [|right; left; split; reflexivity|exact R|left; reflexivity|exact R|left; reflexivity].
    apply (RInv_move _ _ _ _ _ _ _ R); rewrite ?Ep; try discriminate; reflexivity.
  - (* try_replay under the mutex: served and released, or on to the log read *)
    destruct (side_served side) eqn:Ev; injection E as <- <- <-; (split; [|split; [exact Hside|]]);
      [|right; right; split; [exact HL|reflexivity]| |left; reflexivity];
      apply (RInv_move _ _ _ _ _ _ _ R); rewrite ?Ep; try discriminate; try reflexivity; try exact HL.
    intros _ a Ha. exact (served_hist wk wpc side log a Hside Hlog Ha Ev).
  - (* log read *)
    injection E as <- <- <-. split; [|split; [exact Hside|left; reflexivity]].
    apply (RInv_move _ _ _ _ _ _ _ R); rewrite ?Ep; try discriminate; try reflexivity; exact HL.
  - (* the rename: the sidecar becomes the log just read *)
    injection E as <- <- <-. split; [|split; [|left; reflexivity]].
    + apply (RInv_move _ _ _ _ _ _ _ R); rewrite ?Ep; try discriminate; try reflexivity; [exact HL|exact Hs].
    + exists 0. rewrite (Hs eq_refl), Hlog, (W0 HL), Nat.sub_0_r. split; [lia|reflexivity].
  - (* return: the history is the log read under the mutex, which is released *)
    injection E as <- <- <-. split; [|split; [exact Hside|right; right; split; [exact HL|reflexivity]]].
    apply (RInv_move _ _ _ _ _ _ _ R); rewrite ?Ep; try discriminate; try reflexivity.
    intros _ a Ha. exists wk. cbn [tsub_hist t_hist]. rewrite (Hs eq_refl), Hlog, (W0 HL), seq_length. cbn [b2 Nat.leb].
    rewrite Nat.add_0_r. auto.
  - (* attached: nothing moves *)
    injection E as <- <- <-. split; [exact R|split; [exact Hside|left; reflexivity]].
Qed.

(* the mutex passing to or from reader i leaves every other reader's invariant alone *)
Lemma RInv_lockstep wk log l l' i j y : LockStep i l l' -> j <> i -> RInv wk log l j y -> RInv wk log l' j y.
Proof.
  intros [->|[(-> & ->)|(-> & ->)]] Hne R; [exact R| |]; apply (RInv_lock _ _ _ _ _ _ R); congruence.
Qed.

(* steps that leave the writer's counters and the log alone: only the sidecar, the mutex and the readers are to be checked *)
Lemma GInv_set s side lock subs : GInv s -> (t_lock s = HWriter -> lock = HWriter) -> SideInv (t_wk s) (t_wpc s) side ->
  (forall i x, nth_error subs i = Some x -> RInv (t_wk s) (t_log s) lock i x) ->
  GInv {| t_n := t_n s; t_wpc := t_wpc s; t_wk := t_wk s; t_log := t_log s; t_side := side; t_lock := lock; t_subs := subs |}.
Proof.
  intros (Hw & Hk & Hl & Hlog & _ & _) Hlk Hs Hr. split; [exact Hw|]. split; [exact Hk|].
  split; [intros Q; split; [apply Hl, Q|apply Hlk, Hl, Q]|]. split; [exact Hlog|]. split; [exact Hs|exact Hr].
Qed.

Lemma GInv_step s a : GInv s -> GInv (tstep okd s a).
Proof.
  intros G. pose proof G as (_ & _ & Hl & Hlog & Hside & Hr). destruct a as [|i|i|]; cbn [tstep].
  - apply GInv_writer, G.
  - destruct (nth_error (t_subs s) i) as [x|] eqn:Ex; [|exact G].
    destruct (treader okd i (t_log s) (t_side s) (t_lock s) x) as [[x' side'] lock'] eqn:E.
    destruct (treader_ok i (t_wk s) (t_wpc s) (t_log s) (t_side s) (t_lock s) x x' side' lock' (Hr i x Ex)
                (fun Q => proj2 (Hl Q)) Hlog Hside E) as (R' & Hside' & LS).
    apply GInv_set; [exact G|apply (LockStep_writer _ _ _ LS)|exact Hside'|].
    intros j y Hy. rewrite nth_error_upd_nth in Hy. destruct (Nat.eqb_spec j i) as [->|Hne].
    + rewrite Ex in Hy. injection Hy as <-. exact R'.
    + exact (RInv_lockstep _ _ _ _ _ _ _ LS Hne (Hr j y Hy)).
  - (* the refusal flag is no part of the invariant *)
    apply GInv_set; [exact G|auto|exact Hside|].
    intros j y Hy. rewrite nth_error_upd_nth in Hy. destruct (Nat.eqb_spec j i) as [->|Hne]; [|apply Hr, Hy].
    destruct (nth_error (t_subs s) i) as [x|] eqn:Ex; [|discriminate Hy]. injection Hy as <-. exact (Hr i x Ex).
  - (* the cache file is lost: the empty sidecar is the run from wk on *)
    apply GInv_set; [exact G|auto| |exact Hr].
    exists (t_wk s + b3 (t_wpc s)). rewrite Nat.sub_diag. auto.
Qed.

(* no frame beyond n is ever logged *)
Lemma GInv_logged s : GInv s -> t_wk s + b2 (t_wpc s) <= t_n s.
Proof.
  intros (_ & Hk & Hl & _). unfold b2. destruct (t_wpc s) as [|w]; [rewrite Nat.add_0_r; exact Hk|].
  destruct (Hl ltac:(discriminate)) as (Hlt & _). destruct (Nat.leb 2 (S w)); lia.
Qed.

Lemma GInv_final n m sched : GInv (tfinal okd n m sched).
Proof.
  unfold tfinal. apply fold_left_inv; [intros s a; apply GInv_step|apply GInv_init].
Qed.

Lemma tstep_n d s a : t_n (tstep d s a) = t_n s.
Proof.
  destruct a as [|i|i|]; cbn [tstep]; try reflexivity.
  - unfold twriter. destruct (t_wpc s) as [|[|[|w]]]; try reflexivity.
    destruct (Nat.ltb (t_wk s) (t_n s)); [|reflexivity]. destruct (t_lock s); reflexivity.
  - destruct (nth_error (t_subs s) i); [|reflexivity].
    destruct (treader d i (t_log s) (t_side s) (t_lock s) t) as [[x' side'] lock']. reflexivity.
Qed.
Lemma tfinal_n d n m sched : t_n (tfinal d n m sched) = n.
Proof.
  unfold tfinal. apply (fold_left_inv (tstep d) (fun s => t_n s = n)); [|reflexivity].
  intros s a H. rewrite tstep_n. exact H.
Qed.

Theorem rebuild_exactly_once : forall (d : rdisc), rdisc_ok d = true ->
  forall (n m : nat) (sched : list tactor) (i : nat) (x : tsub),
  nth_error (t_subs (tfinal d n m sched)) i = Some x -> tattached x = true ->
  TExactlyOnce n (tfinal d n m sched) x.
Proof.
  intros d Hd n m sched i x Hx Ha. apply rdisc_ok_eq in Hd. subst d.
  pose proof (GInv_final n m sched) as G. pose proof (GInv_logged _ G) as Hb. pose proof G as (_ & Hk & _ & Hlog & _ & Hr).
  set (fin := tfinal okd n m sched) in *. rewrite (tfinal_n okd n m sched : t_n fin = n) in Hk, Hb.
  destruct (Hr i x Hx) as (_ & _ & _ & H3). unfold tattached in Ha. apply Nat.eqb_eq in Ha. rewrite Ha in H3.
  destruct H3 as (a & Hak & Hv & Hq). destruct (Hq eq_refl) as (q & Eh & Haq & Hql).
  rewrite Hlog, seq_length in Hql. pose proof (Nat.le_trans _ _ _ Hql Hb) as Hqn.
  pose proof (Nat.le_max_r q (t_wk fin)) as K1. pose proof (Nat.max_lub _ _ _ Hqn Hk) as K2.
  exists (Nat.max q (t_wk fin)). unfold tdelivered. rewrite Eh, Hv.
  split; [|split; [exact K1 | split; [exact K2 | intros E; apply Nat.le_antisymm; [exact K2|rewrite <- E; exact K1]]]].
  (* the history 0..q-1 reaches the subscription point a, so it is 0..max q a - 1: drain_seq with nothing drained before *)
  rewrite <- (Nat.max_l q a Haq) at 1. apply drain_seq, Hak.
Qed.

(* a schedule is run once; the rest is read off the state it ends in *)
Lemma TLoses_final d n m sched fin i x : tfinal d n m sched = fin -> t_wk fin = n ->
  nth_error (t_subs fin) i = Some x -> tattached x = true -> tdelivered x <> seq 0 n -> TLoses d n m sched.
Proof. intros <- Hk Hx Ha Hd. split; [exact Hk|]. exists i, x. auto. Qed.

(* four writer steps = one whole append: mutex, log line, sidecar line, broadcast + release *)
Definition W4 : list tactor := [TW; TW; TW; TW].
(* rd_atomic = rd_locked = false (rewrite in place, no lock shared with the writers): frames 0,1 written; reader 0
   subscribes, its read is refused, it reads the log [0;1] and truncates the sidecar; frame 2 is appended (log, sidecar = [2], broadcast); the rebuild writes its two lines
   over it: sidecar = [0;1]; reader 1 attaches and is served [0;1]; frame 3 arrives live: reader 1 has [0;1;3] *)
Definition in_place_unlocked : rdisc := {| rd_atomic := false; rd_locked := false |}.
Definition lost_append_sched : list tactor :=
  W4 ++ W4 ++ [TR 0; TRefuse 0; TR 0; TR 0; TR 0] ++ W4 ++ [TR 0; TR 0; TR 0; TR 0] ++ [TR 1; TR 1] ++ W4.
Lemma lost_append_witness :
  t_wk (tfinal in_place_unlocked 4 2 lost_append_sched) = 4 /\ t_log (tfinal in_place_unlocked 4 2 lost_append_sched) = [0; 1; 2; 3]
  /\ t_side (tfinal in_place_unlocked 4 2 lost_append_sched) = [0; 1; 3]
  /\ map tattached (t_subs (tfinal in_place_unlocked 4 2 lost_append_sched)) = [true; true]
  /\ map tdelivered (t_subs (tfinal in_place_unlocked 4 2 lost_append_sched)) = [[0; 1; 2; 3]; [0; 1; 3]].
Proof. vm_compute. repeat split. Qed.
(* the same schedule under okd *)
Lemma lost_append_repaired :
  t_wk (tfinal okd 4 2 lost_append_sched) = 4 /\ t_side (tfinal okd 4 2 lost_append_sched) = [0; 1; 2; 3]
  /\ map tdelivered (t_subs (tfinal okd 4 2 lost_append_sched)) = [[0; 1; 2; 3]; [0; 1; 2; 3]].
Proof. vm_compute. repeat split. Qed.
Lemma lost_append_loses : TLoses in_place_unlocked 4 2 lost_append_sched.
Proof.
  eapply (TLoses_final _ _ _ _ _ 1); [vm_compute; reflexivity|reflexivity|reflexivity|reflexivity|discriminate].
Qed.

(* temporary file + rename, but NOT under the writers' mutex: the rebuilder reads the log [0;1], frame 2 is appended
   (log, sidecar [0;1;2], broadcast), the rename puts the older replay [0;1] in place; reader 1 is served [0;1] *)
Definition atomic_unlocked : rdisc := {| rd_atomic := true; rd_locked := false |}.
Definition stale_rename_sched : list tactor :=
  W4 ++ W4 ++ [TR 0; TRefuse 0; TR 0; TR 0] ++ W4 ++ [TR 0; TR 0] ++ [TR 1; TR 1] ++ W4.
Lemma stale_rename_witness :
  map tdelivered (t_subs (tfinal atomic_unlocked 4 2 stale_rename_sched)) = [[0; 1; 2; 3]; [0; 1; 3]].
Proof. vm_compute. reflexivity. Qed.
Lemma stale_rename_loses : TLoses atomic_unlocked 4 2 stale_rename_sched.
Proof.
  eapply (TLoses_final _ _ _ _ _ 1); [vm_compute; reflexivity|reflexivity|reflexivity|reflexivity|discriminate].
Qed.

(* under the mutex, but IN PLACE: the cache file is lost, reader 0 rebuilds under the mutex and has written line 0 of 2
   when reader 1 reads its history without any lock: the well-formed prefix [0] is served; nothing is published later *)
Definition in_place_locked : rdisc := {| rd_atomic := false; rd_locked := true |}.
Definition prefix_visible_sched : list tactor :=
  W4 ++ W4 ++ [TDrop; TR 0; TR 0; TR 0; TR 0; TR 0; TR 0; TR 0] ++ [TR 1; TR 1] ++ [TR 0; TR 0; TR 0].
Lemma prefix_visible_witness :
  map tdelivered (t_subs (tfinal in_place_locked 2 2 prefix_visible_sched)) = [[0; 1]; [0]].
Proof. vm_compute. reflexivity. Qed.
Lemma prefix_visible_loses : TLoses in_place_locked 2 2 prefix_visible_sched.
Proof.
  eapply (TLoses_final _ _ _ _ _ 1); [vm_compute; reflexivity|reflexivity|reflexivity|reflexivity|discriminate].
Qed.

Theorem rebuild_other_disciplines_refuted : forall d, rdisc_ok d = false -> exists n m sched, TLoses d n m sched.
Proof.
  intros [[|] [|]] H; try discriminate H.
  - exists 4, 2, stale_rename_sched. exact stale_rename_loses.
  - exists 2, 2, prefix_visible_sched. exact prefix_visible_loses.
  - exists 4, 2, lost_append_sched. exact lost_append_loses.
Qed.

(* the hypotheses of rebuild_exactly_once are met by a run in which the rebuild really happens next to appends:
   the witness schedule under okd *)
Lemma rebuild_exactly_once_example :
  rdisc_ok okd = true /\ t_wk (tfinal okd 4 2 lost_append_sched) = 4 /\
  map tattached (t_subs (tfinal okd 4 2 lost_append_sched)) = [true; true].
Proof. vm_compute. repeat split. Qed.
(* ... and with the cache lost the rebuild runs under the mutex: the writer's next append and a second reader wait *)
Definition rebuild_under_lock_sched : list tactor :=
  W4 ++ W4 ++ [TDrop; TR 0; TR 0; TR 0; TR 0; TR 0; TW; TR 1; TR 1] ++ [TR 0; TR 0; TR 0] ++ [TR 1; TR 1; TR 1] ++ W4.
Lemma rebuild_under_lock_example :
  t_wk (tfinal okd 3 2 rebuild_under_lock_sched) = 3 /\ t_side (tfinal okd 3 2 rebuild_under_lock_sched) = [0; 1; 2] /\
  map tattached (t_subs (tfinal okd 3 2 rebuild_under_lock_sched)) = [true; true] /\
  map tdelivered (t_subs (tfinal okd 3 2 rebuild_under_lock_sched)) = [[0; 1; 2]; [0; 1; 2]].
Proof. vm_compute. repeat split. Qed.

(* through the generated obligation (Gen/StreamOrder.v: gen_ok_replay_check && rdisc_ok gen_rebuild_disc = true); its first
   conjunct is about try_replay and plays no part here: it is there so that the obligation applies as it is generated *)
Theorem rebuild_exactly_once_checked : forall (found : bool) (d : rdisc), found && rdisc_ok d = true ->
  forall (n m : nat) (sched : list tactor) (i : nat) (x : tsub),
  nth_error (t_subs (tfinal d n m sched)) i = Some x -> tattached x = true ->
  TExactlyOnce n (tfinal d n m sched) x.
Proof. intros found d H. apply andb_true_iff in H. destruct H as [_ H]. exact (rebuild_exactly_once d H). Qed.
