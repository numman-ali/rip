(* C18 — recovery under arbitrary interleaving of SEVERAL contenders: a store whose authority crashed is never wedged.
   From every all-dead leftover, any number (>= 1) of server loops, every crash-free schedule of single file-system steps
   (endpoint of the dead authority unreachable, 2 s deadline not yet passed): at every point of the schedule either an
   authority has already emerged, or there is a contender that becomes the authority within 20 uninterrupted steps of its
   own.  Hence every FAIR scheduler that eventually gives some contender a quiet window recovers the store — whatever the
   others did before (including the S13 / S13b / S13c races, which are inside the quantified schedules). *)
From RipV Require Import Base.Prelude Model.Authority Proofs.AuthorityInv Proofs.AuthorityLive.

(* program counters a server loop can be at while it owns no guard *)
Definition pre_pc (k : pc) : bool :=
  match k with
  | AcqCreate | AcqWrite | RdMeta | RdLock | Live _ | Ping _
  | StExists _ | StReread _ | StRename _ | StRdMeta _ | StMetaRename _
  | CoExists | CoMetaExists | CoRdMeta | CoLive _ | CoRename | Done => true
  | _ => false
  end.
(* with NO lock.json at the path: from these the loop reaches its next exclusive create (which then succeeds) *)
Definition good_absent (k : pc) : bool :=
  match k with
  | AcqCreate | RdMeta | Ping _ | RdLock | StRdMeta _ | StMetaRename _
  | CoExists | CoMetaExists | CoRdMeta | CoLive _ | CoRename => true
  | _ => false
  end.
(* the pid a stale-cleanup path is keyed on *)
Definition larg (k : pc) : option pid :=
  match k with Live p | StExists p | StReread p | StRename p => Some p | _ => None end.
Definition is_done (k : pc) : bool := match k with Done => true | _ => false end.

(* a server loop without the guard; plocal: one that is alive *)
Record qpre (q : proc) : Prop := mkQP {
  QP_guard : p_guard q = false;
  QP_drv : p_drv q = DServer;
  QP_pc : pre_pc (p_pc q) = true
}.
Record plocal (q : proc) : Prop := mkPL { PL_alive : p_alive q = true; PL_pre : qpre q }.

(* what keeps the store recoverable, one of three: G1 somebody is between create and write; G2 the dead leftover lock is
   untouched, nobody has given up, and every stale cleanup under way is keyed on its record; G3 no lock at the path and
   somebody is on a way to the exclusive create *)
Definition G1 (s : state) : Prop := exists q, In q (s_procs s) /\ p_pc q = AcqWrite.
Definition G2 (s : state) : Prop :=
  lock_free (s_procs s) (s_lock s) /\ s_lock s <> LAbsent /\ s_procs s <> []
  /\ forall q, In q (s_procs s) ->
       is_done (p_pc q) = false /\ forall p, larg (p_pc q) = Some p -> s_lock s = LRec p.
Definition G3 (s : state) : Prop :=
  s_lock s = LAbsent /\ exists q, In q (s_procs s) /\ good_absent (p_pc q) = true.

(* the invariant of calm schedules before the first authority: live guard-less server loops, a dead or no meta.json,
   and G1, G2 or G3 *)
Record J (s : state) : Prop := mkJ {
  J_procs : forall q, In q (s_procs s) -> plocal q;
  J_meta : meta_free (s_procs s) (s_meta s);
  J_good : G1 s \/ G2 s \/ G3 s
}.

Definition calm_ev (e : event) : bool :=
  match e with Step _ o => negb (o_reach o) && negb (o_deadline o) | Crash _ => false end.
Definition calm (es : list event) : bool := forallb calm_ev es.

(* one step of a guard-less server loop under ANY environment answers (crashed or live: AuthorityFresh); micro_pre below
   adds what holds when the endpoint is silent and the deadline has not passed *)
Lemma micro_pre0 s o q s' q' :
  qpre q -> p_pc q <> AcqWrite ->
  micro true s o q = (s', q') ->
  qpre q'
  /\ (s_meta s' = s_meta s \/ s_meta s' = MAbsent)
  /\ (   (s_lock s' = s_lock s /\ p_pc q' <> AcqWrite)
      \/ (s_lock s' = LHalf (p_pid q) /\ p_pc q' = AcqWrite)
      \/ (s_lock s' = LAbsent /\ p_pc q' <> AcqWrite)).
Proof.
  intros [Hg Hd Hp] Hnw.
  destruct s as [l m t ps tl tm], q as [me al g d k last].
  cbn [s_lock s_meta p_guard p_drv p_pc p_pid] in *. subst g d.
  unfold micro, ret, goto, set_files. cbn [s_lock s_meta s_tmp s_procs s_took_lock s_took_meta p_pc p_pid p_guard p_drv].
  destruct k; cbn [pre_pc] in Hp; try discriminate; try congruence; cbn [server_next];
    repeat match goal with |- context [match ?x with _ => _ end] => destruct x eqn:? end;
    intros [= <- <-]; cbn [s_lock s_meta p_pc p_guard p_drv];
    (split; [constructor; reflexivity|]);
    (split; [auto|]);
    first [ left; split; [reflexivity | discriminate]
          | right; left; split; reflexivity
          | right; right; split; [reflexivity | discriminate] ].
Qed.

Lemma micro_pre s o q s' q' :
  plocal q -> p_pc q <> AcqWrite -> o_reach o = false -> o_deadline o = false ->
  micro true s o q = (s', q') ->
  plocal q'
  /\ (s_meta s' = s_meta s \/ s_meta s' = MAbsent)
  /\ (   (s_lock s' = s_lock s)
      \/ (s_lock s = LAbsent /\ p_pc q' = AcqWrite /\ s_lock s' = LHalf (p_pid q))
      \/ (s_lock s <> LAbsent /\ s_lock s' = LAbsent /\ good_absent (p_pc q') = true))
  /\ (s_lock s = LAbsent -> good_absent (p_pc q) = true -> good_absent (p_pc q') = true \/ p_pc q' = AcqWrite)
  /\ (lock_free (s_procs s) (s_lock s) -> s_lock s <> LAbsent -> s_lock s' = s_lock s ->
      is_done (p_pc q) = false -> (forall p, larg (p_pc q) = Some p -> s_lock s = LRec p) ->
      is_done (p_pc q') = false /\ forall p, larg (p_pc q') = Some p -> s_lock s = LRec p).
Proof.
  intros [Ha [Hg Hd Hp]] Hnw Hr Hdl.
  destruct s as [l m t ps tl tm], q as [me al g d k last].
  cbn [s_lock s_meta s_tmp s_procs p_alive p_guard p_drv p_pc] in *. subst al g d.
  unfold micro, ret, goto, set_files. cbn [s_lock s_meta s_tmp s_procs s_took_lock s_took_meta p_pc p_pid p_guard p_drv].
  destruct k; cbn [pre_pc] in Hp; try discriminate; try congruence; cbn [server_next]; rewrite ?Hr, ?Hdl;
    repeat match goal with |- context [match ?x with _ => _ end] => destruct x eqn:? end;
    intros [= <- <-]; cbn [s_lock s_meta p_pc p_pid p_alive p_guard p_drv];
    (split; [repeat constructor|]);
    (split; [auto|]);
    (split; [first [left; reflexivity | right; left; split; [reflexivity | split; reflexivity]
                   | right; right; split; [congruence | split; reflexivity]]|]);
    (split; [cbn [good_absent]; intros; first [left; reflexivity | right; reflexivity | discriminate | congruence]|]);
    cbn [is_done larg lock_pid]; intros Hlf Hne Hsame Hnd Harg;
    try congruence;
    try (let X := fresh "X" in pose proof (Harg _ eq_refl) as X; try discriminate X;
         lazymatch type of X with ?v = _ => first [is_var v; subst v | inversion X; subst; clear X] end);
    try (rewrite N.eqb_refl in *; discriminate);
    try (let Y := fresh "Y" in pose proof (Hlf _ eq_refl) as Y; congruence);
    (split; [reflexivity|]); intros p0 Hp0; try discriminate Hp0;
    try (inversion Hp0; subst; first [reflexivity | eqbs; reflexivity | congruence]).
Qed.

Lemma in_upd_self {A} (l : list A) i x y : nth_error l i = Some y -> In x (upd l i x).
Proof. intros H. eapply nth_error_In. eapply upd_nth_same. exact H. Qed.

Lemma in_upd_other {A} (l : list A) i x y z :
  nth_error l i = Some y -> In z l -> z <> y -> In z (upd l i x).
Proof.
  intros Hi Hz Hne. apply In_nth_error in Hz. destruct Hz as [j Hj].
  assert (j <> i) by (intros ->; congruence).
  eapply nth_error_In with (n := j). rewrite upd_nth. destruct (Nat.eqb i j) eqn:E; [apply Nat.eqb_eq in E; congruence | exact Hj].
Qed.

Lemma in_upd_cases {A} (l : list A) i x y z :
  nth_error l i = Some y -> In z (upd l i x) -> z = x \/ In z l.
Proof.
  intros Hi Hz. apply in_upd in Hz. destruct Hz as [[-> _]|[j [_ Hj]]]; [left; reflexivity | right; eapply nth_error_In; exact Hj].
Qed.

Lemma upd_nonempty {A} (l : list A) i x : l <> [] -> upd l i x <> [].
Proof. destruct l, i; cbn; congruence. Qed.

Lemma holders_guard s q : In q (s_procs s) -> p_alive q = true -> p_guard q = true -> holders s <> [].
Proof.
  intros Hin Ha Hg. unfold holders. intros E.
  assert (In (p_pid q) (map p_pid (filter is_holder (s_procs s)))).
  { apply in_map. apply filter_In. split; [exact Hin|]. unfold is_holder. rewrite Ha, Hg. reflexivity. }
  rewrite E in H. contradiction.
Qed.

Lemma run_app ag s es1 es2 : run ag s (es1 ++ es2) = run ag (run ag s es1) es2.
Proof. unfold run. apply fold_left_app. Qed.

(* at some point of the schedule an authority holds the store *)
Definition held (s : state) (es : list event) : Prop :=
  exists es1 es2, es = es1 ++ es2 /\ holders (run true s es1) <> [].

Lemma held_now s e es : holders (step true s e) <> [] -> held s (e :: es).
Proof. intros H. exists [e], es. split; [reflexivity | exact H]. Qed.
Lemma held_later s e es : held (step true s e) es -> held s (e :: es).
Proof. intros [es1 [es2 [-> H]]]. exists (e :: es1), es2. split; [reflexivity | exact H]. Qed.
Lemma held_app_l s r es : held s r -> held s (r ++ es).
Proof. intros [r1 [r2 [-> H]]]. exists r1, (r2 ++ es). split; [symmetry; apply app_assoc | exact H]. Qed.
Lemma held_app_r s r es : held (run true s r) es -> held s (r ++ es).
Proof. intros [r1 [r2 [-> H]]]. exists (r ++ r1), r2. split; [apply app_assoc | rewrite run_app; exact H]. Qed.

Lemma pc_eq_dec_acqwrite (k : pc) : {k = AcqWrite} + {k <> AcqWrite}.
Proof. destruct k; first [left; reflexivity | right; discriminate]. Qed.

(* the step that writes the record gives the guard, whatever the driver *)
Lemma write_holds s i o q s' q' :
  nth_error (s_procs s) i = Some q -> p_alive q = true -> micro true s o q = (s', q') -> p_pc q = AcqWrite ->
  holders (with_procs s' (upd (s_procs s) i q')) <> [].
Proof.
  intros Hq Ha HM Hw. destruct (micro_basic _ _ _ _ _ _ HM) as [_ [Eal _]].
  apply (holders_guard _ q'); [eapply in_upd_self; exact Hq | congruence |].
  unfold micro in HM. rewrite Hw in HM. injection HM as _ <-. unfold ret.
  destruct (p_drv q) as [cs| |]; [destruct (script_next true cs)| |]; reflexivity.
Qed.

Lemma step_J s i o :
  J s -> o_reach o = false -> o_deadline o = false ->
  J (step true s (Step i o)) \/ holders (step true s (Step i o)) <> [].
Proof.
  intros [Hps Hm Hg] Hr Hdl.
  destruct (step_cases true s (Step i o)) as [-> _ | ? ? q s' q' [= <- <-] Hq Ha HM Epid Eal Eps -> | ? ? [=]];
    [left; constructor; assumption|].
  assert (Hinq : In q (s_procs s)) by (eapply nth_error_In; exact Hq).
  pose proof (Hps q Hinq) as Hpl.
  destruct (pc_eq_dec_acqwrite (p_pc q)) as [Hw|Hnw].
  - right. exact (write_holds _ _ _ _ _ _ Hq Ha HM Hw).
  - left.
    destruct (micro_pre s o q s' q' Hpl Hnw Hr Hdl HM) as [Hpl' [Hmeta [Hlock [Hga Hg2]]]].
    assert (Hal : forall p, pid_alive (upd (s_procs s) i q') p = pid_alive (s_procs s) p).
    { intros p. apply (pid_alive_upd_eq _ _ _ _ _ Hq Epid Eal). }
    constructor; cbn [with_procs s_procs s_lock s_meta].
    + intros x Hx. destruct (in_upd_cases _ _ _ _ _ Hq Hx) as [->|Hin]; [exact Hpl' | apply Hps; exact Hin].
    + intros p Hp. rewrite Hal. destruct Hmeta as [E|E]; rewrite E in Hp; [apply Hm; exact Hp | discriminate].
    + unfold G1, G2, G3; cbn [with_procs s_procs s_lock].
      destruct Hg as [[w [Hw Hwpc]] | [[Hlf [Hne [Hnn Hall]]] | [Hla [w [Hw Hwg]]]]].
      * (* somebody else is between create and write: still there *)
        left. exists w. split; [|exact Hwpc]. eapply in_upd_other; [exact Hq | exact Hw | congruence].
      * (* untouched dead leftover *)
        destruct Hlock as [Hsame | [[Habs _] | [_ [Hnew Hgood]]]]; [| congruence |].
        -- right; left. rewrite Hsame. split; [intros p Hp; rewrite Hal; apply Hlf; exact Hp|].
           split; [exact Hne|]. split; [apply upd_nonempty; exact Hnn|].
           intros x Hx. destruct (in_upd_cases _ _ _ _ _ Hq Hx) as [->|Hin]; [|apply Hall; exact Hin].
           destruct (Hall q Hinq) as [Hnd Harg]. apply (Hg2 Hlf Hne Hsame Hnd Harg).
        -- right; right. split; [exact Hnew|]. exists q'. split; [eapply in_upd_self; exact Hq | exact Hgood].
      * (* no lock at the path *)
        destruct Hlock as [Hsame | [[_ [Hcw _]] | [Hne _]]]; [| | congruence].
        -- destruct (good_absent (p_pc q)) eqn:Hgq.
           ++ destruct (Hga Hla eq_refl) as [Hg'|Hg'].
              ** right; right. split; [congruence|]. exists q'. split; [eapply in_upd_self; exact Hq | exact Hg'].
              ** left. exists q'. split; [eapply in_upd_self; exact Hq | exact Hg'].
           ++ right; right. split; [congruence|]. exists w. split; [|exact Hwg].
              eapply in_upd_other; [exact Hq | exact Hw | congruence].
        -- left. exists q'. split; [eapply in_upd_self; exact Hq | exact Hcw].
Qed.

Lemma run_J es : forall s, J s -> calm es = true -> J (run true s es) \/ held s es.
Proof.
  induction es as [|e es IH]; intros s Hj Hc; [left; exact Hj|].
  cbn [calm forallb] in Hc. apply andb_true_iff in Hc. destruct Hc as [He Hc].
  destruct e as [i o|i]; [|discriminate]. cbn [calm_ev] in He. apply andb_true_iff in He. destruct He as [Hr Hd].
  apply negb_true_iff in Hr, Hd.
  destruct (step_J s i o Hj Hr Hd) as [Hj'|Hh]; [|right; apply held_now; exact Hh].
  destruct (IH _ Hj' Hc) as [H|H]; [left; exact H | right; apply held_later; exact H].
Qed.

Lemma init_J l m ps :
  ps <> [] -> (forall q, In q ps -> q = fresh (p_pid q) DServer) -> dead_leftover ps l m -> J (init l m ps).
Proof.
  intros Hne Hall [Hl Hm]. constructor; cbn [init s_procs s_meta s_lock].
  - intros q Hq. rewrite (Hall q Hq). repeat constructor.
  - exact Hm.
  - unfold G1, G2, G3; cbn [init s_procs s_lock]. destruct l as [|c|c].
    + right; right. split; [reflexivity|]. destruct ps as [|q0 r]; [congruence|].
      exists q0. split; [left; reflexivity|]. rewrite (Hall q0 (or_introl eq_refl)). reflexivity.
    + right; left. split; [exact Hl|]. split; [discriminate|]. split; [exact Hne|].
      intros q Hq. rewrite (Hall q Hq). split; [reflexivity | intros p Hp; discriminate].
    + right; left. split; [exact Hl|]. split; [discriminate|]. split; [exact Hne|].
      intros q Hq. rewrite (Hall q Hq). split; [reflexivity | intros p Hp; discriminate].
Qed.

(* process q, stepping alone with environment answers 2 (endpoint silent, 1 s timer expired, deadline not passed), has the
   guard after at most n of its steps *)
Fixpoint guard_within (n : nat) (s : state) (q : proc) : bool :=
  p_guard q || match n with
               | O => false
               | S n' => let '(s', q') := micro true s 2 q in guard_within n' s' q'
               end.

Lemma guard_within_solo n : forall s q, guard_within n s q = true ->
  exists k, (k <= n)%nat /\ p_guard (snd (solo k 2 s q)) = true.
Proof.
  induction n as [|n IH]; intros s q H; cbn [guard_within] in H.
  - exists 0%nat. split; [lia|]. cbn [solo snd]. rewrite orb_false_r in H. exact H.
  - destruct (p_guard q) eqn:Eg.
    + exists 0%nat. split; [lia|]. cbn [solo snd]. exact Eg.
    + cbn [orb] in H. destruct (micro true s 2 q) as [s' q'] eqn:HM.
      destruct (IH s' q' H) as [k [Hk Hg]]. exists (S k). split; [lia|]. cbn [solo]. rewrite HM. exact Hg.
Qed.

Lemma solo_alive n : forall o s q, p_alive (snd (solo n o s q)) = p_alive q.
Proof.
  induction n as [|n IH]; intros o s q; cbn [solo]; [reflexivity|].
  destruct (micro true s o q) as [s' q'] eqn:HM. rewrite IH.
  destruct (micro_basic _ _ _ _ _ _ HM) as [_ [E _]]. exact E.
Qed.

Lemma guard_within_holds n s q i :
  nth_error (s_procs s) i = Some q -> p_alive q = true -> guard_within n s q = true ->
  exists k, (k <= n)%nat /\ holders (run true s (repeat (Step i 2) k)) <> [].
Proof.
  intros Hq Ha Hgw. destruct (guard_within_solo _ _ _ Hgw) as [k [Hk Hg]]. exists k. split; [exact Hk|].
  rewrite (run_solo k 2 s q i Hq Ha). apply (holders_guard _ (snd (solo k 2 s q))).
  - eapply in_upd_self. exact Hq.
  - rewrite solo_alive. exact Ha.
  - exact Hg.
Qed.

Lemma guard_within_S n s q :
  guard_within (S n) s q = p_guard q || (let '(s', q') := micro true s 2 q in guard_within n s' q').
Proof. reflexivity. Qed.
Lemma guard_within_true n s q : p_guard q = true -> guard_within n s q = true.
Proof. intros H. destruct n; cbn [guard_within]; rewrite H; reflexivity. Qed.

(* one symbolic step, as solo_step; then the answers the step asked for and that the context does not fix are split *)
Ltac sym1 :=
  rewrite guard_within_S;
  lazy beta iota zeta delta [micro ret server_next goto set_files p_pc p_pid p_guard p_drv p_alive p_last
       s_lock s_meta s_tmp s_procs s_took_lock s_took_meta lock_pid meta_pid grace_fires
       o_reach o_grace o_deadline N.testbit Pos.testbit Pos.pred_N Pos.pred_double];
  repeat match goal with H : pid_alive _ _ = false |- _ => rewrite H end;
  rewrite ?N.eqb_refl; cbn [negb andb orb];
  repeat match goal with
  | |- context [if (?a =? ?b) then _ else _] => destruct (a =? b) eqn:?
  | |- context [if pid_alive ?ps ?p then _ else _] => destruct (pid_alive ps p) eqn:?
  end.

Lemma guard_within_le n : forall m s q, (n <= m)%nat -> guard_within n s q = true -> guard_within m s q = true.
Proof.
  induction n as [|n IH]; intros m s q Hle H.
  - cbn in H. rewrite orb_false_r in H. apply guard_within_true. exact H.
  - destruct m as [|m]; [lia|]. rewrite guard_within_S in *. destruct (p_guard q); [reflexivity|]. cbn [orb] in *.
    destruct (micro true s 2 q) as [s' q']. apply IH; [lia | exact H].
Qed.

(* no lock at the path, a dead or no meta.json: the longest way to the guard is corrupt cleanup from its meta test (4 steps),
   create, write; 8 leaves room *)
Lemma absent_reaches m t ps tl tm me al k last :
  (forall p, meta_pid m = Some p -> pid_alive ps p = false) -> good_absent k = true ->
  guard_within 8 (Build_state LAbsent m t ps tl tm) (Build_proc me al false DServer k last) = true.
Proof.
  intros Hm Hk. (destruct m as [|mp]; [|pose proof (Hm mp eq_refl) as Hmp; cbn [meta_pid] in Hmp]);
    destruct k; cbn [good_absent] in Hk; try discriminate;
    repeat sym1; first [reflexivity | apply guard_within_true; reflexivity].
Qed.

(* symbolic steps until the leftover lock is gone (or the guard is there), then absent_reaches *)
Ltac to_absent :=
  repeat (lazymatch goal with |- guard_within _ (Build_state LAbsent _ _ _ _ _) _ = true => fail | _ => sym1 end);
  first [ reflexivity | apply guard_within_true; reflexivity
        | apply (guard_within_le 8); [repeat constructor | apply absent_reaches; [intros ? [= <-]; assumption | reflexivity]] ].

Lemma J_reaches s : J s ->
  exists i q, nth_error (s_procs s) i = Some q /\ p_alive q = true /\ guard_within 20 s q = true.
Proof.
  intros [Hps Hm Hg].
  destruct Hg as [[w [Hw Hwpc]] | [[Hlf [Hne [Hnn Hall]]] | [Hla [w [Hw Hwg]]]]].
  - (* between create and write *)
    destruct (In_nth_error _ _ Hw) as [i Hi]. exists i, w. split; [exact Hi|].
    destruct (Hps w Hw) as [Ha [Hgd Hd _]]. split; [exact Ha|].
    destruct s as [l m t ps tl tm]. destruct w as [me al g drv k last]. cbn in Ha, Hgd, Hd, Hwpc. subst.
    repeat sym1. reflexivity.
  - (* untouched dead leftover: anybody *)
    destruct (s_procs s) as [|w r] eqn:Eps; [congruence|].
    assert (Hw : In w (w :: r)) by (left; reflexivity).
    exists 0%nat, w. split; [reflexivity|].
    destruct (Hps w Hw) as [Ha [Hgd Hd Hp]]. split; [exact Ha|].
    destruct (Hall w Hw) as [Hnd Harg].
    destruct s as [l m t ps tl tm]. cbn [s_procs] in Eps. subst ps. destruct w as [me al g drv k last].
    cbn [s_procs s_lock s_meta p_alive p_guard p_drv p_pc] in *. subst al g drv. clear Hw Hall Hps Hnn.
    unfold lock_free, meta_free in *.
    destruct l as [|c|c]; [congruence| |]; pose proof (Hlf c eq_refl) as Hc; cbn [lock_pid] in Hc;
      (destruct m as [|mp]; [|pose proof (Hm mp eq_refl) as Hmp; cbn [meta_pid] in Hmp]);
      destruct k; cbn [pre_pc is_done larg] in *; try discriminate;
      try (pose proof (Harg _ eq_refl) as X; try discriminate X; inversion X; subst; clear X);
      to_absent.
  - (* no lock at the path *)
    destruct (In_nth_error _ _ Hw) as [i Hi]. exists i, w. split; [exact Hi|].
    destruct (Hps w Hw) as [Ha [Hgd Hd Hp]]. split; [exact Ha|].
    destruct s as [l m t ps tl tm]. destruct w as [me al g drv k last].
    cbn [s_procs s_lock s_meta p_alive p_guard p_drv p_pc] in *. subst g drv l.
    apply (guard_within_le 8); [repeat constructor | apply absent_reaches; assumption].
Qed.

Definition servers (ps : list proc) : Prop := ps <> [] /\ forall q, In q ps -> q = fresh (p_pid q) DServer.

Theorem recovers_from_every_reachable_state l m ps es :
  servers ps -> dead_leftover ps l m -> calm es = true ->
  (exists es1 es2, es = es1 ++ es2 /\ holders (run true (init l m ps) es1) <> [])
  \/ (exists i n, (n <= 20)%nat /\ holders (run true (init l m ps) (es ++ repeat (Step i 2) n)) <> []).
Proof.
  intros [Hne Hall] Hd Hc.
  destruct (run_J es _ (init_J l m ps Hne Hall Hd) Hc) as [Hj|H]; [|left; exact H].
  right. destruct (J_reaches _ Hj) as [i [q [Hq [Ha Hgw]]]].
  destruct (guard_within_holds _ _ _ _ Hq Ha Hgw) as [k [Hk Hh]].
  exists i, k. split; [exact Hk|]. rewrite run_app. exact Hh.
Qed.

(* non-vacuity: two server loops that have BOTH passed the re-read of the stale cleanup (the prefix of the S13 race): no
   authority yet; contender 0, left alone for 4 steps (rename, read meta, create, write), is the authority *)
Definition fair_two : list proc := [fresh 1 DServer; fresh 2 DServer].
Definition mid_race : list event := repeat (Step 0%nat 0) 6 ++ repeat (Step 1%nat 0) 6.
Lemma fair_example :
  servers fair_two /\ dead_leftover fair_two (LRec 900) MAbsent /\ calm mid_race = true
  /\ holders (run true (init (LRec 900) MAbsent fair_two) mid_race) = []
  /\ holders (run true (init (LRec 900) MAbsent fair_two) (mid_race ++ repeat (Step 0%nat 2) 4)) = [1].
Proof.
  split; [split; [discriminate|]|].
  - intros q [<-|[<-|[]]]; reflexivity.
  - split; [split; intros p Hp; inversion Hp; subst; vm_compute; reflexivity|].
    split; [vm_compute; reflexivity|]. split; vm_compute; reflexivity.
Qed.
