(* C05 - proofs about Model/CrashCold.v: when every writer takes its cold-start seq from the log, a thread's stream
   stays 0,1,2,.. over every sequence of appends, mid-append crashes and restarts, the sidecar stays a prefix of the
   log and is the whole stream after every complete append; one writer that trusts the sidecar's tail breaks it. *)
From RipV Require Import Base.Prelude Model.CrashCold.

Lemma iota_S n : iota (S n) = iota n ++ [N.of_nat n].
Proof. unfold iota. rewrite seq_S, map_app. reflexivity. Qed.
Lemma iota_len n : length (iota n) = n.
Proof. unfold iota. rewrite map_length, seq_length. reflexivity. Qed.
Lemma lastN_snoc l x : lastN (l ++ [x]) = Some x.
Proof. unfold lastN. rewrite rev_app_distr. reflexivity. Qed.
Lemma lastN_iota n : lastN (iota n) = match n with O => None | S m => Some (N.of_nat m) end.
Proof. destruct n as [|m]; [reflexivity|]. rewrite iota_S. apply lastN_snoc. Qed.

Lemma firstn_seq_le : forall k a n, (k <= n)%nat -> firstn k (seq a n) = seq a k.
Proof.
  induction k as [|k IH]; intros a n H; [reflexivity|].
  destruct n as [|n]; [lia|]. cbn [seq firstn]. f_equal. apply IH. lia.
Qed.

(* log = 0..n-1, sidecar = 0..k-1 with k <= n, a counter in memory is the log's length and then the sidecar is whole *)
Definition Inv (s : cs) : Prop :=
  exists n k, c_log s = iota n /\ c_side s = iota k /\ (k <= n)%nat
              /\ (forall m, c_ctr s = Some m -> m = N.of_nat n /\ k = n).

Lemma cold_log_ok s n k : c_log s = iota n -> c_side s = iota k -> (k <= n)%nat ->
  cold_log s = (iota n, N.of_nat n).
Proof.
  intros Hl Hs Hk. unfold cold_log. rewrite Hl, Hs, !lastN_iota.
  destruct n as [|n'].
  - assert (k = 0)%nat by lia. subst k. reflexivity.
  - destruct k as [|k']; cbn [optN_eqb].
    + f_equal. lia.
    + destruct (N.of_nat k' =? N.of_nat n') eqn:E.
      * apply N.eqb_eq in E. apply Nat2N.inj in E. subst k'. f_equal. lia.
      * f_equal. lia.
Qed.

Lemma resolve_ok s n k : c_log s = iota n -> c_side s = iota k -> (k <= n)%nat ->
  (forall m, c_ctr s = Some m -> m = N.of_nat n /\ k = n) ->
  resolve FromLog s = (iota n, N.of_nat n).
Proof.
  intros Hl Hs Hk Hc. unfold resolve. destruct (c_ctr s) as [m|] eqn:E.
  - destruct (Hc m eq_refl) as [-> ->]. rewrite Hs. reflexivity.
  - exact (cold_log_ok s n k Hl Hs Hk).
Qed.

Lemma step_inv (srcs : nat -> src) s e : (forall w, In w (writers [e]) -> srcs w = FromLog) -> Inv s -> Inv (step srcs s e).
Proof.
  intros Hw (n & k & Hl & Hs & Hk & Hc). pose proof (resolve_ok s n k Hl Hs Hk Hc) as R.
  destruct e as [w|w|]; cbn [step].
  - rewrite (Hw w (or_introl eq_refl)), R. cbn [fst snd]. exists (S n), (S n). cbn [c_log c_side c_ctr].
    rewrite Hl, <- iota_S. split; [reflexivity | split; [reflexivity | split; [lia|]]].
    intros m E. injection E as <-. split; [lia | reflexivity].
  - rewrite (Hw w (or_introl eq_refl)), R. cbn [fst snd]. exists (S n), n. cbn [c_log c_side c_ctr].
    rewrite Hl, <- iota_S. split; [reflexivity | split; [reflexivity | split; [lia|]]]. intros m E. discriminate E.
  - exists n, k. cbn [c_log c_side c_ctr]. split; [exact Hl | split; [exact Hs | split; [exact Hk|]]].
    intros m E. discriminate E.
Qed.

Lemma run_inv (srcs : nat -> src) es : forall s, (forall w, In w (writers es) -> srcs w = FromLog) -> Inv s -> Inv (run srcs s es).
Proof.
  induction es as [|e r IH]; intros s Hw Hi; [exact Hi|].
  change (Inv (run srcs (step srcs s e) r)). apply IH.
  - intros w Hin. apply Hw. destruct e; cbn [writers]; auto using in_cons.
  - apply step_inv; auto. intros w Hin. apply Hw. destruct e; cbn [writers] in *.
    + destruct Hin as [->|[]]. left; reflexivity.
    + destruct Hin as [->|[]]. left; reflexivity.
    + destruct Hin.
Qed.

Lemma created_inv : Inv created.
Proof. exists 1%nat, 1%nat. repeat split; auto. cbn in H. inversion H. reflexivity. Qed.

Lemma inv_numbered s : Inv s -> numbered_b (c_log s) = true.
Proof. intros (n & k & Hl & _). unfold numbered_b. rewrite Hl, iota_len. apply lN_eqb_spec. reflexivity. Qed.

Lemma cold_start_numbered : forall (srcs : nat -> src) (es : list ev),
  (forall w, In w (writers es) -> srcs w = FromLog) ->
  numbered_b (c_log (run srcs created es)) = true
  /\ (exists k, c_side (run srcs created es) = firstn k (c_log (run srcs created es)))
  /\ (forall m, c_ctr (run srcs created es) = Some m ->
        m = N.of_nat (length (c_log (run srcs created es))) /\ c_side (run srcs created es) = c_log (run srcs created es)).
Proof.
  intros srcs es Hw. pose proof (run_inv srcs es created Hw created_inv) as Hi.
  split; [apply inv_numbered; exact Hi|].
  destruct Hi as (n & k & Hl & Hs & Hk & Hc). split.
  - exists k. rewrite Hl, Hs. unfold iota. rewrite firstn_map. f_equal.
    symmetry. apply firstn_seq_le. exact Hk.
  - intros m Hm. destruct (Hc m Hm) as [-> ->]. rewrite Hl, Hs, iota_len. auto.
Qed.

(* over the sources certified by the extractor *)
Lemma cold_start_numbered_gen : forall (certified : list bool) (es : list ev),
  forallb (fun b => b) certified = true ->
  (forall w, In w (writers es) -> (w < length certified)%nat) ->
  numbered_b (c_log (run (srcs_of certified) created es)) = true.
Proof.
  intros certified es Hall Hlt. apply cold_start_numbered. intros w Hin. unfold srcs_of.
  rewrite forallb_forall in Hall. rewrite (Hall (nth w certified false)); [reflexivity|].
  apply nth_In. apply Hlt. exact Hin.
Qed.

(* one writer (1: the checkpoint writer of seed C05-11) trusts the sidecar's tail *)
Definition bad_srcs (w : nat) : src := match w with 1%nat => FromSideTail | _ => FromLog end.
Definition bad_hist : list ev := [EAppend 0; ECrashMid 0; EAppend 1; EAppend 0].
Lemma cold_start_side_tail_witness :
  c_log (run bad_srcs created bad_hist) = [0; 1; 2; 2; 3]
  /\ numbered_b (c_log (run bad_srcs created bad_hist)) = false
  /\ numbered_b (c_log (run (fun _ => FromLog) created bad_hist)) = true.
Proof. vm_compute. repeat split. Qed.
Lemma cold_start_side_tail_refuted : exists srcs es,
  (forall w, w <> 1%nat -> srcs w = FromLog) /\ numbered_b (c_log (run srcs created es)) = false.
Proof.
  exists bad_srcs, bad_hist. split.
  - intros w Hw. destruct w as [|[|w]]; [reflexivity|congruence|reflexivity].
  - apply cold_start_side_tail_witness.
Qed.
(* non-vacuity: a history with a mid-append crash and writers 0..10 meets the hypotheses *)
Lemma cold_start_example :
  c_log (run (fun _ => FromLog) created [EAppend 0; ECrashMid 3; EAppend 7; ERestart; EAppend 10]) = [0; 1; 2; 3; 4]
  /\ c_side (run (fun _ => FromLog) created [EAppend 0; ECrashMid 3]) = [0; 1].
Proof. vm_compute. split; reflexivity. Qed.
