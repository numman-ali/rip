(* C01: the invariant `Inv` (Model/ContInv.v) is preserved by every micro-step of every actor, hence
   the log validates after every schedule; spawn and restart re-establish it. *)
From RipV Require Import Base.Prelude Model.Frames Model.Log Model.ContStore Model.ContInv
  Proofs.LogProofs Proofs.ContStoreProofs.

Lemma next_of_snoc k s f l :
  next_of k s (l ++ [f]) = next_of k s l + (if in_stream k s f then 1 else 0).
Proof.
  unfold next_of, nlen, stream. rewrite filter_app, app_length. cbn [filter].
  destruct (in_stream k s f); cbn [length]; lia.
Qed.

Lemma next_of_snoc_same k s f l :
  fkind f = k -> sid f = s -> next_of k s (l ++ [f]) = next_of k s l + 1.
Proof. intros <- <-. rewrite next_of_snoc, in_stream_self. reflexivity. Qed.

Lemma next_of_snoc_other k s f l :
  fkind f <> k \/ sid f <> s -> next_of k s (l ++ [f]) = next_of k s l.
Proof.
  intros H. rewrite next_of_snoc. destruct (in_stream k s f) eqn:E; [|lia].
  apply in_stream_true in E. tauto.
Qed.

Lemma mk_frame_kind st c n t ar : fkind (mk_frame st c n t ar) = kind_of t.
Proof. reflexivity. Qed.

Lemma is_cont_kind t : is_cont t = true -> kind_of t = KContinuity.
Proof. unfold is_cont. apply skind_eqb_spec. Qed.
Lemma is_sess_kind t : is_sess t = true -> kind_of t = KSession.
Proof. unfold is_sess. apply skind_eqb_spec. Qed.
Lemma is_task_kind t : is_task t = true -> kind_of t = KTask.
Proof. unfold is_task. apply skind_eqb_spec. Qed.

(* load_next_seq_for on a valid log: the number of frames of the thread, or failure when it has none *)
Lemma load_next_spec st c :
  Valid (s_log st) ->
  (exists sd, load_next st c = (Some (cnext st c), sd) /\ cnext st c <> 0)
  \/ (load_next st c = (None, s_side st) /\ cnext st c = 0).
Proof.
  intros HV. unfold load_next, cnext. destruct (last_seq (cstream c (s_log st))) as [q|] eqn:E.
  - left. rewrite <- (Valid_last_seq _ _ _ _ HV E). eexists. split; [reflexivity|lia].
  - right. split; [reflexivity|]. apply last_seq_none_iff in E. unfold next_of. unfold cstream in E.
    rewrite E. reflexivity.
Qed.

Lemma wf_from_cons ph m r :
  wf_from ph (m :: r) = true -> exists ph', next_phase ph m = Some ph' /\ wf_from ph' r = true.
Proof. cbn [wf_from]. destruct (next_phase ph m) as [ph'|]; [|discriminate]. eauto. Qed.

(* a call starts, and an early return resumes, outside every call *)
Lemma wf_skip r : forall ph, wf_from ph r = true -> wf_from PIdle (skip_call r) = true.
Proof.
  induction r as [|m r IH]; intros ph H; [reflexivity|]. cbn [skip_call].
  destruct (wf_from_cons _ _ _ H) as [ph' [Hn Hw]]. destruct (call_start m) eqn:Ec; [|apply (IH _ Hw)].
  destruct m; try discriminate Ec; destruct ph; cbn in Hn;
    repeat match type of Hn with context [if ?b then _ else _] => destruct b end;
    try discriminate Hn; exact H.
Qed.

Lemma uses_sess_skip r : uses_sess (skip_call r) = true -> uses_sess r = true.
Proof.
  induction r as [|m r IH]; intros H; [exact H|]. cbn [skip_call] in H.
  destruct (call_start m); [exact H|]. unfold uses_sess. cbn [existsb].
  apply orb_true_iff. right. apply IH. exact H.
Qed.

Lemma holder_unique st a b pa pb :
  Inv st -> s_procs st a = Some pa -> s_procs st b = Some pb ->
  holds (p_ph pa) = true -> holds (p_ph pb) = true -> a = b.
Proof.
  intros I Ha Hb Hha Hhb. pose proof (i_lock _ I _ _ Ha Hha) as E1.
  pose proof (i_lock _ I _ _ Hb Hhb) as E2. congruence.
Qed.

Lemma busy_on_holds p c : busy_on p c -> holds (p_ph p) = true.
Proof. unfold busy_on. destruct (p_ph p) as [| | | | | |k sc nx| | |]; try tauto; reflexivity. Qed.

Lemma cont_ok_nonholding st p : holds (p_ph p) = false -> cont_ok st p.
Proof. unfold cont_ok. destruct (p_ph p); try discriminate; intros _; exact I. Qed.

Lemma task_ok_idle st a p : tholds (p_ph p) = false -> task_ok st a p.
Proof. unfold task_ok. destruct (p_ph p); try discriminate; intros _; exact I. Qed.

Lemma holds_not_tholds ph : holds ph = true -> tholds ph = false.
Proof. destruct ph; try discriminate; reflexivity. Qed.

Lemma release_self a : release (Some a) a = None.
Proof. unfold release. rewrite N.eqb_refl. reflexivity. Qed.
Lemma release_other a b : b <> a -> release (Some b) a = Some b.
Proof. intros H. unfold release. destruct (b =? a) eqn:E; [apply N.eqb_eq in E; congruence|reflexivity]. Qed.

(* the clause of the lock owner reads the counters only *)
Lemma cont_ok_ext st st' p :
  (forall c, s_next st' c = s_next st c) -> (forall c, cnext st' c = cnext st c) ->
  s_fresh st <= s_fresh st' -> cont_ok st p -> cont_ok st' p.
Proof.
  intros Hn Hc Hf. unfold cont_ok. destruct (p_ph p); try (intros; exact I).
  - intros [c [n [H1 [H2 [H3 H4]]]]]. exists c, n. rewrite Hn, Hc. tauto.
  - intros [c [n [f [H1 [H2 [H3 [H4 H5]]]]]]]. exists c, n, f. rewrite Hn, Hc. tauto.
  - intros [c [H1 [H2 [H3 H4]]]]. exists c. rewrite Hn, Hc. repeat split; try assumption; lia.
  - intros [c [H1 [H2 [H3 [H4 [H5 [H6 H7]]]]]]]. exists c. rewrite Hn, Hc. repeat split; try assumption; lia.
Qed.

(* an actor after a micro-step: both `pop` and `aborted` are of this form *)
Definition moved (p : proc) (ph : phase) (rem : list mstep) cid sq la ch cnt : proc :=
  {| p_rem := rem; p_ph := ph; p_cid := cid; p_seq := sq; p_last := la; p_child := ch;
     p_sess := p_sess p; p_cnt := cnt |}.

(* projections of the written-out successor states and actors, everywhere *)
Ltac proj := cbn [moved s_log s_side s_next s_index s_fresh s_mu s_tcnt s_tmu s_procs set_proc set_store
                  set_task p_rem p_ph p_cid p_seq p_last p_child p_sess p_cnt] in *.

(* One micro-step `m` of actor `a`, which leads from its phase to `ph'`.  Every successor state is written out as
   set_proc (set_store ..) / set_proc (set_task ..) of the old one, so the clauses about unchanged parts hold by
   conversion and the lemmas below ask only for what the step changes. *)
Section Step.
  Context {st : state} {a : N} {p : proc} {m : mstep} {r : list mstep} {ph' : phase}
    (Iv : Inv st) (Hp : s_procs st a = Some p) (Hr : p_rem p = m :: r)
    (Hnp : next_phase (p_ph p) m = Some ph') (Hwr : wf_from ph' r = true).

  Lemma pop_moved cid sq la ch cnt : pop p m r cid sq la ch cnt = moved p ph' r cid sq la ch cnt.
  Proof. unfold pop, phase_after. rewrite Hnp. reflexivity. Qed.

  (* it goes on behind `m`, or, after an early return, at its next call *)
  Definition goes_on (ph : phase) (rem : list mstep) : Prop :=
    wf_from ph rem = true /\ (uses_sess rem = true -> uses_sess (p_rem p) = true).

  Lemma goes_on_next : goes_on ph' r.
  Proof.
    split; [exact Hwr|]. rewrite Hr. unfold uses_sess. cbn [existsb]. intros ->. apply orb_true_r.
  Qed.

  Lemma goes_on_abort : goes_on PIdle (skip_call r).
  Proof.
    destruct goes_on_next as [Hw Hu]. split; [apply (wf_skip r _ Hw)|].
    intros H. apply Hu, uses_sess_skip, H.
  Qed.

  Lemma sessu_moved ph rem cid sq la ch cnt : goes_on ph rem ->
    forall b1 b2 p1 p2, b1 <> b2 ->
    upd (s_procs st) a (Some (moved p ph rem cid sq la ch cnt)) b1 = Some p1 ->
    upd (s_procs st) a (Some (moved p ph rem cid sq la ch cnt)) b2 = Some p2 ->
    uses_sess (p_rem p1) = true -> uses_sess (p_rem p2) = true -> p_sess p1 <> p_sess p2.
  Proof.
    intros [_ Hus] b1 b2 p1 p2 Hne H1 H2 U1 U2.
    destruct (upd_inv _ _ _ _ _ H1) as [[-> ->]|[N1 H1']], (upd_inv _ _ _ _ _ H2) as [[-> ->]|[N2 H2']].
    - congruence.
    - apply (i_sessu _ Iv a b2 p p2); auto.
    - apply (i_sessu _ Iv b1 a p1 p); auto.
    - apply (i_sessu _ Iv b1 b2 p1 p2); auto.
  Qed.

  Lemma mu_is_me : holds (p_ph p) = true -> s_mu st = Some a.
  Proof. apply (i_lock _ Iv _ _ Hp). Qed.

  Lemma busy_is_me c : holds (p_ph p) = true -> busy st c -> busy_on p c.
  Proof.
    intros Hh [b [pb [Hb Hbz]]].
    assert (b = a) by (apply (holder_unique st b a pb p Iv Hb Hp (busy_on_holds _ _ Hbz) Hh)).
    subst b. rewrite Hp in Hb. inversion Hb. subst pb. exact Hbz.
  Qed.

  Lemma cached_lt c n : s_next st c = Some n -> c < s_fresh st.
  Proof.
    intros H. destruct (N.lt_ge_cases c (s_fresh st)) as [L|L]; [exact L|].
    destruct (i_fresh _ Iv c L) as [_ H0]. congruence.
  Qed.

  Lemma counted_lt c : cnext st c <> 0 -> c < s_fresh st.
  Proof.
    intros H. destruct (N.lt_ge_cases c (s_fresh st)) as [L|L]; [exact L|].
    destruct (i_fresh _ Iv c L) as [H0 _]. congruence.
  Qed.

  (* the owner of the seq mutex: nobody else is inside a call on the store, and the owner touches
     neither task nor session streams *)
  Lemma holder_step l sd nx ix fr mu ph rem cid sq la ch :
    holds (p_ph p) = true -> goes_on ph rem -> tholds ph = false ->
    mu = (if holds ph then Some a else None) ->
    Valid l -> (forall k s, k <> KContinuity -> next_of k s l = next_of k s (s_log st)) ->
    cont_ok (set_store st l sd nx ix fr mu) (moved p ph rem cid sq la ch (p_cnt p)) ->
    (forall c n, nx c = Some n -> n = next_of KContinuity c l \/ busy_on (moved p ph rem cid sq la ch (p_cnt p)) c) ->
    (forall c, fr <= c -> next_of KContinuity c l = 0 /\ nx c = None) ->
    Inv (set_proc (set_store st l sd nx ix fr mu) a (moved p ph rem cid sq la ch (p_cnt p))).
  Proof.
    intros Hh Hgo Hth Hmu HV Hks Hco Hnext Hfresh.
    assert (Hoth : forall b pb, b <> a -> s_procs st b = Some pb -> holds (p_ph pb) = false).
    { intros b pb Hne Hb. destruct (holds (p_ph pb)) eqn:E; [|reflexivity].
      destruct Hne. apply (holder_unique st b a pb p Iv Hb Hp E Hh). }
    constructor; proj.
    - exact HV.
    - intros c n Hc. destruct (Hnext c n Hc) as [E|E]; [left; exact E|].
      right. eexists a, _. proj. split; [apply upd_same|exact E].
    - exact Hfresh.
    - refine (upd_all _ _ _ _ _ _).
      + intros H. change (holds ph = true) in H. rewrite Hmu, H. reflexivity.
      + intros b pb Hne Hb Hhb. rewrite (Hoth b pb Hne Hb) in Hhb. discriminate.
    - refine (upd_all _ _ _ _ _ _); [exact (proj1 Hgo)|]. intros b pb _ Hb. apply (i_wf _ Iv _ _ Hb).
    - refine (upd_all _ _ _ _ _ _); [exact Hco|]. intros b pb Hne Hb. apply cont_ok_nonholding, (Hoth b pb Hne Hb).
    - refine (upd_all _ _ _ _ _ _); [apply task_ok_idle; exact Hth|]. intros b pb _ Hb.
      pose proof (i_task _ Iv _ _ Hb) as H. unfold task_ok, tnext in *. proj.
      rewrite (Hks KTask) by discriminate. exact H.
    - intros t Ht. unfold tnext. proj. rewrite (Hks KTask) by discriminate. apply (i_tasks _ Iv _ Ht).
    - refine (upd_all _ _ _ _ _ _).
      + intros Hu. unfold snext. proj. rewrite (Hks KSession) by discriminate.
        apply (i_sess _ Iv _ _ Hp), (proj2 Hgo), Hu.
      + intros b pb _ Hb Hu. unfold snext. proj. rewrite (Hks KSession) by discriminate. apply (i_sess _ Iv _ _ Hb Hu).
    - apply sessu_moved. exact Hgo.
  Qed.
  (* the owner leaves the log and the counters alone; a thread it lets go of while it is busy on it has
     no cached counter (a creation whose index save failed) *)
  Lemma holder_quiet_gen sd ix fr mu ph rem cid sq la ch :
    holds (p_ph p) = true -> goes_on ph rem -> tholds ph = false -> s_fresh st <= fr ->
    mu = (if holds ph then s_mu st else release (s_mu st) a) ->
    cont_ok (set_store st (s_log st) sd (s_next st) ix fr mu) (moved p ph rem cid sq la ch (p_cnt p)) ->
    (forall c, busy_on p c -> busy_on (moved p ph rem cid sq la ch (p_cnt p)) c \/ s_next st c = None) ->
    Inv (set_proc (set_store st (s_log st) sd (s_next st) ix fr mu) a (moved p ph rem cid sq la ch (p_cnt p))).
  Proof.
    intros Hh Hgo Hth Hf Hmu Hco Hbz. rewrite (mu_is_me Hh), release_self in Hmu.
    apply holder_step; try assumption.
    - apply (i_valid _ Iv).
    - reflexivity.
    - intros c n Hc. destruct (i_next _ Iv _ _ Hc) as [E|E]; [left; exact E|].
      destruct (Hbz c (busy_is_me c Hh E)) as [B|B]; [right; exact B|congruence].
    - intros c Hfc. apply (i_fresh _ Iv). lia.
  Qed.

  (* early return (`?`) of the owner *)
  Lemma holder_abort sd :
    holds (p_ph p) = true -> (forall c, ~ busy_on p c) ->
    Inv (abort (set_store st (s_log st) sd (s_next st) (s_index st) (s_fresh st) (s_mu st)) a p r).
  Proof using All.
    intros Hh Hnb. apply holder_quiet_gen; try reflexivity; try assumption.
    - apply goes_on_abort.
    - intros c Hc. destruct (Hnb c Hc).
  Qed.

  Lemma holder_quiet sd ix fr mu cid sq la ch :
    holds (p_ph p) = true -> tholds ph' = false -> s_fresh st <= fr ->
    mu = (if holds ph' then s_mu st else release (s_mu st) a) ->
    cont_ok (set_store st (s_log st) sd (s_next st) ix fr mu) (moved p ph' r cid sq la ch (p_cnt p)) ->
    (forall c, busy_on p c -> busy_on (moved p ph' r cid sq la ch (p_cnt p)) c \/ s_next st c = None) ->
    Inv (set_proc (set_store st (s_log st) sd (s_next st) ix fr mu) a (pop p m r cid sq la ch (p_cnt p))).
  Proof using All. intros. rewrite pop_moved. apply holder_quiet_gen; try assumption. apply goes_on_next. Qed.

  (* the owner appends frame f of a thread, numbered with the frames the thread has *)
  Lemma holder_append sd ix cid sq ch f :
    holds (p_ph p) = true -> holds ph' = true ->
    fkind f = KContinuity -> seq f = cnext st (sid f) -> sid f < s_fresh st ->
    (next_of KContinuity (sid f) (s_log st ++ [f]) = seq f + 1 ->
     cont_ok (set_store st (s_log st ++ [f]) sd (s_next st) ix (s_fresh st + 1) (s_mu st))
             (moved p ph' r cid sq (Some f) ch (p_cnt p))) ->
    busy_on (moved p ph' r cid sq (Some f) ch (p_cnt p)) (sid f) -> (forall c, busy_on p c -> c = sid f) ->
    Inv (set_proc (set_store st (s_log st ++ [f]) sd (s_next st) ix (s_fresh st + 1) (s_mu st)) a
                  (pop p m r cid sq (Some f) ch (p_cnt p))).
  Proof using All.
    intros Hh Hh' Hfk Hseq Hlt Hco Hbz Hbo. rewrite pop_moved.
    assert (Hc : forall c, c <> sid f -> next_of KContinuity c (s_log st ++ [f]) = cnext st c).
    { intros c Hne. apply next_of_snoc_other. right. congruence. }
    apply holder_step; try assumption.
    - apply goes_on_next.
    - apply holds_not_tholds, Hh'.
    - rewrite Hh'. apply (mu_is_me Hh).
    - apply Valid_snoc. split; [apply (i_valid _ Iv)|]. rewrite Hfk. exact Hseq.
    - intros k s Hk. apply next_of_snoc_other. left. congruence.
    - apply Hco. rewrite (next_of_snoc_same _ _ _ _ Hfk eq_refl), Hseq. reflexivity.
    - intros c n Hcn. destruct (N.eq_dec c (sid f)) as [->|Hne]; [right; exact Hbz|].
      rewrite Hc by exact Hne. destruct (i_next _ Iv _ _ Hcn) as [E|E]; [left; exact E|].
      destruct Hne. apply Hbo, busy_is_me; assumption.
    - intros c Hfc. rewrite Hc by lia. apply (i_fresh _ Iv). lia.
  Qed.

  (* the owner records v = the number of frames of thread c as its next seq *)
  Lemma holder_setnext sd ix cid sq la ch c v :
    holds (p_ph p) = true -> holds ph' = true ->
    v = cnext st c -> c < s_fresh st ->
    cont_ok (set_store st (s_log st) sd (upd (s_next st) c (Some v)) ix (s_fresh st) (s_mu st))
            (moved p ph' r cid sq la ch (p_cnt p)) ->
    (forall c', busy_on p c' -> c' = c) ->
    Inv (set_proc (set_store st (s_log st) sd (upd (s_next st) c (Some v)) ix (s_fresh st) (s_mu st)) a
                  (pop p m r cid sq la ch (p_cnt p))).
  Proof using All.
    intros Hh Hh' Hv Hlt Hco Hbo. rewrite pop_moved.
    apply holder_step; try assumption.
    - apply goes_on_next.
    - apply holds_not_tholds, Hh'.
    - rewrite Hh'. apply (mu_is_me Hh).
    - apply (i_valid _ Iv).
    - reflexivity.
    - intros c' n Hcn. destruct (N.eq_dec c' c) as [->|Hne].
      + rewrite upd_same in Hcn. injection Hcn as <-. left. exact Hv.
      + rewrite upd_other in Hcn by exact Hne. destruct (i_next _ Iv _ _ Hcn) as [E|E]; [left; exact E|].
        destruct Hne. apply Hbo, busy_is_me; assumption.
    - intros c' Hfc. rewrite upd_other by lia. apply (i_fresh _ Iv _ Hfc).
  Qed.

  (* an actor that does not own the seq mutex cannot change a counter of the store *)
  Lemma nonholder_step l sd ix fr mu tc tm ph rem cid sq la ch cnt :
    let p' := moved p ph rem cid sq la ch cnt in
    let st' := {| s_log := l; s_side := sd; s_next := s_next st; s_index := ix; s_fresh := fr; s_mu := mu;
                  s_tcnt := tc; s_tmu := tm; s_procs := upd (s_procs st) a (Some p') |} in
    holds (p_ph p) = false -> goes_on ph rem ->
    Valid l -> (forall c, next_of KContinuity c l = cnext st c) -> s_fresh st <= fr ->
    (forall b, b <> a -> s_mu st = Some b -> mu = Some b) -> (holds ph = true -> mu = Some a) ->
    cont_ok st' p' ->
    (forall b pb, b <> a -> s_procs st b = Some pb -> task_ok st' b pb /\ sess_ok st' pb) ->
    task_ok st' a p' -> sess_ok st' p' ->
    (forall t, tm t = None -> tc t = next_of KTask t l) ->
    Inv st'.
  Proof.
    intros p' st' Hh Hgo HV Hc Hf Hm1 Hm2 Hco Hoth Hta Hsa Hts. subst st'.
    constructor; proj.
    - exact HV.
    - intros c n Hcn. unfold cnext. proj. rewrite Hc. destruct (i_next _ Iv _ _ Hcn) as [E|[b [pb [Hb Hbz]]]]; [left; exact E|].
      right. exists b, pb. split; [|exact Hbz]. proj. rewrite upd_other; [exact Hb|].
      intros ->. rewrite Hp in Hb. inversion Hb. subst pb. apply busy_on_holds in Hbz. congruence.
    - intros c Hfc. unfold cnext. proj. rewrite Hc. apply (i_fresh _ Iv). lia.
    - refine (upd_all _ _ _ _ _ _); [exact Hm2|].
      intros b pb Hne Hb Hhb. apply (Hm1 b Hne), (i_lock _ Iv _ _ Hb Hhb).
    - refine (upd_all _ _ _ _ _ _); [exact (proj1 Hgo)|]. intros b pb _ Hb. apply (i_wf _ Iv _ _ Hb).
    - refine (upd_all _ _ _ _ _ _); [exact Hco|]. intros b pb _ Hb.
      apply (cont_ok_ext st); [reflexivity|exact Hc|exact Hf|apply (i_cont _ Iv _ _ Hb)].
    - refine (upd_all _ _ _ _ _ _); [exact Hta|]. intros b pb Hne Hb. apply (Hoth b pb Hne Hb).
    - exact Hts.
    - refine (upd_all _ _ _ _ _ _); [exact Hsa|]. intros b pb Hne Hb. apply (Hoth b pb Hne Hb).
    - apply sessu_moved. exact Hgo.
  Qed.

  (* ... and when it touches neither the log nor a task counter *)
  Lemma nonholder_quiet_gen sd ix mu ph rem cid sq la ch :
    holds (p_ph p) = false -> goes_on ph rem ->
    (forall b, b <> a -> s_mu st = Some b -> mu = Some b) -> (holds ph = true -> mu = Some a) ->
    cont_ok st (moved p ph rem cid sq la ch (p_cnt p)) -> task_ok st a (moved p ph rem cid sq la ch (p_cnt p)) ->
    Inv (set_proc (set_store st (s_log st) sd (s_next st) ix (s_fresh st) mu) a (moved p ph rem cid sq la ch (p_cnt p))).
  Proof.
    intros Hh Hgo Hm1 Hm2 Hco Hta. apply nonholder_step; try assumption.
    - apply (i_valid _ Iv).
    - reflexivity.
    - apply N.le_refl.
    - intros b pb _ Hb. split; [apply (i_task _ Iv _ _ Hb)|apply (i_sess _ Iv _ _ Hb)].
    - intros Hu. apply (i_sess _ Iv _ _ Hp), (proj2 Hgo), Hu.
    - apply (i_tasks _ Iv).
  Qed.

  Lemma nonholder_quiet sd ix mu cid sq la ch :
    holds (p_ph p) = false ->
    (forall b, b <> a -> s_mu st = Some b -> mu = Some b) -> (holds ph' = true -> mu = Some a) ->
    cont_ok st (moved p ph' r cid sq la ch (p_cnt p)) -> task_ok st a (moved p ph' r cid sq la ch (p_cnt p)) ->
    Inv (set_proc (set_store st (s_log st) sd (s_next st) ix (s_fresh st) mu) a (pop p m r cid sq la ch (p_cnt p))).
  Proof using All. intros. rewrite pop_moved. apply nonholder_quiet_gen; try assumption. apply goes_on_next. Qed.

  (* ... and when it appends the next frame of a session or task stream *)
  Lemma nonholder_emit cid sq la ch cnt f :
    let p' := moved p ph' r cid sq la ch cnt in
    let st' := set_proc (set_store st (s_log st ++ [f]) (s_side st) (s_next st) (s_index st) (s_fresh st + 1) (s_mu st)) a p' in
    holds (p_ph p) = false -> holds ph' = false ->
    fkind f <> KContinuity -> seq f = next_of (fkind f) (sid f) (s_log st) ->
    (forall b pb, b <> a -> s_procs st b = Some pb -> task_ok st' b pb /\ sess_ok st' pb) ->
    task_ok st' a p' -> sess_ok st' p' ->
    (forall t, s_tmu st t = None -> s_tcnt st t = next_of KTask t (s_log st ++ [f])) ->
    Inv (set_proc (set_store st (s_log st ++ [f]) (s_side st) (s_next st) (s_index st) (s_fresh st + 1) (s_mu st)) a
                  (pop p m r cid sq la ch cnt)).
  Proof using All.
    intros p' st' Hh Hh' Hfk Hseq Hoth Hta Hsa Hts. rewrite pop_moved. apply nonholder_step; try assumption.
    - apply goes_on_next.
    - apply Valid_snoc. split; [apply (i_valid _ Iv)|exact Hseq].
    - intros c. apply next_of_snoc_other. left. exact Hfk.
    - proj. lia.
    - auto.
    - congruence.
    - apply cont_ok_nonholding, Hh'.
  Qed.

  Lemma idle_abort : holds (p_ph p) = false -> Inv (abort st a p r).
  Proof using All.
    intros Hh. apply nonholder_quiet_gen; try assumption; try exact I.
    - apply goes_on_abort.
    - intros b Hne ->. apply release_other, Hne.
    - discriminate.
  Qed.

  (* the task emitter: the counter and the mutex of the actor's own task *)
  Lemma task_quiet tc tm cid sq la ch :
    holds (p_ph p) = false -> holds ph' = false ->
    (forall t, t <> p_sess p -> tm t = s_tmu st t /\ tc t = s_tcnt st t) ->
    (s_tmu st (p_sess p) = None \/ s_tmu st (p_sess p) = Some a) ->
    task_ok (set_task st tc tm) a (moved p ph' r cid sq la ch (p_cnt p)) ->
    (tm (p_sess p) = None -> tc (p_sess p) = tnext st (p_sess p)) ->
    Inv (set_proc (set_task st tc tm) a (pop p m r cid sq la ch (p_cnt p))).
  Proof using All.
    intros Hh Hh' Hu Hfree Hta Hts. rewrite pop_moved. apply nonholder_step; try assumption.
    - apply goes_on_next.
    - apply (i_valid _ Iv).
    - reflexivity.
    - apply N.le_refl.
    - auto.
    - congruence.
    - apply cont_ok_nonholding, Hh'.
    - intros b pb Hne Hb. split; [|apply (i_sess _ Iv _ _ Hb)].
      pose proof (i_task _ Iv _ _ Hb) as H. unfold task_ok in *. proj.
      destruct (p_ph pb); try exact I;
        (destruct (Hu (p_sess pb)) as [-> ->]; [|exact H]); intros E; rewrite E in H; destruct H as [H _], Hfree; congruence.
    - intros Hus. apply (i_sess _ Iv _ _ Hp), (proj2 goes_on_next), Hus.
    - intros t Ht. proj. destruct (N.eq_dec t (p_sess p)) as [->|Hne]; [apply Hts, Ht|].
      destruct (Hu t Hne) as [E1 E2]. rewrite E1 in Ht. rewrite E2. apply (i_tasks _ Iv _ Ht).
  Qed.
End Step.

(* the phases from which the program may take its next step, with what `next_phase` asks of the step *)
Ltac phases ph Hnp :=
  let E := fresh in
  pose proof Hnp as E; destruct ph; cbn [next_phase] in E;
  repeat match type of E with (if ?b then _ else _) = _ => destruct b eqn:? end;
  try discriminate E; injection E as <-.

Lemma exec_m_inv st a p m r :
  Inv st -> s_procs st a = Some p -> p_rem p = m :: r -> Inv (exec_m st a p m r).
Proof.
  intros Iv Hp Hr. pose proof (i_wf _ Iv _ _ Hp) as Hwf. rewrite Hr in Hwf.
  destruct (wf_from_cons _ _ _ Hwf) as [ph' [Hnp Hwr]]. clear Hwf.
  pose proof (i_cont _ Iv _ _ Hp) as Hco. pose proof (i_task _ Iv _ _ Hp) as Hta.
  pose proof (i_sess _ Iv _ _ Hp) as Hse.
  unfold exec_m. destruct p as [rem ph cid sq la ch se cnt]. unfold cont_ok, task_ok, sess_ok, busy_on in *. proj. subst rem.
  destruct m; cbn [exec_m_gen]; unfold pop_same; proj.
  - (* MTarget *) phases ph Hnp. apply (nonholder_quiet Iv Hp eq_refl Hnp Hwr); [reflexivity|auto|discriminate|exact I|exact I].
  - (* MPickNewest *) phases ph Hnp.
    destruct (hd_error (rev (s_index st))) as [c|]; [|apply (idle_abort Iv Hp eq_refl Hnp Hwr); reflexivity].
    apply (nonholder_quiet Iv Hp eq_refl Hnp Hwr); [reflexivity|auto|discriminate|exact I|exact I].
  - (* MLock *) phases ph Hnp.
    destruct (s_mu st) eqn:Emu; [exact Iv|].
    apply (nonholder_quiet Iv Hp eq_refl Hnp Hwr); [reflexivity|congruence|reflexivity|exact I|exact I].
  - (* MChoose *) phases ph Hnp.
    destruct cid as [c|]; [|apply (holder_abort Iv Hp eq_refl Hnp Hwr (s_side st)); [reflexivity|intros c' []]].
    destruct (s_next st c) as [n|] eqn:En.
    + (* cached *)
      apply (holder_quiet Iv Hp eq_refl Hnp Hwr); try reflexivity.
      * exists c, n. repeat split; [exact En|].
        destruct (i_next _ Iv _ _ En) as [E|E]; [exact E|destruct (busy_is_me Iv Hp c eq_refl E)].
      * intros c' [].
    + (* cold cache: load_next_seq_for *)
      destruct (load_next_spec st c (i_valid _ Iv)) as [[sd [El Hnz]]|[El Hz]]; rewrite El;
        [|apply (holder_abort Iv Hp eq_refl Hnp Hwr); [reflexivity|intros c' []]].
      apply (holder_setnext Iv Hp eq_refl Hnp Hwr); try reflexivity.
      * apply (counted_lt Iv c Hnz).
      * exists c, (cnext st c). repeat split. apply upd_same.
      * intros c' [].
  - (* MLogAppend *) phases ph Hnp.
    destruct Hco as (c & n & -> & -> & En & Hn). apply (holder_append Iv Hp eq_refl Hnp Hwr); try reflexivity.
    + apply is_cont_kind. assumption.
    + exact Hn.
    + apply (cached_lt Iv c n En).
    + intros E. exists c, n, (mk_frame st c n t ar). repeat split; assumption.
    + intros c' [].
  - (* MSidecar: a flag of the phase *) phases ph Hnp.
    all: destruct la; (apply (holder_quiet Iv Hp eq_refl Hnp Hwr); try reflexivity; [exact Hco|intros c' H; left; exact H]).
  - (* MBcast: of the owner, a flag of the phase; of the task emitter *) phases ph Hnp.
    all: try solve [apply (holder_quiet Iv Hp eq_refl Hnp Hwr); try reflexivity; try exact Hco; intros c' H; left; exact H].
    apply (nonholder_quiet Iv Hp eq_refl Hnp Hwr); [reflexivity|auto|discriminate|exact I|exact Hta].
  - (* MAdvance *) phases ph Hnp.
    destruct Hco as (c & n & f & -> & -> & En & Hn & -> & Hs). apply (holder_setnext Iv Hp eq_refl Hnp Hwr); try reflexivity.
    + symmetry. exact Hn.
    + apply (cached_lt Iv c n En).
    + intros c' H. injection H as <-. reflexivity.
  - (* MUnlock *) phases ph Hnp.
    all: apply (holder_quiet Iv Hp eq_refl Hnp Hwr); try reflexivity; try exact I.
    1-4: intros c' [].
    destruct Hco as (c & -> & _ & _ & _ & _ & _ & Hnone). intros c' H. right.
    destruct nx; [destruct H|]. injection H as <-. apply Hnone; [reflexivity|]. apply N.eqb_eq. assumption.
  - (* MAlloc *) phases ph Hnp.
    apply (holder_quiet Iv Hp eq_refl Hnp Hwr); try reflexivity.
    + lia.
    + destruct (i_fresh _ Iv (s_fresh st) (N.le_refl _)) as [H0 H1].
      exists (s_fresh st). proj. repeat split; [lia|exact H0|exact H1].
    + intros c' [].
  - (* MLogAppendFixed: the first frame of the child, a later one *) phases ph Hnp.
    all: match goal with E : _ && _ = true |- _ =>
           apply andb_true_iff in E; destruct E as [En Ht]; apply N.eqb_eq in En; subst n end.
    1: { destruct Hco as (c & -> & Hlt & H0 & Hnone). apply (holder_append Iv Hp eq_refl Hnp Hwr); try reflexivity; try assumption.
      + apply is_cont_kind, Ht.
      + symmetry. exact H0.
      + intros E. exists c. proj. repeat split; try assumption; try discriminate; try lia; [|intros _ _; exact Hnone].
        intros f [= <-]. reflexivity.
      + intros c' []. }
    all: destruct Hco as (c & -> & Hlt & Hn & _ & _ & Hk1 & _); apply (holder_append Iv Hp eq_refl Hnp Hwr); try reflexivity; try assumption;
      [apply is_cont_kind, Ht|symmetry; exact Hn| |intros c' H; destruct nx; [destruct H|injection H as <-; reflexivity]].
    all: intros E; exists c; proj; repeat split; try assumption; try discriminate; [lia| |lia|lia];
      intros f [= <-]; reflexivity.
  - (* MIndexInsert *) phases ph Hnp.
    all: destruct Hco as (c & -> & Hco); apply (holder_quiet Iv Hp eq_refl Hnp Hwr); try reflexivity;
      [exists c; exact (conj eq_refl Hco)|intros c' H; left; exact H].
  - (* MSetNext *) phases ph Hnp.
    all: match goal with E : (?x =? _) = true |- _ => apply N.eqb_eq in E; subst x end.
    all: destruct Hco as (c & -> & Hlt & Hn & Hnx & Hl & Hk1 & Hk2);
      apply (holder_setnext Iv Hp eq_refl Hnp Hwr); try reflexivity; try assumption;
      [symmetry; exact Hn| |intros c' H; destruct nx; [destruct H|injection H as <-; reflexivity]].
    all: exists c; proj; repeat split; try assumption; try discriminate; intros _; apply upd_same.
  - (* MSetNextLocked: no phase admits it (nor MUnknown below), so a well-formed program never gets here *)
    phases ph Hnp.
  - (* MRead *) phases ph Hnp.
    destruct cid; (apply (nonholder_quiet Iv Hp eq_refl Hnp Hwr); [reflexivity|auto|discriminate|exact I|exact I]).
  - (* MSessEmit *) phases ph Hnp. specialize (Hse eq_refl).
    assert (Hfk : fkind (mk_frame st se cnt t []) = KSession) by (apply is_sess_kind; assumption).
    apply (nonholder_emit Iv Hp eq_refl Hnp Hwr); try reflexivity.
    + congruence.
    + rewrite Hfk. exact Hse.
    + intros b pb Hne Hb. pose proof (i_task _ Iv _ _ Hb) as Hb1. pose proof (i_sess _ Iv _ _ Hb) as Hb2. split.
      * unfold task_ok, tnext in *. proj. rewrite next_of_snoc_other by (left; congruence). exact Hb1.
      * intros Hu. unfold snext. proj. rewrite next_of_snoc_other; [exact (Hb2 Hu)|]. right.
        apply (i_sessu _ Iv a b _ pb (not_eq_sym Hne) Hp Hb eq_refl Hu).
    + intros _. unfold snext. proj. rewrite (next_of_snoc_same _ _ _ _ Hfk eq_refl). rewrite Hse. reflexivity.
    + intros t0 Ht0. rewrite next_of_snoc_other by (left; congruence). apply (i_tasks _ Iv _ Ht0).
  - (* MTaskLock *) phases ph Hnp.
    destruct (s_tmu st se) eqn:Etm; [exact Iv|]. apply (task_quiet Iv Hp eq_refl Hnp Hwr); try reflexivity.
    + intros t0 Hne. rewrite upd_other by exact Hne. auto.
    + left. exact Etm.
    + split; [apply upd_same|apply (i_tasks _ Iv _ Etm)].
    + rewrite upd_same. discriminate.
  - (* MTaskChoose *) phases ph Hnp.
    destruct Hta as [Htm Htc]. apply (task_quiet Iv Hp eq_refl Hnp Hwr); try reflexivity.
    + intros t0 Hne. rewrite upd_other by exact Hne. auto.
    + right. exact Htm.
    + split; [exact Htm|]. eexists. repeat split; [exact Htc|apply upd_same].
    + proj. congruence.
  - (* MTaskAppend *) phases ph Hnp.
    destruct Hta as (Htm & n & -> & Hn & Htc).
    assert (Hfk : fkind (mk_frame st se n t []) = KTask) by (apply is_task_kind; assumption).
    apply (nonholder_emit Iv Hp eq_refl Hnp Hwr); try reflexivity.
    + congruence.
    + rewrite Hfk. exact Hn.
    + intros b pb Hne Hb. pose proof (i_task _ Iv _ _ Hb) as Hb1. pose proof (i_sess _ Iv _ _ Hb) as Hb2. split.
      * unfold task_ok, tnext in *. proj.
        destruct (p_ph pb); try exact I; (rewrite next_of_snoc_other; [exact Hb1|]); right; intros E; cbn in E;
          rewrite <- E in Hb1; destruct Hb1; congruence.
      * intros Hu. unfold snext. proj. rewrite next_of_snoc_other by (left; congruence). exact (Hb2 Hu).
    + split; [exact Htm|]. unfold tnext. proj. rewrite (next_of_snoc_same _ _ _ _ Hfk eq_refl), Htc, Hn. reflexivity.
    + intros Hu. unfold snext. proj. rewrite next_of_snoc_other by (left; congruence). exact (Hse Hu).
    + intros t0 Ht0. rewrite next_of_snoc_other by (right; cbn; congruence). apply (i_tasks _ Iv _ Ht0).
  - (* MTaskUnlock *) phases ph Hnp.
    destruct Hta as [Htm Htc]. apply (task_quiet Iv Hp eq_refl Hnp Hwr); try reflexivity.
    + intros t0 Hne. rewrite upd_other by exact Hne. auto.
    + right. exact Htm.
    + intros _. exact Htc.
  - (* MUnknown *) phases ph Hnp.
Qed.

Theorem step_inv st a : Inv st -> Inv (step st a).
Proof.
  intros Iv. unfold step, step_gen. destruct (s_procs st a) as [p|] eqn:Hp; [|exact Iv].
  destruct (p_rem p) as [|m r] eqn:Hr; [exact Iv|]. apply (exec_m_inv st a p m r Iv Hp Hr).
Qed.

Theorem run_inv sched : forall st, Inv st -> Inv (run sched st).
Proof.
  induction sched as [|a r IH]; intros st Iv; rewrite ?run_nil, ?run_cons; [exact Iv|].
  apply IH. apply step_inv. exact Iv.
Qed.

Lemma procs_of_lt ps : forall i a p, procs_of i ps a = Some p -> i <= a.
Proof.
  induction ps as [|[prog s] r IH]; intros i a p H; cbn [procs_of] in H; [discriminate|].
  unfold upd in H. destruct (a =? i) eqn:E.
  - apply N.eqb_eq in E. lia.
  - apply IH in H. lia.
Qed.

Lemma procs_of_sessu ps : sess_distinct ps -> forall i a b pa pb,
  a <> b -> procs_of i ps a = Some pa -> procs_of i ps b = Some pb ->
  uses_sess (p_rem pa) = true -> uses_sess (p_rem pb) = true -> p_sess pa <> p_sess pb.
Proof.
  induction ps as [|[prog s] r IH]; intros Hd i a b pa pb Hne Ha Hb Hua Hub; cbn [procs_of] in *; [discriminate|].
  destruct Hd as [Hd1 Hd2]. unfold upd in Ha, Hb.
  destruct (a =? i) eqn:Ea; destruct (b =? i) eqn:Eb.
  - apply N.eqb_eq in Ea, Eb. congruence.
  - inversion Ha; subst pa. cbn in Hua. destruct (procs_of_in _ _ _ _ Hb) as [x [Hx E]]. subst pb. cbn in *.
    rewrite Forall_forall in Hd1. specialize (Hd1 Hua x Hx Hub). congruence.
  - inversion Hb; subst pb. cbn in Hub. destruct (procs_of_in _ _ _ _ Ha) as [x [Hx E]]. subst pa. cbn in *.
    rewrite Forall_forall in Hd1. specialize (Hd1 Hub x Hx Hua). congruence.
  - apply (IH Hd2 (i + 1) a b pa pb Hne Ha Hb Hua Hub).
Qed.

Theorem spawn_inv ps st :
  SInv st -> progs_wf ps -> sess_fresh st ps -> sess_distinct ps -> Inv (spawn ps st).
Proof.
  intros S Hwf Hsf Hsd.
  assert (Hnew : forall a p, s_procs (spawn ps st) a = Some p -> exists x, In x ps /\ p = new_proc (fst x) (snd x)).
  { intros a p H. cbn in H. apply (procs_of_in _ _ _ _ H). }
  constructor.
  - apply (si_valid _ S).
  - intros c n H. left. apply (si_next _ S _ _ H).
  - apply (si_fresh _ S).
  - intros a p H Hh. destruct (Hnew a p H) as [x [_ ->]]. discriminate Hh.
  - intros a p H. destruct (Hnew a p H) as [x [Hx ->]]. cbn. unfold progs_wf in Hwf.
    rewrite Forall_forall in Hwf. apply (Hwf x Hx).
  - intros a p H. destruct (Hnew a p H) as [x [_ ->]]. exact I.
  - intros a p H. destruct (Hnew a p H) as [x [_ ->]]. exact I.
  - apply (si_tasks _ S).
  - intros a p H. destruct (Hnew a p H) as [x [Hx ->]]. intros Hu. cbn in *.
    unfold sess_fresh in Hsf. rewrite Forall_forall in Hsf. symmetry. apply (Hsf x Hx Hu).
  - intros a b pa pb Hne Ha Hb. cbn in Ha, Hb. apply (procs_of_sessu ps Hsd 0 a b pa pb Hne Ha Hb).
Qed.

(* when every actor is outside a call the store part of the invariant holds again: more actors
   may be spawned (histories of any length) *)
Theorem idle_sinv st : Inv st -> AllIdle st -> SInv st.
Proof.
  intros Iv Hid. constructor.
  - apply (i_valid _ Iv).
  - intros c n H. destruct (i_next _ Iv _ _ H) as [E|[a [p [Hp Hb]]]]; [exact E|].
    apply busy_on_holds in Hb. rewrite (Hid a p Hp) in Hb. discriminate.
  - apply (i_fresh _ Iv).
  - apply (i_tasks _ Iv).
Qed.

Theorem empty_sinv : SInv empty_state.
Proof.
  constructor; cbn.
  - apply Valid_nil.
  - intros c n H. discriminate.
  - intros c _. split; reflexivity.
  - intros t _. reflexivity.
Qed.

(* a restart at ANY point (actors killed wherever they are, sidecars in any condition) *)
Theorem restart_sinv st : Restartable st -> SInv (restart st).
Proof.
  intros [HV Hf]. constructor; cbn.
  - exact HV.
  - intros c n H. discriminate.
  - intros c Hc. split; [apply (Hf c Hc)|reflexivity].
  - intros t _. reflexivity.
Qed.

Lemma inv_restartable st : Inv st -> Restartable st.
Proof.
  intros Iv. constructor; [apply (i_valid _ Iv)|]. intros c Hc. apply (i_fresh _ Iv c Hc).
Qed.

Theorem valid_all_schedules ps sched st :
  SInv st -> progs_wf ps -> sess_fresh st ps -> sess_distinct ps ->
  Valid (s_log (run sched (spawn ps st))).
Proof.
  intros S Hwf Hsf Hsd. apply i_valid. apply run_inv. apply spawn_inv; assumption.
Qed.

Theorem validate_all_schedules ps sched st :
  SInv st -> progs_wf ps -> sess_fresh st ps -> sess_distinct ps ->
  validate (s_log (run sched (spawn ps st))) = true.
Proof. intros. apply validate_spec. apply valid_all_schedules; assumption. Qed.

Theorem valid_restart_any_store ps sched st :
  Restartable st -> progs_wf ps -> sess_fresh (restart st) ps -> sess_distinct ps ->
  Valid (s_log (run sched (spawn ps (restart st)))).
Proof. intros R. apply valid_all_schedules, restart_sinv, R. Qed.

Theorem valid_after_restart ps sched ps' sched' st :
  SInv st -> progs_wf ps -> sess_fresh st ps -> sess_distinct ps ->
  let crashed := run sched (spawn ps st) in
  progs_wf ps' -> sess_fresh (restart crashed) ps' -> sess_distinct ps' ->
  Valid (s_log (run sched' (spawn ps' (restart crashed)))).
Proof.
  intros S Hwf Hsf Hsd crashed. apply valid_restart_any_store, inv_restartable, run_inv, spawn_inv; assumption.
Qed.

Theorem sinv_after_quiescence ps sched st :
  SInv st -> progs_wf ps -> sess_fresh st ps -> sess_distinct ps ->
  AllIdle (run sched (spawn ps st)) -> SInv (run sched (spawn ps st)).
Proof. intros S Hwf Hsf Hsd Hid. apply idle_sinv; [|exact Hid]. apply run_inv. apply spawn_inv; assumption. Qed.

Lemma wf_from_app a : forall ph b, wf_from ph a = true -> wf_prog b = true -> wf_from ph (a ++ b) = true.
Proof.
  induction a as [|m a IH]; intros ph b Ha Hb.
  - cbn in Ha. destruct ph; try discriminate Ha. exact Hb.
  - cbn [app wf_from] in *. destruct (next_phase ph m) as [ph'|]; [|discriminate]. apply IH; assumption.
Qed.

Lemma wf_prog_app a b : wf_prog a = true -> wf_prog b = true -> wf_prog (a ++ b) = true.
Proof. apply wf_from_app. Qed.

(* calls one after the other, each well-formed by its kind *)
Lemma wf_prog_concat_map {A} (f : A -> list mstep) (ok : A -> bool) l :
  (forall x, ok x = true -> wf_prog (f x) = true) -> forallb ok l = true -> wf_prog (concat (map f l)) = true.
Proof.
  intros Hf. induction l as [|x l IH]; cbn [forallb map concat]; [reflexivity|].
  intros H. apply andb_true_iff in H. apply wf_prog_app; [apply Hf|apply IH]; tauto.
Qed.

Lemma wf_locked_call c t ar : is_cont t = true -> wf_prog (MTarget c :: locked_append t ar) = true.
Proof. intros H. unfold wf_prog, locked_append. cbn [wf_from next_phase]. rewrite H. reflexivity. Qed.
Lemma wf_post_newest : wf_prog (MPickNewest :: locked_append EContinuityMessageAppended []) = true.
Proof. reflexivity. Qed.
Lemma wf_create ar : wf_prog (create_prog ar) = true.
Proof. reflexivity. Qed.
Lemma wf_lineage t a1 a2 : is_cont t = true -> wf_prog (lineage_prog t a1 a2) = true.
Proof. intros H. destruct t; try discriminate H; reflexivity. Qed.
Lemma wf_session ts : forallb is_sess ts = true -> wf_prog (session_prog ts) = true.
Proof.
  induction ts as [|t r IH]; intros H; [reflexivity|]. cbn [forallb] in H. apply andb_true_iff in H.
  destruct H as [H1 H2]. unfold wf_prog, session_prog. cbn [map wf_from next_phase]. rewrite H1. apply IH. exact H2.
Qed.
Lemma wf_task_emit t : is_task t = true -> wf_prog (task_emit t) = true.
Proof. intros H. unfold wf_prog, task_emit. cbn [wf_from next_phase]. rewrite H. reflexivity. Qed.

Definition cop_ok (o : cop) : bool :=
  match o with OAppend t _ => is_cont t | OTaskEmit t => is_task t | _ => true end.

Lemma wf_prog_of_cop l o : cop_ok o = true -> wf_prog (prog_of_cop l o) = true.
Proof.
  destruct o; cbn [cop_ok prog_of_cop]; intros H.
  - apply wf_locked_call. exact H.
  - apply wf_post_newest.
  - apply (wf_prog_app [MTarget _; MRead]); [reflexivity|apply wf_lineage; reflexivity].
  - apply (wf_prog_app [MTarget _; MRead]); [reflexivity|apply wf_lineage; reflexivity].
  - reflexivity.
  - apply wf_task_emit. exact H.
Qed.

(* the actors of a correspondence case satisfy the hypotheses of the theorem *)
Lemma actors_of_wf l acts :
  forallb (forallb cop_ok) acts = true -> progs_wf (actors_of l acts).
Proof.
  intros H. apply Forall_map, Forall_forall. intros ops Hin. rewrite forallb_forall in H.
  apply (wf_prog_concat_map _ cop_ok); [apply wf_prog_of_cop|apply H, Hin].
Qed.

(* witnesses (w_..): named stores, actors and schedules of the refutations and non-vacuity examples *)
Definition w_st0 : state :=
  snd (run_calls empty_state [KCap CapEnsureDefault 0%nat fact_ok;
                              KCap (CapAppend EContinuityMessageAppended) 0%nat fact_ok]).
(* S5: a branch that writes the child's frames outside the seq mutex (prog_of_cop_unfixed) against a post to the
   newest listed thread *)
Definition w_s5_actors : list (list mstep * N) :=
  [(prog_of_cop_unfixed (s_log w_st0) (OBranch 0%nat), 0); (prog_of_cop (s_log w_st0) OPostNewest, 0)].
Definition w_s5_fixed : list (list mstep * N) :=
  [(prog_of_cop (s_log w_st0) (OBranch 0%nat), 0); (prog_of_cop (s_log w_st0) OPostNewest, 0)].
Definition w_s5_sched : list N := repeat 0 8 ++ repeat 1 8 ++ repeat 0 6.
Lemma w_s5_unfixed_invalid : validate (s_log (run w_s5_sched (spawn w_s5_actors w_st0))) = false.
Proof. vm_compute. reflexivity. Qed.
Lemma w_s5_seqs :
  map seq (cstream 3 (s_log (run w_s5_sched (spawn w_s5_actors w_st0)))) = [0; 1; 1].
Proof. vm_compute. reflexivity. Qed.

(* S3: load_next_seq_for numbering from the sidecar tail (load_next_unfixed) after a restart on a stale well-formed prefix *)
Definition w_s3_st0 : state :=
  snd (run_calls empty_state [KCap CapEnsureDefault 0%nat fact_ok;
                              KCap (CapAppend EContinuityMessageAppended) 0%nat fact_ok;
                              KCap (CapAppend EContinuityMessageAppended) 0%nat fact_ok;
                              KFault XCutLine 0%nat; KRestart]).
Definition w_s3_actors : list (list mstep * N) :=
  [(prog_of_cop (s_log w_s3_st0) (OAppend EContinuityMessageAppended 0%nat), 0)].
Lemma w_s3_unfixed_invalid :
  validate (s_log (run_gen load_next_unfixed (repeat 0 8) (spawn w_s3_actors w_s3_st0))) = false.
Proof. vm_compute. reflexivity. Qed.
Lemma w_s3_fixed_valid :
  validate (s_log (run (repeat 0 8) (spawn w_s3_actors w_s3_st0))) = true
  /\ nlen (s_log (run (repeat 0 8) (spawn w_s3_actors w_s3_st0))) = 4.
Proof. vm_compute. split; reflexivity. Qed.

(* S6: two runs on one session id *)
Definition w_s6_actors : list (list mstep * N) :=
  [(session_prog [ESessionStarted; ESessionEnded], 7); (session_prog [ESessionStarted], 7)].
Lemma w_s6_invalid : validate (s_log (run [0; 1] (spawn w_s6_actors empty_state))) = false.
Proof. vm_compute. reflexivity. Qed.
Lemma w_s6_hyps : progs_wf w_s6_actors /\ sess_fresh empty_state w_s6_actors.
Proof. split; repeat constructor. Qed.

(* non-vacuity: five actors (create, post to newest, a run, two pumps of one task) on the empty store *)
Definition w_ex_actors : list (list mstep * N) :=
  [(create_prog [], 0);
   (MPickNewest :: locked_append EContinuityMessageAppended [], 0);
   (session_prog [ESessionStarted; EOutputTextDelta; ESessionEnded], 7);
   (task_emit EToolTaskSpawned ++ task_emit EToolTaskOutputDelta, 9);
   (task_emit EToolTaskOutputDelta, 9)].
Definition w_ex_sched : list N :=
  [0; 3; 3; 0; 4; 2; 0; 0; 3; 3; 3; 0; 0; 0; 4; 4; 4; 4; 1; 1; 2; 1; 1; 1; 1; 3; 3; 1; 1; 2; 3; 3; 3]
  ++ repeat 0 4 ++ repeat 1 8 ++ repeat 4 5 ++ repeat 3 10.
Lemma w_ex_hyps :
  SInv empty_state /\ progs_wf w_ex_actors /\ sess_fresh empty_state w_ex_actors /\ sess_distinct w_ex_actors.
Proof.
  split; [apply empty_sinv|]. split; [repeat constructor|]. split; [repeat constructor|].
  cbn. repeat split; try (intros; discriminate); try (intros; repeat constructor; cbn; intros; discriminate).
Qed.
Lemma w_ex_log :
  canon_log (s_log (run w_ex_sched (spawn w_ex_actors empty_state)))
  = [0; 0; 0;  1; 0; 3;  2; 0; 30;  2; 1; 34;  0; 1; 1;  0; 2; 2;  1; 1; 4;  2; 2; 34].
Proof. vm_compute. reflexivity. Qed.

Definition task_actors (es : list (etype * N)) : list (list mstep * N) :=
  map (fun e => (task_emit (fst e), snd e)) es.

Lemma task_actors_wf es : Forall (fun e => is_task (fst e) = true) es -> progs_wf (task_actors es).
Proof. intros H. apply Forall_map. apply (Forall_impl _ (fun e => wf_task_emit (fst e)) H). Qed.
Lemma task_actors_sess_fresh st es : sess_fresh st (task_actors es).
Proof. apply Forall_map, Forall_forall. intros e _ H. discriminate H. Qed.
Lemma task_actors_no_sess es : Forall (fun y => uses_sess (fst y) = false) (task_actors es).
Proof. unfold task_actors. induction es as [|e l IH]; cbn [map]; constructor; [reflexivity|exact IH]. Qed.
Lemma task_actors_sess_distinct es : sess_distinct (task_actors es).
Proof.
  unfold task_actors. induction es as [|e l IH]; cbn [map sess_distinct]; [exact I|].
  split; [|exact IH]. cbn. intros H. discriminate H.
Qed.

(* any number of emitters (stdout pump, stderr pump, control paths) on any tasks, any schedule *)
Theorem task_counter_valid es sched st :
  SInv st -> Forall (fun e => is_task (fst e) = true) es ->
  Valid (s_log (run sched (spawn (task_actors es) st))).
Proof.
  intros S H. apply valid_all_schedules; [exact S|apply task_actors_wf; exact H|
    apply task_actors_sess_fresh|apply task_actors_sess_distinct].
Qed.

(* the same call with a guard that ends before the log append (the counter alone is protected) *)
Definition task_emit_narrow (t : etype) : list mstep :=
  [MTaskLock; MTaskChoose; MTaskUnlock; MBcast; MTaskAppend t].
Definition w_task_narrow_actors : list (list mstep * N) :=
  [(task_emit_narrow EToolTaskOutputDelta, 9); (task_emit_narrow EToolTaskOutputDelta, 9)].
Definition w_task_narrow_sched : list N := [0; 0; 0; 1; 1; 1; 1; 1; 0; 0].
Lemma w_task_narrow_invalid :
  validate (s_log (run w_task_narrow_sched (spawn w_task_narrow_actors empty_state))) = false
  /\ map seq (s_log (run w_task_narrow_sched (spawn w_task_narrow_actors empty_state))) = [1; 0].
Proof. vm_compute. split; reflexivity. Qed.
