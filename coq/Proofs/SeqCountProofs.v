(* Proofs for Model/SeqCount.v (C01): the counter the provider pipe hands back is the number of frames it
   emitted, for every parsed-event list and every way of cutting it into pushes; a failed log append leaves
   the thread's counter at the number of frames the thread has. *)
From RipV Require Import Base.Prelude Model.Frames Model.Log Model.ContStore Model.ContInv Model.SessGuard
  Model.SeqCount Proofs.LogProofs Proofs.ContStoreProofs Proofs.ContOrderProofs Proofs.SessGuardProofs.

Lemma number_length s fs : length (number s fs) = length fs.
Proof. revert s; induction fs as [|f r IH]; intros s; cbn [number length]; [reflexivity|]. rewrite IH. reflexivity. Qed.
Lemma number_seqs s fs : map snd (number s fs) = nseq s (length fs).
Proof. revert s; induction fs as [|f r IH]; intros s; cbn [number map snd nseq length]; [reflexivity|]. rewrite IH. reflexivity. Qed.
Lemma number_kinds s fs : map fst (number s fs) = map fst fs.
Proof. revert s; induction fs as [|f r IH]; intros s; cbn [number map fst]; [reflexivity|]. rewrite IH. reflexivity. Qed.

(* with the cut before the mapper, what a push adds to the counter is what it emits (`pinv_push` reads the same
   off `push` by evaluation) *)
Lemma push_parsed_count parsed :
  let '(mapped, emitted, count, _) := push CutParsed parsed in mapped = emitted /\ count = nlen emitted.
Proof. cbn [push]. split; reflexivity. Qed.

(* the invariant of the pipe: counter = offset + mapper.seq = offset + frames emitted, frames numbered from
   the offset without a gap *)
Definition pinv (off : N) (st : pstate) : Prop :=
  ps_mseq st = nlen (ps_out st) /\ ps_cnt st = off + nlen (ps_out st)
  /\ map snd (ps_out st) = nseq off (length (ps_out st)).

Lemma pinv_init off : pinv off {| ps_out := []; ps_mseq := 0; ps_cnt := off |}.
Proof. unfold pinv, nlen. cbn [ps_out ps_mseq ps_cnt length map nseq]. repeat split; lia. Qed.

Lemma pinv_push off st parsed : pinv off st -> pinv off (fst (emit_push CutParsed off st parsed)).
Proof.
  intros [Hm [Hc Hs]]. unfold emit_push. cbn [push fst ps_out ps_mseq ps_cnt].
  set (fs := map_evs (upto_done parsed)).
  unfold pinv. cbn [ps_out ps_mseq ps_cnt]. unfold nlen in *.
  rewrite app_length, number_length, map_app, number_seqs, Hs, nseq_app, Hm. repeat split; try lia.
Qed.

(* What a pipe hands back is the sink and the counter of a state reached by pushes and one of the endings; the
   transport-error frame is one more numbered frame (the mapper's own count plays no role after it).  So what the
   empty pipe has, and every push and that last frame preserve, holds of the result. *)
Lemma run_pipe_inv ck off (P : pstate -> Prop) :
  P {| ps_out := []; ps_mseq := 0; ps_cnt := off |} ->
  (forall st parsed, P st -> P (fst (emit_push ck off st parsed))) ->
  (forall st, P st -> P {| ps_out := ps_out st ++ [(EProviderEvent, ps_cnt st)]; ps_mseq := ps_mseq st + 1;
                           ps_cnt := ps_cnt st + 1 |}) ->
  forall pushes e, exists st, P st /\ run_pipe ck off pushes e = (ps_out st, ps_cnt st).
Proof.
  intros H0 Hp He pushes e. unfold run_pipe.
  assert (H : forall ps st, P st -> P (fst (run_pushes ck off st ps))).
  { induction ps as [|p r IH]; intros st H; cbn [run_pushes fst]; [exact H|].
    pose proof (Hp st p H) as H1. destruct (emit_push ck off st p) as [st1 d]. cbn [fst] in H1.
    destruct d; cbn [fst]; [exact H1|apply IH; exact H1]. }
  specialize (H pushes _ H0). destruct (run_pushes ck off _ pushes) as [st d]. cbn [fst] in H.
  destruct d; [exists st; auto|]. destruct e as [fin|].
  - exists (fst (emit_push ck off st fin)). auto.
  - eexists. split; [apply (He st H)|reflexivity].
Qed.

(* THE statement about the pipe: for every offset, every list of pushes (every way the provider's events
   are cut into decoder pushes: events after the terminal marker in the same push, in later pushes, no
   marker at all, several markers), every ending - the frames carry off, off+1, .. and the counter handed
   back is off + the number of frames emitted *)
Theorem pipe_counter_is_frames off pushes e :
  map snd (fst (run_pipe CutParsed off pushes e)) = nseq off (length (fst (run_pipe CutParsed off pushes e)))
  /\ snd (run_pipe CutParsed off pushes e) = off + nlen (fst (run_pipe CutParsed off pushes e)).
Proof.
  destruct (run_pipe_inv CutParsed off (pinv off) (pinv_init off) (pinv_push off)) with (pushes := pushes) (e := e)
    as (st & (_ & Hc & Hs) & ->); [|split; assumption].
  intros st (Hm & Hc & Hs). unfold pinv, nlen in *. cbn [ps_out ps_mseq ps_cnt].
  rewrite map_app, app_length, Hs, Nat.add_1_r, nseq_snoc. cbn [map snd length]. rewrite Hc. repeat split; lia.
Qed.

Lemma map_evs_kinds evs : forallb is_sess (map fst (map_evs evs)) = true.
Proof.
  induction evs as [|e r IH]; [reflexivity|].
  change (map_evs (e :: r)) with (ev_frames e ++ map_evs r). rewrite map_app, forallb_app.
  apply andb_true_intro. split; [|exact IH].
  unfold ev_frames. destruct (pv_delta e); reflexivity.
Qed.
Definition kinds_ok (st : pstate) : Prop := forallb is_sess (map fst (ps_out st)) = true.
Lemma kinds_push off st parsed : kinds_ok st -> kinds_ok (fst (emit_push CutParsed off st parsed)).
Proof.
  unfold kinds_ok, emit_push. cbn [push fst ps_out]. intros H.
  rewrite map_app, forallb_app, H, number_kinds. apply (map_evs_kinds (upto_done parsed)).
Qed.
Lemma pipe_kinds off pushes e : forallb is_sess (map fst (fst (run_pipe CutParsed off pushes e))) = true.
Proof.
  destruct (run_pipe_inv CutParsed off kinds_ok eq_refl (kinds_push off)) with (pushes := pushes) (e := e)
    as (st & H & ->); [|exact H].
  intros st H. unfold kinds_ok in *. cbn [ps_out]. rewrite map_app, forallb_app, H. reflexivity.
Qed.

(* a run with pipes is a run of unit sites (Model/SessGuard.v run_frames): frame at the counter, counter + 1 *)
Definition unit_sites (ts : list etype) : list (etype * N) := map (fun t => (t, 1)) ts.
Lemma run_frames_app sid a : forall cnt b,
  run_frames sid cnt (unit_sites a ++ b) = run_frames sid cnt (unit_sites a) ++ run_frames sid (cnt + nlen a) b.
Proof.
  induction a as [|t r IH]; intros cnt b.
  - cbn [unit_sites map app run_frames]. unfold nlen. cbn [length N.of_nat]. rewrite N.add_0_r. reflexivity.
  - cbn [unit_sites map app run_frames]. fold (unit_sites r). rewrite IH. cbn [app]. do 3 f_equal.
    unfold nlen. cbn [length]. lia.
Qed.
Lemma numbered_frames sid : forall out cnt, map snd out = nseq cnt (length out) ->
  map (mkf sid) out = run_frames sid cnt (unit_sites (map fst out)).
Proof.
  induction out as [|[t s] r IH]; intros cnt H; [reflexivity|].
  cbn [map snd length nseq] in H. inversion H as [[H0 H1]]. subst s.
  cbn [map fst unit_sites run_frames]. fold (unit_sites (map fst r)). unfold mkf at 1. cbn [fst snd].
  f_equal. apply IH. exact H1.
Qed.

Fixpoint seg_kinds (cnt : N) (segs : list seg) : list etype :=
  match segs with
  | [] => []
  | SSite t :: r => t :: seg_kinds (cnt + 1) r
  | SPipe ps e :: r => map fst (fst (run_pipe CutParsed cnt ps e)) ++ seg_kinds (snd (run_pipe CutParsed cnt ps e)) r
  end.

Lemma run_segs_is_run_frames sid : forall segs cnt,
  run_segs CutParsed sid cnt segs = run_frames sid cnt (unit_sites (seg_kinds cnt segs)).
Proof.
  induction segs as [|s r IH]; intros cnt; [reflexivity|]. destruct s as [t|ps e].
  - cbn [run_segs seg_kinds unit_sites map run_frames]. fold (unit_sites (seg_kinds (cnt + 1) r)).
    unfold mkf. cbn [fst snd]. f_equal. apply IH.
  - cbn [run_segs seg_kinds]. destruct (pipe_counter_is_frames cnt ps e) as [Hs Hc].
    destruct (run_pipe CutParsed cnt ps e) as [out cnt'] eqn:E. cbn [fst snd] in *.
    unfold unit_sites. rewrite map_app. fold (unit_sites (map fst out)). fold (unit_sites (seg_kinds cnt' r)).
    rewrite run_frames_app. rewrite (numbered_frames sid out cnt Hs). f_equal.
    rewrite IH. unfold nlen in *. rewrite map_length. rewrite Hc. reflexivity.
Qed.

Lemma seg_kinds_sess : forall segs cnt, forallb seg_ok segs = true -> forallb is_sess (seg_kinds cnt segs) = true.
Proof.
  induction segs as [|s r IH]; intros cnt H; [reflexivity|].
  cbn [forallb] in H. apply andb_true_iff in H. destruct H as [H1 H2]. destruct s as [t|ps e].
  - cbn [seg_kinds forallb]. cbn [seg_ok] in H1. rewrite H1. apply IH. exact H2.
  - cbn [seg_kinds]. rewrite forallb_app, pipe_kinds. apply IH. exact H2.
Qed.

Lemma unit_sites_fst ts : map fst (unit_sites ts) = ts.
Proof. induction ts as [|t r IH]; [reflexivity|]. cbn [unit_sites map fst]. fold (unit_sites r). rewrite IH. reflexivity. Qed.
Lemma unit_sites_one ts : Forall (fun s : etype * N => snd s = 1) (unit_sites ts).
Proof. induction ts as [|t r IH]; constructor; [reflexivity|exact IH]. Qed.

Lemma unit_run_valid sid ts : forallb is_sess ts = true -> Valid (run_frames sid 0 (unit_sites ts)).
Proof. intros H. apply run_counter_valid; [rewrite unit_sites_fst; exact H|apply unit_sites_one]. Qed.

(* any run: single sites and any number of pipes, each over any pushes with any ending - the session's
   stream is 0,1,2,.. *)
Theorem run_with_pipes_valid sid segs : forallb seg_ok segs = true -> Valid (run_segs CutParsed sid 0 segs).
Proof. intros H. rewrite run_segs_is_run_frames. apply unit_run_valid, seg_kinds_sess, H. Qed.
Theorem run_with_pipes_validates sid segs : forallb seg_ok segs = true -> validate (run_segs CutParsed sid 0 segs) = true.
Proof. intros H. apply validate_spec. apply run_with_pipes_valid. exact H. Qed.

(* ... for the pipe as the extractor finds it (Gen/AppendOps.v gen_pipe_cut).  The hypothesis has the shape of the
   generated obligation gen_pipe_cut_ok, `ok && ..`; its first conjunct `ok` (the extractor found the pipe) is not needed *)
Theorem run_with_pipes_as_built (ok : bool) (ck : cutk) :
  ok && cutk_eqb ck PIPE_CUT = true ->
  forall sid segs, forallb seg_ok segs = true -> validate (run_segs ck sid 0 segs) = true.
Proof.
  intros H sid segs Hs. apply andb_true_iff in H. destruct H as [_ H].
  destruct ck; [|discriminate H]. apply run_with_pipes_validates. exact Hs.
Qed.

(* witnesses (w_..).  The cut after the count (seeded change C01-8): a text delta, the marker, and in the same push a late
   delta and one more event; five frames before the pipe, the closing frame after it *)
Definition w_late_push : list pev := [pe false true; pe true false; pe false true; pe false false].
Definition w_late_run : list seg :=
  [SSite ESessionStarted; SSite EOpenResponsesRequest; SSite EOpenResponsesRequestStarted;
   SSite EOpenResponsesResponseHeaders; SSite EOpenResponsesResponseFirstByte;
   SPipe [w_late_push] (EndFinish []); SSite ESessionEnded].
Lemma w_late_hyps : forallb seg_ok w_late_run = true.
Proof. vm_compute. reflexivity. Qed.
Lemma w_late_invalid :
  validate (run_segs CutFramesAfterCount 7 0 w_late_run) = false
  /\ map seq (run_segs CutFramesAfterCount 7 0 w_late_run) = [0; 1; 2; 3; 4; 5; 6; 7; 11]
  /\ snd (run_pipe CutFramesAfterCount 5 [w_late_push] (EndFinish [])) = 11
  /\ nlen (fst (run_pipe CutFramesAfterCount 5 [w_late_push] (EndFinish []))) = 3.
Proof. repeat split; vm_compute; reflexivity. Qed.
Lemma w_late_as_built :
  validate (run_segs CutParsed 7 0 w_late_run) = true
  /\ map seq (run_segs CutParsed 7 0 w_late_run) = [0; 1; 2; 3; 4; 5; 6; 7; 8].
Proof. split; vm_compute; reflexivity. Qed.
(* the late events in a LATER push: never read, either way *)
Lemma w_late_other_push :
  validate (run_segs CutFramesAfterCount 7 0
     [SSite ESessionStarted; SPipe [[pe false true; pe true false]; [pe false true; pe false false]] (EndFinish []); SSite ESessionEnded]) = true.
Proof. vm_compute. reflexivity. Qed.

Lemma wf_failed_call c : wf_prog (MTarget c :: failed_append) = true.
Proof. reflexivity. Qed.
Lemma fail_at_locked t ar : fail_at 0 (locked_append t ar) = failed_append.
Proof. reflexivity. Qed.
Lemma fail_at_lineage_0 t a1 a2 : fail_at 0 (lineage_prog t a1 a2) = [MLock; MAlloc; MUnlock].
Proof. reflexivity. Qed.
(* the creation frame went in, the lineage frame was refused: what is left is a plain thread creation *)
Lemma fail_at_lineage_1 t a1 a2 : fail_at 1 (lineage_prog t a1 a2) = create_prog a1.
Proof. reflexivity. Qed.
Lemma fail_at_lineage_more t a1 a2 k : fail_at (S (S k)) (lineage_prog t a1 a2) = lineage_prog t a1 a2.
Proof. reflexivity. Qed.
Lemma fail_at_create_0 ar : fail_at 0 (create_prog ar) = [MLock; MAlloc; MUnlock].
Proof. reflexivity. Qed.
Lemma fail_at_create_more ar k : fail_at (S k) (create_prog ar) = create_prog ar.
Proof. reflexivity. Qed.

Lemma wf_fail_at_lineage t a1 a2 k : is_cont t = true -> wf_prog (fail_at k (lineage_prog t a1 a2)) = true.
Proof.
  intros H. destruct k as [|[|k]].
  - reflexivity.
  - rewrite fail_at_lineage_1. apply wf_create.
  - rewrite fail_at_lineage_more. apply wf_lineage. exact H.
Qed.
Lemma wf_fail_at_create ar k : wf_prog (fail_at k (create_prog ar)) = true.
Proof. destruct k as [|k]; [reflexivity|]. rewrite fail_at_create_more. apply wf_create. Qed.
Lemma wf_fail_at_locked c t ar k : is_cont t = true -> wf_prog (MTarget c :: fail_at k (locked_append t ar)) = true.
Proof. intros H. destruct k as [|k]; [reflexivity|]. apply wf_locked_call. exact H. Qed.

(* the actors of every append-failure case are well-formed programs *)
Lemma wf_appends_trace c : forall tr,
  forallb (fun x : option etype => match x with Some t => is_cont t | None => true end) tr = true ->
  wf_prog (concat (map (fun x : option etype => MTarget c :: match x with Some t => locked_append t [] | None => failed_append end) tr)) = true.
Proof.
  intros tr. refine (wf_prog_concat_map _ _ _ _). intros [t|] H; [apply wf_locked_call; exact H|apply wf_failed_call].
Qed.
Theorem fcall_wf l o : fcall_ok o = true -> wf_prog (prog_of_fcall l o) = true.
Proof.
  intros H. destruct o as [th tr|t th k|k|]; cbn [prog_of_fcall fcall_ok] in *.
  - apply wf_appends_trace. exact H.
  - apply (wf_prog_app [MTarget (nth_thread l th); MRead]); [reflexivity|].
    destruct k as [k|]; [apply wf_fail_at_lineage; exact H|apply wf_lineage; exact H].
  - destruct k as [k|]; [apply wf_fail_at_create|apply wf_create].
  - reflexivity.
Qed.

(* under `advance only after a successful append` - the shape T1 re-reads from every writer - failed appends
   are just more well-formed programs: any number of actors, any mix of successful and failed calls, any
   schedule; once everybody is outside a call every thread's counter, where cached, IS the number of frames
   the thread has in the log (next_seq = last_seq + 1) *)
Theorem failed_appends_leave_counter ps sched st :
  SInv st -> progs_wf ps -> sess_fresh st ps -> sess_distinct ps ->
  AllIdle (run sched (spawn ps st)) ->
  forall c n, s_next (run sched (spawn ps st)) c = Some n -> n = next_of KContinuity c (s_log (run sched (spawn ps st))).
Proof.
  intros H1 H2 H3 H4 H5 c n Hn.
  apply (si_next _ (sinv_after_quiescence ps sched st H1 H2 H3 H4 H5) c n Hn).
Qed.

(* one actor on the empty store: create a thread, a message, then run_ended is refused, then the retry and a
   message go in: the thread reads 0,1,2,3, and right after the refused call the counter is still 2 *)
Definition w_fail_prog (failed : list mstep) : list mstep :=
  create_prog [] ++ MTarget 0 :: locked_append EContinuityMessageAppended []
  ++ MTarget 0 :: failed ++ MTarget 0 :: locked_append EContinuityRunEnded []
  ++ MTarget 0 :: locked_append EContinuityMessageAppended [].
Definition w_fail_actors : list (list mstep * N) := [(w_fail_prog failed_append, 0)].
Lemma w_fail_hyps :
  SInv empty_state /\ progs_wf w_fail_actors /\ sess_fresh empty_state w_fail_actors /\ sess_distinct w_fail_actors.
Proof.
  split; [apply empty_sinv|]. split; [repeat constructor|]. split; [repeat constructor; discriminate|].
  cbn [w_fail_actors sess_distinct]. split; [discriminate|exact I].
Qed.
Lemma w_fail_result :
  s_next (run (repeat 0 20) (spawn w_fail_actors empty_state)) 0 = Some 2
  /\ map seq (s_log (run (repeat 0 20) (spawn w_fail_actors empty_state))) = [0; 1]
  /\ map seq (cstream 0 (s_log (run (repeat 0 36) (spawn w_fail_actors empty_state)))) = [0; 1; 2; 3]
  /\ validate (s_log (run (repeat 0 36) (spawn w_fail_actors empty_state))) = true.
Proof. repeat split; vm_compute; reflexivity. Qed.

(* the writer that reserves (seeded change C01-7): not a well-formed program, and the same history reads
   0,1,3,4 *)
Definition w_reserve_actors : list (list mstep * N) := [(w_fail_prog reserved_failed_append, 0)].
Lemma w_reserve_invalid :
  wf_prog (MTarget 0 :: reserved_failed_append) = false
  /\ s_next (run (repeat 0 21) (spawn w_reserve_actors empty_state)) 0 = Some 3
  /\ map seq (s_log (run (repeat 0 21) (spawn w_reserve_actors empty_state))) = [0; 1]
  /\ map seq (cstream 0 (s_log (run (repeat 0 37) (spawn w_reserve_actors empty_state)))) = [0; 1; 3; 4]
  /\ validate (s_log (run (repeat 0 37) (spawn w_reserve_actors empty_state))) = false.
Proof. repeat split; vm_compute; reflexivity. Qed.

Lemma emit_unchecked_all_ok sid : forall ts cnt,
  emit_unchecked sid cnt (map (fun t => (t, true)) ts) = run_frames sid cnt (unit_sites ts).
Proof.
  induction ts as [|t r IH]; intros cnt; [reflexivity|].
  cbn [map emit_unchecked unit_sites run_frames app]. fold (unit_sites r). rewrite IH. reflexivity.
Qed.
Theorem emit_unchecked_valid sid ts :
  forallb is_sess ts = true -> Valid (emit_unchecked sid 0 (map (fun t => (t, true)) ts)).
Proof. intros H. rewrite emit_unchecked_all_ok. apply unit_run_valid, H. Qed.
(* one refused write in the middle of a run: the log has a hole *)
Definition w_refused_run : list (etype * bool) := [(ESessionStarted, true); (EOutputTextDelta, false); (ESessionEnded, true)].
Lemma w_refused_invalid :
  validate (emit_unchecked 7 0 w_refused_run) = false /\ map seq (emit_unchecked 7 0 w_refused_run) = [0; 2].
Proof. split; vm_compute; reflexivity. Qed.
