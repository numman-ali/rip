(* C14: several checkpoints and rewinds in any order (c14_multi), as an explicit theorem over whole sessions;
   rewind against a store whose copies were changed or removed (the invariant and the failing case are in
   Proofs/CheckpointProofs.v). *)
From RipV Require Import Base.Prelude Base.Fs Model.Paths Model.Checkpoint Proofs.PathsProofs Proofs.CheckpointProofs.

Definition ck_ok (root : str) (c : list entry * fs) : Prop :=
  sane (snd c) /\ exists raws, create (snd c) root raws = Ok (fst c).

Lemma run_hist_inv root : forall h f cks f' cks',
  run_hist root f cks h = (f', cks') -> hist_sane h = true -> sane f -> Forall (ck_ok root) cks ->
  sane f' /\ Forall (ck_ok root) cks'.
Proof.
  induction h as [|o h IH]; intros f cks f' cks' H Hh Hs Hc.
  - cbn [run_hist] in H. inversion H; subst. split; assumption.
  - cbn [hist_sane forallb] in Hh. apply andb_true_iff in Hh. destruct Hh as [Ho Hh].
    change (forallb (fun o => match o with HEdit g => sane_b g | _ => true end) h) with (hist_sane h) in Hh.
    destruct o as [raws|i|g]; cbn [run_hist] in H.
    + destruct (create f root raws) as [ck|e] eqn:Ec.
      * apply (IH _ _ _ _ H Hh Hs). apply Forall_app. split; [exact Hc|]. constructor; [|constructor].
        split; [exact Hs|exists raws; exact Ec].
      * apply (IH _ _ _ _ H Hh Hs Hc).
    + destruct (nth_error cks i) as [[ck fi]|] eqn:En; [|apply (IH _ _ _ _ H Hh Hs Hc)].
      apply (IH _ _ _ _ H Hh); [|exact Hc].
      pose proof (nth_error_In _ _ En) as Hin. rewrite Forall_forall in Hc. destruct (Hc _ Hin) as [Hsi [raws Eci]].
      cbn [fst snd] in *. destruct (rewind f ck) as [f3 r] eqn:Er. cbn [fst].
      exact (proj1 (rewind_outcome _ _ _ _ _ _ _ Eci Hsi Hs Er)).
    + apply (IH _ _ _ _ H Hh); [apply sane_b_sound; exact Ho|exact Hc].
Qed.

(* After ANY session - checkpoints taken at any time, arbitrary edits, rewinds (successful or failing) to any
   checkpoints in any order - a rewind to ANY checkpoint taken so far either succeeds and every file that
   checkpoint covers has exactly the bytes (or the absence) it had in the workspace the checkpoint was taken
   from, no uncovered file changing; or fails and leaves every file of the workspace as it was. *)
Theorem multi root f0 h f cks :
  sane_b f0 = true -> hist_sane h = true -> run_hist root f0 [] h = (f, cks) ->
  forall i ck fi f3 r, nth_error cks i = Some (ck, fi) -> rewind f ck = (f3, r) ->
  match r with
  | None =>
    (forall rel saved, In (rel, saved) ck ->
       match saved with
       | Some b => os_read fi (tgt_of rel) = Ok b /\ os_read f3 (tgt_of rel) = Ok b
       | None => os_exists fi (tgt_of rel) = false /\ file_at f3 (key rel) = None
       end)
    /\ (forall q, (forall rel saved, In (rel, saved) ck -> key rel <> q) -> file_at f3 q = file_at f q)
  | Some _ => forall q, file_at f3 q = file_at f q
  end.
Proof.
  intros Hs0 Hh Hrun i ck fi f3 r En Er.
  destruct (run_hist_inv root h f0 [] f cks Hrun Hh (sane_b_sound _ Hs0) (Forall_nil _)) as [Hs Hc].
  pose proof (nth_error_In _ _ En) as Hin. rewrite Forall_forall in Hc. destruct (Hc _ Hin) as [Hsi [raws Eci]].
  exact (proj2 (rewind_outcome _ _ _ _ _ _ _ Eci Hsi Hs Er)).
Qed.

(* a session that meets the hypotheses: two checkpoints, edits, rewind to the second, then to the first, then to the
   second again *)
Require Import Coq.Strings.String.
Definition m_a : str := bs "a.txt"%string.
Definition m_b : str := bs "b.txt"%string.
Definition m_f0 : fs := [([m_a], File (bs "a0"%string))].
Definition m_f1 : fs := [([m_a], File (bs "a1"%string)); ([m_b], File (bs "b1"%string))].
Definition m_f2 : fs := [([m_a], File (bs "a2"%string))].
Definition m_hist : list hop :=
  [HCreate [m_a; m_b]; HEdit m_f1; HCreate [m_b]; HEdit m_f2; HRewind 1; HRewind 0; HRewind 1].
Lemma ex_multi :
  sane_b m_f0 = true /\ hist_sane m_hist = true
  /\ exists f cks ck0 ck1, run_hist w_root m_f0 [] m_hist = (f, cks)
       /\ nth_error cks 0 = Some (ck0, m_f0) /\ nth_error cks 1 = Some (ck1, m_f1)
       /\ file_at f [m_a] = Some (bs "a0"%string) /\ file_at f [m_b] = Some (bs "b1"%string)
       /\ exists f3, rewind f ck0 = (f3, None) /\ file_at f3 [m_b] = None.
Proof.
  split; [vm_compute; reflexivity|]. split; [vm_compute; reflexivity|]. do 4 eexists.
  do 5 (split; [vm_compute; reflexivity|]). eexists. split; vm_compute; reflexivity.
Qed.

(* `stored st rel b` is what rewind reads for a file recorded with bytes b; an empty `st` means every copy is intact *)
Lemma stored_nil rel b : stored [] rel b = Some b.
Proof. reflexivity. Qed.

(* with the hash comparison a SUCCESSFUL restore loop has seen only intact copies: it is the restore loop of the
   intact store *)
Lemma apply_all_st_verified_ok st : forall ck f f', apply_all_st true st f ck = (f', None) -> apply_all f ck = (f', None).
Proof.
  induction ck as [|e r IH]; intros f f' H; [exact H|]. cbn [apply_all_st] in H. cbn [apply_all].
  destruct (apply_one_st true st f e) as [f1 er] eqn:E1. destruct er as [x|]; [discriminate|].
  assert (E1' : apply_one f e = (f1, None)).
  { destruct e as [rel [b|]]; unfold apply_one_st in E1; cbn [fst snd] in E1; [|exact E1].
    destruct (stored st rel b) as [b'|]; [|discriminate]. cbn [andb] in E1.
    destruct (lN_eqb b' b) eqn:Eb; cbn [negb] in E1; [|discriminate]. apply lN_eqb_spec in Eb. subst b'. exact E1. }
  rewrite E1'. apply IH. exact H.
Qed.

Lemma rewind_st_verified_ok st f ck f3 : rewind_st true st f ck = (f3, None) -> rewind f ck = (f3, None).
Proof.
  unfold rewind_st, rewind. destruct (map_res (save_one f) (map fst ck)) as [snap|x]; [|discriminate].
  destruct (apply_all_st true st f ck) as [f1 [x|]] eqn:Ea; [discriminate|].
  rewrite (apply_all_st_verified_ok _ _ _ _ Ea). trivial.
Qed.

(* `rewind_st false` (the recorded hash is never looked at, finding S10i): a stored copy overwritten through the write
   tool is restored as if it were the checkpointed content, and the rewind reports success; `rewind_st true` fails on
   the first entry, before anything is written *)
Definition s_later : fs := [([m_a], File (bs "a1"%string))].
Definition s_ck : list entry := [(m_a, Some (bs "a0"%string))].
Definition s_store : store := [(m_a, Some (bs "forged"%string))].
Definition s_forged : fs := [([m_a], File (bs "forged"%string))].
Lemma unverified_restores_forged :
  create m_f0 w_root [m_a] = Ok s_ck /\ sane_b s_later = true
  /\ rewind_st false s_store s_later s_ck = (s_forged, None)
  /\ os_read s_forged (tgt_of m_a) = Ok (bs "forged"%string)
  /\ exists e, rewind_st true s_store s_later s_ck = (s_later, Some e).
Proof. repeat split; try (vm_compute; reflexivity). exists EINVALDATA. vm_compute. reflexivity. Qed.

Lemma rewind_store_unverified_refuted :
  exists f root raws ck st f2 f3 rel b b',
    create f root raws = Ok ck /\ sane_b f2 = true /\ rewind_st false st f2 ck = (f3, None)
    /\ In (rel, Some b) ck /\ os_read f3 (tgt_of rel) = Ok b' /\ b' <> b.
Proof.
  exists m_f0, w_root, [m_a], s_ck, s_store, s_later, s_forged, m_a, (bs "a0"%string), (bs "forged"%string).
  destruct unverified_restores_forged as (A & B & C & D & _).
  repeat split; try assumption; [left; reflexivity|discriminate].
Qed.
