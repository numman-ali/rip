(* C12 — concrete instances showing that the hypotheses of the theorems in Props/C12.v are satisfiable
   by non-trivial inputs (all by computation). *)
From RipV Require Import Base.Prelude Base.Fs Model.Patch Proofs.FsProofs Proofs.PatchProofs Proofs.PatchAtomic Proofs.PatchText.
Require Import Coq.Strings.String.
Open Scope N_scope.
Open Scope list_scope.

(* a workspace with a CRLF file and a nested file; a patch that updates+moves, adds and deletes *)
Definition ex_fs : fs :=
  [([bs "a.txt"], File (bs "one" ++ [13; 10] ++ bs "two" ++ [13; 10]));
   ([bs "d"], Dir); ([bs "d"; bs "x.txt"], File (bs "x" ++ [10]))].
Definition ex_patch_ok : list N :=
  nl_join [bs "*** Begin Patch"; bs "*** Update File: a.txt"; bs "*** Move to: n/b.txt"; bs "@@"; bs "-one"; bs "+ONE";
           bs "*** Add File: a.txt"; bs "+again"; bs "*** Delete File: d/x.txt"; bs "*** End Patch"].
Definition ex_after_ok : fs :=
  [([bs "a.txt"], File (bs "again" ++ [10]));
   ([bs "n"; bs "b.txt"], File (bs "ONE" ++ [13; 10] ++ bs "two" ++ [13; 10]));
   ([bs "n"], Dir); ([bs "d"], Dir)].
Definition ex_changed : list (list N) := [bs "a.txt"; bs "d/x.txt"; bs "n/b.txt"].

Lemma ex_wf : wf_fsb ex_fs = true. Proof. vm_compute. reflexivity. Qed.
Lemma ex_ok_run : apply_patch true [] ex_fs ex_patch_ok = Applied ex_after_ok ex_changed.
Proof. vm_compute. reflexivity. Qed.

(* the same operations followed by one that cannot be performed: everything is rolled back, the
   directory n created on the way stays *)
Definition ex_patch_fail : list N :=
  nl_join [bs "*** Begin Patch"; bs "*** Update File: a.txt"; bs "*** Move to: n/b.txt"; bs "@@"; bs "-one"; bs "+ONE";
           bs "*** Add File: a.txt"; bs "+again"; bs "*** Delete File: d/x.txt";
           bs "*** Update File: n/b.txt"; bs "@@"; bs "-not there"; bs "+x"; bs "*** End Patch"].
Definition ex_after_fail : fs :=
  [([bs "a.txt"], File (bs "one" ++ [13; 10] ++ bs "two" ++ [13; 10]));
   ([bs "d"; bs "x.txt"], File (bs "x" ++ [10]));
   ([bs "n"], Dir); ([bs "d"], Dir)].
Lemma ex_fail_run : apply_patch true [] ex_fs ex_patch_fail = Failed ex_after_fail EINVALDATA.
Proof. vm_compute. reflexivity. Qed.

Definition ex_bad_patch : list N := nl_join [bs "*** Begin Patch"; bs "*** Add File: ../x"; bs "+1"; bs "*** End Patch"].
Lemma ex_malformed : parse_patch ex_bad_patch = None.
Proof. vm_compute. reflexivity. Qed.
Lemma ex_parsed : exists ops, parse_patch ex_patch_ok = Some ops /\ List.length ops = 3%nat.
Proof. eexists. split; [vm_compute; reflexivity|reflexivity]. Qed.

Definition ex_lines : list line := [bs "a"; bs "b"; bs "a"; bs "b"; bs "c"].
Definition ex_h1 : hunk := {| h_before := [bs "a"; bs "b"]; h_after := [bs "A"] |}.
Definition ex_hunks_result : list line := [bs "A"; bs "A"; bs "c"].
Lemma ex_hunks_run : apply_hunks_lines ex_lines 0 [ex_h1; ex_h1] = Some ex_hunks_result.
Proof. vm_compute. reflexivity. Qed.
Lemma ex_hunks_fail : apply_hunks_lines ex_lines 0 [ex_h1; ex_h1; ex_h1] = None.
Proof. vm_compute. reflexivity. Qed.
Definition ex_lf_in : list N := bs "a" ++ [10] ++ bs "b" ++ [10].
Definition ex_lf_hunk : hunk := {| h_before := [bs "b"]; h_after := [bs "B"; bs "C"] |}.
Definition ex_lf_out : list N := bs "a" ++ [10] ++ bs "B" ++ [10] ++ bs "C" ++ [10].
Lemma ex_text_lf : apply_hunks_to_text ex_lf_in [ex_lf_hunk] = Some ex_lf_out.
Proof. vm_compute. reflexivity. Qed.
