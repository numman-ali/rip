(* C04 — the constants of Model/Cache.v's queries (k_gen) and the termination theorems of TailLoopProofs for the
   five loops, as tools/gen/tail_loops.py read them from /repo's current source (Gen/TailLoops.v is regenerated on
   every ./check run; its obligation gen_tail_loops_wf is what these instances rest on).  The transparency theorem
   of CacheProofs is instantiated with k_gen where it is stated (Props/C04.v). *)
From RipV Require Import Base.Prelude Model.TailLoop Model.Cache Proofs.TailLoopProofs Proofs.CacheProofs Gen.TailLoops.

Definition k_gen : consts :=
  {| k_loops := gen_loops; k_max_keys := gen_cursor_max_keys;
     k_inflight_events := gen_inflight_events; k_inflight_bytes := gen_inflight_bytes;
     k_ckpt_events := gen_ckpt_events; k_ckpt_bytes := gen_ckpt_bytes |}.

(* every tail-doubling loop of the current source leaves, whatever the sidecar holds *)
Theorem gen_loops_terminate :
  forall c, In c gen_loops ->
  forall (E A : Type) (scan : N -> N -> sres E) (acc0 : A) (examine : A -> list E -> A) (done : A -> bool),
  exists fin, run_loop c scan acc0 examine done = Some fin.
Proof.
  intros c Hin E A scan acc0 examine done.
  destruct (loop_wf_parts c (proj1 (forallb_forall _ _) gen_tail_loops_wf c Hin)) as (Hc & _ & _ & Hp).
  exact (run_loop_some c scan acc0 examine done Hc Hp).
Qed.

Theorem gen_loops_rounds :
  forall c, In c gen_loops -> (rounds_bound c (l_initial c) <= 6)%nat.
Proof.
  intros c Hin. cbn [gen_loops In] in Hin.
  repeat (destruct Hin as [<-|Hin]; [vm_compute; lia|]). destruct Hin.
Qed.
