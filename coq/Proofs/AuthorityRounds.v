(* C18 — recovery under a FAIR schedule of several contenders: rounds.
   A round is a piece of schedule in which EVERY contender takes at least one step (any order, any multiplicity).  From every
   all-dead leftover, any number of server loops, every calm schedule (crash-free, dead endpoint unreachable, deadlines not
   passed, 1 s timer expired) made of 15 rounds contains a point at which an authority holds the store.
   Proof: a rank (the minimum, over the contenders, of the number of own steps a contender still needs to reach the next
   event that changes the phase: rename of the leftover lock, exclusive create, record write) that no step increases and every
   round decreases. *)
From RipV Require Import Base.Prelude Model.Authority Proofs.AuthorityInv Proofs.AuthorityLive Proofs.AuthorityFair.

Definition meta_is (m : metaf) (p : pid) : bool := match m with MRec x => x =? p | MAbsent => false end.
(* program counters possible while the dead leftover lock l is still at the path *)
Definition phase_pc (l : lockf) (m : metaf) (k : pc) : bool :=
  match l with
  | LRec d => match k with
              | AcqCreate | RdMeta | Ping _ | RdLock => true
              | Live p | StExists p | StReread p | StRename p => p =? d
              | _ => false
              end
  | LHalf _ => match k with
               | AcqCreate | RdMeta | Ping _ | RdLock | CoExists | CoMetaExists | CoRename => true
               | CoRdMeta => match m with MRec _ => true | MAbsent => false end
               | CoLive p => meta_is m p
               | _ => false
               end
  | LAbsent => false
  end.

(* own steps of a server loop, endpoint silent and timer expired, to its next phase-changing operation, read off server_next.
   d_abs: no lock at the path, to the exclusive create (from the read loop, from the tail of a stale cleanup, from a corrupt
   cleanup that finds the lock gone).  d_rec: a stale record, to the rename of the stale cleanup.  d_half: a half-written
   lock, to the rename of the corrupt cleanup.  50 marks a pc that is on no such path. *)
Definition d_abs (k : pc) : nat :=
  match k with
  | AcqCreate => 0 | RdLock => 1 | Ping _ => 2 | RdMeta => 3 | StMetaRename _ => 1 | StRdMeta _ => 2
  | CoExists => 1 | CoRename => 1 | CoLive _ => 2 | CoRdMeta => 3 | CoMetaExists => 4 | _ => 50
  end.
Definition d_rec (k : pc) : nat :=
  match k with
  | StRename _ => 0 | StReread _ => 1 | StExists _ => 2 | Live _ => 3 | RdLock => 4 | Ping _ => 5 | RdMeta => 6
  | AcqCreate => 7 | _ => 50
  end.
Definition d_half (k : pc) : nat :=
  match k with
  | CoRename => 0 | CoLive _ => 1 | CoRdMeta => 2 | CoMetaExists => 3 | CoExists => 4 | RdLock => 5 | Ping _ => 6
  | RdMeta => 7 | AcqCreate => 8 | _ => 50
  end.
(* own steps to the next phase-changing event; a contender between create and write is one step from the guard.  The 6 added
   under a leftover lock exceeds the rank a contender has right after its rename (at most 3, micro_phase), so the rename
   lowers the rank as well. *)
Definition rk (l : lockf) (k : pc) : nat :=
  match k with
  | AcqWrite => 0
  | _ => match l with LAbsent => 1 + d_abs k | LRec _ => 6 + d_rec k | LHalf _ => 6 + d_half k end
  end.

(* 1000: the minimum of no contenders, above every rk *)
Fixpoint minl (l : list nat) : nat :=
  match l with [] => 1000 | x :: r => Nat.min x (minl r) end.
Definition rank (s : state) : nat := minl (map (fun q => rk (s_lock s) (p_pc q)) (s_procs s)).

(* while the dead leftover lock is untouched every contender is at a pc of its phase *)
Definition Ph (s : state) : Prop :=
  lock_free (s_procs s) (s_lock s) -> s_lock s <> LAbsent ->
  forall q, In q (s_procs s) -> phase_pc (s_lock s) (s_meta s) (p_pc q) = true.

(* calm_ev and the 1 s timer has expired (fairness itself is covers / rounds_of) *)
Definition fair_ev (e : event) : bool :=
  match e with Step _ o => negb (o_reach o) && negb (o_deadline o) && o_grace o | Crash _ => false end.

(* under an untouched dead leftover a step moves its contender one step down its path, or renames the lock *)
Lemma micro_phase s o q s' q' :
  plocal q -> o_reach o = false -> o_deadline o = false -> o_grace o = true ->
  lock_free (s_procs s) (s_lock s) -> meta_free (s_procs s) (s_meta s) -> s_lock s <> LAbsent ->
  phase_pc (s_lock s) (s_meta s) (p_pc q) = true ->
  micro true s o q = (s', q') ->
  (s_lock s' = s_lock s /\ s_meta s' = s_meta s /\ phase_pc (s_lock s) (s_meta s) (p_pc q') = true
   /\ (rk (s_lock s) (p_pc q') < rk (s_lock s) (p_pc q))%nat)
  \/ (s_lock s' = LAbsent /\ (rk LAbsent (p_pc q') <= 3)%nat).
Proof.
  intros [Ha [Hg Hd Hp]] Hr Hdl Hgr Hlf Hmf Hne Hph.
  destruct s as [l m t ps tl tm], q as [me al g d k last].
  cbn [s_lock s_meta s_tmp s_procs p_guard p_drv p_pc] in *. subst g d.
  unfold micro, ret, goto, set_files, lock_free, meta_free in *.
  cbn [s_lock s_meta s_tmp s_procs s_took_lock s_took_meta p_pc p_pid p_guard p_drv].
  destruct l as [|c|c]; [congruence| |]; pose proof (Hlf c eq_refl) as Hc; cbn [lock_pid] in Hc;
    (destruct m as [|mp]; [|pose proof (Hmf mp eq_refl) as Hmp; cbn [meta_pid] in Hmp]);
    destruct k; cbn [phase_pc meta_is] in Hph; try discriminate; eqbs;
    cbn [server_next]; unfold grace_fires; rewrite ?Hr, ?Hdl, ?Hgr, ?Hc, ?Hmp, ?N.eqb_refl;
    cbn [andb orb negb];
    repeat match goal with |- context [if ?c then _ else _] => destruct c eqn:? end;
    intros [= <- <-]; cbn [s_lock s_meta p_pc];
    first [ left; split; [reflexivity|]; split; [reflexivity|]; split;
            [cbn [phase_pc meta_is]; rewrite ?N.eqb_refl; reflexivity | apply Nat.ltb_lt; reflexivity]
          | right; split; [reflexivity | apply Nat.leb_le; reflexivity] ].
Qed.

(* with no lock at the path a step never raises its contender's distance, lowers it on a way to the create, or creates *)
Lemma micro_abs s o q s' q' :
  plocal q -> p_pc q <> AcqWrite -> o_reach o = false -> o_deadline o = false -> s_lock s = LAbsent ->
  micro true s o q = (s', q') ->
  (s_lock s' = LAbsent /\ (rk LAbsent (p_pc q') <= rk LAbsent (p_pc q))%nat
   /\ (good_absent (p_pc q) = true -> (rk LAbsent (p_pc q') < rk LAbsent (p_pc q))%nat))
  \/ p_pc q' = AcqWrite.
Proof.
  intros [Ha [Hg Hd Hp]] Hnw Hr Hdl Hl.
  destruct s as [l m t ps tl tm], q as [me al g d k last].
  cbn [s_lock s_meta s_tmp s_procs p_guard p_drv p_pc] in *. subst l g d.
  unfold micro, ret, goto, set_files.
  cbn [s_lock s_meta s_tmp s_procs s_took_lock s_took_meta p_pc p_pid p_guard p_drv].
  destruct k; cbn [pre_pc] in Hp; try discriminate; try congruence; cbn [server_next]; rewrite ?Hr, ?Hdl;
    repeat match goal with |- context [match ?x with _ => _ end] => destruct x eqn:? end;
    intros [= <- <-]; cbn [s_lock p_pc];
    first [ right; reflexivity
          | left; split; [reflexivity|]; split;
            [apply Nat.leb_le; reflexivity | cbn [good_absent]; intros G; first [discriminate G | apply Nat.ltb_lt; reflexivity]] ].
Qed.

Lemma minl_le_in f (ps : list proc) x : In x ps -> (minl (map f ps) <= f x)%nat.
Proof.
  induction ps as [|y r IH]; intros Hin; [contradiction|]. cbn [map minl].
  destruct Hin as [->|Hin]; [lia|]. specialize (IH Hin). lia.
Qed.
Lemma minl_ge f (ps : list proc) m : (m <= 1000)%nat -> (forall x, In x ps -> (m <= f x)%nat) -> (m <= minl (map f ps))%nat.
Proof.
  intros Hm. induction ps as [|y r IH]; intros H; cbn [map minl]; [exact Hm|].
  pose proof (H y (or_introl eq_refl)). assert (m <= minl (map f r))%nat by (apply IH; intros x Hx; apply H; right; exact Hx). lia.
Qed.
Lemma minl_attained f (ps : list proc) :
  (forall x, (f x <= 1000)%nat) -> ps <> [] -> exists i x, nth_error ps i = Some x /\ f x = minl (map f ps).
Proof.
  intros Hb. induction ps as [|y r IH]; intros Hne; [congruence|]. cbn [map minl].
  destruct r as [|z r'].
  - exists 0%nat, y. split; [reflexivity|]. cbn [map minl]. pose proof (Hb y). lia.
  - destruct (IH ltac:(discriminate)) as [i [x [Hi Hx]]].
    destruct (Nat.le_gt_cases (f y) (minl (map f (z :: r')))) as [Hle|Hgt].
    + exists 0%nat, y. split; [reflexivity|]. lia.
    + exists (S i), x. split; [exact Hi|]. lia.
Qed.

Lemma minl_upd_le f (ps : list proc) i q q' :
  nth_error ps i = Some q -> (f q' <= f q)%nat -> (minl (map f (upd ps i q')) <= minl (map f ps))%nat.
Proof.
  revert i. induction ps as [|y r IH]; intros [|i] Hn Hle; cbn in Hn; try discriminate; cbn [upd map minl].
  - inversion Hn; subst. lia.
  - specialize (IH i Hn Hle). lia.
Qed.

Lemma rk_bound l k : (rk l k <= 1000)%nat.
Proof. apply (Nat.le_trans _ 56); [destruct k, l; apply Nat.leb_le; reflexivity | lia]. Qed.
Lemma rk_zero l k : rk l k = 0%nat -> k = AcqWrite.
Proof. destruct k; try reflexivity; destruct l; cbn; lia. Qed.
Lemma rk_pos l k : k <> AcqWrite -> (1 <= rk l k)%nat.
Proof. intros H. destruct k; try congruence; destruct l; cbn; lia. Qed.
Lemma rk_leftover l k : l <> LAbsent -> k <> AcqWrite -> (6 <= rk l k)%nat.
Proof. intros Hl Hk. destruct k; try congruence; destruct l; try congruence; cbn; lia. Qed.
Lemma rk_good k : k <> AcqWrite -> (rk LAbsent k < 50)%nat -> good_absent k = true.
Proof. intros Hk. destruct k; try congruence; cbn; intros; first [reflexivity | lia]. Qed.
Lemma phase_not_write l m k : phase_pc l m k = true -> k <> AcqWrite.
Proof. intros H ->. destruct l; cbn in H; discriminate. Qed.

(* the invariant of the rank argument *)
Definition K (s : state) : Prop := J s /\ Ph s.

Lemma rank_le_in s x : In x (s_procs s) -> (rank s <= rk (s_lock s) (p_pc x))%nat.
Proof. intros H. unfold rank. apply (minl_le_in (fun q => rk (s_lock s) (p_pc q))). exact H. Qed.

(* one step: an authority, or K is kept and the rank does not rise; it falls below the stepping contender's old distance;
   unless the rank is 0 or falls, the lock is unchanged, so every other contender's distance stays what it was (what track
   needs to follow one contender); and the other processes are untouched *)
Lemma step_K s i o q :
  K s -> o_reach o = false -> o_deadline o = false -> o_grace o = true ->
  nth_error (s_procs s) i = Some q ->
  holders (step true s (Step i o)) <> []
  \/ (K (step true s (Step i o))
      /\ (rank (step true s (Step i o)) <= rank s)%nat
      /\ ((rk (s_lock s) (p_pc q) < 50)%nat -> (rank (step true s (Step i o)) < rk (s_lock s) (p_pc q))%nat)
      /\ (rank s = 0%nat \/ (rank (step true s (Step i o)) < rank s)%nat
          \/ s_lock (step true s (Step i o)) = s_lock s)
      /\ (forall j x, j <> i -> nth_error (s_procs s) j = Some x ->
            nth_error (s_procs (step true s (Step i o))) j = Some x)).
Proof.
  intros [Hj Hph] Hr Hdl Hgr Hq.
  destruct (step_J s i o Hj Hr Hdl) as [Hj'|Hh]; [|left; exact Hh].
  assert (Hinq : In q (s_procs s)) by (eapply nth_error_In; exact Hq).
  pose proof (J_procs _ Hj q Hinq) as Hpl.
  revert Hj'.
  destruct (step_cases true s (Step i o)) as [_ Hidle | ? ? q0 s1 q1 [= <- <-] Hq0 Ha HM Epid Eal Eps -> | ? ? [=]]; intros Hj'.
  { pose proof (PL_alive _ Hpl) as Ha. rewrite (Hidle i o q eq_refl Hq) in Ha. discriminate. }
  rewrite Hq in Hq0. injection Hq0 as <-.
  destruct (pc_eq_dec_acqwrite (p_pc q)) as [Hw|Hnw]; [left; exact (write_holds _ _ _ _ _ _ Hq Ha HM Hw)|].
  right.
  destruct (micro_pre s o q s1 q1 Hpl Hnw Hr Hdl HM) as [Hpl1 [Hmeta [Hlock _]]].
  set (s' := with_procs s1 (upd (s_procs s) i q1)) in *.
  assert (Hps' : s_procs s' = upd (s_procs s) i q1) by reflexivity.
  assert (Hl' : s_lock s' = s_lock s1) by reflexivity.
  assert (Hm' : s_meta s' = s_meta s1) by reflexivity.
  assert (Hq1 : In q1 (s_procs s')) by (rewrite Hps'; eapply in_upd_self; exact Hq).
  assert (Hal : forall p, pid_alive (s_procs s') p = pid_alive (s_procs s) p).
  { intros p. rewrite Hps'. apply (pid_alive_upd_eq _ _ _ _ _ Hq Epid Eal). }
  assert (Hoth : forall j x, j <> i -> nth_error (s_procs s) j = Some x -> nth_error (s_procs s') j = Some x).
  { intros j x Hne Hx. rewrite Hps', upd_nth. destruct (Nat.eqb i j) eqn:E; [apply Nat.eqb_eq in E; congruence | exact Hx]. }
  assert (Hrk0 : (1 <= rk (s_lock s) (p_pc q))%nat) by (apply rk_pos; exact Hnw).
  (* the phase invariant is kept *)
  assert (HPh' : Ph s').
  { intros Hlf' Hne' x Hx.
    destruct Hlock as [Hsame | [[Habs [Hcw Hhalf]] | [_ [Hnew _]]]].
    - rewrite Hl', Hsame in *. 
      assert (Hlf : lock_free (s_procs s) (s_lock s)) by (intros p Hp; rewrite <- Hal; apply Hlf'; exact Hp).
      pose proof (Hph Hlf Hne') as Hall.
      destruct (micro_phase s o q s1 q1 Hpl Hr Hdl Hgr Hlf (J_meta _ Hj) Hne' (Hall q Hinq) HM)
        as [[_ [Hms [Hp1 _]]] | [Habs _]]; [|congruence].
      rewrite Hm', Hms. rewrite Hps' in Hx. destruct (in_upd_cases _ _ _ _ _ Hq Hx) as [->|Hin]; [exact Hp1 | apply Hall; exact Hin].
    - exfalso. rewrite Hl', Hhalf in Hlf'.
      specialize (Hlf' (p_pid q) eq_refl). rewrite Hal in Hlf'.
      rewrite (pid_alive_self _ q Hinq (PL_alive _ Hpl)) in Hlf'. discriminate.
    - congruence. }
  split; [split; assumption|].
  destruct (Nat.eq_dec (rank s) 0) as [Hz|Hnz].
  - (* somebody is between create and write, and it is not the stepping process: it stays there *)
    assert (Hne : s_procs s <> []) by (intros E; rewrite E in Hinq; contradiction).
    destruct (minl_attained (fun x => rk (s_lock s) (p_pc x)) (s_procs s) (fun x => rk_bound _ _) Hne) as [j [x [Hx Hmin]]].
    fold (rank s) in Hmin. rewrite Hz in Hmin. apply rk_zero in Hmin.
    assert (Hji : j <> i) by (intros ->; congruence).
    assert (Hx' : In x (s_procs s')) by (eapply nth_error_In; apply (Hoth j x Hji Hx)).
    assert (Hr0 : rank s' = 0%nat).
    { pose proof (rank_le_in s' x Hx') as Hle. rewrite Hmin in Hle. cbn [rk] in Hle. lia. }
    split; [lia|]. split; [intros _; lia|]. split; [left; exact Hz | exact Hoth].
  - (* nobody is between create and write *)
    assert (HnoW : forall x, In x (s_procs s) -> p_pc x <> AcqWrite).
    { intros x Hx Hw. pose proof (rank_le_in s x Hx) as Hle. rewrite Hw in Hle. cbn [rk] in Hle. lia. }
    destruct (J_good _ Hj) as [[w [Hw Hwpc]] | [[Hlf [Hne [Hnn _]]] | [Hla _]]].
    + exfalso. exact (HnoW w Hw Hwpc).
    + (* the dead leftover is at the path *)
      pose proof (Hph Hlf Hne) as Hall.
      assert (Hr6 : (6 <= rank s)%nat).
      { unfold rank. apply minl_ge; [lia|]. intros x Hx. apply rk_leftover; [exact Hne | apply HnoW; exact Hx]. }
      destruct (micro_phase s o q s1 q1 Hpl Hr Hdl Hgr Hlf (J_meta _ Hj) Hne (Hall q Hinq) HM)
        as [[Hls [Hms [Hp1 Hlt]]] | [Habs Hle3]].
      * assert (Hle : (rank s' <= rank s)%nat).
        { unfold rank. rewrite Hl', Hls, Hps'. apply (minl_upd_le (fun x => rk (s_lock s) (p_pc x)) _ _ q q1 Hq). lia. }
        split; [exact Hle|]. split.
        -- intros _. pose proof (rank_le_in s' q1 Hq1) as H1. rewrite Hl', Hls in H1. lia.
        -- split; [right; right; rewrite Hl'; exact Hls | exact Hoth].
      * pose proof (rank_le_in s' q1 Hq1) as H1. rewrite Hl', Habs in H1.
        pose proof (rk_leftover (s_lock s) (p_pc q) Hne Hnw).
        split; [lia|]. split; [intros _; lia|]. split; [right; left; lia | exact Hoth].
    + (* no lock at the path *)
      destruct (micro_abs s o q s1 q1 Hpl Hnw Hr Hdl Hla HM) as [[Hls [Hle Hlt]] | Hcw].
      * assert (Hle' : (rank s' <= rank s)%nat).
        { unfold rank. rewrite Hl', Hls, Hla, Hps'. apply (minl_upd_le (fun x => rk LAbsent (p_pc x)) _ _ q q1 Hq). exact Hle. }
        split; [exact Hle'|]. split.
        -- rewrite Hla. intros H50. pose proof (rank_le_in s' q1 Hq1) as H1. rewrite Hl', Hls in H1.
           specialize (Hlt (rk_good _ Hnw H50)). lia.
        -- split; [right; right; rewrite Hl', Hls, Hla; reflexivity | exact Hoth].
      * pose proof (rank_le_in s' q1 Hq1) as H1. rewrite Hcw in H1. cbn [rk] in H1.
        split; [lia|]. split; [intros _; lia|]. split; [right; left; lia | exact Hoth].
Qed.

Definition fair (r : list event) : bool := forallb fair_ev r.

Lemma fair_ev_bits e : fair_ev e = true ->
  exists i o, e = Step i o /\ o_reach o = false /\ o_deadline o = false /\ o_grace o = true.
Proof.
  destruct e as [i o|i]; cbn [fair_ev]; [|discriminate]. intros H.
  apply andb_true_iff in H. destruct H as [H Hg]. apply andb_true_iff in H. destruct H as [Hr Hd].
  apply negb_true_iff in Hr, Hd. exists i, o. auto.
Qed.

Lemma step_none s i o : nth_error (s_procs s) i = None -> step true s (Step i o) = s.
Proof. intros H. cbn [step]. rewrite H. reflexivity. Qed.

Lemma run_cons ag s e r : run ag s (e :: r) = run ag (step ag s e) r.
Proof. reflexivity. Qed.

(* no step increases the rank *)
Lemma mono r : forall s, K s -> fair r = true ->
  held s r \/ (K (run true s r) /\ (rank (run true s r) <= rank s)%nat).
Proof.
  induction r as [|e r IH]; intros s Hk Hf; [right; split; [exact Hk | cbn; lia]|].
  cbn [fair forallb] in Hf. apply andb_true_iff in Hf. destruct Hf as [He Hf].
  destruct (fair_ev_bits e He) as [i [o [-> [Hr [Hd Hg]]]]].
  destruct (nth_error (s_procs s) i) as [q|] eqn:Hq.
  - destruct (step_K s i o q Hk Hr Hd Hg Hq) as [Hh | [Hk' [Hle _]]]; [left; apply held_now; exact Hh|].
    destruct (IH _ Hk' Hf) as [H | [Hk2 Hle2]]; [left; apply held_later; exact H|].
    right. rewrite run_cons. split; [exact Hk2 | lia].
  - destruct (IH _ Hk Hf) as [H | H]; [left; apply held_later | right; rewrite run_cons];
      rewrite (step_none s i o Hq); exact H.
Qed.

(* contender i0, whose distance is at most r0, followed through r: the rank has fallen below r0 or i0 has not stepped *)
Definition tracked (i0 r0 : nat) (s : state) (r : list event) : Prop :=
  K (run true s r) /\ (rank (run true s r) <= r0)%nat
  /\ ((rank (run true s r) < r0)%nat \/ (forall o, ~ In (Step i0 o) r)).

Lemma tracked_other i0 r0 s i o r : i <> i0 ->
  held (step true s (Step i o)) r \/ tracked i0 r0 (step true s (Step i o)) r ->
  held s (Step i o :: r) \/ tracked i0 r0 s (Step i o :: r).
Proof.
  intros Hne [H | [Hk [Hle Hor]]]; [left; apply held_later; exact H|].
  right. split; [exact Hk|]. split; [exact Hle|].
  destruct Hor as [Hlt|Hnot]; [left; exact Hlt|]. right. intros o' [E|Hin]; [inversion E; congruence | exact (Hnot o' Hin)].
Qed.

Lemma track r : forall s, K s -> forall i0 x0 r0,
  nth_error (s_procs s) i0 = Some x0 -> (rk (s_lock s) (p_pc x0) <= r0)%nat -> (r0 < 50)%nat ->
  fair r = true -> held s r \/ tracked i0 r0 s r.
Proof.
  induction r as [|e r IH]; intros s Hk i0 x0 r0 Hx Hv H50 Hf;
    assert (Hrk : (rank s <= r0)%nat) by (pose proof (rank_le_in s x0 (nth_error_In _ _ Hx)); lia).
  { right. split; [exact Hk|]. split; [exact Hrk|]. right. intros o []. }
  cbn [fair forallb] in Hf. apply andb_true_iff in Hf. destruct Hf as [He Hf].
  destruct (fair_ev_bits e He) as [i [o [-> [Hr [Hd Hg]]]]].
  destruct (nth_error (s_procs s) i) as [q|] eqn:Hq.
  - destruct (step_K s i o q Hk Hr Hd Hg Hq) as [Hh | [Hk' [Hle [Hown [Ht2 Hoth]]]]]; [left; apply held_now; exact Hh|].
    set (s' := step true s (Step i o)) in *.
    assert (Hstrict : (rank s' < r0)%nat -> held s (Step i o :: r) \/ tracked i0 r0 s (Step i o :: r)).
    { intros Hlt. destruct (mono r s' Hk' Hf) as [H | [Hk2 Hle2]]; [left; apply held_later; exact H|].
      right. unfold tracked. rewrite run_cons. fold s'. split; [exact Hk2|]. split; [lia | left; lia]. }
    destruct (Nat.eq_dec i i0) as [->|Hne].
    + (* the followed contender steps *)
      rewrite Hx in Hq. inversion Hq; subst q. apply Hstrict. specialize (Hown ltac:(lia)). lia.
    + pose proof (Hoth i0 x0 ltac:(congruence) Hx) as Hx'.
      destruct (Nat.eq_dec r0 0) as [Hz|Hnz].
      * (* it is between create and write: one step from the guard whatever the others do *)
        assert (Hw : p_pc x0 = AcqWrite) by (apply (rk_zero (s_lock s)); lia).
        apply tracked_other; [exact Hne|].
        apply (IH s' Hk' i0 x0 r0 Hx'); [rewrite Hw; cbn [rk]; lia | exact H50 | exact Hf].
      * destruct Ht2 as [Hz | [Hlt | Hsame]]; [apply Hstrict; lia | apply Hstrict; lia |].
        apply tracked_other; [exact Hne|].
        apply (IH s' Hk' i0 x0 r0 Hx'); [rewrite Hsame; exact Hv | exact H50 | exact Hf].
  - apply tracked_other; [intros ->; congruence|]. rewrite (step_none s i o Hq).
    exact (IH s Hk i0 x0 r0 Hx Hv H50 Hf).
Qed.

(* every contender steps at least once *)
Definition covers (n : nat) (r : list event) : Prop := forall j, (j < n)%nat -> exists o, In (Step j o) r.

Lemma K_rank_small s : K s -> (rank s < 50)%nat.
Proof.
  intros [Hj Hph]. destruct (J_good _ Hj) as [[w [Hw Hwpc]] | [[Hlf [Hne [Hnn _]]] | [Hla [w [Hw Hg]]]]].
  - pose proof (rank_le_in s w Hw) as H. rewrite Hwpc in H. cbn [rk] in H. lia.
  - destruct (s_procs s) as [|w r] eqn:E; [congruence|].
    assert (Hw : In w (s_procs s)) by (rewrite E; left; reflexivity).
    pose proof (rank_le_in s w Hw) as H.
    assert (Hp : phase_pc (s_lock s) (s_meta s) (p_pc w) = true) by (apply Hph; [rewrite E; exact Hlf | exact Hne | exact Hw]).
    revert H Hp. destruct (s_lock s); destruct (p_pc w); cbn; intros; try discriminate; lia.
  - pose proof (rank_le_in s w Hw) as H. rewrite Hla in H. revert H Hg. destruct (p_pc w); cbn; intros; try discriminate; lia.
Qed.

Lemma step_length s e : length (s_procs (step true s e)) = length (s_procs s).
Proof.
  assert (Hu : forall (l : list proc) i x, length (upd l i x) = length l).
  { induction l as [|y l IH]; intros [|i] x; cbn; auto. }
  destruct (step_cases true s e) as [-> _ | i o q s1 q1 _ _ _ _ _ _ _ -> | i q _ _ ->]; [reflexivity | apply Hu | apply Hu].
Qed.
Lemma run_length r : forall s, length (s_procs (run true s r)) = length (s_procs s).
Proof. induction r as [|e r IH]; intros s; [reflexivity|]. rewrite run_cons, IH. apply step_length. Qed.

(* a round decreases the rank *)
Lemma round_progress s r :
  K s -> fair r = true -> covers (length (s_procs s)) r ->
  held s r \/ (K (run true s r) /\ (rank (run true s r) < rank s)%nat).
Proof.
  intros Hk Hf Hc.
  assert (Hne : s_procs s <> []).
  { destruct Hk as [Hj _]. destruct (J_good _ Hj) as [[w [Hw _]] | [[_ [_ [Hnn _]]] | [_ [w [Hw _]]]]]; try exact Hnn;
      intros E; rewrite E in Hw; contradiction. }
  destruct (minl_attained (fun x => rk (s_lock s) (p_pc x)) (s_procs s) (fun x => rk_bound _ _) Hne) as [i0 [x0 [Hx Hmin]]].
  fold (rank s) in Hmin.
  destruct (track r s Hk i0 x0 (rank s) Hx ltac:(lia) (K_rank_small s Hk) Hf)
    as [H | [Hk' [Hle [Hlt | Hnot]]]]; [left; exact H | right; split; assumption |].
  exfalso. assert (Hi : (i0 < length (s_procs s))%nat) by (apply nth_error_Some; congruence).
  destruct (Hc i0 Hi) as [o Ho]. exact (Hnot o Ho).
Qed.

Inductive rounds_of (n : nat) : list (list event) -> Prop :=
 | rounds_nil : rounds_of n []
 | rounds_cons r rs : fair r = true -> covers n r -> rounds_of n rs -> rounds_of n (r :: rs).

Lemma rounds_progress rs : forall s,
  K s -> rounds_of (length (s_procs s)) rs ->
  held s (concat rs) \/ (K (run true s (concat rs)) /\ (rank (run true s (concat rs)) + length rs <= rank s)%nat).
Proof.
  induction rs as [|r rs IH]; intros s Hk Hrs; [right; split; [exact Hk | cbn; lia]|].
  inversion Hrs as [|r' rs' Hf Hc Hrest]; subst. cbn [concat]. rewrite run_app.
  destruct (round_progress s r Hk Hf Hc) as [H | [Hk' Hlt]]; [left; apply held_app_l; exact H|].
  destruct (IH (run true s r) Hk' ltac:(rewrite run_length; exact Hrest)) as [H | [Hk2 Hle]].
  - left. apply held_app_r. exact H.
  - right. split; [exact Hk2 | cbn [length]; lia].
Qed.

Lemma init_K l m ps : servers ps -> dead_leftover ps l m -> K (init l m ps) /\ (rank (init l m ps) <= 14)%nat.
Proof.
  intros [Hne Hall] Hd. split; [split|].
  - apply init_J; assumption.
  - intros _ Hnz q Hq. cbn [init s_procs s_lock s_meta] in *. rewrite (Hall q Hq).
    destruct l; [congruence | reflexivity | reflexivity].
  - destruct ps as [|q0 r]; [congruence|].
    pose proof (rank_le_in (init l m (q0 :: r)) q0 (or_introl eq_refl)) as H.
    assert (Hpc : p_pc q0 = AcqCreate) by (rewrite (Hall q0 (or_introl eq_refl)); reflexivity).
    cbn [init s_lock] in H. rewrite Hpc in H. revert H. destruct l; cbn [rk d_abs d_rec d_half]; lia.
Qed.

Theorem recovers_under_fair_rounds l m ps rs :
  servers ps -> dead_leftover ps l m -> rounds_of (length ps) rs -> (15 <= length rs)%nat ->
  exists es1 es2, concat rs = es1 ++ es2 /\ holders (run true (init l m ps) es1) <> [].
Proof.
  intros Hs Hd Hrs Hlen. destruct (init_K l m ps Hs Hd) as [Hk H14].
  destruct (rounds_progress rs (init l m ps) Hk Hrs) as [H | [_ Hle]]; [exact H | lia].
Qed.

(* non-vacuity (and how tight 15 is): two server loops in strict round robin from the stale lock + stale meta of a dead
   authority: 15 rounds are a fair schedule; no authority after 11 rounds, one after 12 *)
Definition rr_round : list event := [Step 0%nat 2; Step 1%nat 2].
Lemma fair_rounds_example :
  servers fair_two /\ dead_leftover fair_two (LRec 900) (MRec 900)
  /\ rounds_of (length fair_two) (repeat rr_round 15) /\ (15 <= length (repeat rr_round 15))%nat
  /\ holders (run true (init (LRec 900) (MRec 900) fair_two) (concat (repeat rr_round 11))) = []
  /\ holders (run true (init (LRec 900) (MRec 900) fair_two) (concat (repeat rr_round 12))) = [1].
Proof.
  split; [split; [discriminate | intros q [<-|[<-|[]]]; reflexivity]|].
  split; [split; intros p Hp; inversion Hp; subst; vm_compute; reflexivity|].
  split.
  - assert (Hr : fair rr_round = true /\ covers 2 rr_round).
    { split; [vm_compute; reflexivity|]. intros j Hj. exists 2.
      destruct j as [|[|j]]; [left; reflexivity | right; left; reflexivity | lia]. }
    destruct Hr as [Hf Hc]. cbn [length fair_two repeat].
    repeat (apply rounds_cons; [exact Hf | exact Hc |]). apply rounds_nil.
  - split; [cbn; lia|]. split; vm_compute; reflexivity.
Qed.
