(* C20 — proofs about Model/Views.v (headless raw and metrics views): each loop passes over a prefix of frames
   other than session_ended ([raw_run_open], [metrics_run_open]); how a view ends follows from one more step. *)
From RipV Require Import Base.Prelude Model.Summary Model.Views.

(* a line that is a frame other than session_ended / a line that is a session_ended frame *)
Definition valid_open (l : line) : bool :=
  match l_frame l with Some f => negb (is_ended (m_kind f)) | None => false end.
Definition valid_end (l : line) : bool :=
  match l_frame l with Some f => is_ended (m_kind f) | None => false end.
Definition not_frame (l : line) : bool := match l_frame l with Some _ => false | None => true end.

Definition echo (ls : list line) : str := concat (map (fun l => l_text l ++ [10]) ls).
Definition frames_of (ls : list line) : list mframe :=
  flat_map (fun l => match l_frame l with Some f => [f] | None => [] end) ls.
Definition msteps (s : mstate) (fs : list mframe) : mstate :=
  fold_left (fun s f => fst (metrics_step s f)) fs s.

(* lines that are frames other than session_ended are echoed and passed over *)
Lemma raw_run_open i pre rest :
  forallb valid_open pre = true ->
  raw_run i (pre ++ rest) = let '(w, e, j) := raw_run (i + nlen pre) rest in (echo pre ++ w, e, j).
Proof.
  revert i; induction pre as [|l pre IH]; intros i Hp.
  - rewrite nlen_nil, N.add_0_r. cbn [app]. destruct (raw_run i rest) as [[w e] j]. reflexivity.
  - cbn [forallb] in Hp. apply andb_true_iff in Hp. destruct Hp as [Hl Hp].
    cbn [app raw_run]. unfold valid_open in Hl. destruct (l_frame l) as [f|]; [|discriminate].
    apply negb_true_iff in Hl. rewrite Hl, (IH (i + 1) Hp), nlen_cons, N.add_assoc.
    destruct (raw_run (i + 1 + nlen pre) rest) as [[w e] j].
    unfold echo. cbn [map concat]. rewrite <- !app_assoc. reflexivity.
Qed.

(* the raw view is the identity on frame lines: what is printed is exactly the lines received, up to and
   including the first session_ended; nothing after it, nothing of a line that is not a frame *)
Theorem raw_view_identity_until_end pre e rest :
  forallb valid_open pre = true -> valid_end e = true ->
  raw_view (pre ++ e :: rest) = (echo (pre ++ [e]), END_STOPPED, nlen pre).
Proof.
  intros Hp He. unfold raw_view. rewrite (raw_run_open 0 pre _ Hp). cbn [raw_run].
  unfold valid_end in He. destruct (l_frame e); [|discriminate]. rewrite He.
  unfold echo. rewrite map_app, concat_app. cbn [map concat]. rewrite app_nil_r. reflexivity.
Qed.

Theorem raw_view_identity_no_end ls :
  forallb valid_open ls = true -> raw_view ls = (echo ls, END_EXHAUSTED, nlen ls).
Proof.
  intros Hp. unfold raw_view. rewrite <- (app_nil_r ls) at 1. rewrite (raw_run_open 0 ls _ Hp).
  cbn [raw_run]. rewrite app_nil_r. reflexivity.
Qed.

Theorem raw_view_refuses_non_frame pre bad rest :
  forallb valid_open pre = true -> not_frame bad = true ->
  raw_view (pre ++ bad :: rest) = (echo pre, END_ERROR, nlen pre).
Proof.
  intros Hp Hb. unfold raw_view. rewrite (raw_run_open 0 pre _ Hp). cbn [raw_run].
  unfold not_frame in Hb. destruct (l_frame bad); [discriminate|]. rewrite app_nil_r. reflexivity.
Qed.

Lemma metrics_step_silent s f : is_ended (m_kind f) = false -> snd (metrics_step s f) = [].
Proof. intros H. unfold metrics_step. cbn [snd]. rewrite H. reflexivity. Qed.

Lemma frames_of_app a b : frames_of (a ++ b) = frames_of a ++ frames_of b.
Proof. unfold frames_of. apply flat_map_app. Qed.

Lemma msteps_app s a b : msteps s (a ++ b) = msteps (msteps s a) b.
Proof. unfold msteps. apply fold_left_app. Qed.

(* frames other than session_ended are folded into the state and print nothing *)
Lemma metrics_run_open s i pre rest :
  forallb valid_open pre = true ->
  metrics_run s i (pre ++ rest) = metrics_run (msteps s (frames_of pre)) (i + nlen pre) rest.
Proof.
  revert s i; induction pre as [|l pre IH]; intros s i Hp.
  - rewrite nlen_nil, N.add_0_r. reflexivity.
  - cbn [forallb] in Hp. apply andb_true_iff in Hp. destruct Hp as [Hl Hp].
    cbn [app metrics_run]. unfold frames_of; cbn [flat_map]; fold (frames_of pre).
    unfold valid_open in Hl. destruct (l_frame l) as [f|]; [|discriminate]. apply negb_true_iff in Hl.
    pose proof (metrics_step_silent s f Hl) as Hs. cbn [app msteps fold_left].
    destruct (metrics_step s f) as [s' w]. cbn [fst snd] in *. subst w.
    rewrite Hl, (IH s' (i + 1) Hp), nlen_cons, N.add_assoc.
    destruct (metrics_run _ _ rest) as [[w e] j]. reflexivity.
Qed.

(* the metrics view prints nothing until the first session_ended and then exactly one line: the JSON of
   the fold of the frames up to and including it; frames after it never matter *)
Theorem metrics_view_is_fold_until_end pre e rest :
  forallb valid_open pre = true -> valid_end e = true ->
  metrics_view (pre ++ e :: rest)
  = (metrics_json (msteps mstate0 (frames_of (pre ++ [e]))) ++ [10], END_STOPPED, nlen pre).
Proof.
  intros Hp He. unfold metrics_view. rewrite (metrics_run_open _ 0 pre _ Hp). cbn [metrics_run].
  rewrite frames_of_app, msteps_app.
  change (frames_of [e]) with (match l_frame e with Some f => [f] | None => [] end ++ []).
  unfold valid_end in He. destruct (l_frame e) as [f|]; [|discriminate]. cbn [app msteps fold_left].
  unfold metrics_step. rewrite He. reflexivity.
Qed.

Theorem metrics_view_silent_without_end ls :
  forallb valid_open ls = true -> metrics_view ls = ([], END_EXHAUSTED, nlen ls).
Proof.
  intros Hp. unfold metrics_view. rewrite <- (app_nil_r ls) at 1. rewrite (metrics_run_open _ 0 ls _ Hp).
  reflexivity.
Qed.

Theorem metrics_view_refuses_non_frame pre bad rest :
  forallb valid_open pre = true -> not_frame bad = true ->
  metrics_view (pre ++ bad :: rest) = ([], END_ERROR, nlen pre).
Proof.
  intros Hp Hb. unfold metrics_view. rewrite (metrics_run_open _ 0 pre _ Hp). cbn [metrics_run].
  unfold not_frame in Hb. destruct (l_frame bad); [discriminate | reflexivity].
Qed.

Theorem views_refuse_non_frame pre bad rest :
  forallb valid_open pre = true -> not_frame bad = true ->
  raw_view (pre ++ bad :: rest) = (echo pre, END_ERROR, nlen pre)
  /\ metrics_view (pre ++ bad :: rest) = ([], END_ERROR, nlen pre).
Proof. intros Hp Hb. split; [apply raw_view_refuses_non_frame | apply metrics_view_refuses_non_frame]; assumption. Qed.

(* both views stop at the first session_ended: what follows it is never looked at *)
Theorem views_ignore_after_end pre e rest1 rest2 :
  forallb valid_open pre = true -> valid_end e = true ->
  raw_view (pre ++ e :: rest1) = raw_view (pre ++ e :: rest2)
  /\ metrics_view (pre ++ e :: rest1) = metrics_view (pre ++ e :: rest2).
Proof.
  intros Hp He. split.
  - rewrite !raw_view_identity_until_end by assumption. reflexivity.
  - rewrite !metrics_view_is_fold_until_end by assumption. reflexivity.
Qed.

(* the metrics view is a function of the frames alone: the text layout of the lines does not matter *)
Lemma metrics_run_frames_only s i ls1 ls2 :
  map l_frame ls1 = map l_frame ls2 -> metrics_run s i ls1 = metrics_run s i ls2.
Proof.
  revert s i ls2; induction ls1 as [|a ls1 IH]; intros s i [|b ls2] H; cbn [map] in H; try discriminate; [reflexivity|].
  inversion H as [[Ha Hr]]. cbn [metrics_run]. rewrite Ha.
  destruct (l_frame b) as [f|]; [|reflexivity].
  destruct (metrics_step s f) as [s' w]. destruct (is_ended (m_kind f)); [reflexivity|].
  rewrite (IH s' (i + 1) ls2 Hr). reflexivity.
Qed.
Theorem metrics_view_depends_on_frames_only ls1 ls2 :
  map l_frame ls1 = map l_frame ls2 -> metrics_view ls1 = metrics_view ls2.
Proof. apply metrics_run_frames_only. Qed.

(* the two views end at the same line, for every stream whatsoever *)
Lemma runs_end_together s i ls :
  snd (fst (raw_run i ls)) = snd (fst (metrics_run s i ls)) /\ snd (raw_run i ls) = snd (metrics_run s i ls).
Proof.
  revert s i; induction ls as [|l ls IH]; intros s i; cbn [raw_run metrics_run]; [auto|].
  destruct (l_frame l) as [f|]; [|auto].
  destruct (metrics_step s f) as [s' w]. destruct (is_ended (m_kind f)); [auto|].
  specialize (IH s' (i + 1)).
  destruct (raw_run (i + 1) ls) as [[w1 e1] j1]. destruct (metrics_run s' (i + 1) ls) as [[w2 e2] j2].
  exact IH.
Qed.
Theorem views_end_together ls :
  snd (fst (raw_view ls)) = snd (fst (metrics_view ls)) /\ snd (raw_view ls) = snd (metrics_view ls).
Proof. apply runs_end_together. Qed.

Lemma delta_spec a b : delta a b = match a, b with Some s, Some e => Some (e - s) | _, _ => None end.
Proof. destruct a, b; reflexivity. Qed.

(* the timing fields of the fold hold the time of the FIRST frame of each kind *)
Definition first_ts (p : mkind -> bool) (fs : list mframe) : option N :=
  option_map m_ts (find (fun f => p (m_kind f)) fs).
Definition is_started (k : mkind) : bool := match k with MSessionStarted => true | _ => false end.
Definition is_output (k : mkind) : bool := match k with MOutputDelta => true | _ => false end.
Definition or_first (o : option N) (x : option N) : option N := match o with Some _ => o | None => x end.

Lemma m_observe_fields m f :
  x_started (m_observe m f) = or_first (x_started m) (if is_started (m_kind f) then Some (m_ts f) else None)
  /\ x_first_out (m_observe m f) = or_first (x_first_out m) (if is_output (m_kind f) then Some (m_ts f) else None)
  /\ x_ended (m_observe m f) = or_first (x_ended m) (if is_ended (m_kind f) then Some (m_ts f) else None).
Proof.
  (* each arm of m_observe sets one field, and only when it was None *)
  unfold m_observe.
  destruct (m_kind f); cbn [is_started is_output is_ended];
    repeat match goal with |- context [if ?b then _ else _] => destruct b eqn:? end;
    cbn [x_started x_first_out x_ended or_first];
    repeat match goal with H : is_none ?o = _ |- _ => destruct o; cbn [is_none] in H; try discriminate H; clear H end;
    cbn [or_first]; auto;
    repeat split; try (destruct (x_started m); reflexivity); try (destruct (x_first_out m); reflexivity);
    try (destruct (x_ended m); reflexivity).
Qed.

Lemma metrics_step_metrics s f : ms_metrics (fst (metrics_step s f)) = m_observe (ms_metrics s) f.
Proof. unfold metrics_step. cbn [fst]. destruct (m_kind f); reflexivity. Qed.

Lemma msteps_timing fs : forall s,
  let m := ms_metrics (msteps s fs) in
  x_started m = or_first (x_started (ms_metrics s)) (first_ts is_started fs)
  /\ x_first_out m = or_first (x_first_out (ms_metrics s)) (first_ts is_output fs)
  /\ x_ended m = or_first (x_ended (ms_metrics s)) (first_ts is_ended fs).
Proof.
  induction fs as [|f fs IH]; intros s; cbv zeta.
  - cbn. repeat split; match goal with |- ?o = or_first ?o None => destruct o; reflexivity end.
  - unfold msteps; cbn [fold_left]. fold (msteps (fst (metrics_step s f)) fs).
    specialize (IH (fst (metrics_step s f))). cbv zeta in IH. destruct IH as [A [B C]].
    rewrite A, B, C, metrics_step_metrics.
    destruct (m_observe_fields (ms_metrics s) f) as [A' [B' C']]. rewrite A', B', C'.
    unfold first_ts. cbn [find].
    repeat split.
    + destruct (is_started (m_kind f)); destruct (x_started (ms_metrics s)); reflexivity.
    + destruct (is_output (m_kind f)); destruct (x_first_out (ms_metrics s)); reflexivity.
    + destruct (is_ended (m_kind f)); destruct (x_ended (ms_metrics s)); reflexivity.
Qed.

(* ttft_ms and e2e_ms as printed: (first output − first start) and (first end − first start), saturating at 0,
   null when either frame was not seen — for every frame sequence *)
Theorem metrics_ttft_e2e fs :
  let m := ms_metrics (msteps mstate0 fs) in
  delta (x_started m) (x_first_out m) = delta (first_ts is_started fs) (first_ts is_output fs)
  /\ delta (x_started m) (x_ended m) = delta (first_ts is_started fs) (first_ts is_ended fs).
Proof.
  cbv zeta. destruct (msteps_timing fs mstate0) as [A [B C]]. cbv zeta in A, B, C.
  rewrite A, B, C. cbn. auto.
Qed.

(* non-vacuity *)
Definition demo_lines : list line :=
  [ {| l_text := [123; 49; 125]; l_frame := Some {| m_ts := 100; m_kind := MSessionStarted |} |};
    {| l_text := [32; 123; 50; 125]; l_frame := Some {| m_ts := 130; m_kind := MOutputDelta |} |};
    {| l_text := [123; 51; 125]; l_frame := Some {| m_ts := 90; m_kind := MSessionEnded [111; 107] |} |};
    {| l_text := [120]; l_frame := None |} ].
Definition demo_metrics_text : str := Eval vm_compute in fst (fst (metrics_view demo_lines)).
Example demo_views :
  raw_view demo_lines = ([123; 49; 125; 10; 32; 123; 50; 125; 10; 123; 51; 125; 10], END_STOPPED, 2)
  /\ metrics_view demo_lines = (demo_metrics_text, END_STOPPED, 2)
  /\ nlen demo_metrics_text = 215
  /\ firstn 12 demo_metrics_text = [123;34;101;50;101;95;109;115;34;58;48;44]   (* {"e2e_ms":0, — the end time is before the start *)
  /\ raw_view (skipn 3 demo_lines) = ([], END_ERROR, 0).
Proof. vm_compute. auto. Qed.
