(* C05 — proofs about Model/Crash.v: a crash at ANY instruction boundary of ANY history, followed by restart
   and ANY further operations, leaves a truth log that replays, is numbered 0,1,2,.. per stream, and holds
   every acknowledged frame exactly once.  Proved for the code version `fixed`; the three versions that differ from
   it in one flag (two-write log append S7, next seq from the sidecar tail S3, no flush after session frames) are
   refuted by computed witnesses. *)
From RipV Require Import Base.Prelude Model.Crash.

(* the file content of a list of frames: one whole line each *)
Definition enc (fs : list frame) : list chunk := flat_map (fun f => [Body f; NL]) fs.
(* all frame bodies of a file, in order (total) *)
Definition frames_of (ch : list chunk) : list frame :=
  flat_map (fun c => match c with Body f => [f] | NL => [] end) ch.
(* number of frames of a stream / with a given identity *)
Definition cnt (sid : N) (fs : list frame) : N := nlen (stream sid fs).
Definition cfid (fid : N) (fs : list frame) : N := nlen (filter (fun f => f_fid f =? fid) fs).
(* every frame carries the number of earlier frames of its stream: each stream reads 0,1,2,.. in log order *)
Definition Numbered (fs : list frame) : Prop :=
  forall pre f post, fs = pre ++ f :: post -> f_seq f = cnt (f_sid f) pre.

(* What the model assumes about its environment: identifiers are fresh UUIDs (a thread id handed to
   ensure_default / branch / handoff for creation is not in the log; a session whose counter is not in memory
   is a new session). *)
Definition env_okb (s : st) (o : op) : bool :=
  match o with
  | OEnsure c _ | OBranch _ c _ _ | OHandoff _ c _ _ _ => cnt (2 * c) (frames_of (truth s)) =? 0
  | OSess x _ =>
    match get (2 * x + 1) (nexts s) with
    | Some _ => true
    | None => cnt (2 * x + 1) (frames_of (truth s)) =? 0
    end
  | _ => true
  end.
Fixpoint env_runb (v : ver) (s : st) (i : N) (ops : list op) : bool :=
  match ops with
  | [] => true
  | o :: r => env_okb s o && env_runb v (run_instrs s (compile v s i o)) (i + 1) r
  end.

Lemma forallb_imp {A} (p q : A -> bool) l :
  (forall x, p x = true -> q x = true) -> forallb p l = true -> forallb q l = true.
Proof.
  intros H. induction l as [|x l IH]; [reflexivity|]. cbn [forallb]. intros E.
  apply andb_true_iff in E. destruct E as [E1 E2]. rewrite (H x E1), (IH E2). reflexivity.
Qed.
Lemma get_put_eq {V} k (v : V) m : get k (put k v m) = Some v.
Proof.
  induction m as [|[k' v'] m IH]; cbn [put get].
  - rewrite N.eqb_refl. reflexivity.
  - destruct (k =? k') eqn:E; cbn [get].
    + rewrite N.eqb_refl. reflexivity.
    + rewrite E. exact IH.
Qed.
Lemma get_put_neq {V} k k' (v : V) m : k <> k' -> get k (put k' v m) = get k m.
Proof.
  intros Hn. induction m as [|[k2 v2] m IH]; cbn [put get].
  - destruct (k =? k') eqn:E; [apply N.eqb_eq in E; contradiction | reflexivity].
  - destruct (k' =? k2) eqn:E2; cbn [get].
    + apply N.eqb_eq in E2. subst k2.
      destruct (k =? k') eqn:E; [apply N.eqb_eq in E; contradiction | reflexivity].
    + destruct (k =? k2); [reflexivity | exact IH].
Qed.

Lemma In_put {V} c (ch : V) k v m : In (c, ch) (put k v m) -> (c = k /\ ch = v) \/ In (c, ch) m.
Proof.
  induction m as [|[k' v'] m IH]; cbn [put In].
  - intros [E|[]]. injection E as <- <-. left. split; reflexivity.
  - destruct (k =? k') eqn:E; cbn [In].
    + intros [H|H]; [injection H as <- <-; left; split; reflexivity | right; right; exact H].
    + intros [H|H]; [right; left; exact H|]. destruct (IH H) as [H'|H']; [left; exact H' | right; right; exact H'].
Qed.
Lemma In_del {V} (x : N * V) k m : In x (del k m) -> In x m.
Proof.
  induction m as [|[k' v'] m IH]; cbn [del In]; [tauto|].
  destruct (k =? k'); cbn [In]; [intros H; right; exact H|]. intros [H|H]; [left; exact H | right; exact (IH H)].
Qed.
Lemma get_In {V} c (ch : V) m : get c m = Some ch -> In (c, ch) m.
Proof.
  induction m as [|[k' v'] m IH]; cbn [get In]; [discriminate|].
  destruct (c =? k') eqn:E.
  - intros H. injection H as <-. apply N.eqb_eq in E. subst k'. left. reflexivity.
  - intros H. right. exact (IH H).
Qed.

Definition getd (k : N) (m : list (N * N)) : N := match get k m with Some n => n | None => 0 end.
Lemma getd_put k k' n m : getd k (put k' n m) = if k' =? k then n else getd k m.
Proof.
  unfold getd. destruct (k' =? k) eqn:E.
  - apply N.eqb_eq in E. subst k'. rewrite get_put_eq. reflexivity.
  - rewrite get_put_neq; [reflexivity|]. intros ->. rewrite N.eqb_refl in E. discriminate E.
Qed.

Lemma cnt_nil sid : cnt sid [] = 0.
Proof. reflexivity. Qed.
Lemma cnt_app sid a b : cnt sid (a ++ b) = cnt sid a + cnt sid b.
Proof. unfold cnt, stream, nlen. rewrite filter_app, app_length. lia. Qed.
Lemma cnt_one sid f : cnt sid [f] = if f_sid f =? sid then 1 else 0.
Proof. unfold cnt, stream, nlen. cbn [filter]. destruct (f_sid f =? sid); reflexivity. Qed.
Lemma cnt_cons sid f a : cnt sid (f :: a) = (if f_sid f =? sid then 1 else 0) + cnt sid a.
Proof. change (f :: a) with ([f] ++ a). rewrite cnt_app, cnt_one. reflexivity. Qed.
Lemma cfid_app fid a b : cfid fid (a ++ b) = cfid fid a + cfid fid b.
Proof. unfold cfid, nlen. rewrite filter_app, app_length. lia. Qed.
Lemma cfid_one fid f : cfid fid [f] = if f_fid f =? fid then 1 else 0.
Proof. unfold cfid, nlen. cbn [filter]. destruct (f_fid f =? fid); reflexivity. Qed.
Lemma cfid_zero fid fs : (forall g, In g fs -> f_fid g <> fid) -> cfid fid fs = 0.
Proof.
  intros H. unfold cfid, nlen. induction fs as [|g fs IH]; [reflexivity|].
  cbn [filter]. destruct (f_fid g =? fid) eqn:E.
  - apply N.eqb_eq in E. exfalso. exact (H g (or_introl eq_refl) E).
  - apply IH. intros g' Hg'. apply H. right. exact Hg'.
Qed.
Lemma cfid_pos_in fid fs : cfid fid fs <> 0 -> exists g, In g fs /\ f_fid g = fid.
Proof.
  unfold cfid, nlen. induction fs as [|g fs IH]; cbn [filter]; [intros H; exfalso; apply H; reflexivity|].
  destruct (f_fid g =? fid) eqn:E.
  - intros _. exists g. split; [left; reflexivity | apply N.eqb_eq; exact E].
  - intros H. destruct (IH H) as [g' [Hi He]]. exists g'. split; [right; exact Hi | exact He].
Qed.

Lemma validate_from_snoc a g : forall m,
  validate_from m (a ++ [g]) = validate_from m a && (f_seq g =? getd (f_sid g) m + cnt (f_sid g) a).
Proof.
  induction a as [|f a IH]; intros m; cbn [app validate_from].
  - fold (getd (f_sid g) m). rewrite cnt_nil, N.add_0_r.
    destruct (f_seq g =? getd (f_sid g) m); reflexivity.
  - fold (getd (f_sid f) m). destruct (f_seq f =? getd (f_sid f) m); [|reflexivity].
    rewrite IH, getd_put, cnt_cons.
    destruct (f_sid f =? f_sid g) eqn:E; [|reflexivity]. apply N.eqb_eq in E. rewrite E, N.add_assoc. reflexivity.
Qed.
Lemma validate_snoc a g : validate (a ++ [g]) = validate a && (f_seq g =? cnt (f_sid g) a).
Proof. apply validate_from_snoc. Qed.

Lemma validate_numbered fs : validate fs = true -> Numbered fs.
Proof.
  induction fs as [|g fs IH] using rev_ind; intros Hv pre f post E.
  - destruct pre; discriminate.
  - rewrite validate_snoc in Hv. apply andb_true_iff in Hv. destruct Hv as [Hv Hg].
    destruct post as [|p post] using rev_ind.
    + apply app_inj_tail in E. destruct E as [<- <-]. exact (proj1 (N.eqb_eq _ _) Hg).
    + clear IHpost. rewrite app_comm_cons, app_assoc in E. apply app_inj_tail in E. destruct E as [E _].
      exact (IH Hv pre f post E).
Qed.
Lemma validate_next fs f : validate fs = true -> f_seq f = cnt (f_sid f) fs -> validate (fs ++ [f]) = true.
Proof. intros Hv Hs. rewrite validate_snoc, Hv, Hs, N.eqb_refl. reflexivity. Qed.

Lemma enc_app a b : enc (a ++ b) = enc a ++ enc b.
Proof. unfold enc. apply flat_map_app. Qed.
Lemma frames_of_app a b : frames_of (a ++ b) = frames_of a ++ frames_of b.
Proof. unfold frames_of. apply flat_map_app. Qed.
Lemma frames_of_enc fs : frames_of (enc fs) = fs.
Proof. induction fs as [|f fs IH]; [reflexivity|]. cbn. f_equal. exact IH. Qed.

Lemma lines_enc fs : lines (enc fs) = map (fun f => [f]) fs.
Proof.
  unfold lines. induction fs as [|f fs IH]; [reflexivity|].
  cbn [enc flat_map app lines_acc map]. f_equal. exact IH.
Qed.
Lemma parse_lines_single fs : parse_lines (map (fun f => [f]) fs) = Some fs.
Proof. induction fs as [|f fs IH]; [reflexivity|]. cbn [map parse_lines]. rewrite IH. reflexivity. Qed.
Lemma parse_enc fs : parse (enc fs) = Some fs.
Proof. unfold parse. rewrite lines_enc. apply parse_lines_single. Qed.
Lemma torn_enc fs : torn (enc fs) = false.
Proof.
  unfold torn. destruct fs as [|g fs] using rev_ind; [reflexivity|].
  rewrite enc_app. cbn [enc flat_map app]. rewrite rev_app_distr. reflexivity.
Qed.

(* EventLog::last_seq on a whole-line, validated log: the stream's last seq is its length - 1 *)
Lemma scan_last_valid fs : validate fs = true -> forall sid,
  match scan_last sid (rev (map (fun f => [f]) fs)) with
  | TlSome q => q + 1 = cnt sid fs
  | TlNone => cnt sid fs = 0
  | TlErr => False
  end.
Proof.
  induction fs as [|g fs IH] using rev_ind; intros Hv sid; [reflexivity|].
  rewrite validate_snoc in Hv. apply andb_true_iff in Hv. destruct Hv as [Hv Hg]. apply N.eqb_eq in Hg.
  rewrite map_app, rev_app_distr. cbn [map rev app scan_last]. rewrite cnt_app, cnt_one.
  destruct (f_sid g =? sid) eqn:E.
  - apply N.eqb_eq in E. subst sid. lia.
  - specialize (IH Hv sid). destruct (scan_last sid (rev (map (fun f => [f]) fs))); [exact IH | lia | lia].
Qed.

Lemma run_app s a b : run_instrs s (a ++ b) = run_instrs (run_instrs s a) b.
Proof. unfold run_instrs. apply fold_left_app. Qed.

Lemma run_ops_app v a : forall b s i, run_ops v s i (a ++ b) = run_ops v (run_ops v s i a) (i + nlen a) b.
Proof.
  induction a as [|o a IH]; intros b s i.
  - cbn [app run_ops]. rewrite nlen_nil, N.add_0_r. reflexivity.
  - cbn [app run_ops]. rewrite IH, nlen_cons, N.add_assoc. reflexivity.
Qed.

(* A projection pi of the state that every instruction updates as a function of pi alone, and that only the
   instructions in `rel` can change: the projection after a program is that after its `rel` instructions. *)
Section Projection.
  Context {X : Type} (pi : st -> X) (rel : instr -> bool).
  Hypothesis congr : forall s s' i, pi s = pi s' -> pi (exec s i) = pi (exec s' i).
  Hypothesis neutral : forall s i, rel i = false -> pi (exec s i) = pi s.

  Lemma run_congr is : forall s s', pi s = pi s' -> pi (run_instrs s is) = pi (run_instrs s' is).
  Proof.
    unfold run_instrs. induction is as [|i is IH]; intros s s' E; [exact E|].
    cbn [fold_left]. apply IH, congr, E.
  Qed.
  Lemma run_filter is : forall s, pi (run_instrs s is) = pi (run_instrs s (filter rel is)).
  Proof.
    induction is as [|i is IH]; intros s; [reflexivity|].
    cbn [filter]. destruct (rel i) eqn:R; [apply IH|].
    rewrite <- IH. apply (run_congr is), neutral, R.
  Qed.
End Projection.

(* a property at every instruction boundary of a straight-line program *)
Definition AllPre (P : st -> Prop) (s : st) (is : list instr) : Prop :=
  forall p r, is = p ++ r -> P (run_instrs s p).
Lemma AllPre_nil (P : st -> Prop) s : P s -> AllPre P s [].
Proof. intros H p r E. symmetry in E. apply app_eq_nil in E. destruct E as [-> _]. exact H. Qed.
Lemma AllPre_cons (P : st -> Prop) s i is : P s -> AllPre P (exec s i) is -> AllPre P s (i :: is).
Proof.
  intros H0 H p r E. destruct p as [|j p]; [exact H0|].
  cbn [app] in E. injection E as <- E. exact (H p r E).
Qed.
Lemma AllPre_app (P : st -> Prop) s a b : AllPre P s a -> AllPre P (run_instrs s a) b -> AllPre P s (a ++ b).
Proof.
  revert s. induction a as [|i a IH]; intros s Ha Hb; [exact Hb|].
  cbn [app]. apply AllPre_cons.
  - exact (Ha [] (i :: a) eq_refl).
  - apply IH; [|exact Hb]. intros p r E. exact (Ha (i :: p) r (f_equal (cons i) E)).
Qed.
Lemma AllPre_mono (P Q : st -> Prop) s is : (forall x, P x -> Q x) -> AllPre P s is -> AllPre Q s is.
Proof. intros H A p r E. apply H. exact (A p r E). Qed.
Lemma AllPre_start (P : st -> Prop) s is : AllPre P s is -> P s.
Proof. intros A. exact (A [] is eq_refl). Qed.
Lemma AllPre_firstn (P : st -> Prop) s is k : AllPre P s is -> P (run_instrs s (firstn k is)).
Proof. intros A. apply (A (firstn k is) (skipn k is)). symmetry. apply firstn_skipn. Qed.

Lemma AllPre_stable (P : st -> Prop) (ok : instr -> bool) :
  (forall s i, ok i = true -> P s -> P (exec s i)) ->
  forall is s, forallb ok is = true -> P s -> AllPre P s is /\ P (run_instrs s is).
Proof.
  intros Hok. induction is as [|i is IH]; intros s Hf H; [split; [apply AllPre_nil|]; exact H|].
  cbn [forallb] in Hf. apply andb_true_iff in Hf. destruct Hf as [Hi Hf].
  destruct (IH (exec s i) Hf (Hok s i Hi H)) as [A E].
  split; [apply AllPre_cons; assumption | exact E].
Qed.

(* One induction for every invariant.  B i s r holds before operation number i, with the operations r still to run
   (so B can carry the environment's part); P j s holds at every instruction boundary while at most j operations
   have begun. *)
Section History.
  Variables (v : ver) (B : N -> st -> list op -> Prop) (P : N -> st -> Prop).
  Hypothesis step : forall i s o r, B i s (o :: r) ->
    AllPre (P (i + 1)) s (compile v s i o) /\ B (i + 1) (run_instrs s (compile v s i o)) r.

  Lemma run_ops_B ops : forall s i, B i s ops -> B (i + nlen ops) (run_ops v s i ops) [].
  Proof.
    induction ops as [|o ops IH]; intros s i H.
    - rewrite nlen_nil, N.add_0_r. exact H.
    - cbn [run_ops]. rewrite nlen_cons, N.add_assoc. apply IH, (step i s o ops H).
  Qed.
  Hypothesis P_mono : forall i j s, i <= j -> P i s -> P j s.
  Hypothesis B_P : forall i s, B i s [] -> P i s.
  Lemma run_k_P ops : forall k s i, B i s ops -> P (i + nlen ops) (run_k v k s i ops).
  Proof.
    induction ops as [|o ops IH]; intros k s i H.
    - rewrite nlen_nil, N.add_0_r. exact (B_P i s H).
    - destruct (step i s o ops H) as [A H1]. cbn [run_k]. rewrite nlen_cons.
      destruct (Nat.leb k (length (compile v s i o))).
      + apply (P_mono (i + 1)); [lia | apply AllPre_firstn; exact A].
      + rewrite N.add_assoc. exact (IH _ _ _ H1).
  Qed.
End History.

(* the plain case: Q holds at every instruction of every operation, whatever the history and the operation numbers *)
Lemma run_invariant v (Q : st -> Prop) :
  (forall s i o, Q s -> AllPre Q s (compile v s i o) /\ Q (run_instrs s (compile v s i o))) ->
  forall ops s i, Q s -> Q (run_ops v s i ops) /\ forall k, Q (run_k v k s i ops).
Proof.
  intros step ops s i H. split; [|intros k].
  - exact (run_ops_B v (fun _ x _ => Q x) (fun _ => Q) (fun j x o _ => step x j o) ops s i H).
  - exact (run_k_P v (fun _ x _ => Q x) (fun _ => Q) (fun j x o _ => step x j o) (fun _ _ _ _ E => E) (fun _ _ E => E) ops k s i H).
Qed.

(* Instruction classifiers.  Each proof below follows one part of the state, and a boolean on instructions says which
   of them can touch that part; a program is then cut down to (`filter`), or checked to lie outside (`forallb`), the
   class.  Here: `core` is what the log invariants read (log file, its BufWriter, counters, acknowledgements) and
   `relevant` the instructions that can change it.  The others say at their definition which part they are for:
   cache_only (below), nosw / tneutral / tmp_only / only_side (CrashCacheProofs), irel (CrashIndexProofs), quietb
   (CrashArtifactProofs). *)
Definition core (s : st) : list chunk * bufw * list (N * N) * list N := (truth s, tw s, nexts s, acks s).

Definition relevant (i : instr) : bool :=
  match i with ITruthWrite _ | ITruthFlush | ISetNext _ _ | IAck _ => true | _ => false end.

(* exec's IIdxRename branches on idx_tmp s; with the two states taken apart every other instruction is by computation,
   and that one after a case on the two temp files.  (The same branch is behind every `destruct (idx_tmp s)` in
   the per-instruction lemmas of this cluster.) *)

Lemma exec_core_congr s s' i : core s = core s' -> core (exec s i) = core (exec s' i).
Proof.
  unfold core. intros E. destruct s as [? ? ? ? ? ? it ? ? ? ?], s' as [? ? ? ? ? ? it' ? ? ? ?].
  cbn in E. injection E as -> -> -> ->. destruct i; try reflexivity. destruct it, it'; reflexivity.
Qed.
Lemma exec_core_neutral s i : relevant i = false -> core (exec s i) = core s.
Proof.
  unfold core. destruct i; cbn [relevant]; intros H; try discriminate H;
    cbn [exec upd_truth upd_sides upd_nexts upd_idx upd_arts upd_acks truth tw nexts acks]; try reflexivity.
  destruct (idx_tmp s); reflexivity.
Qed.
Lemma run_core_filter is s : core (run_instrs s is) = core (run_instrs s (filter relevant is)).
Proof. exact (run_filter core relevant exec_core_congr exec_core_neutral is s). Qed.
Lemma core_neutral s a : filter relevant a = [] -> core (run_instrs s a) = core s.
Proof. intros H. rewrite run_core_filter, H. reflexivity. Qed.


(* the instructions that reading a thread (replay_events) and finding its next seq (resolve) can issue: named points
   and the rewrite of the thread's sidecar.  They leave `core`, the index and the artifact store alone *)
Definition cache_only (i : instr) : bool :=
  match i with IPt _ | ITmpCreate _ | ITmpWrite _ _ | ITmpFlush _ | ISideRename _ _ => true | _ => false end.

Lemma rebuild_cache_only c evs : forallb cache_only (rebuild_nonempty c evs) = true.
Proof.
  destruct evs as [|e evs]; [reflexivity|]. cbn [rebuild_nonempty]. unfold rebuild.
  rewrite !forallb_app. cbn [forallb cache_only andb]. rewrite andb_true_r.
  induction (e :: evs) as [|f l IH]; [reflexivity | exact IH].
Qed.
Lemma replay_events_cache_only s c : forallb cache_only (fst (replay_events s c)) = true.
Proof.
  unfold replay_events. destruct (try_replay s c); [reflexivity|].
  destruct (replay_validated s); [apply rebuild_cache_only | reflexivity].
Qed.
Lemma load_next_unfixed_cache_only s c : forallb cache_only (fst (load_next_unfixed s c)) = true.
Proof.
  unfold load_next_unfixed. destruct (side_tail_seq s c); [reflexivity|].
  destruct (snd (replay_events s c)) as [evs|]; [destruct (last_opt evs)|]; apply replay_events_cache_only.
Qed.
Lemma resolve_cache_only v s c : forallb cache_only (fst (resolve v s c)) = true.
Proof.
  unfold resolve. destruct (get (2 * c) (nexts s)); [reflexivity|].
  destruct (fr v); [|apply load_next_unfixed_cache_only].
  unfold load_next_fixed. destruct (truth_last s (2 * c)); [apply load_next_unfixed_cache_only | reflexivity|].
  destruct (match side_tail_seq s c with Some q' => q' =? q | None => false end); [reflexivity|].
  destruct (replay_validated s); [apply rebuild_cache_only | reflexivity].
Qed.

Lemma cache_only_relevant i : cache_only i = true -> relevant i = false.
Proof. destruct i; intros H; (reflexivity || discriminate H). Qed.
Lemma filter_replay_events s c : filter relevant (fst (replay_events s c)) = [].
Proof. exact (filter_excluded _ _ _ cache_only_relevant (replay_events_cache_only s c)). Qed.
Lemma filter_resolve v s c : filter relevant (fst (resolve v s c)) = [].
Proof. exact (filter_excluded _ _ _ cache_only_relevant (resolve_cache_only v s c)). Qed.
(* the fixed pieces (side_append, save_index, write_blob, the named points) have no instruction in `relevant` either:
   `filter relevant` computes on them, as here; op_safe relies on that by conversion *)
Lemma filter_save_index : filter relevant save_index = [].
Proof. reflexivity. Qed.

(* J b s fs, the invariant at an operation boundary: the log on disk is the whole lines of fs, nothing is buffered,
   fs validates, every in-memory counter equals its stream's length, frame identities are below b (the next operation
   uses 4 * its number and up), acknowledged frames are present once *)
Definition J (b : N) (s : st) (fs : list frame) : Prop :=
  truth s = enc fs /\ tw s = bw_empty /\ validate fs = true
  /\ (forall k n, get k (nexts s) = Some n -> n = cnt k fs)
  /\ (forall g, In g fs -> f_fid g < b)
  /\ (forall fid, In fid (acks s) -> cfid fid fs = 1).
(* D b s, the invariant at EVERY instruction boundary (what a crash can leave on disk): J without the volatile parts *)
Definition D (b : N) (s : st) : Prop :=
  exists fs, truth s = enc fs /\ validate fs = true
  /\ (forall g, In g fs -> f_fid g < b)
  /\ (forall fid, In fid (acks s) -> cfid fid fs = 1).

Lemma J_core b s s' fs : core s = core s' -> J b s fs -> J b s' fs.
Proof. unfold core, J. intros E. injection E as Et Ew En Ea. rewrite Et, Ew, En, Ea. tauto. Qed.
Lemma D_core b s s' : core s = core s' -> D b s -> D b s'.
Proof. unfold core, D. intros E. injection E as Et Ew En Ea. rewrite Et, Ea. tauto. Qed.
Lemma J_mono b b' s fs : b <= b' -> J b s fs -> J b' s fs.
Proof. unfold J. intros Hb (H1 & H2 & H3 & H4 & H5 & H6). repeat split; auto. intros g Hg. specialize (H5 g Hg). lia. Qed.
Lemma D_mono b b' s : b <= b' -> D b s -> D b' s.
Proof. unfold D. intros Hb (fs & H1 & H2 & H3 & H4). exists fs. repeat split; auto. intros g Hg. specialize (H3 g Hg). lia. Qed.
Lemma J_D b s fs : J b s fs -> D b s.
Proof. unfold J, D. intros (H1 & H2 & H3 & H4 & H5 & H6). exists fs. tauto. Qed.
Lemma D_recover b s : D b s -> exists fs, J b (recover s) fs.
Proof.
  unfold D, J. intros (fs & H1 & H2 & H3 & H4). exists fs. cbn [recover truth tw nexts acks get].
  repeat split; auto. intros k n Hk. discriminate Hk.
Qed.
Lemma J_init : J 0 init [].
Proof. unfold J. cbn. repeat split; auto; intros; try discriminate; contradiction. Qed.
Lemma J_replay b s fs : J b s fs -> replay_validated s = Some fs.
Proof. intros (Ht & _ & Hv & _). unfold replay_validated. rewrite Ht, parse_enc, Hv. reflexivity. Qed.
(* what J says in the terms of the properties *)
Lemma J_facts b s fs : J b s fs ->
  replay_validated s = Some fs /\ Numbered fs /\ truth s = enc fs /\ validate fs = true
  /\ (forall fid, In fid (acks s) -> cfid fid fs = 1).
Proof.
  intros HJ. split; [exact (J_replay _ _ _ HJ)|]. destruct HJ as (Ht & _ & Hv & _ & _ & Ha).
  split; [exact (validate_numbered fs Hv) | auto].
Qed.

(* a program is safe from s: D at every boundary, and the boundary invariant again at its end, with log fs' *)
Definition Safe (b : N) (s : st) (is : list instr) (fs' : list frame) : Prop :=
  AllPre (D b) s is /\ J b (run_instrs s is) fs'.

Lemma Safe_filter b s is fs' : Safe b s (filter relevant is) fs' -> Safe b s is fs'.
Proof.
  intros [A HJ]. split.
  - intros p r E. apply (D_core b (run_instrs s (filter relevant p))); [symmetry; apply run_core_filter|].
    apply (A (filter relevant p) (filter relevant r)). rewrite E. apply filter_app.
  - apply (J_core b (run_instrs s (filter relevant is))); [symmetry; apply run_core_filter | exact HJ].
Qed.
Lemma Safe_nil b s fs : J b s fs -> Safe b s [] fs.
Proof. intros HJ. split; [apply AllPre_nil; exact (J_D _ _ _ HJ) | exact HJ]. Qed.
Lemma Safe_mono b b' s is fs' : b <= b' -> Safe b s is fs' -> Safe b' s is fs'.
Proof.
  intros Hb [A HJ]. split; [apply (AllPre_mono (D b)); [intros x; apply D_mono; exact Hb | exact A]|].
  apply (J_mono b b'); assumption.
Qed.
Lemma Safe_app b s a c fs1 fs2 : Safe b s a fs1 -> Safe b (run_instrs s a) c fs2 -> Safe b s (a ++ c) fs2.
Proof. intros [A1 _] [A2 HJ]. split; [apply AllPre_app; assumption | rewrite run_app; exact HJ]. Qed.

(* one f: the `relevant` instructions of appending frame f: the line in one write, the flush, the counter *)
Definition one (f : frame) : list instr :=
  [ITruthWrite [Body f; NL]; ITruthFlush; ISetNext (f_sid f) (f_seq f + 1)].

(* the BufWriter never reorders and never drops: file and buffer together are everything written, the file only grows *)
Lemma bw_write_inv file w cs len :
  fst (bw_write file w cs len) ++ bw_buf (snd (bw_write file w cs len)) = file ++ bw_buf w ++ cs
  /\ exists x, fst (bw_write file w cs len) = file ++ x.
Proof.
  unfold bw_write. destruct (len <? CAP - bw_len w); cbn [fst snd bw_buf].
  - split; [reflexivity | exists []; rewrite app_nil_r; reflexivity].
  - destruct (CAP <=? len); cbn [fst snd bw_buf bw_empty].
    + split; [rewrite app_nil_r; reflexivity | exists (bw_buf w ++ cs); reflexivity].
    + destruct (CAP - bw_len w <? len); cbn [fst snd bw_buf].
      * split; [rewrite <- app_assoc; reflexivity | exists (bw_buf w); reflexivity].
      * split; [reflexivity | exists []; rewrite app_nil_r; reflexivity].
Qed.
(* ONE write into an empty BufWriter: the file is as before or holds all of it, never a part *)
Lemma bw_write_once file cs len : let r := bw_write file bw_empty cs len in
  (fst r = file \/ fst r = file ++ cs) /\ fst r ++ bw_buf (snd r) = file ++ cs.
Proof.
  intros r. split; [|exact (proj1 (bw_write_inv file bw_empty cs len))].
  unfold r, bw_write. cbn [bw_buf bw_len bw_empty].
  destruct (len <? CAP - 0); [left; reflexivity|]. destruct (CAP <=? len); [right; reflexivity|].
  destruct (CAP - 0 <? len); left; [apply app_nil_r | reflexivity].
Qed.

(* the frames of the log are older than b, f is not: f is new, and no acknowledged frame is counted twice *)
Lemma fresh_frame fs f b (ak : list N) :
  (forall g, In g fs -> f_fid g < b) -> b <= f_fid f -> (forall fid, In fid ak -> cfid fid fs = 1) ->
  (forall g, In g (fs ++ [f]) -> f_fid g < f_fid f + 1)
  /\ cfid (f_fid f) (fs ++ [f]) = 1
  /\ forall fid, In fid ak -> cfid fid (fs ++ [f]) = 1.
Proof.
  intros Hb Hf Ha.
  assert (H0 : cfid (f_fid f) fs = 0) by (apply cfid_zero; intros g Hg E; specialize (Hb g Hg); lia).
  split; [|split].
  - intros g Hg. apply in_app_or in Hg. destruct Hg as [Hg|[<-|[]]]; [specialize (Hb g Hg)|]; lia.
  - rewrite cfid_app, cfid_one, N.eqb_refl, H0. reflexivity.
  - intros fid Hi. rewrite cfid_app, cfid_one, (Ha fid Hi).
    destruct (f_fid f =? fid) eqn:E; [|reflexivity].
    apply N.eqb_eq in E. specialize (Ha fid Hi). rewrite <- E, H0 in Ha. discriminate Ha.
Qed.

Lemma Safe_frame b s fs f : J b s fs -> f_seq f = cnt (f_sid f) fs -> b <= f_fid f ->
  Safe (f_fid f + 1) s (one f) (fs ++ [f]) /\ cfid (f_fid f) (fs ++ [f]) = 1.
Proof.
  intros (Ht & Hw & Hv & Hn & Hb & Ha) Hs Hf.
  assert (Hv' : validate (fs ++ [f]) = true) by (apply validate_next; assumption).
  destruct (fresh_frame fs f b (acks s) Hb Hf Ha) as (Hb' & Hc1 & Ha').
  (* at every boundary the disk holds fs or fs ++ [f] *)
  assert (Dold : forall x, truth x = enc fs -> acks x = acks s -> D (f_fid f + 1) x).
  { intros x Et Ea. exists fs. rewrite Ea. repeat split; auto. intros g Hg. specialize (Hb g Hg). lia. }
  assert (Dnew : forall x, truth x = enc (fs ++ [f]) -> acks x = acks s -> D (f_fid f + 1) x).
  { intros x Et Ea. exists (fs ++ [f]). rewrite Ea. repeat split; auto. }
  assert (Henc : enc (fs ++ [f]) = enc fs ++ [Body f; NL]) by (rewrite enc_app; reflexivity).
  set (s1 := exec s (ITruthWrite [Body f; NL])).
  assert (H1 : (truth s1 = enc fs \/ truth s1 = enc (fs ++ [f])) /\ truth s1 ++ bw_buf (tw s1) = enc (fs ++ [f])).
  { unfold s1. cbn [exec upd_truth truth tw]. rewrite Hw, Henc, <- Ht. apply bw_write_once. }
  destruct H1 as (Ht1 & Hfl).
  set (s2 := exec s1 ITruthFlush).
  set (s3 := exec s2 (ISetNext (f_sid f) (f_seq f + 1))).
  assert (HJ3 : J (f_fid f + 1) s3 (fs ++ [f])).
  { unfold J. cbn [s3 s2 exec bw_flush fst snd upd_truth upd_nexts truth tw nexts acks]. repeat split; auto.
    intros k n. destruct (N.eq_dec k (f_sid f)) as [->|Hk].
    - rewrite get_put_eq. intros E. injection E as <-. rewrite cnt_app, cnt_one, N.eqb_refl, Hs. reflexivity.
    - rewrite get_put_neq by exact Hk. intros E. rewrite (Hn k n E), cnt_app, cnt_one.
      destruct (f_sid f =? k) eqn:E2; [apply N.eqb_eq in E2; congruence | lia]. }
  split; [|exact Hc1]. split; [|exact HJ3].
  apply AllPre_cons; [exact (Dold s Ht eq_refl)|]. fold s1.
  apply AllPre_cons; [destruct Ht1 as [E|E]; [exact (Dold s1 E eq_refl) | exact (Dnew s1 E eq_refl)]|]. fold s2.
  apply AllPre_cons; [exact (Dnew s2 Hfl eq_refl)|]. fold s3.
  apply AllPre_nil. exact (J_D _ _ _ HJ3).
Qed.

Lemma Safe_ack b s fs fid : J b s fs -> cfid fid fs = 1 -> Safe b s [IAck fid] fs.
Proof.
  intros HJ Hc.
  assert (HJ' : J b (exec s (IAck fid)) fs).
  { destruct HJ as (Ht & Hw & Hv & Hn & Hb & Ha). unfold J. cbn [exec upd_acks truth tw nexts acks].
    repeat split; auto. intros x Hx. apply in_app_or in Hx. destruct Hx as [Hx|[<-|[]]]; auto. }
  split; [|exact HJ'].
  apply AllPre_cons; [exact (J_D _ _ _ HJ)|]. apply AllPre_nil. exact (J_D _ _ _ HJ').
Qed.

Lemma Safe_frame_ack b s fs f : J b s fs -> f_seq f = cnt (f_sid f) fs -> b <= f_fid f ->
  Safe (f_fid f + 1) s (one f ++ [IAck (f_fid f)]) (fs ++ [f]).
Proof.
  intros HJ Hq Hb. destruct (Safe_frame b s fs f HJ Hq Hb) as [S1 C1].
  exact (Safe_app _ _ _ _ _ _ S1 (Safe_ack _ _ _ _ (proj2 S1) C1)).
Qed.

(* branch / handoff child: the creation frame, the link frame, then both acknowledgements *)
Lemma Safe_child i s fs c len0 len1 art : J (4 * i) s fs -> cnt (2 * c) fs = 0 ->
  let f0 := mkf (2 * c) 0 (4 * i) len0 None in
  let f1 := mkf (2 * c) 1 (4 * i + 1) len1 art in
  Safe (4 * i + 1 + 1) s (one f0 ++ one f1 ++ [IAck (4 * i)] ++ [IAck (4 * i + 1)]) ((fs ++ [f0]) ++ [f1]).
Proof.
  intros HJ H0 f0 f1.
  destruct (Safe_frame (4 * i) s fs f0 HJ (eq_sym H0) (N.le_refl _)) as [S0 C0].
  assert (Hq1 : f_seq f1 = cnt (f_sid f1) (fs ++ [f0])).
  { rewrite cnt_app, cnt_one. cbn [f0 f1 mkf f_seq f_sid]. rewrite H0, N.eqb_refl. reflexivity. }
  destruct (Safe_frame (4 * i + 1) _ _ f1 (proj2 S0) Hq1 (N.le_refl _)) as [S1 C1].
  assert (C0' : cfid (4 * i) ((fs ++ [f0]) ++ [f1]) = 1).
  { change (f_fid f0) with (4 * i) in C0. rewrite cfid_app, cfid_one, C0. cbn [f1 mkf f_fid].
    destruct (4 * i + 1 =? 4 * i) eqn:E; [apply N.eqb_eq in E; lia | reflexivity]. }
  pose proof (Safe_ack _ _ _ _ (proj2 S1) C0') as S2.
  apply (Safe_app _ _ _ _ (fs ++ [f0])); [apply (Safe_mono (4 * i + 1)); [lia | exact S0]|].
  apply (Safe_app _ _ _ _ _ _ S1), (Safe_app _ _ _ _ _ _ S2), Safe_ack; [exact (proj2 S2) | exact C1].
Qed.

(* what a read or a cold append may start with: nothing, or the rewrite of the thread's sidecar from the log *)
Definition repair (X : list frame) (c : N) (is : list instr) : Prop :=
  is = [] \/ is = rebuild_nonempty c (stream (2 * c) X).

(* seq resolution at an operation boundary: the instructions are a repair, the seq is the stream's length *)
Lemma resolve_J b s fs c : J b s fs ->
  repair fs c (fst (resolve fixed s c)) /\ forall q, snd (resolve fixed s c) = Some q -> q = cnt (2 * c) fs.
Proof.
  intros HJ. pose proof (J_replay _ _ _ HJ) as R. destruct HJ as (Ht & Hw & Hv & Hn & _). unfold resolve.
  destruct (get (2 * c) (nexts s)) as [n|] eqn:G.
  { split; [left; reflexivity | intros q E; injection E as <-; exact (Hn _ _ G)]. }
  cbn [fr fixed]. unfold load_next_fixed, truth_last. rewrite Ht, lines_enc.
  pose proof (scan_last_valid fs Hv (2 * c)) as L.
  destruct (scan_last (2 * c) (rev (map (fun f => [f]) fs))) as [| |q0];
    [contradiction | split; [left; reflexivity | intros q E; discriminate E]|].
  destruct (match side_tail_seq s c with Some q' => q' =? q0 | None => false end); [|rewrite R];
    (split; [|intros q E; injection E as <-; exact L]); [left | right]; reflexivity.
Qed.

Lemma filter_locked_append s c fid len art :
  filter relevant (locked_append fixed s c fid len art) =
  match snd (resolve fixed s c) with
  | None => []
  | Some q => one (mkf (2 * c) q fid len art) ++ [IAck fid]
  end.
Proof.
  unfold locked_append. rewrite !filter_app, filter_resolve.
  destruct (snd (resolve fixed s c)); reflexivity.
Qed.

(* a locked append compiled in s0 and run from s, where both hold the log fs: refused, or one more frame.  Two
   states because the checkpoint compiles its append in the state its read leaves (sidecar possibly rewritten),
   while the filtered program of the whole operation is run from the state the operation started in *)
Lemma Safe_locked b s0 s fs c fid len art : J b s0 fs -> J b s fs -> b <= fid ->
  Safe (fid + 1) s (filter relevant (locked_append fixed s0 c fid len art)) fs
  \/ Safe (fid + 1) s (filter relevant (locked_append fixed s0 c fid len art))
       (fs ++ [mkf (2 * c) (cnt (2 * c) fs) fid len art]).
Proof.
  intros HJ0 HJ Hb. rewrite filter_locked_append.
  destruct (snd (resolve fixed s0 c)) as [q|] eqn:R.
  - right. rewrite (proj2 (resolve_J b s0 fs c HJ0) q R).
    exact (Safe_frame_ack b s fs (mkf (2 * c) (cnt (2 * c) fs) fid len art) HJ eq_refl Hb).
  - left. apply Safe_nil, (J_mono b); [lia | exact HJ].
Qed.

Lemma env_fresh s fs sid : truth s = enc fs -> (cnt sid (frames_of (truth s)) =? 0) = true -> cnt sid fs = 0.
Proof. intros Ht H. rewrite Ht, frames_of_enc in H. apply N.eqb_eq. exact H. Qed.

Lemma op_safe i s fs o : J (4 * i) s fs -> env_okb s o = true ->
  exists fs', Safe (4 * (i + 1)) s (compile fixed s i o) fs'.
Proof.
  intros HJ He. pose proof (proj1 HJ) as Ht.
  enough (exists fs', Safe (4 * (i + 1)) s (filter relevant (compile fixed s i o)) fs') as [fs' H]
    by (exists fs'; apply Safe_filter; exact H).
  assert (Hnil : exists fs', Safe (4 * (i + 1)) s [] fs').
  { exists fs. apply Safe_nil, (J_mono (4 * i)); [lia | exact HJ]. }
  assert (Hlocked : forall s0 c len art, J (4 * i) s0 fs ->
            exists fs', Safe (4 * (i + 1)) s (filter relevant (locked_append fixed s0 c (4 * i) len art)) fs').
  { intros s0 c len art HJ0.
    destruct (Safe_locked (4 * i) s0 s fs c (4 * i) len art HJ0 HJ (N.le_refl _)) as [H|H]; eexists;
      (apply (Safe_mono (4 * i + 1)); [lia | exact H]). }
  destruct o as [c len | c len | x len | c a has_msg len | p c len0 len1 | p c a len0 len1 | c]; cbn [compile].
  - (* ensure_default *)
    destruct (ix_default (midx s)); [exact Hnil|].
    destruct (replay_validated s) as [fs0|]; [|exact Hnil].
    destruct (latest_created fs0); [exact Hnil|].
    eexists. apply (Safe_mono (4 * i + 1)); [lia|].
    exact (Safe_frame_ack _ s fs (mkf (2 * c) 0 (4 * i) len None) HJ (eq_sym (env_fresh s fs _ Ht He)) (N.le_refl _)).
  - (* locked append *) exact (Hlocked s c len None HJ).
  - (* session frame: its counter is in memory, or the session is new *)
    set (n := match get (2 * x + 1) (nexts s) with Some n => n | None => 0 end).
    assert (Hq : n = cnt (2 * x + 1) fs).
    { unfold n. cbn [env_okb] in He. destruct HJ as (_ & _ & _ & Hn & _).
      destruct (get (2 * x + 1) (nexts s)) as [m|] eqn:G; [exact (Hn _ _ G)|].
      symmetry. exact (env_fresh s fs _ Ht He). }
    eexists. apply (Safe_mono (4 * i + 1)); [lia|].
    exact (Safe_frame_ack _ s fs (mkf (2 * x + 1) n (4 * i) len None) HJ Hq (N.le_refl _)).
  - (* checkpoint: artifact first, then a locked append compiled after the (possible) sidecar rebuild *)
    rewrite filter_app, filter_replay_events.
    destruct (snd (replay_events s c)) as [[|e evs]|]; try exact Hnil. destruct has_msg; [|exact Hnil].
    apply (Hlocked _ c len (Some a)).
    apply (J_core _ s); [symmetry; apply core_neutral, filter_replay_events | exact HJ].
  - (* branch *)
    rewrite filter_app, filter_replay_events.
    destruct (snd (replay_events s p)) as [[|e evs]|]; try exact Hnil.
    eexists. apply (Safe_mono (4 * i + 1 + 1)); [lia|].
    exact (Safe_child i s fs c len0 len1 None HJ (env_fresh s fs _ Ht He)).
  - (* handoff *)
    rewrite filter_app, filter_replay_events.
    destruct (snd (replay_events s p)) as [[|e evs]|]; try exact Hnil.
    eexists. apply (Safe_mono (4 * i + 1 + 1)); [lia|].
    exact (Safe_child i s fs c len0 len1 (Some a) HJ (env_fresh s fs _ Ht He)).
  - (* cache loss + read *) cbn [filter relevant]. rewrite filter_replay_events. exact Hnil.
Qed.

(* J and D as the B and P of Section History, indexed by the operation number; JB carries the environment's part
   for the operations still to come *)
Definition JB (i : N) (s : st) (r : list op) : Prop := (exists fs, J (4 * i) s fs) /\ env_runb fixed s i r = true.
Definition DP (i : N) (s : st) : Prop := D (4 * i) s.

Lemma JB_step i s o r : JB i s (o :: r) ->
  AllPre (DP (i + 1)) s (compile fixed s i o) /\ JB (i + 1) (run_instrs s (compile fixed s i o)) r.
Proof.
  intros [[fs HJ] He]. cbn [env_runb] in He. apply andb_true_iff in He. destruct He as [He1 He2].
  destruct (op_safe i s fs o HJ He1) as [fs' [A HJ']].
  split; [exact A | split; [exists fs'; exact HJ' | exact He2]].
Qed.
Lemma DP_mono i j s : i <= j -> DP i s -> DP j s.
Proof. intros H. apply D_mono. lia. Qed.
Lemma JB_DP i s : JB i s [] -> DP i s.
Proof. intros [[fs HJ] _]. exact (J_D _ _ _ HJ). Qed.

Lemma run_ops_J ops s i fs : J (4 * i) s fs -> env_runb fixed s i ops = true ->
  exists fs', J (4 * (i + nlen ops)) (run_ops fixed s i ops) fs'.
Proof. intros HJ He. apply (run_ops_B fixed JB DP JB_step ops s i). split; [exists fs; exact HJ | exact He]. Qed.
Lemma run_k_D ops k s i fs : J (4 * i) s fs -> env_runb fixed s i ops = true ->
  D (4 * (i + nlen ops)) (run_k fixed k s i ops).
Proof.
  intros HJ He. apply (run_k_P fixed JB DP JB_step DP_mono JB_DP ops k s i). split; [exists fs; exact HJ | exact He].
Qed.

Lemma crash_J hist k base : env_runb fixed init 0 hist = true -> nlen hist <= base ->
  exists fs, J (4 * base) (crash fixed k hist) fs.
Proof.
  intros Hh Hb. apply D_recover, (D_mono (4 * (0 + nlen hist))); [lia|].
  exact (run_k_D hist k init 0 [] J_init Hh).
Qed.

Theorem crash_recover_J hist k base more :
  env_runb fixed init 0 hist = true -> nlen hist <= base ->
  env_runb fixed (crash fixed k hist) base more = true ->
  exists fs, J (4 * (base + nlen more)) (run_ops fixed (crash fixed k hist) base more) fs.
Proof.
  intros Hh Hb Hm. destruct (crash_J hist k base Hh Hb) as [fs0 HJ0]. exact (run_ops_J more _ base fs0 HJ0 Hm).
Qed.

(* acknowledgements are never withdrawn *)
Lemma acks_exec s0 s i : incl (acks s0) (acks s) -> incl (acks s0) (acks (exec s i)).
Proof.
  intros H. apply (incl_tran H).
  destruct i; cbn [exec upd_truth upd_sides upd_nexts upd_idx upd_arts upd_acks acks]; try apply incl_refl.
  - destruct (idx_tmp s); apply incl_refl.
  - apply incl_appl, incl_refl.
Qed.
Lemma acks_run v ops s i :
  incl (acks s) (acks (run_ops v s i ops)) /\ forall k, incl (acks s) (acks (run_k v k s i ops)).
Proof.
  apply (run_invariant v (fun x => incl (acks s) (acks x))); [|apply incl_refl].
  intros x j o. apply (AllPre_stable (fun y => incl (acks s) (acks y)) (fun _ => true)).
  - intros y i' _. apply acks_exec.
  - apply forallb_forall. reflexivity.
Qed.

Theorem recover_valid hist k base more :
  env_runb fixed init 0 hist = true -> nlen hist <= base ->
  env_runb fixed (crash fixed k hist) base more = true ->
  exists fs, replay_validated (run_ops fixed (crash fixed k hist) base more) = Some fs
             /\ Numbered fs
             /\ truth (run_ops fixed (crash fixed k hist) base more) = enc fs.
Proof.
  intros Hh Hb Hm. destruct (crash_recover_J hist k base more Hh Hb Hm) as [fs HJ].
  destruct (J_facts _ _ _ HJ) as (R & Hn & Ht & _). exists fs. auto.
Qed.

Theorem acked_exactly_once hist k base more :
  env_runb fixed init 0 hist = true -> nlen hist <= base ->
  env_runb fixed (crash fixed k hist) base more = true ->
  exists fs, replay_validated (run_ops fixed (crash fixed k hist) base more) = Some fs
             /\ forall fid, In fid (acks (crash fixed k hist))
                             \/ In fid (acks (run_ops fixed (crash fixed k hist) base more)) ->
                             cfid fid fs = 1.
Proof.
  intros Hh Hb Hm. destruct (crash_recover_J hist k base more Hh Hb Hm) as [fs HJ].
  destruct (J_facts _ _ _ HJ) as (R & _ & _ & _ & Ha). exists fs. split; [exact R|].
  (* what was acknowledged before the crash is still acknowledged at the end *)
  intros fid [Hi|Hi]; apply Ha; [exact (proj1 (acks_run fixed more _ base) fid Hi) | exact Hi].
Qed.

(* what a crash leaves on disk: whole lines only, forming a valid log (the single-write append) *)
Theorem crash_whole_lines hist k :
  env_runb fixed init 0 hist = true ->
  exists fs, truth (crash fixed k hist) = enc fs /\ validate fs = true
             /\ torn (truth (crash fixed k hist)) = false
             /\ replay_validated (crash fixed k hist) = Some fs.
Proof.
  intros Hh. destruct (crash_J hist k _ Hh (N.le_refl _)) as [fs HJ]. exists fs.
  destruct (J_facts _ _ _ HJ) as (R & _ & Ht & Hv & _). repeat split; auto. rewrite Ht. apply torn_enc.
Qed.

(* numbering continues: the first locked append to thread c after the restart is refused (the log has no
   such thread) or is written with seq = the number of frames the thread has in the recovered log *)
Theorem numbering_continues hist k base c len fs0 :
  env_runb fixed init 0 hist = true -> nlen hist <= base ->
  replay_validated (crash fixed k hist) = Some fs0 ->
  replay_validated (run_ops fixed (crash fixed k hist) base [OAppend c len]) = Some fs0
  \/ replay_validated (run_ops fixed (crash fixed k hist) base [OAppend c len])
     = Some (fs0 ++ [mkf (2 * c) (cnt (2 * c) fs0) (4 * base) len None]).
Proof.
  intros Hh Hb R0. destruct (crash_J hist k base Hh Hb) as [fs HJ].
  rewrite (J_replay _ _ _ HJ) in R0. injection R0 as <-.
  destruct (Safe_locked _ _ _ fs c (4 * base) len None HJ HJ (N.le_refl _)) as [H|H];
    [left | right]; exact (J_replay _ _ _ (proj2 (Safe_filter _ _ _ _ H))).
Qed.

Definition v_s7 : ver := {| fw := false; fr := true; ff := true |}.    (* two-write truth append (before bd2ee56) *)
Definition v_s3 : ver := {| fw := true; fr := false; ff := true |}.    (* next seq from the sidecar tail (before 0b0d2b0) *)

(* The crash points below count instructions of the compiled history.  Under `fixed` (and v_s3) ensure_default of an
   empty store has 31 and a warm locked append 23; under v_s7 one more each (the second write).
   38 = 32 + 6 (v_s7): the append's body is written, IPt 3 passed, the newline is not written.
   64 = 31 + 23 + 10 (v_s3): the third operation has flushed its log line and passed IPt 13; its sidecar is not opened.
   43 = 31 + 12 (fixed): the append has flushed its log line and opened the sidecar (IPt 21); the line is not written. *)

Definition s7_hist : list op := [OEnsure 0 300; OAppend 0 8192].
Definition s7_more : list op := [OAppend 0 10].
Definition s3_hist : list op := [OEnsure 0 300; OAppend 0 10; OAppend 0 10].
Definition s3_more : list op := [OAppend 0 10].
Definition stale_hist : list op := [OEnsure 0 300; OAppend 0 10].

Lemma s7_witness :
  env_runb v_s7 init 0 s7_hist = true /\ env_runb v_s7 (crash v_s7 38 s7_hist) 2 s7_more = true
  /\ has_ok (compile v_s7 (crash v_s7 38 s7_hist) 2 (OAppend 0 10)) = true
  /\ replay_validated (run_ops v_s7 (crash v_s7 38 s7_hist) 2 s7_more) = None
  /\ torn (truth (crash v_s7 38 s7_hist)) = true.
Proof. vm_compute. repeat split; reflexivity. Qed.

Lemma s3_witness :
  env_runb v_s3 init 0 s3_hist = true /\ env_runb v_s3 (crash v_s3 64 s3_hist) 3 s3_more = true
  /\ has_ok (compile v_s3 (crash v_s3 64 s3_hist) 3 (OAppend 0 10)) = true
  /\ replay_validated (crash v_s3 64 s3_hist) <> None
  /\ replay_validated (run_ops v_s3 (crash v_s3 64 s3_hist) 3 s3_more) = None.
Proof. vm_compute. repeat split; try reflexivity. discriminate. Qed.

(* the flush decision: if EventLog::append left output-chunk frames of session / task streams in the BufWriter
   (`ff := false`), an acknowledged append would not be on disk when the process dies right after the call *)
Definition v_nf : ver := {| fw := true; fr := true; ff := false |}.
Definition nf_hist : list op := [OEnsure 0 300; OSess 0 100].
Lemma nf_witness :
  env_runb v_nf init 0 nf_hist = true
  /\ In 4 (acks (crash v_nf 1000 nf_hist))
  /\ cfid 4 (frames_of (truth (crash v_nf 1000 nf_hist))) = 0
  /\ cfid 4 (frames_of (truth (crash fixed 1000 nf_hist))) = 1.
Proof. vm_compute. repeat split; try reflexivity. right. left. reflexivity. Qed.

(* open finding (read side of S3): after the crash the full sidecar is a well-formed PROPER prefix of the
   thread's truth stream, and replay_events serves it *)
Lemma stale_witness :
  env_runb fixed init 0 stale_hist = true
  /\ snd (replay_events (crash fixed 43 stale_hist) 0) = Some [mkf 0 0 0 300 None]
  /\ stream 0 (frames_of (truth (crash fixed 43 stale_hist))) = [mkf 0 0 0 300 None; mkf 0 1 4 10 None].
Proof. vm_compute. repeat split; reflexivity. Qed.

(* non-vacuity: a history with every kind of operation, crashed in the middle, restarted, continued.  230 falls
   inside the handoff (40 of its 57 instructions; the seven operations before it take 190): 8 acknowledgements, the
   branch's two among them *)
Definition ex_hist : list op :=
  [OEnsure 0 300; OAppend 0 10; OSess 0 20; OAppend 0 9000; OCheckpoint 0 7 true 50; OBranch 0 1 300 40;
   OAppend 1 10; OHandoff 0 2 9 300 60; ODropRead 0; OAppend 0 10].
Definition ex_more : list op := [OAppend 0 10; OSess 5 10; OEnsure 9 300; OAppend 1 10; OAppend 2 8192].
Lemma ex_env : env_runb fixed init 0 ex_hist = true
  /\ nlen ex_hist <= 10
  /\ env_runb fixed (crash fixed 230 ex_hist) 10 ex_more = true
  /\ nlen (acks (crash fixed 230 ex_hist)) = 8
  /\ nlen (acks (run_ops fixed (crash fixed 230 ex_hist) 10 ex_more)) = 12.
Proof. vm_compute. repeat split; try reflexivity. discriminate. Qed.

