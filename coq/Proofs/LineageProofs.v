(* C10 - branch and handoff (Model/Lineage.v): what they add to the log, and which cut resolve_cut records. *)
From RipV Require Import Base.Prelude Model.Frames Model.Log Proofs.LogProofs Model.Lineage.

(* searching from the end finds the last element that passes *)
Lemma find_rev_spec {A} (p : A -> bool) fs :
  match find p (rev fs) with
  | Some f => exists pre post, fs = pre ++ f :: post /\ p f = true /\ forall g, In g post -> p g = false
  | None => forall g, In g fs -> p g = false
  end.
Proof.
  induction fs as [|a fs IH]; [intros g []|]. cbn [rev]. rewrite find_app. destruct (find p (rev fs)) as [x|].
  - destruct IH as (pre & post & -> & Hp & Hpost). exists (a :: pre), post. auto.
  - cbn [find]. destruct (p a) eqn:Ea.
    + exists [], fs. auto.
    + intros g [<-|Hg]; [exact Ea|exact (IH g Hg)].
Qed.

Lemma maxl_app x a b : maxl x (a ++ b) = maxl (maxl x a) b.
Proof. unfold maxl. apply fold_left_app. Qed.
Lemma maxl_ge x l : x <= maxl x l.
Proof. revert x; induction l as [|y l IH]; intros x; cbn [maxl fold_left]; [lia|]. specialize (IH (N.max x y)). unfold maxl in IH. lia. Qed.
Lemma maxl_all_le x l : (forall y, In y l -> y <= x) -> maxl x l = x.
Proof.
  induction l as [|y l IH]; intros H; [reflexivity|]. cbn [maxl fold_left].
  replace (N.max x y) with x by (specialize (H y (or_introl eq_refl)); lia).
  apply IH. intros z Hz. apply H. right. exact Hz.
Qed.
Lemma maxl_bound x l H : x <= H -> (forall y, In y l -> y <= H) -> maxl x l <= H.
Proof.
  revert x; induction l as [|y l IH]; intros x Hx Hl; [exact Hx|]. cbn [maxl fold_left].
  apply IH; [specialize (Hl y (or_introl eq_refl)); lia|]. intros z Hz. apply Hl. right. exact Hz.
Qed.
(* the maximum is attained *)
Lemma maxl_in x l : maxl x l = x \/ In (maxl x l) l.
Proof.
  revert x; induction l as [|y l IH]; intros x; [left; reflexivity|]. cbn [maxl fold_left].
  destruct (IH (N.max x y)) as [E|E]; unfold maxl in *.
  - rewrite E. destruct (N.max_spec x y) as [[_ ->]|[_ ->]]; [right; left; reflexivity|left; reflexivity].
  - right. right. exact E.
Qed.

Lemma head_seq_snoc fs x : head_seq (fs ++ [x]) = seq x.
Proof. unfold head_seq. rewrite rev_app_distr. reflexivity. Qed.

Lemma consecutive_split pre f post :
  Consecutive (pre ++ f :: post) ->
  Consecutive pre /\ seq f = N.of_nat (length pre).
Proof.
  unfold Consecutive. intros H. rewrite map_app, app_length in H. cbn [map length] in H.
  rewrite nseq_app in H. cbn [nseq] in H.
  apply app_eq_len in H; [|rewrite map_length, nseq_length; reflexivity].
  destruct H as [H1 H2]. split; [exact H1|]. inversion H2. lia.
Qed.

Lemma consecutive_before pre f post g :
  Consecutive (pre ++ f :: post) -> In g pre -> seq g < seq f.
Proof.
  intros H Hg. destruct (consecutive_split _ _ _ H) as [H1 H2].
  apply (in_map seq) in Hg. rewrite H1, nseq_In in Hg. lia.
Qed.

Lemma consecutive_below_head fs : Consecutive fs -> SeqsBelowHead fs.
Proof.
  intros H f Hf. destruct fs as [|x r] using rev_ind; [destruct Hf|]. clear IHr.
  rewrite head_seq_snoc. apply in_app_or in Hf. destruct Hf as [Hf|[<-|[]]]; [|lia].
  pose proof (consecutive_before r x [] f H Hf). lia.
Qed.

Lemma valid_stream_below_head l k s : Valid l -> SeqsBelowHead (stream k s l).
Proof. intros H. apply consecutive_below_head. exact (H k s). Qed.

(* a log extended by the first frames of a thread it does not hold *)
Definition ChildStart (c : N) (ext : list frame) : Prop :=
  (forall f, In f ext -> (fkind f, sid f) = (KContinuity, c)) /\ Consecutive ext.

Lemma stream_app_others k s c l ext :
  (forall f, In f ext -> (fkind f, sid f) = (KContinuity, c)) -> (k, s) <> (KContinuity, c) ->
  stream k s (l ++ ext) = stream k s l.
Proof.
  intros H Hk. rewrite stream_app. replace (stream k s ext) with (@nil frame); [apply app_nil_r|].
  induction ext as [|x ext IH]; [reflexivity|]. unfold stream. cbn [filter].
  rewrite in_stream_other by (rewrite (H x (or_introl eq_refl)); congruence).
  apply IH. intros f Hf. apply H. right. exact Hf.
Qed.

Lemma cstream_app_child c l ext :
  cstream c l = [] -> (forall f, In f ext -> (fkind f, sid f) = (KContinuity, c)) -> cstream c (l ++ ext) = ext.
Proof.
  intros Hl H. unfold cstream in *. rewrite stream_app, Hl. cbn [app].
  induction ext as [|x ext IH]; [reflexivity|]. unfold stream. cbn [filter].
  assert (E : in_stream KContinuity c x = true).
  { apply in_stream_true. specialize (H x (or_introl eq_refl)). split; congruence. }
  rewrite E. f_equal. apply IH. intros f Hf. apply H. right. exact Hf.
Qed.

Lemma valid_app_child l c ext : Valid l -> cstream c l = [] -> ChildStart c ext -> Valid (l ++ ext).
Proof.
  intros Hv Hf. induction ext as [|x e IH] using rev_ind; intros [Hk Hc]; [rewrite app_nil_r; exact Hv|].
  destruct (consecutive_split e x [] Hc) as [Hce Hx].
  assert (Hke : forall f, In f e -> (fkind f, sid f) = (KContinuity, c)).
  { intros f Hin. apply Hk. apply in_or_app. left. exact Hin. }
  rewrite app_assoc. apply Valid_snoc. split; [apply IH; split; assumption|].
  assert (E : (fkind x, sid x) = (KContinuity, c)) by apply Hk, in_elt. injection E as -> ->.
  unfold next_of. fold (cstream c (l ++ e)). rewrite (cstream_app_child c l e Hf Hke). exact Hx.
Qed.

Lemma created_key c e : (fkind (created_frame c e), sid (created_frame c e)) = (KContinuity, c).
Proof. reflexivity. Qed.
Lemma branched_key c e p cut om : (fkind (branched_frame c e p cut om), sid (branched_frame c e p cut om)) = (KContinuity, c).
Proof. reflexivity. Qed.
Lemma handoff_key c e p cut om oa md : (fkind (handoff_frame c e p cut om oa md), sid (handoff_frame c e p cut om oa md)) = (KContinuity, c).
Proof. reflexivity. Qed.

(* the three extensions branch and handoff ever make: nothing, the creation frame, creation and lineage frame *)
Lemma child_start_nil c : ChildStart c [].
Proof. split; [intros f []|reflexivity]. Qed.

Lemma child_start_one c e0 : ChildStart c [created_frame c e0].
Proof. split; [intros f [<-|[]]; reflexivity|reflexivity]. Qed.

Lemma child_start_two c e0 b :
  (fkind b, sid b) = (KContinuity, c) -> seq b = 1 -> ChildStart c [created_frame c e0; b].
Proof.
  intros Hb Sb. split; [intros f [<-|[<-|[]]]; [reflexivity|exact Hb]|].
  unfold Consecutive. cbn [map length nseq]. rewrite Sb. reflexivity.
Qed.

(* what branch and handoff do to the log, whatever the outcome *)
Definition Extends (l : log) (c : N) (l' : log) : Prop := exists ext, l' = l ++ ext /\ ChildStart c ext.

Lemma extends_refl l c : Extends l c l.
Proof. exists []. split; [symmetry; apply app_nil_r|apply child_start_nil]. Qed.

Lemma ext_prefix l c l' : Extends l c l' -> exists ext, l' = l ++ ext.
Proof. intros (ext & H & _). exists ext. exact H. Qed.

Lemma ext_other_streams l c l' k s : Extends l c l' -> (k, s) <> (KContinuity, c) -> stream k s l' = stream k s l.
Proof. intros (ext & -> & Hext & _). apply stream_app_others. exact Hext. Qed.

(* the parent is such a stream: every thread other than the fresh child *)
Lemma ext_other_threads l c l' t : Extends l c l' -> t <> c -> cstream t l' = cstream t l.
Proof. intros H Ht. apply (ext_other_streams l c l' KContinuity t H). congruence. Qed.

Lemma ext_valid l c l' : Extends l c l' -> Valid l -> cstream c l = [] -> Valid l'.
Proof. intros (ext & -> & Hext) Hv Hf. exact (valid_app_child l c ext Hv Hf Hext). Qed.

(* resolve_cut on the empty stream and on one that is not empty *)
Theorem sel_empty_parent sel :
  resolve_cut sel [] = Err (match sel with SelBoth _ _ => EBoth | _ => ENoParent end).
Proof. destruct sel; reflexivity. Qed.

Lemma resolve_cut_nonempty sel fs : fs <> [] ->
  resolve_cut sel fs =
  match sel with
  | SelNone => Ok (head_seq fs, last_msg fs)
  | SelSeq n => if head_seq fs <? n then Err EOutOfRange else Ok (n, last_msg_upto n fs)
  | SelMsg m => match fst (scan m fs) with
                | None => Err ENotFound
                | Some _ => Ok (unwrap0 (snd (scan m fs)), Some m)
                end
  | SelBoth _ _ => Err EBoth
  end.
Proof. intros H. destruct fs; [congruence|]. destruct sel; reflexivity. Qed.

Lemma resolve_ok_nonempty sel fs r : resolve_cut sel fs = Ok r -> fs <> [].
Proof. intros H ->. rewrite sel_empty_parent in H. discriminate. Qed.

Lemma resolve_never_bundle sel fs : resolve_cut sel fs <> Err EBundle.
Proof.
  destruct fs as [|x r]; [rewrite sel_empty_parent; destruct sel; discriminate|].
  rewrite resolve_cut_nonempty by discriminate. destruct sel; try discriminate.
  - destruct (head_seq _ <? _); discriminate.
  - destruct (fst _); discriminate.
Qed.

Lemma branch_ext view l parent sel fr : Extends l (f_child fr) (fst (branch_view view l parent sel fr)).
Proof.
  unfold branch_view. destruct (resolve_cut sel view) as [[cut om]|e]; cbn [fst]; [|apply extends_refl].
  eexists. split; [reflexivity|]. apply child_start_two; reflexivity.
Qed.

Theorem branch_child_prefix view l parent sel fr l' c cut om :
  cstream (f_child fr) l = [] ->
  branch_view view l parent sel fr = (l', Ok (c, cut, om)) ->
  c = f_child fr /\ resolve_cut sel view = Ok (cut, om)
  /\ cstream c l' = [created_frame c (f_e0 fr); branched_frame c (f_e1 fr) parent cut om].
Proof.
  intros Hf H. unfold branch_view in H. destruct (resolve_cut sel view) as [[cut' om']|e]; [|discriminate].
  injection H as <- <- <- <-. repeat split. apply cstream_app_child; [exact Hf|].
  apply (child_start_two _ _ (branched_frame _ _ _ _ _)); reflexivity.
Qed.

Theorem branch_err_unchanged view l parent sel fr l' e :
  branch_view view l parent sel fr = (l', Err e) -> l' = l /\ resolve_cut sel view = Err e.
Proof.
  unfold branch_view. destruct (resolve_cut sel view) as [[cut om]|e']; intros H; inversion H. split; reflexivity.
Qed.

(* handoff: every way it can end *)
Section Handoff.
Variables (chk bf : bool) (view : list frame) (l : log) (arts : astore) (parent : N) (sel : selector)
  (md : bool) (art : option N) (bok : bool) (fr : fresh).

Inductive hcase : log * astore * result resp -> Prop :=
| HNoSummary : md = false -> art = None -> hcase (l, arts, Err ENoSummary)
| HNoArtifact a : art = Some a -> chk = true -> art_has a arts = false -> hcase (l, arts, Err ENoArtifact)
| HCutErr e : resolve_cut sel view = Err e -> hcase (l, arts, Err e)
| HGiven cut om a : resolve_cut sel view = Ok (cut, om) -> art = Some a -> (chk = true -> art_has a arts = true) ->
    hcase (l ++ [created_frame (f_child fr) (f_e0 fr); handoff_frame (f_child fr) (f_e1 fr) parent cut om (Some a) md],
           arts, Ok (f_child fr, cut, om))
| HBundle cut om : resolve_cut sel view = Ok (cut, om) -> art = None -> md = true -> bok = true ->
    hcase (l ++ [created_frame (f_child fr) (f_e0 fr); handoff_frame (f_child fr) (f_e1 fr) parent cut om (Some (f_art fr)) md],
           (f_art fr, [parent; cut; opt om]) :: arts, Ok (f_child fr, cut, om))
| HBundleFail cut om : resolve_cut sel view = Ok (cut, om) -> art = None -> md = true -> bok = false ->
    hcase ((if bf then l else l ++ [created_frame (f_child fr) (f_e0 fr)]), arts, Err EBundle).

End Handoff.

Lemma handoff_cases chk bf view l arts parent sel md art bok fr :
  hcase chk bf view l arts parent sel md art bok fr (handoff_gen chk bf view l arts parent sel md art bok fr).
Proof.
  unfold handoff_gen. destruct art as [a|], md; cbv beta iota.
  1-2: destruct (chk && negb (art_has a arts)) eqn:Ec;
    [apply andb_true_iff in Ec; destruct Ec as [Ec Ea]; apply negb_true_iff in Ea;
     apply (HNoArtifact) with (a := a); [reflexivity|exact Ec|exact Ea]|];
    destruct (resolve_cut sel view) as [[cut om]|e] eqn:Er; [|apply HCutErr; exact Er];
    apply HGiven; [exact Er|reflexivity|]; intros ->; apply negb_false_iff; exact Ec.
  - destruct (resolve_cut sel view) as [[cut om]|e] eqn:Er; [|apply HCutErr; exact Er].
    destruct bok; [apply HBundle|apply (HBundleFail) with (cut := cut) (om := om)]; auto.
  - apply HNoSummary; reflexivity.
Qed.

Lemma handoff_ext chk bf view l arts parent sel md art bok fr :
  Extends l (f_child fr) (fst (fst (handoff_gen chk bf view l arts parent sel md art bok fr))).
Proof.
  destruct (handoff_cases chk bf view l arts parent sel md art bok fr); cbn [fst]; try apply extends_refl.
  1-2: eexists; split; [reflexivity|]; apply child_start_two; reflexivity.
  destruct bf; [apply extends_refl|]. eexists. split; [reflexivity|apply child_start_one].
Qed.

(* a served handoff: the response, the two frames, and where the recorded artifact id comes from *)
Lemma handoff_ok chk bf view l arts parent sel md art bok fr l' arts' c cut om :
  handoff_gen chk bf view l arts parent sel md art bok fr = (l', arts', Ok (c, cut, om)) ->
  c = f_child fr /\ resolve_cut sel view = Ok (cut, om)
  /\ exists a, l' = l ++ [created_frame c (f_e0 fr); handoff_frame c (f_e1 fr) parent cut om (Some a) md]
     /\ ((art = Some a /\ arts' = arts /\ (chk = true -> art_has a arts = true))
         \/ (art = None /\ md = true /\ bok = true /\ a = f_art fr
             /\ arts' = (a, [parent; cut; opt om]) :: arts)).
Proof.
  destruct (handoff_cases chk bf view l arts parent sel md art bok fr); intros Eq; try discriminate Eq;
    injection Eq as <- <- <- <- <-; (split; [reflexivity|]); (split; [assumption|]); eexists; (split; [reflexivity|]);
    [left|right]; repeat split; assumption.
Qed.

Theorem handoff_child_prefix chk bf view l arts parent sel md art bok fr l' arts' c cut om :
  cstream (f_child fr) l = [] ->
  handoff_gen chk bf view l arts parent sel md art bok fr = (l', arts', Ok (c, cut, om)) ->
  c = f_child fr /\ resolve_cut sel view = Ok (cut, om)
  /\ exists a, cstream c l' = [created_frame c (f_e0 fr); handoff_frame c (f_e1 fr) parent cut om (Some a) md]
     /\ ((art = Some a /\ arts' = arts /\ (chk = true -> art_has a arts' = true))
         \/ (art = None /\ md = true /\ bok = true /\ a = f_art fr
             /\ arts' = (a, [parent; cut; opt om]) :: arts)).
Proof.
  intros Hf H. destruct (handoff_ok _ _ _ _ _ _ _ _ _ _ _ _ _ _ _ _ H) as (-> & Hr & a & -> & Ha).
  split; [reflexivity|]. split; [exact Hr|]. exists a. split.
  - apply cstream_app_child; [exact Hf|]. apply (child_start_two _ _ (handoff_frame _ _ _ _ _ _ _)); reflexivity.
  - destruct Ha as [(Ea & -> & Hc)|Ha]; [left; auto|right; exact Ha].
Qed.

(* a failing call writes nothing - except a handoff whose bundle write fails *)
Theorem handoff_err_unchanged chk bf view l arts parent sel md art bok fr l' arts' e :
  handoff_gen chk bf view l arts parent sel md art bok fr = (l', arts', Err e) ->
  arts' = arts /\ (e <> EBundle \/ bf = true -> l' = l)
  /\ (e = EBundle -> md = true /\ art = None /\ bok = false
                     /\ l' = if bf then l else l ++ [created_frame (f_child fr) (f_e0 fr)]).
Proof.
  destruct (handoff_cases chk bf view l arts parent sel md art bok fr) as [| |e0 Hr| | |]; intros Eq; try discriminate Eq;
    injection Eq as <- <- <-; (split; [reflexivity|]).
  - split; [reflexivity|discriminate].
  - split; [reflexivity|discriminate].
  - split; [reflexivity|]. intros ->. destruct (resolve_never_bundle _ _ Hr).
  - split; [intros [Hne| ->]; [congruence|reflexivity]|]. intros _. auto.
Qed.

(* the handoff that writes the bundle before it creates the child (bf = true): a failing call writes nothing at all *)
Theorem handoff_fixed_err_unchanged chk view l arts parent sel md art bok fr l' arts' e :
  handoff_gen chk true view l arts parent sel md art bok fr = (l', arts', Err e) -> l' = l /\ arts' = arts.
Proof.
  intros H. destruct (handoff_err_unchanged _ _ _ _ _ _ _ _ _ _ _ _ _ _ H) as (Ha & Hl & _).
  split; [apply Hl; right; reflexivity|exact Ha].
Qed.

Lemma art_get_head a x arts : art_get a ((a, x) :: arts) = Some x.
Proof. unfold art_get. cbn [find fst]. rewrite N.eqb_refl. reflexivity. Qed.

(* the handoff that looks a caller-given artifact id up (chk = true): whatever summary class was accepted, the
   recorded artifact id is in the store when the lineage frame is written *)
Theorem handoff_summary_resolvable bf view l arts parent sel md art bok fr l' arts' c cut om :
  handoff_gen true bf view l arts parent sel md art bok fr = (l', arts', Ok (c, cut, om)) ->
  exists a, l' = l ++ [created_frame c (f_e0 fr); handoff_frame c (f_e1 fr) parent cut om (Some a) md]
    /\ art_has a arts' = true /\ (art = None -> md = true /\ art_get a arts' = Some [parent; cut; opt om]).
Proof.
  intros H. destruct (handoff_ok _ _ _ _ _ _ _ _ _ _ _ _ _ _ _ _ H) as (_ & _ & a & Hl & Ha).
  exists a. split; [exact Hl|]. destruct Ha as [(-> & -> & Hc)|(_ & Hm & _ & _ & ->)].
  - split; [exact (Hc eq_refl)|discriminate].
  - unfold art_has. rewrite art_get_head. auto.
Qed.

(* the bundle written for a markdown-only handoff records the same cut as the lineage frame *)
Theorem handoff_bundle_matches chk bf view l arts parent sel bok fr l' arts' c cut om :
  handoff_gen chk bf view l arts parent sel true None bok fr = (l', arts', Ok (c, cut, om)) ->
  art_get (f_art fr) arts' = Some [parent; cut; opt om]
  /\ l' = l ++ [created_frame c (f_e0 fr); handoff_frame c (f_e1 fr) parent cut om (Some (f_art fr)) true].
Proof.
  intros H. destruct (handoff_ok _ _ _ _ _ _ _ _ _ _ _ _ _ _ _ _ H) as (_ & _ & a & Hl & [(Ea & _)|(_ & _ & _ & -> & ->)]);
    [discriminate Ea|]. split; [apply art_get_head|exact Hl].
Qed.

(* the scan of from_message_id *)
Lemma is_msg_not_run f : is_msg f = true -> is_run f = false.
Proof.
  unfold is_msg, is_run, is_etype, etype_eqb. intros H. apply N.eqb_eq in H. rewrite H. reflexivity.
Qed.

Lemma scan_no_msg m fs st :
  fst st = None -> (forall g, In g fs -> is_msg_id m g = false) ->
  fst (fold_left (scan_step m) fs st) = None.
Proof.
  revert st; induction fs as [|g fs IH]; intros st Hs Hn; [exact Hs|]. cbn [fold_left]. apply IH.
  - unfold scan_step. rewrite (Hn g (or_introl eq_refl)). destruct (is_run_of m g); exact Hs.
  - intros h Hh. apply Hn. right. exact Hh.
Qed.

Lemma scan_after_msg m post s x :
  (forall g, In g post -> is_msg_id m g = false) ->
  fold_left (scan_step m) post (Some s, Some x)
  = (Some s, Some (maxl x (map seq (filter (is_run_of m) post)))).
Proof.
  revert x; induction post as [|g post IH]; intros x Hn; [reflexivity|]. cbn [fold_left].
  unfold scan_step at 2. rewrite (Hn g (or_introl eq_refl)). cbn [filter].
  destruct (is_run_of m g) eqn:Er.
  - cbn [fst snd unwrap0 map]. rewrite IH by (intros h Hh; apply Hn; right; exact Hh). reflexivity.
  - apply IH. intros h Hh. apply Hn. right. exact Hh.
Qed.

Lemma scan_split m pre f post :
  is_msg_id m f = true -> (forall g, In g post -> is_msg_id m g = false) ->
  scan m (pre ++ f :: post) = (Some (seq f), Some (maxl (seq f) (map seq (filter (is_run_of m) post)))).
Proof.
  intros Hf Hpost. unfold scan. rewrite fold_left_app. cbn [fold_left].
  unfold scan_step at 2. rewrite Hf. apply scan_after_msg. exact Hpost.
Qed.

(* from_message_id, completely: not found when no message frame carries the id; else the cut is the largest seq
   among the LAST such frame and the run frames naming the id that come AFTER it *)
Lemma resolve_msg m fs : fs <> [] ->
  ((forall g, In g fs -> is_msg_id m g = false) /\ resolve_cut (SelMsg m) fs = Err ENotFound)
  \/ exists pre f post, fs = pre ++ f :: post /\ is_msg_id m f = true
       /\ (forall g, In g post -> is_msg_id m g = false)
       /\ resolve_cut (SelMsg m) fs = Ok (maxl (seq f) (map seq (filter (is_run_of m) post)), Some m).
Proof.
  intros Hne. rewrite (resolve_cut_nonempty _ _ Hne). pose proof (find_rev_spec (is_msg_id m) fs) as S.
  destruct (find (is_msg_id m) (rev fs)) as [f|].
  - right. destruct S as (pre & post & E & Hf & Hpost). exists pre, f, post. repeat split; try assumption.
    rewrite E, (scan_split m pre f post Hf Hpost). reflexivity.
  - left. split; [exact S|]. unfold scan. rewrite (scan_no_msg m fs (None, None) eq_refl S). reflexivity.
Qed.

Theorem from_message_cut m fs cut om :
  resolve_cut (SelMsg m) fs = Ok (cut, om) ->
  om = Some m /\ exists pre f post,
    fs = pre ++ f :: post /\ is_msg f = true /\ fid f = m
    /\ (forall g, In g post -> is_msg_id m g = false)
    /\ cut = maxl (seq f) (map seq (filter (is_run_of m) post)).
Proof.
  intros H. destruct (resolve_msg m fs (resolve_ok_nonempty _ _ _ H)) as [[_ E]|(pre & f & post & Efs & Hf & Hpost & E)];
    rewrite E in H; [discriminate|]. injection H as <- <-. split; [reflexivity|]. exists pre, f, post.
  apply andb_true_iff in Hf. destruct Hf as [Hf1 Hf2]. apply N.eqb_eq in Hf2. auto.
Qed.

(* on a stream whose seqs are 0,1,2,.. the frames before the message cannot carry a larger seq, so the
   cut is the largest seq among the message and ALL run frames naming it (before or after) *)
Theorem from_message_cut_all_related m fs cut om :
  Consecutive fs -> resolve_cut (SelMsg m) fs = Ok (cut, om) ->
  exists f, In f fs /\ is_msg f = true /\ fid f = m
    /\ cut = maxl (seq f) (map seq (filter (is_run_of m) fs)).
Proof.
  intros Hc H. destruct (from_message_cut m fs cut om H) as (_ & pre & f & post & E & Hm & Hid & Hpost & Hcut).
  exists f. subst fs. split; [apply in_elt|]. split; [exact Hm|]. split; [exact Hid|].
  rewrite filter_app. cbn [filter]. unfold is_run_of at 2. rewrite (is_msg_not_run f Hm). cbn [andb].
  rewrite map_app, maxl_app. rewrite (maxl_all_le (seq f) (map seq (filter (is_run_of m) pre))); [exact Hcut|].
  intros y Hy. apply in_map_iff in Hy. destruct Hy as (g & <- & Hg). apply filter_In in Hg. destruct Hg as [Hg _].
  pose proof (consecutive_before pre f post g Hc Hg). lia.
Qed.

Theorem cut_in_range sel fs cut om :
  SeqsBelowHead fs -> resolve_cut sel fs = Ok (cut, om) -> cut <= head_seq fs.
Proof.
  intros Hb H. destruct sel as [|n|m|m n]; [| | |discriminate].
  1-2: rewrite (resolve_cut_nonempty _ _ (resolve_ok_nonempty _ _ _ H)) in H.
  - injection H as <- _. lia.
  - destruct (head_seq fs <? n) eqn:E; [discriminate|]. injection H as <- _. lia.
  - destruct (from_message_cut m fs cut om H) as (_ & pre & f & post & -> & _ & _ & _ & ->).
    apply maxl_bound; [apply Hb, in_elt|].
    intros y Hy. apply in_map_iff in Hy. destruct Hy as (g & <- & Hg). apply filter_In in Hg.
    apply Hb. apply in_or_app. right. right. apply Hg.
Qed.

(* the cut is a seq that occurs in the stream whenever it is computed (none / from_message_id) *)
Theorem cut_is_a_frame_seq sel fs cut om :
  (forall n, sel <> SelSeq n) -> resolve_cut sel fs = Ok (cut, om) -> exists f, In f fs /\ seq f = cut.
Proof.
  intros Hn H. destruct sel as [|n|m|m n]; [|destruct (Hn n eq_refl)| |discriminate].
  - pose proof (resolve_ok_nonempty _ _ _ H) as Hne. rewrite (resolve_cut_nonempty _ _ Hne) in H. injection H as <- _.
    destruct fs as [|y fs'] using rev_ind; [congruence|]. exists y. split; [apply in_elt|].
    rewrite head_seq_snoc. reflexivity.
  - destruct (from_message_cut m fs cut om H) as (_ & pre & f & post & -> & _ & _ & _ & ->).
    destruct (maxl_in (seq f) (map seq (filter (is_run_of m) post))) as [Em|Em].
    + exists f. split; [apply in_elt|]. congruence.
    + apply in_map_iff in Em. destruct Em as (g & Eg & Hg). apply filter_In in Hg.
      exists g. split; [apply in_or_app; right; right; apply Hg|exact Eg].
Qed.

(* q: the test the backward search makes beside `is a message`; it has to mean `seq <= cut` on the stream *)
Lemma last_msg_such (q : frame -> bool) cut fs :
  (forall f, In f fs -> is_msg f = true -> (q f = true <-> seq f <= cut)) ->
  LastMsgAtOrBefore cut fs (option_map fid (find (fun f => q f && is_msg f) (rev fs))).
Proof.
  intros Hq. pose proof (find_rev_spec (fun f => q f && is_msg f) fs) as S.
  assert (Above : forall g, In g fs -> q g && is_msg g = false -> is_msg g = true -> cut < seq g).
  { intros g Hg Hp Hm. rewrite Hm, andb_true_r in Hp. apply N.lt_nge. intros Hle.
    apply (Hq g Hg Hm) in Hle. congruence. }
  unfold LastMsgAtOrBefore. destruct (find _ (rev fs)) as [f|]; cbn [option_map].
  - destruct S as (pre & post & E & Hf & Hpost). apply andb_true_iff in Hf. destruct Hf as [Hqf Hm].
    exists pre, f, post. split; [exact E|]. split; [exact Hm|]. split; [reflexivity|]. split.
    + apply (Hq f); [rewrite E; apply in_elt|exact Hm|exact Hqf].
    + intros g Hg. apply Above; [rewrite E; apply in_or_app; right; right; exact Hg|exact (Hpost g Hg)].
  - intros g Hg. exact (Above g Hg (S g Hg)).
Qed.

Theorem cut_names_last_message sel fs cut om :
  (forall m, sel <> SelMsg m) -> SeqsBelowHead fs ->
  resolve_cut sel fs = Ok (cut, om) -> LastMsgAtOrBefore cut fs om.
Proof.
  intros Hsel Hb H. rewrite (resolve_cut_nonempty _ _ (resolve_ok_nonempty _ _ _ H)) in H.
  destruct sel as [|n|m|m n]; [| |destruct (Hsel m eq_refl)|discriminate].
  - injection H as <- <-. apply (last_msg_such (fun _ => true)). intros f Hf _. split; [intros _; exact (Hb f Hf)|reflexivity].
  - destruct (head_seq fs <? n); [discriminate|]. injection H as <- <-.
    apply (last_msg_such (fun f => seq f <=? n)). intros f _ _. apply N.leb_le.
Qed.

(* on a consecutive stream "positionally last" is "largest seq": no message frame with seq <= cut
   lies above the named one *)
Theorem last_message_is_max cut fs m :
  Consecutive fs -> LastMsgAtOrBefore cut fs (Some m) ->
  exists f, In f fs /\ is_msg f = true /\ fid f = m /\ seq f <= cut
    /\ forall g, In g fs -> is_msg g = true -> seq g <= cut -> seq g <= seq f.
Proof.
  intros Hc (pre & f & post & E & Hm & Hid & Hle & Hpost). exists f. subst fs.
  split; [apply in_elt|]. repeat (split; [assumption|]).
  intros g Hg Hgm Hgc. apply in_app_or in Hg. destruct Hg as [Hg|[<-|Hg]].
  - pose proof (consecutive_before pre f post g Hc Hg). lia.
  - lia.
  - specialize (Hpost g Hg Hgm). lia.
Qed.

Theorem sel_both_err m n fs : resolve_cut (SelBoth m n) fs = Err EBoth.
Proof. reflexivity. Qed.

Theorem sel_seq_out_of_range n fs : fs <> [] -> head_seq fs < n -> resolve_cut (SelSeq n) fs = Err EOutOfRange.
Proof. intros Hne Hlt. rewrite (resolve_cut_nonempty _ _ Hne). apply N.ltb_lt in Hlt. rewrite Hlt. reflexivity. Qed.

(* unknown id, or the id of a frame that is not a message *)
Theorem sel_msg_not_found m fs :
  fs <> [] -> (forall f, In f fs -> is_msg f = true -> fid f <> m) -> resolve_cut (SelMsg m) fs = Err ENotFound.
Proof.
  intros Hne Hn. destruct (resolve_msg m fs Hne) as [[_ E]|(pre & f & post & -> & Hf & _)]; [exact E|].
  apply andb_true_iff in Hf. destruct Hf as [Hm Hid]. apply N.eqb_eq in Hid.
  destruct (Hn f (in_elt f pre post) Hm Hid).
Qed.

(* exactly when resolution succeeds *)
Theorem resolve_ok_iff sel fs :
  (exists r, resolve_cut sel fs = Ok r) <->
  fs <> [] /\ match sel with
              | SelNone => True
              | SelSeq n => n <= head_seq fs
              | SelMsg m => exists f, In f fs /\ is_msg f = true /\ fid f = m
              | SelBoth _ _ => False
              end.
Proof.
  split.
  - intros [r H]. pose proof (resolve_ok_nonempty _ _ _ H) as Hne. split; [exact Hne|].
    destruct sel as [|n|m|m n]; [exact I| | |discriminate].
    + rewrite (resolve_cut_nonempty _ _ Hne) in H. destruct (head_seq fs <? n) eqn:E; [discriminate|].
      apply N.ltb_ge. exact E.
    + destruct r as [cut om]. destruct (from_message_cut m fs cut om H) as (_ & pre & f & post & -> & Hm & Hid & _).
      exists f. split; [apply in_elt|]. split; assumption.
  - intros [Hne Hs]. destruct sel as [|n|m|m n]; [| | |destruct Hs].
    + rewrite (resolve_cut_nonempty _ _ Hne). eexists. reflexivity.
    + rewrite (resolve_cut_nonempty _ _ Hne). apply N.ltb_ge in Hs. rewrite Hs. eexists. reflexivity.
    + destruct (resolve_msg m fs Hne) as [[Hn _]|(pre & f & post & _ & _ & _ & E)]; [|eexists; exact E].
      destruct Hs as (f & Hf & Hm & Hid). specialize (Hn f Hf). unfold is_msg_id in Hn.
      rewrite Hm, Hid, N.eqb_refl in Hn. discriminate.
Qed.

(* witnesses *)
Definition mk (i s q : N) (t : etype) (a : list N) : frame := {| fid := i; sid := s; seq := q; ety := t; args := a |}.
(* parent thread 0: created, m1(id 11), run_spawned(m1), m2(id 13), run_ended(m1), m3(id 15), tool side effects *)
Definition demo_parent : list frame :=
  [ mk 10 0 0 EContinuityCreated [];
    mk 11 0 1 EContinuityMessageAppended [];
    mk 12 0 2 EContinuityRunSpawned [11];
    mk 13 0 3 EContinuityMessageAppended [];
    mk 14 0 4 EContinuityRunEnded [11];
    mk 15 0 5 EContinuityMessageAppended [];
    mk 16 0 6 EContinuityToolSideEffects [] ].
(* a session frame of another stream interleaved *)
Definition demo_log : log := mk 90 7 0 ESessionStarted [] :: demo_parent.
Definition demo_fresh : fresh := {| f_child := 1; f_e0 := 20; f_e1 := 21; f_art := 30 |}.

Lemma demo_valid : Valid demo_log.
Proof. apply validate_spec. vm_compute. reflexivity. Qed.
Lemma demo_consecutive : Consecutive demo_parent.
Proof. vm_compute. reflexivity. Qed.
Lemma demo_child_fresh : cstream (f_child demo_fresh) demo_log = [].
Proof. vm_compute. reflexivity. Qed.
Lemma demo_view : cstream 0 demo_log = demo_parent.
Proof. vm_compute. reflexivity. Qed.

Lemma demo_cuts :
  resolve_cut SelNone demo_parent = Ok (6, Some 15)
  /\ resolve_cut (SelSeq 4) demo_parent = Ok (4, Some 13)
  /\ resolve_cut (SelSeq 0) demo_parent = Ok (0, None)
  /\ resolve_cut (SelSeq 7) demo_parent = Err EOutOfRange
  /\ resolve_cut (SelMsg 11) demo_parent = Ok (4, Some 11)
  /\ resolve_cut (SelMsg 13) demo_parent = Ok (3, Some 13)
  /\ resolve_cut (SelMsg 12) demo_parent = Err ENotFound
  /\ resolve_cut (SelMsg 77) demo_parent = Err ENotFound
  /\ resolve_cut (SelBoth 11 1) demo_parent = Err EBoth.
Proof. vm_compute. repeat split; reflexivity. Qed.

Definition demo_branch_result := branch_op demo_log 0 (SelMsg 11) demo_fresh.
Lemma demo_branch :
  demo_branch_result
  = (demo_log ++ [created_frame 1 20; branched_frame 1 21 0 4 (Some 11)], Ok (1, 4, Some 11)).
Proof. vm_compute. reflexivity. Qed.

Definition demo_handoff_md := handoff_op demo_log [] 0 SelNone true None true demo_fresh.
Lemma demo_handoff :
  demo_handoff_md
  = (demo_log ++ [created_frame 1 20; handoff_frame 1 21 0 6 (Some 15) (Some 30) true],
     [(30, [0; 6; 16])], Ok (1, 6, Some 15)).
Proof. vm_compute. reflexivity. Qed.

(* a run frame naming the message but standing BEFORE it (impossible on a stream written by ripd:
   run frames are appended after their message) is forgotten by the scan even when its seq is larger *)
Definition odd_parent : list frame :=
  [ mk 10 0 0 EContinuityCreated [];
    mk 12 0 9 EContinuityRunEnded [11];
    mk 11 0 1 EContinuityMessageAppended [] ].
Lemma from_message_ignores_earlier_runs_unsorted :
  exists fs m cut om f, resolve_cut (SelMsg m) fs = Ok (cut, om) /\ In f fs /\ is_msg f = true /\ fid f = m
    /\ cut <> maxl (seq f) (map seq (filter (is_run_of m) fs)).
Proof.
  exists odd_parent, 11, 1, (Some 11), (mk 11 0 1 EContinuityMessageAppended []).
  split; [vm_compute; reflexivity|]. split; [right; right; left; reflexivity|]. split; [reflexivity|]. split; [reflexivity|].
  vm_compute. discriminate.
Qed.

(* the code as found records a caller-given artifact id that names nothing *)
Lemma handoff_unchecked_artifact_refuted :
  exists l arts parent sel a fr l' arts' r,
    handoff_op_unfixed l arts parent sel false (Some a) true fr = (l', arts', Ok r)
    /\ art_has a arts' = false
    /\ exists c e cut om, In (handoff_frame c e parent cut om (Some a) false) l'.
Proof.
  exists demo_log, [], 0, SelNone, 55, demo_fresh,
    (demo_log ++ [created_frame 1 20; handoff_frame 1 21 0 6 (Some 15) (Some 55) false]), [], (1, 6, Some 15).
  split; [vm_compute; reflexivity|]. split; [reflexivity|].
  exists 1, 21, 6, (Some 15). apply in_or_app. right. right. left. reflexivity.
Qed.

(* a handoff whose bundle write fails leaves a child that has a creation frame and no lineage *)
Lemma handoff_orphan_child_unfixed_refuted :
  exists l arts parent sel md art bok fr l' arts' e,
    handoff_op_unfixed l arts parent sel md art bok fr = (l', arts', Err e) /\ l' <> l
    /\ cstream (f_child fr) l = [] /\ cstream (f_child fr) l' = [created_frame (f_child fr) (f_e0 fr)].
Proof.
  exists demo_log, [], 0, SelNone, true, None, false, demo_fresh, (demo_log ++ [created_frame 1 20]), [], EBundle.
  split; [vm_compute; reflexivity|]. split; [vm_compute; discriminate|]. split; vm_compute; reflexivity.
Qed.

(* handoff_op (chk = true, bf = true) on the same two inputs *)
Definition dangling_fixed := handoff_op demo_log [] 0 SelNone false (Some 55) true demo_fresh.
Definition orphan_fixed := handoff_op demo_log [] 0 SelNone true None false demo_fresh.
Lemma fixed_eq : dangling_fixed = (demo_log, [], Err ENoArtifact) /\ orphan_fixed = (demo_log, [], Err EBundle).
Proof. vm_compute. split; reflexivity. Qed.

Lemma http_status_created_iff (r : result resp) : http_status r = 201 <-> exists x, r = Ok x.
Proof.
  split.
  - destruct r as [x|e]; [intros _; exists x; reflexivity|]. destruct e; cbn [http_status]; intros H; discriminate H.
  - intros [x ->]. reflexivity.
Qed.
Lemma http_status_classes (r : result resp) :
  http_status r = 201 \/ http_status r = 400 \/ http_status r = 404 \/ http_status r = 500.
Proof. destruct r as [x|e]; [left; reflexivity|]. destruct e; cbn [http_status]; tauto. Qed.
