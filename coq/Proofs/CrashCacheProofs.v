(* C05 — the caches a crash leaves behind (second invariant, over the full sidecars).
   A full sidecar that ContinuityStreamCache::try_replay accepts is, at EVERY instruction boundary of any
   history, after restart and after any further operations, a PREFIX of the thread's stream in the truth log:
   stale at worst, never inconsistent.  Everything else try_replay refuses (the store falls back to the log). *)
From RipV Require Import Base.Prelude Model.Crash Proofs.CrashProofs.

(* ch is a chunk-prefix of the perfect sidecar of stream S *)
Definition Good (ch : list chunk) (S : list frame) : Prop := exists rest, ch ++ rest = enc S.
(* try_replay can never accept ch, and no later appended line changes that *)
Definition Bad (ch : list chunk) : Prop :=
  match parse ch with None => True | Some evs => seqs_from 0 evs = false end.
(* Good-or-Bad: what every sidecar is, relative to its stream, at every instruction boundary *)
Definition GB (ch : list chunk) (S : list frame) : Prop := Good ch S \/ Bad ch.
(* every full sidecar on disk is Good or Bad w.r.t. its thread's stream in the truth log on disk *)
Definition SOK (s : st) : Prop :=
  forall c ch, In (c, ch) (sides s) -> GB ch (stream (2 * c) (frames_of (truth s))).

Lemma stream_app sid a b : stream sid (a ++ b) = stream sid a ++ stream sid b.
Proof. unfold stream. apply filter_app. Qed.

(* a file that begins with whole lines: they are read as such, whatever follows *)
Lemma parse_enc_app A tl : parse (enc A ++ tl) = option_map (app A) (parse tl).
Proof.
  unfold parse, lines. induction A as [|f A IH]; [cbn [enc flat_map app]; destruct (parse_lines (lines_acc [] tl)); reflexivity|].
  change (enc (f :: A) ++ tl) with (Body f :: NL :: (enc A ++ tl)). cbn [lines_acc app parse_lines]. rewrite IH.
  destruct (parse_lines (lines_acc [] tl)); reflexivity.
Qed.

(* a file that parses after one more whole line parsed before it, to all but that line *)
Lemma parse_line_inv g ch : forall cur evs, parse_lines (lines_acc cur (ch ++ [Body g; NL])) = Some evs ->
  exists e, evs = e ++ [g] /\ parse_lines (lines_acc cur ch) = Some e.
Proof.
  induction ch as [|[f|] ch IH]; intros cur evs; cbn [app lines_acc].
  - (* the new line is cur ++ [g] *)
    destruct cur as [|x [|y t]]; cbn [app parse_lines option_map]; try discriminate.
    intros E. injection E as <-. exists []. split; reflexivity.
  - apply IH.
  - (* cur is a complete line: it has to be one frame *)
    destruct cur as [|x [|y t]]; cbn [parse_lines]; try discriminate.
    destruct (parse_lines (lines_acc [] (ch ++ [Body g; NL]))) as [t|] eqn:P; [|discriminate].
    cbn [option_map]. intros E. injection E as <-. destruct (IH [] t P) as (e & -> & Pe).
    rewrite Pe. exists (x :: e). split; reflexivity.
Qed.

Lemma seqs_from_snoc a g : forall n, seqs_from n (a ++ [g]) = seqs_from n a && (f_seq g =? n + nlen a).
Proof.
  induction a as [|f a IH]; intros n; cbn [app seqs_from].
  - unfold nlen. cbn [length N.of_nat]. rewrite N.add_0_r, andb_true_r. reflexivity.
  - rewrite IH, nlen_cons. rewrite <- andb_assoc. f_equal. f_equal. f_equal. lia.
Qed.

Lemma Bad_line ch g : Bad ch -> Bad (ch ++ [Body g; NL]).
Proof.
  unfold Bad, parse, lines. intros H.
  destruct (parse_lines (lines_acc [] (ch ++ [Body g; NL]))) as [evs|] eqn:P; [|exact I].
  destruct (parse_line_inv g ch [] evs P) as (e & -> & Pe). rewrite Pe in H.
  rewrite seqs_from_snoc, H. reflexivity.
Qed.

Lemma GB_mono ch S S' : GB ch S -> GB ch (S ++ S').
Proof.
  intros [[r E]|H]; [left | right; exact H]. exists (r ++ enc S'). rewrite app_assoc, E, enc_app. reflexivity.
Qed.
Lemma Good_nil S : Good [] S.
Proof. exists (enc S). reflexivity. Qed.

(* a chunk-prefix ends after a whole line or after a body *)
Lemma prefix_shape S : forall ch rest, ch ++ rest = enc S ->
  exists A B, S = A ++ B /\ (ch = enc A \/ exists x B', B = x :: B' /\ ch = enc A ++ [Body x]).
Proof.
  induction S as [|f S IH]; intros ch rest E.
  - cbn [enc flat_map] in E. apply app_eq_nil in E. destruct E as [-> _].
    exists [], []. split; [reflexivity | left; reflexivity].
  - change (enc (f :: S)) with (Body f :: NL :: enc S) in E.
    destruct ch as [|x ch]; [exists [], (f :: S); split; [reflexivity | left; reflexivity]|].
    cbn [app] in E. injection E as -> E.
    destruct ch as [|y ch].
    + exists [], (f :: S). split; [reflexivity|]. right. exists f, S. split; reflexivity.
    + cbn [app] in E. injection E as -> E.
      destruct (IH ch rest E) as (A & B & -> & H).
      exists (f :: A), B. split; [reflexivity|].
      destruct H as [->|(x & B' & -> & ->)]; [left; reflexivity|].
      right. exists x, B'. split; reflexivity.
Qed.

Lemma Good_parse_prefix ch S evs : Good ch S -> parse ch = Some evs -> exists r, S = evs ++ r.
Proof.
  intros [rest E] P. destruct (prefix_shape S ch rest E) as (A & B & -> & H).
  destruct H as [->|(x & B' & -> & ->)].
  - rewrite parse_enc in P. injection P as <-. exists B. reflexivity.
  - rewrite parse_enc_app in P. injection P as <-. exists B'. rewrite <- app_assoc. reflexivity.
Qed.

Lemma stream_numbered fs sid : validate fs = true -> seqs_from 0 (stream sid fs) = true.
Proof.
  induction fs as [|g fs IH] using rev_ind; intros Hv; [reflexivity|].
  rewrite validate_snoc in Hv. apply andb_true_iff in Hv. destruct Hv as [Hv Hg].
  rewrite stream_app. unfold stream at 2. cbn [filter].
  destruct (f_sid g =? sid) eqn:E; [|rewrite app_nil_r; exact (IH Hv)].
  rewrite seqs_from_snoc, (IH Hv). apply N.eqb_eq in E, Hg. subst sid. rewrite Hg. unfold cnt.
  rewrite N.add_0_l, N.eqb_refl. reflexivity.
Qed.
Lemma seqs_from_prefix a b : forall n, seqs_from n (a ++ b) = true -> seqs_from n a = true.
Proof.
  induction a as [|f a IH]; intros n H; [reflexivity|].
  cbn [app seqs_from] in *. apply andb_true_iff in H. destruct H as [H1 H2]. rewrite H1. exact (IH _ H2).
Qed.

(* The sidecar line of the stream's newest frame g is appended.  A Bad sidecar stays Bad.  A Good one is a
   chunk-prefix of enc (S0 ++ [g]): if it ends inside a line, g is glued onto that line and the result never parses;
   if it is enc A for a proper prefix A of S0, the new line carries seq |S0| at position |A|: wrong numbering, Bad;
   if it is enc S0, the result is the whole perfect sidecar. *)
Lemma GB_line ch S0 g : seqs_from 0 (S0 ++ [g]) = true -> GB ch (S0 ++ [g]) -> GB (ch ++ [Body g; NL]) (S0 ++ [g]).
Proof.
  intros Hn [[rest E]|HB]; [|right; apply Bad_line; exact HB].
  assert (Hg : f_seq g = nlen S0).
  { rewrite seqs_from_snoc in Hn. apply andb_true_iff in Hn. destruct Hn as [_ Hn]. apply N.eqb_eq in Hn. lia. }
  destruct (prefix_shape _ ch rest E) as (A & B & EAB & H).
  destruct H as [->|(x & B' & -> & ->)].
  - destruct (N.eq_dec (nlen A) (nlen S0)) as [L|L].
    + assert (L' : length A = length S0) by (unfold nlen in L; lia).
      symmetry in EAB. destruct (app_eq_len A S0 B [g] L' EAB) as [-> _].
      left. exists []. rewrite app_nil_r, enc_app. reflexivity.
    + right. unfold Bad. change (enc A ++ [Body g; NL]) with (enc A ++ enc [g]). rewrite <- enc_app, parse_enc.
      rewrite seqs_from_snoc. rewrite Hg, N.add_0_l.
      destruct (nlen S0 =? nlen A) eqn:Q; [apply N.eqb_eq in Q; congruence | apply andb_false_r].
  - right. unfold Bad. rewrite <- app_assoc, parse_enc_app. exact I.
Qed.

(* what SOK is for: an accepted sidecar is a prefix of the thread's stream *)
Lemma GB_accept ch S evs : GB ch S -> parse ch = Some evs -> seqs_from 0 evs = true -> exists r, S = evs ++ r.
Proof.
  intros [HG|HB] P Q; [exact (Good_parse_prefix ch S evs HG P)|].
  unfold Bad in HB. rewrite P, Q in HB. discriminate HB.
Qed.

Lemma truth_grows s i : exists x, truth (exec s i) = truth s ++ x.
Proof.
  destruct i; cbn [exec upd_truth upd_sides upd_nexts upd_idx upd_arts upd_acks truth];
    try (exists []; rewrite app_nil_r; reflexivity).
  - exact (proj2 (bw_write_inv (truth s) (tw s) cs (clen cs))).
  - exists (bw_buf (tw s)). reflexivity.
  - destruct (idx_tmp s); cbn [upd_idx truth]; exists []; rewrite app_nil_r; reflexivity.
Qed.

(* nosw: every instruction but the three that put new content into a sidecar; all of these preserve SOK (SOK_exec) *)
Definition nosw (i : instr) : bool := match i with ISideWrite _ _ | ISideFlush _ | ISideRename _ _ => false | _ => true end.

Lemma SOK_grow s s' : (exists x, truth s' = truth s ++ x) ->
  (forall c ch, In (c, ch) (sides s') -> In (c, ch) (sides s) \/ ch = []) -> SOK s -> SOK s'.
Proof.
  intros [x Ht] Hs H c ch Hi. rewrite Ht, frames_of_app, stream_app.
  destruct (Hs c ch Hi) as [Hi'| ->]; [apply GB_mono; exact (H c ch Hi') | left; apply Good_nil].
Qed.

Lemma SOK_exec s i : nosw i = true -> SOK s -> SOK (exec s i).
Proof.
  intros Hn H. apply (SOK_grow s); [apply truth_grows | | exact H].
  intros c ch. destruct i; try discriminate Hn;
    cbn [exec upd_truth upd_sides upd_nexts upd_idx upd_arts upd_acks sides]; try (intros Hi; left; exact Hi).
  - (* ISideOpen *) intros Hi. apply In_put in Hi. destruct Hi as [[-> ->]|Hi]; [|left; exact Hi].
    unfold side_of. destruct (get c0 (sides s)) as [ch0|] eqn:G; [left; exact (get_In _ _ _ G) | right; reflexivity].
  - (* ISideCreate *) intros Hi. apply In_put in Hi. destruct Hi as [[-> ->]|Hi]; [right; reflexivity | left; exact Hi].
  - (* ISideRemove *) intros Hi. left. exact (In_del _ _ _ Hi).
  - destruct (idx_tmp s); cbn [upd_idx sides]; intros Hi; left; exact Hi.
Qed.

(* S2 s is: SOK at every instruction boundary of the program `is` run from s, and at its end *)
Definition S2 (s : st) (is : list instr) : Prop := AllPre SOK s is /\ SOK (run_instrs s is).

Lemma S2_app s a b : S2 s a -> S2 (run_instrs s a) b -> S2 s (a ++ b).
Proof. intros [A1 E1] [A2 E2]. split; [apply AllPre_app; assumption | rewrite run_app; exact E2]. Qed.
Lemma S2_nosw is s : forallb nosw is = true -> SOK s -> S2 s is.
Proof. apply (AllPre_stable SOK nosw SOK_exec). Qed.

Lemma SOK_put s s' c X : truth s' = truth s -> sides s' = put c X (sides s) -> SOK s ->
  GB X (stream (2 * c) (frames_of (truth s))) -> SOK s'.
Proof.
  intros Ht Hs H HX c' ch Hi. rewrite Ht. rewrite Hs in Hi. apply In_put in Hi.
  destruct Hi as [[-> ->]|Hi]; [exact HX | exact (H c' ch Hi)].
Qed.
Lemma side_of_GB s c : SOK s -> GB (side_of s c) (stream (2 * c) (frames_of (truth s))).
Proof.
  intros H. unfold side_of. destruct (get c (sides s)) eqn:G; [exact (H _ _ (get_In _ _ _ G)) | left; apply Good_nil].
Qed.
Lemma side_of_put s c X w : side_of (upd_sides s (put c X (sides s)) w) c = X.
Proof. unfold side_of. cbn [upd_sides sides]. rewrite get_put_eq. reflexivity. Qed.

Lemma S2_side_append s c g S0 : SOK s -> stream (2 * c) (frames_of (truth s)) = S0 ++ [g] ->
  seqs_from 0 (S0 ++ [g]) = true -> S2 s (side_append c g).
Proof.
  intros H ES Hn. set (base := side_of s c). set (line := [Body g; NL]).
  assert (HB : GB base (stream (2 * c) (frames_of (truth s)))) by (apply side_of_GB; exact H).
  assert (HL : GB (base ++ line) (stream (2 * c) (frames_of (truth s)))) by (rewrite ES in *; apply GB_line; assumption).
  (* on disk after the write: the sidecar as it was, or with the whole line *)
  destruct (bw_write_once base line (clen line)) as [Hr Hfl]. set (r := bw_write base bw_empty line (clen line)) in *.
  assert (HR : GB (fst r) (stream (2 * c) (frames_of (truth s)))) by (destruct Hr as [->| ->]; assumption).
  set (s1 := exec s (ISideOpen c)). set (s2 := exec s1 (ISideWrite c line)). set (s3 := exec s2 (ISideFlush c)).
  assert (E2 : sides s2 = put c (fst r) (sides s1) /\ sw s2 = snd r).
  { unfold s2. cbn [exec upd_sides sides sw]. rewrite (side_of_put s c base bw_empty : side_of s1 c = base). split; reflexivity. }
  assert (H1 : SOK s1) by (apply (SOK_put s s1 c base); [reflexivity | reflexivity | exact H | exact HB]).
  assert (H2 : SOK s2) by (apply (SOK_put s1 s2 c (fst r)); [reflexivity | exact (proj1 E2) | exact H1 | exact HR]).
  assert (H3 : SOK s3).
  { apply (SOK_put s2 s3 c (base ++ line)); [reflexivity | | exact H2 | exact HL].
    unfold s3, side_of. cbn [exec bw_flush fst snd upd_sides sides]. unfold side_of.
    rewrite (proj1 E2), get_put_eq, (proj2 E2), Hfl. reflexivity. }
  split; [|exact H3]. unfold side_append. fold line.
  apply AllPre_cons; [exact H|]. fold s1. apply AllPre_cons; [exact H1|]. cbn [exec].
  apply AllPre_cons; [exact H1|]. fold s2. apply AllPre_cons; [exact H2|]. cbn [exec].
  apply AllPre_cons; [exact H2|]. cbn [exec]. apply AllPre_cons; [exact H2|]. fold s3.
  apply AllPre_cons; [exact H3|]. cbn [exec]. apply AllPre_nil. exact H3.
Qed.

(* RI s0 c s' W, while one BufWriter rewrites sidecar c of s0: the log is that of s0, W is everything written to the
   new file so far (on disk ++ still buffered), and every sidecar on disk is one of s0 or, for c, a beginning of W *)
Definition RI (s0 : st) (c : N) (s' : st) (W : list chunk) : Prop :=
  truth s' = truth s0 /\ side_of s' c ++ bw_buf (sw s') = W
  /\ forall c' ch, In (c', ch) (sides s') -> In (c', ch) (sides s0) \/ (c' = c /\ exists r, ch ++ r = W).

Lemma RI_SOK s0 c s' W S : S = stream (2 * c) (frames_of (truth s0)) -> SOK s0 -> RI s0 c s' W ->
  (exists r, W ++ r = enc S) -> SOK s'.
Proof.
  intros -> H (Ht & _ & He) [r Er] c' ch Hi. rewrite Ht.
  destruct (He c' ch Hi) as [Hi'|[-> [r' Er']]]; [exact (H c' ch Hi')|].
  left. exists (r' ++ r). rewrite app_assoc, Er', Er. reflexivity.
Qed.
Lemma RI_create s0 c : RI s0 c (exec s0 (ISideCreate c)) [].
Proof.
  unfold RI. cbn [exec]. rewrite side_of_put. cbn [upd_sides truth sw sides bw_buf bw_empty]. repeat split.
  intros c' ch Hi. apply In_put in Hi. destruct Hi as [[-> ->]|Hi]; [right; split; [reflexivity | exists []; reflexivity] | left; exact Hi].
Qed.

(* only_side c: the instructions of a rewrite of sidecar c through its BufWriter (they keep RI); wchunks: the chunks
   they hand to it *)
Definition only_side (c : N) (i : instr) : bool :=
  match i with IPt _ => true | ISideWrite c' _ | ISideFlush c' => c' =? c | _ => false end.
Definition wchunks (i : instr) : list chunk := match i with ISideWrite _ cs => cs | _ => [] end.

Lemma RI_exec s0 c s' W i : only_side c i = true -> RI s0 c s' W -> RI s0 c (exec s' i) (W ++ wchunks i).
Proof.
  intros Hi (Ht & Hw & He). destruct i; try discriminate Hi; cbn [only_side wchunks] in *; rewrite ?app_nil_r.
  - exact (conj Ht (conj Hw He)).
  - apply N.eqb_eq in Hi. subst c0. unfold RI. cbn [exec]. rewrite side_of_put. cbn [upd_sides truth sw sides].
    destruct (bw_write_inv (side_of s' c) (sw s') cs (clen cs)) as [Hinv _].
    split; [exact Ht|]. split; [rewrite Hinv, <- Hw, <- app_assoc; reflexivity|].
    intros c' ch Hc. apply In_put in Hc. destruct Hc as [[-> ->]|Hc].
    + right. split; [reflexivity|]. exists (bw_buf (snd (bw_write (side_of s' c) (sw s') cs (clen cs)))).
      rewrite Hinv, <- Hw, <- app_assoc. reflexivity.
    + destruct (He c' ch Hc) as [Hc'|[-> [r Er]]]; [left; exact Hc'|].
      right. split; [reflexivity|]. exists (r ++ cs). rewrite app_assoc, Er. reflexivity.
  - apply N.eqb_eq in Hi. subst c0. unfold RI. cbn [exec bw_flush fst snd]. rewrite side_of_put.
    cbn [upd_sides truth sw sides bw_buf bw_empty]. rewrite app_nil_r.
    split; [exact Ht|]. split; [exact Hw|].
    intros c' ch Hc. apply In_put in Hc. destruct Hc as [[-> ->]|Hc]; [|exact (He c' ch Hc)].
    right. split; [reflexivity|]. exists []. rewrite app_nil_r. exact Hw.
Qed.
Lemma RI_run s0 c p : forall s' W, forallb (only_side c) p = true -> RI s0 c s' W ->
  RI s0 c (run_instrs s' p) (W ++ flat_map wchunks p).
Proof.
  induction p as [|i p IH]; intros s' W Hp HR; [rewrite app_nil_r; exact HR|].
  cbn [forallb] in Hp. apply andb_true_iff in Hp. cbn [flat_map]. rewrite app_assoc.
  exact (IH _ _ (proj2 Hp) (RI_exec s0 c s' W i (proj1 Hp) HR)).
Qed.

Lemma rebuild_in_place_writes c evs :
  let T := flat_map (fun f => [ISideWrite c [Body f]; IPt 62; ISideWrite c [NL]; IPt 63]) evs ++ [ISideFlush c; IPt 64] in
  forallb (only_side c) T = true /\ flat_map wchunks T = enc evs.
Proof.
  unfold enc. induction evs as [|f evs IH]; cbn [flat_map app forallb only_side wchunks]; rewrite N.eqb_refl; [split; reflexivity|].
  split; [exact (proj1 IH) | do 2 f_equal; exact (proj2 IH)].
Qed.
(* rebuild_in_place truncates the sidecar and writes it anew: every prefix of the rewrite is a prefix of the stream *)
Lemma S2_rebuild_in_place s c : SOK s -> S2 s (rebuild_in_place c (stream (2 * c) (frames_of (truth s)))).
Proof.
  intros H. set (S := stream (2 * c) (frames_of (truth s))). unfold rebuild_in_place.
  destruct (rebuild_in_place_writes c S) as [Hok Hw].
  set (T := flat_map (fun f => [ISideWrite c [Body f]; IPt 62; ISideWrite c [NL]; IPt 63]) S ++ [ISideFlush c; IPt 64]) in *.
  assert (HP : AllPre SOK (exec s (ISideCreate c)) T).
  { intros p r E. rewrite E, forallb_app in Hok. rewrite E, flat_map_app in Hw. apply andb_true_iff in Hok.
    apply (RI_SOK s c _ (flat_map wchunks p) S eq_refl H); [|exists (flat_map wchunks r); exact Hw].
    exact (RI_run s c p _ [] (proj1 Hok) (RI_create s c)). }
  split.
  - apply AllPre_cons; [exact H|]. apply AllPre_cons; [exact (AllPre_start _ _ _ HP) | exact HP].
  - exact (HP T [] (eq_sym (app_nil_r T))).
Qed.
(* rebuild writes a temporary file: the sidecar is untouched until the rename puts the whole rewritten file in its
   place.  tmp_only: the instructions before the rename; they do not change the modelled state at all *)
Definition tmp_only (i : instr) : bool :=
  match i with ITmpCreate _ | ITmpWrite _ _ | ITmpFlush _ | IPt _ => true | _ => false end.
Lemma tmp_lines_only c evs :
  forallb tmp_only (flat_map (fun f => [ITmpWrite c [Body f]; IPt 62; ITmpWrite c [NL]; IPt 63]) evs) = true.
Proof. induction evs as [|f evs IH]; [reflexivity|]. cbn [flat_map app forallb tmp_only andb]. exact IH. Qed.

Lemma S2_rebuild s c : SOK s -> S2 s (rebuild c (stream (2 * c) (frames_of (truth s)))).
Proof.
  intros H. set (S := stream (2 * c) (frames_of (truth s))).
  unfold rebuild. fold (enc S).
  set (L := flat_map (fun f => [ITmpWrite c [Body f]; IPt 62; ITmpWrite c [NL]; IPt 63]) S).
  set (P0 := [ITmpCreate c; IPt 61] ++ L ++ [ITmpFlush c; IPt 64]).
  assert (T : forallb tmp_only P0 = true).
  { unfold P0, L. rewrite !forallb_app, tmp_lines_only. reflexivity. }
  assert (E : [ITmpCreate c; IPt 61] ++ L ++ [ITmpFlush c; IPt 64; ISideRename c (enc S)] = P0 ++ [ISideRename c (enc S)]).
  { unfold P0. rewrite <- !app_assoc. reflexivity. }
  assert (St : forall x i, tmp_only i = true -> x = s -> exec x i = s)
    by (intros x i Hi ->; destruct i; try discriminate Hi; reflexivity).
  destruct (AllPre_stable (fun x => x = s) tmp_only St P0 s T eq_refl) as [A R].
  rewrite E. apply S2_app; [split; [apply (AllPre_mono (fun x => x = s)); [intros x ->; exact H | exact A] | rewrite R; exact H]|].
  rewrite R.
  assert (K : SOK (exec s (ISideRename c (enc S)))).
  { apply (SOK_put s _ c (enc S)); [reflexivity | reflexivity | exact H | left; exists []; apply app_nil_r]. }
  split; [apply AllPre_cons; [exact H | apply AllPre_nil; exact K] | exact K].
Qed.
(* tneutral: the instructions that leave the log file and its BufWriter alone *)
Definition tneutral (i : instr) : bool := match i with ITruthWrite _ | ITruthFlush => false | _ => true end.
Lemma tneutral_run a s : forallb tneutral a = true -> truth (run_instrs s a) = truth s /\ tw (run_instrs s a) = tw s.
Proof.
  intros H. apply (AllPre_stable (fun x => truth x = truth s /\ tw x = tw s) tneutral); [|exact H | split; reflexivity].
  intros x i Hi [E1 E2]. rewrite <- E1, <- E2.
  destruct i; try discriminate Hi; try (split; reflexivity). cbn [exec]. destruct (idx_tmp x); split; reflexivity.
Qed.
Lemma cache_only_tneutral i : cache_only i = true -> tneutral i = true.
Proof. destruct i; intros H; (reflexivity || discriminate H). Qed.

(* TS s X, what the walk through a compiled operation carries: the log on disk is the whole lines of X, nothing is
   buffered, the sidecars are fine.  A program is walked left to right: each step lemma takes the block at its head,
   shows S2 for it, and hands the rest to a continuation that receives TS of the state the block leaves (with the log
   the block leaves); fin_neutral closes a walk. *)
Definition TS (s : st) (X : list frame) : Prop := truth s = enc X /\ tw s = bw_empty /\ SOK s.

Lemma step_neutral s X a rest : TS s X -> forallb nosw a = true -> forallb tneutral a = true ->
  (forall s', TS s' X -> S2 s' rest) -> S2 s (a ++ rest).
Proof.
  intros (Ht & Hw & H) Hn Hu K. destruct (S2_nosw a s Hn H) as [A E].
  apply S2_app; [split; assumption|]. apply K. destruct (tneutral_run a s Hu) as [E1 E2].
  split; [rewrite E1; exact Ht | split; [rewrite E2; exact Hw | exact E]].
Qed.
Lemma fin_neutral s {X} a : TS s X -> forallb nosw a = true -> S2 s a.
Proof. intros (_ & _ & H) Hn. exact (S2_nosw a s Hn H). Qed.

Lemma truth_append_run s f : tw s = bw_empty ->
  truth (run_instrs s (truth_append fixed f)) = truth s ++ [Body f; NL]
  /\ tw (run_instrs s (truth_append fixed f)) = bw_empty.
Proof.
  intros Hw. unfold truth_append, truth_append_gen, run_instrs. cbn [fixed fw app fold_left exec].
  cbn [upd_truth truth tw bw_flush fst snd]. rewrite Hw. split; [apply bw_write_once | reflexivity].
Qed.

Lemma stream_one sid f : f_sid f = sid -> stream sid [f] = [f].
Proof. intros E. unfold stream. cbn [filter]. rewrite E, N.eqb_refl. reflexivity. Qed.

Lemma step_frame s X f c rest : TS s X -> validate (X ++ [f]) = true -> f_sid f = 2 * c ->
  (forall s', TS s' (X ++ [f]) -> S2 s' rest) ->
  S2 s (truth_append fixed f ++ [IPt 13] ++ side_append c f ++ rest).
Proof.
  intros (Ht & Hw & H) Hv Hf K.
  destruct (truth_append_run s f Hw) as [T1 W1].
  pose proof (S2_nosw (truth_append fixed f ++ [IPt 13]) s eq_refl H) as S1.
  rewrite (app_assoc (truth_append fixed f)). apply S2_app; [exact S1|].
  set (s1 := run_instrs s (truth_append fixed f)) in *.
  change (run_instrs s (truth_append fixed f ++ [IPt 13])) with s1 in *.
  assert (T1' : truth s1 = enc (X ++ [f])) by (rewrite T1, Ht, enc_app; reflexivity).
  assert (SA : S2 s1 (side_append c f)).
  { apply (S2_side_append s1 c f (stream (2 * c) X)); [exact (proj2 S1) | |].
    - rewrite T1', frames_of_enc, stream_app, (stream_one _ _ Hf). reflexivity.
    - rewrite <- (stream_one (2 * c) f Hf), <- stream_app. apply stream_numbered. exact Hv. }
  apply S2_app; [exact SA|]. apply K.
  destruct (tneutral_run (side_append c f) s1 eq_refl) as [E2 E3].
  split; [rewrite E2; exact T1' | split; [rewrite E3; exact W1 | exact (proj2 SA)]].
Qed.

Lemma step_repair s X c a rest : repair X c a -> TS s X -> (forall s', TS s' X -> S2 s' rest) -> S2 s (a ++ rest).
Proof.
  intros [->| ->] T K; [exact (K s T)|]. destruct T as (Ht & Hw & H).
  assert (R : S2 s (rebuild_nonempty c (stream (2 * c) X))).
  { unfold rebuild_nonempty. destruct (stream (2 * c) X) eqn:E; [exact (S2_nosw [] s eq_refl H)|].
    rewrite <- E. pose proof (S2_rebuild s c H) as R. rewrite Ht, frames_of_enc in R. exact R. }
  apply S2_app; [exact R|]. apply K.
  destruct (tneutral_run _ s (forallb_imp _ _ _ cache_only_tneutral (rebuild_cache_only c (stream (2 * c) X)))) as [E1 E2].
  split; [rewrite E1; exact Ht | split; [rewrite E2; exact Hw | exact (proj2 R)]].
Qed.

Lemma J_TS b s fs : J b s fs -> SOK s -> TS s fs.
Proof. intros (Ht & Hw & _) H. split; [exact Ht | split; [exact Hw | exact H]]. Qed.
Lemma J_valid b s fs : J b s fs -> validate fs = true.
Proof. intros (_ & _ & Hv & _). exact Hv. Qed.

Lemma replay_repair b s fs c : J b s fs -> repair fs c (fst (replay_events s c)).
Proof.
  intros HJ. unfold replay_events. destruct (try_replay s c); [left; reflexivity|].
  rewrite (J_replay _ _ _ HJ). right. reflexivity.
Qed.

(* compiled in s0, run from s, both holding the log fs (see Safe_locked) *)
Lemma S2_locked b s0 s fs c fid len art : J b s0 fs -> TS s fs -> S2 s (locked_append fixed s0 c fid len art).
Proof.
  intros HJ T. unfold locked_append. cbv zeta.
  apply (step_neutral s fs [IPt 11; IPt 12]); [exact T | reflexivity | reflexivity|]. intros s1 T1.
  destruct (resolve_J b s0 fs c HJ) as [Hrep Hseq].
  apply (step_repair s1 fs c _ _ Hrep T1). intros s2 T2.
  destruct (snd (resolve fixed s0 c)) as [q|] eqn:R; [|exact (fin_neutral s2 [] T2 eq_refl)].
  rewrite (Hseq q eq_refl).
  apply (step_frame s2 fs _ c); [exact T2 | apply validate_next; [exact (J_valid _ _ _ HJ) | reflexivity] | reflexivity|].
  intros s3 T3. apply (fin_neutral s3 _ T3); reflexivity.
Qed.

Lemma S2_create_then s fs c fid len d rest : TS s fs -> validate fs = true -> cnt (2 * c) fs = 0 ->
  (forall s', TS s' (fs ++ [mkf (2 * c) 0 fid len None]) -> S2 s' rest) ->
  S2 s (create fixed c fid len d ++ rest).
Proof.
  intros T Hv H0 K. unfold create. rewrite <- !app_assoc.
  apply (step_neutral s fs [IPt 11; IPt 12]); [exact T | reflexivity | reflexivity|]. intros s1 T1.
  apply (step_frame s1 fs _ c); [exact T1 | apply validate_next; [exact Hv | symmetry; exact H0] | reflexivity|].
  intros s2 T2. rewrite !app_assoc. apply (step_neutral s2 (fs ++ [mkf (2 * c) 0 fid len None]) _ rest T2); [reflexivity | reflexivity | exact K].
Qed.

Lemma S2_child s fs c i len0 len1 art : TS s fs -> validate fs = true -> cnt (2 * c) fs = 0 ->
  S2 s (child fixed c i len0 len1 [] art).
Proof.
  intros T Hv H0. unfold child.
  apply (S2_create_then s fs); [exact T | exact Hv | exact H0|]. intros s1 T1. cbn [app].
  set (f0 := mkf (2 * c) 0 (4 * i) len0 None) in *.
  assert (Hv1 : validate (fs ++ [f0]) = true) by (apply validate_next; [exact Hv | symmetry; exact H0]).
  apply (step_frame s1 (fs ++ [f0]) _ c); [exact T1 | | reflexivity|].
  - apply validate_next; [exact Hv1|]. cbn [mkf f_seq f_sid]. rewrite cnt_app, cnt_one, H0. cbn [f0 mkf f_sid].
    rewrite N.eqb_refl. reflexivity.
  - intros s2 T2. apply (fin_neutral s2 _ T2); reflexivity.
Qed.

Lemma op_S2 i s fs o : J (4 * i) s fs -> env_okb s o = true -> SOK s -> S2 s (compile fixed s i o).
Proof.
  intros HJ He H. pose proof (J_TS _ _ _ HJ H) as T. pose proof (J_valid _ _ _ HJ) as Hv.
  pose proof (proj1 HJ) as Ht.
  destruct o as [c len | c len | x len | c a has_msg len | p c len0 len1 | p c a len0 len1 | c]; cbn [compile].
  - (* ensure_default *)
    destruct (ix_default (midx s)); [apply (fin_neutral s _ T); reflexivity|].
    destruct (replay_validated s) as [fs0|]; [|apply (fin_neutral s _ T); reflexivity].
    destruct (latest_created fs0); [apply (fin_neutral s _ T); reflexivity|].
    apply (S2_create_then s fs); [exact T | exact Hv | exact (env_fresh s fs _ Ht He)|].
    intros s1 T1. apply (fin_neutral s1 _ T1); reflexivity.
  - (* locked append *) exact (S2_locked _ s s fs c _ len None HJ T).
  - (* session frame *) apply (fin_neutral s _ T); reflexivity.
  - (* checkpoint: the append is compiled in the state the read leaves *)
    assert (HJ1 : J (4 * i) (run_instrs s (fst (replay_events s c))) fs)
      by (apply (J_core _ s); [symmetry; apply core_neutral, filter_replay_events | exact HJ]).
    apply (step_repair s fs c _ _ (replay_repair _ s fs c HJ) T). intros s1 T1.
    destruct (snd (replay_events s c)) as [[|e evs]|]; try exact (fin_neutral s1 [] T1 eq_refl).
    destruct has_msg; [|exact (fin_neutral s1 [] T1 eq_refl)].
    apply (step_neutral s1 fs (write_blob a)); [exact T1 | reflexivity | reflexivity|].
    intros s2 T2. exact (S2_locked _ _ s2 fs c _ len (Some a) HJ1 T2).
  - (* branch *)
    apply (step_repair s fs p _ _ (replay_repair _ s fs p HJ) T). intros s1 T1.
    destruct (snd (replay_events s p)) as [[|e evs]|]; try exact (fin_neutral s1 [] T1 eq_refl).
    exact (S2_child s1 fs c i len0 len1 None T1 Hv (env_fresh s fs _ Ht He)).
  - (* handoff *)
    apply (step_repair s fs p _ _ (replay_repair _ s fs p HJ) T). intros s1 T1.
    destruct (snd (replay_events s p)) as [[|e evs]|]; try exact (fin_neutral s1 [] T1 eq_refl).
    apply (step_neutral s1 fs (write_blob a)); [exact T1 | reflexivity | reflexivity|].
    intros s2 T2. exact (S2_child s2 fs c i len0 len1 (Some a) T2 Hv (env_fresh s fs _ Ht He)).
  - (* cache loss + read *)
    apply (step_neutral s fs [ISideRemove c] (fst (replay_events (exec s (ISideRemove c)) c))); [exact T | reflexivity | reflexivity|].
    intros s1 T1. rewrite <- (app_nil_r (fst _)).
    assert (HJ1 : J (4 * i) (exec s (ISideRemove c)) fs) by (apply (J_core _ s); [reflexivity | exact HJ]).
    apply (step_repair s1 fs c _ _ (replay_repair _ _ fs c HJ1) T1). intros s2 T2. exact (fin_neutral s2 [] T2 eq_refl).
Qed.

Lemma SOK_init : SOK init.
Proof. intros c ch []. Qed.

(* JB with SOK: the B of Section History for the sidecar invariant (its P is SOK) *)
Definition JSB (i : N) (s : st) (r : list op) : Prop := JB i s r /\ SOK s.
Lemma JSB_step i s o r : JSB i s (o :: r) ->
  AllPre SOK s (compile fixed s i o) /\ JSB (i + 1) (run_instrs s (compile fixed s i o)) r.
Proof.
  intros [HB H]. destruct (JB_step i s o r HB) as [_ HB']. destruct HB as [[fs HJ] He].
  cbn [env_runb] in He. apply andb_true_iff in He.
  destruct (op_S2 i s fs o HJ (proj1 He) H) as [A E]. split; [exact A | split; [exact HB' | exact E]].
Qed.
Lemma run_ops_SOK ops s i fs : J (4 * i) s fs -> env_runb fixed s i ops = true -> SOK s ->
  SOK (run_ops fixed s i ops).
Proof.
  intros HJ He H. apply (run_ops_B fixed JSB (fun _ => SOK) JSB_step ops s i).
  split; [split; [exists fs; exact HJ | exact He] | exact H].
Qed.
Lemma run_k_SOK ops k s i fs : J (4 * i) s fs -> env_runb fixed s i ops = true -> SOK s ->
  SOK (run_k fixed k s i ops).
Proof.
  intros HJ He H. apply (run_k_P fixed JSB (fun _ => SOK) JSB_step (fun _ _ _ _ H => H) (fun _ _ H => proj2 H) ops k s i).
  split; [split; [exists fs; exact HJ | exact He] | exact H].
Qed.

Lemma try_replay_accept s c evs : try_replay s c = Some evs ->
  exists ch, In (c, ch) (sides s) /\ parse ch = Some evs /\ seqs_from 0 evs = true.
Proof.
  unfold try_replay. destruct (get c (sides s)) as [ch|] eqn:G; [|discriminate].
  destruct (parse ch) as [[|f r]|] eqn:P; try discriminate.
  destruct (seqs_from 0 (f :: r)) eqn:Q; [|discriminate]. intros E. injection E as <-.
  exists ch. split; [exact (get_In _ _ _ G) | split; [exact P | exact Q]].
Qed.

Lemma boundary_facts b s fs : J b s fs -> SOK s ->
  replay_validated s = Some fs /\ Numbered fs /\ truth s = enc fs
  /\ (forall fid, In fid (acks s) -> cfid fid fs = 1)
  /\ (forall c evs, try_replay s c = Some evs -> exists rest, stream (2 * c) fs = evs ++ rest).
Proof.
  intros HJ HS. destruct (J_facts _ _ _ HJ) as (R & Hn & Ht & _ & Ha). repeat split; auto.
  intros c evs Htr. destruct (try_replay_accept _ _ _ Htr) as (ch & Hi & P & Q).
  pose proof (HS c ch Hi) as G. rewrite Ht, frames_of_enc in G. exact (GB_accept ch _ evs G P Q).
Qed.

Lemma crash_recover_J_SOK hist k base more :
  env_runb fixed init 0 hist = true -> nlen hist <= base ->
  env_runb fixed (crash fixed k hist) base more = true ->
  exists fs, J (4 * (base + nlen more)) (run_ops fixed (crash fixed k hist) base more) fs
             /\ SOK (run_ops fixed (crash fixed k hist) base more).
Proof.
  intros Hh Hb Hm. destruct (crash_J hist k base Hh Hb) as [fs0 HJ0].
  destruct (run_ops_J more _ base fs0 HJ0 Hm) as [fs HJ]. exists fs. split; [exact HJ|].
  exact (run_ops_SOK more _ base fs0 HJ0 Hm (run_k_SOK hist k init 0 [] J_init Hh SOK_init)).
Qed.

(* a full sidecar that try_replay accepts after ANY crash point, restart and ANY further operations is a
   PREFIX of the thread's stream in the truth log *)
Theorem caches_after_crash hist k base more c evs :
  env_runb fixed init 0 hist = true -> nlen hist <= base ->
  env_runb fixed (crash fixed k hist) base more = true ->
  try_replay (run_ops fixed (crash fixed k hist) base more) c = Some evs ->
  exists fs rest, replay_validated (run_ops fixed (crash fixed k hist) base more) = Some fs
                  /\ stream (2 * c) fs = evs ++ rest.
Proof.
  intros Hh Hb Hm Htr. destruct (crash_recover_J_SOK hist k base more Hh Hb Hm) as (fs & HJ & HS).
  destruct (boundary_facts _ _ _ HJ HS) as (R & _ & _ & _ & Hc). destruct (Hc c evs Htr) as [rest E].
  exists fs, rest. split; [exact R | exact E].
Qed.

(* "reconciled or ignored" for ContinuityStore::replay_events on the recovered store: the answer is a prefix of
   the thread's stream (the sidecar as found, possibly stale), and when try_replay refuses the sidecar it is
   the stream itself, read from the truth log *)
Theorem replay_events_after_crash hist k base more c :
  env_runb fixed init 0 hist = true -> nlen hist <= base ->
  env_runb fixed (crash fixed k hist) base more = true ->
  exists fs evs rest, replay_validated (run_ops fixed (crash fixed k hist) base more) = Some fs
    /\ snd (replay_events (run_ops fixed (crash fixed k hist) base more) c) = Some evs
    /\ stream (2 * c) fs = evs ++ rest
    /\ (try_replay (run_ops fixed (crash fixed k hist) base more) c = None -> rest = []).
Proof.
  intros Hh Hb Hm. destruct (crash_recover_J_SOK hist k base more Hh Hb Hm) as (fs & HJ & HS).
  destruct (boundary_facts _ _ _ HJ HS) as (R & _ & _ & _ & Hc). unfold replay_events.
  destruct (try_replay (run_ops fixed (crash fixed k hist) base more) c) as [evs|] eqn:Htr.
  - destruct (Hc c evs Htr) as [rest E]. exists fs, evs, rest. repeat split; auto. discriminate.
  - rewrite R. exists fs, (stream (2 * c) fs), []. cbn [snd]. rewrite app_nil_r. repeat split; auto.
Qed.

(* non-vacuity: the stale sidecar of the open finding (stale_witness: a proper prefix of the stream) is accepted *)
Lemma stale_is_prefix :
  env_runb fixed init 0 stale_hist = true /\ nlen stale_hist <= 2 /\ env_runb fixed (crash fixed 43 stale_hist) 2 [] = true
  /\ try_replay (run_ops fixed (crash fixed 43 stale_hist) 2 []) 0 = Some [mkf 0 0 0 300 None].
Proof. vm_compute. repeat split; try reflexivity. discriminate. Qed.
