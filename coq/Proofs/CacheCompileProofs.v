(* C04 x C08 — the compile input through damaged caches returns what the truth log determines.
   Proofs about Model/CacheCompile.v; what the loader's producers hand over is judged by Proofs/CompileProofs.v
   (all_paths_agree, tail_input_agrees, cut_scan_filter, hierarchy_filter / latest_any_filter). *)
From RipV Require Import Base.Prelude Model.Compile Proofs.CompileProofs Model.CacheCompile.

Lemma all_good_c_map fs : all_good_c (map CGood fs) = Some fs.
Proof. induction fs as [|f r IH]; [reflexivity|]. cbn [map all_good_c]. now rewrite IH. Qed.

(* a file that holds at least one line is read as found *)
Lemma seen_cons (x : cline) r : seen (Some (x :: r)) = Some (x :: r).
Proof. reflexivity. Qed.
Lemma MrFaithful_of_file l ls full : ls <> [] -> MrFileFaithful l ls -> MrFaithful l (Some ls) full.
Proof. intros Ne F. destruct ls as [|x r]; [contradiction|]. exact F. Qed.

(* what a rebuild writes is faithful *)
Lemma projection_file_faithful l : MrFileFaithful l (map CGood (filter mr_keep l)).
Proof.
  intros p sfx evs E G. apply map_eq_app in E. destruct E as (x1 & x2 & Ex & E1 & E2).
  subst sfx. rewrite all_good_c_map in G. inversion G; subst evs. exists x1. split; [exact Ex|].
  intros Pn. subst p. destruct x1; [reflexivity|discriminate].
Qed.

Lemma scan_ok l ls k evs cpl :
  MrFileFaithful l ls -> scan_lines k ls = ScTail evs cpl ->
  exists pre, filter mr_keep l = pre ++ evs /\ (cpl = true -> pre = []).
Proof.
  intros F H. unfold scan_lines in H.
  destruct (all_good_c (lastn_lines k ls)) as [e|] eqn:G; [|discriminate]. inversion H; subst e cpl. clear H.
  destruct (lastn_suffix k ls) as (p & Hp & Hc).
  destruct (F p (lastn_lines k ls) evs Hp G) as (pre & Hs & Hn).
  exists pre. split; [exact Hs|]. intros C. apply Hn, Hc. apply Nat.leb_le. exact C.
Qed.

(* the file the scan meets is faithful whenever the files as found are *)
Lemma effective_faithful l mr full m :
  MrFaithful l mr full -> mr_effective mr full = Some (Some m) -> MrFileFaithful l m.
Proof.
  unfold MrFaithful, mr_effective. destruct (seen mr) as [ls|].
  - intros F E. inversion E; subst. exact F.
  - destruct full as [fl|]; [|discriminate].
    destruct (all_good_c fl) as [fs|] eqn:G; [|discriminate]. intros F E. rewrite (F fs eq_refl) in E.
    pose proof (projection_file_faithful l) as Pf.
    destruct (filter mr_keep l) as [|x r] eqn:Fm; [discriminate|]. inversion E; subst m. exact Pf.
Qed.

Lemma first_none_last r : first_msg_seq r = None -> last_msg_seq r = None.
Proof.
  induction r as [|f r IH]; [reflexivity|]. cbn [first_msg_seq last_msg_seq].
  destruct (is_msg f) eqn:M; [discriminate|]. intros H. now rewrite (IH H).
Qed.

Lemma cut_scan_last a evs s : cut_scan a evs = Some (s, None) -> last_msg_seq evs = Some a.
Proof.
  induction evs as [|f r IH]; [discriminate|]. cbn [cut_scan last_msg_seq].
  destruct (is_msg f && (fseq f =? a)) eqn:E.
  - intros H. inversion H as [[Hs Hn]]. apply andb_true_iff in E. destruct E as [M Eq]. apply N.eqb_eq in Eq.
    rewrite (first_none_last r Hn), M, Eq. reflexivity.
  - intros H. now rewrite (IH H).
Qed.

(* the head only matters when the anchor is the newest message of the tail *)
Lemma tail_cut_head_irrelevant evs h1 h2 a :
  cut_is_head evs a = false -> tail_cut evs h1 a = tail_cut evs h2 a.
Proof.
  intros H. unfold tail_cut. destruct (cut_scan a evs) as [[s nx]|] eqn:C; [|reflexivity].
  destruct nx as [n|]; [reflexivity|]. apply cut_scan_last in C. unfold cut_is_head in H. rewrite C, N.eqb_refl in H.
  discriminate.
Qed.

Lemma no_anchor_compile_none P texts l a :
  cut_scan a (filter mr_keep l) = None -> compile P texts l a = None.
Proof.
  intros H. unfold compile, cut_point.
  rewrite cut_scan_filter in H; [|intros f M; unfold mr_keep; now rewrite M]. now rewrite H.
Qed.

Lemma head_seq_last l f : last_frame l = Some f -> head_seq l = fseq f.
Proof.
  intros H. destruct (last_frame_inv l f H) as (l' & ->). apply head_seq_app.
Qed.

(* a quiescent faithful store: the full sidecar's last frame, when it belongs in the mr sidecar, is the last frame
   of every non-empty tail of the projection, so head_seq_seen_by_messages_runs_v1 leaves the head alone *)
Lemma head_seen_quiescent l pre evs f :
  last_frame l = Some f -> filter mr_keep l = pre ++ evs -> evs <> [] -> head_seen true [f] evs = fseq f.
Proof.
  intros Hl Hs Ne. unfold head_seen. change (last_frame [f]) with (Some f). cbn [andb].
  destruct (mr_keep f) eqn:K; [|reflexivity]. cbn [andb].
  destruct (last_frame_inv l f Hl) as (l' & E). subst l. rewrite filter_app in Hs. cbn [filter] in Hs. rewrite K in Hs.
  destruct (exists_last Ne) as (e' & g & Eg). subst evs. rewrite app_assoc in Hs. apply app_inj_tail in Hs.
  destruct Hs as [_ Eg]. subst g. rewrite last_frame_app. now rewrite N.ltb_irrefl.
Qed.

Section Loader.
Variables (r : tail_count) (P : params) (texts : N -> N) (l : log) (a : N).
Hypothesis R : tail_count_sound r = true.
Hypothesis S : incr l.
Hypothesis W : wf_refs l = true.

Definition round_ok (x : round) : Prop :=
  match x with
  | RReturn evs from => Some (compile_with P texts evs (filter is_ckpt l) from a) = compile P texts l a
  | RFail => compile P texts l a = None
  | RBreak | RNext => True
  end.

Lemma tail_round_ok k m fh :
  match m with Some ls => MrFileFaithful l ls | None => True end ->
  (forall f, fh = Some f -> last_frame l = Some f) ->
  round_ok (tail_round r (p_limit P) k m fh a).
Proof.
  intros F Hh. unfold tail_round. destruct m as [ls|]; [|exact I].
  destruct (scan_lines k ls) as [|evs cpl] eqn:Sc; [exact I|].
  destruct (scan_ok l ls k evs cpl F Sc) as (pre & Hs & Hc).
  destruct evs as [|e0 er] eqn:Ev.
  { destruct cpl; [|exact I]. cbn [round_ok]. apply no_anchor_compile_none.
    rewrite Hs, (Hc eq_refl). reflexivity. }
  rewrite <- Ev in *. assert (Ne : evs <> []) by (rewrite Ev; discriminate). clear Ev e0 er.
  set (head := match fh with Some f => head_seen true [f] evs
                             | None => match last_frame evs with Some g => fseq g | None => 0 end end).
  destruct (cut_is_head evs a && match fh with None => true | Some _ => false end) eqn:Brk; [exact I|].
  (* the cut this pass computes is the thread's cut *)
  assert (Tc : tail_cut evs head a = tail_cut evs (head_seq l) a).
  { destruct fh as [f|].
    - subst head. rewrite (head_seen_quiescent l pre evs f (Hh f eq_refl) Hs Ne).
      now rewrite (head_seq_last l f (Hh f eq_refl)).
    - rewrite andb_true_r in Brk. apply tail_cut_head_irrelevant. exact Brk. }
  rewrite Tc. destruct (tail_cut evs (head_seq l) a) as [fr|] eqn:C.
  - destruct (cpl || (p_limit P <=? tail_message_count r fr evs)%nat) eqn:Acc; [|exact I]. cbn [round_ok].
    destruct r; [|discriminate R]. cbn [tail_message_count] in Acc.
    apply (tail_input_agrees P texts mr_keep l pre evs a fr S W (fun f H => H) Hs C).
    apply orb_true_iff in Acc. destruct Acc as [Cm|Ct]; [left; apply Hc, Cm | right; now apply Nat.leb_le].
  - destruct cpl; [|exact I]. cbn [round_ok]. apply no_anchor_compile_none.
    rewrite Hs, (Hc eq_refl). cbn [app]. unfold tail_cut in C. destruct (cut_scan a evs); [discriminate|reflexivity].
Qed.

Lemma tail_loop_ok ks m fh :
  match m with Some ls => MrFileFaithful l ls | None => True end ->
  (forall f, fh = Some f -> last_frame l = Some f) ->
  round_ok (tail_loop r (p_limit P) ks m fh a).
Proof.
  intros F Hh. induction ks as [|k ks IH]; [exact I|]. cbn [tail_loop].
  pose proof (tail_round_ok k m fh F Hh) as T.
  destruct (tail_round r (p_limit P) k m fh a); try exact T. exact IH.
Qed.

Lemma after_loop_ok window :
  WindowSpec (p_limit P) l a window ->
  match after_loop window l a with
  | Some (evs, from) => Some (compile_with P texts evs (filter is_ckpt l) from a) = compile P texts l a
  | None => compile P texts l a = None
  end.
Proof.
  intros Ws. unfold after_loop. destruct window as [[evs from]|].
  - destruct (Ws evs from eq_refl) as (Cp & keep & Ad). exact (all_paths_agree P texts keep l a from evs S W Cp Ad).
  - destruct (cut_point l a) as [from|] eqn:Cp.
    + apply (all_paths_agree P texts keep_all l a from l S W Cp).
      apply (admissible_suffix keep_all _ l from []); auto.
      now apply filter_all.
    + unfold compile. now rewrite Cp.
Qed.

Theorem compile_input_transparent ks mr full window :
  MrFaithful l mr full -> HeadFaithful l full -> WindowSpec (p_limit P) l a window ->
  compile_fast r P texts ks mr full window l a = compile P texts l a.
Proof.
  intros Fm Fh Ws. unfold compile_fast, input_fast.
  pose proof (after_loop_ok window Ws) as Al.
  destruct (mr_effective mr full) as [m|] eqn:Em.
  - assert (F : match m with Some ls => MrFileFaithful l ls | None => True end).
    { destruct m as [ls|]; [|exact I]. exact (effective_faithful l mr full ls Fm Em). }
    pose proof (tail_loop_ok ks m (head_of full) F (fun f H => Fh f H)) as T.
    destruct (tail_loop r (p_limit P) ks m (head_of full) a) as [evs from| | |]; cbn [round_ok] in T.
    + exact T.
    + now rewrite T.
    + destruct (after_loop window l a) as [[evs from]|]; [exact Al|now rewrite Al].
    + destruct (after_loop window l a) as [[evs from]|]; [exact Al|now rewrite Al].
  - destruct (after_loop window l a) as [[evs from]|]; [exact Al|now rewrite Al].
Qed.
End Loader.

(* with the caches lost altogether the loader is the replay *)
Lemma no_caches_is_replay r P texts ks l a :
  compile_fast r P texts ks None None None l a = compile P texts l a.
Proof.
  unfold compile_fast, input_fast, mr_effective, seen, tail_loop, after_loop, compile.
  destruct ks; cbn [tail_loop tail_round]; destruct (cut_point l a); try reflexivity;
    now rewrite checkpoint_projection_agrees.
Qed.

(* a damaged file is faithful as long as what still parses behind the last unparsable line sits where a rebuild would
   put it: any lines (garbage or not) followed by an unparsable one, then a tail of the projection *)
Lemma all_good_c_bad u v : all_good_c (u ++ CBad :: v) = None.
Proof.
  induction u as [|c u IH]; [reflexivity|]. cbn [app all_good_c]. destruct c; [now rewrite IH|reflexivity].
Qed.

Lemma damaged_file_faithful l x0 x2 fr :
  filter mr_keep l = x0 ++ x2 -> MrFileFaithful l ((fr ++ [CBad]) ++ map CGood x2).
Proof.
  intros E p sfx evs Es G. apply app_eq_app in Es. destruct Es as (w & [[Eu Ev]|[Ep Ev]]).
  - (* the suffix starts inside the damaged front: it holds the unparsable line unless it is exactly the good tail *)
    destruct w as [|c0 w0] eqn:Ew.
    + cbn [app] in Ev. subst sfx. rewrite all_good_c_map in G. inversion G; subst evs.
      exists x0. split; [exact E|]. intros Pn. subst p. rewrite app_nil_r in Eu. destruct fr; discriminate Eu.
    + rewrite <- Ew in *. assert (Nw : w <> []) by (rewrite Ew; discriminate).
      destruct (exists_last Nw) as (w' & c & Ec). rewrite Ec, app_assoc in Eu. apply app_inj_tail in Eu.
      destruct Eu as [_ Ecb]. subst c. rewrite Ev, Ec, <- app_assoc in G. cbn [app] in G.
      rewrite all_good_c_bad in G. discriminate.
  - (* the suffix lies inside the good tail *)
    apply map_eq_app in Ev. destruct Ev as (y1 & y2 & Ex & _ & E2). subst sfx.
    rewrite all_good_c_map in G. inversion G; subst evs. exists (x0 ++ y1). split.
    + now rewrite E, Ex, app_assoc.
    + intros Pn. rewrite Pn in Ep. destruct fr; discriminate Ep.
Qed.

(* a thread of 40 messages (CompileProofs.count_all_log); its intact caches, the same with garbage lines in the middle of
   the mr sidecar, with a torn last line, without the mr sidecar, and with the mr sidecar re-created by the append of
   the last message after its loss (K2m, S4) *)
Definition cc_log : log := count_all_log.
Definition cc_proj : log := filter mr_keep cc_log.
Definition cc_mr : list cline := map CGood cc_proj.
Definition cc_full : cfile := Some (map CGood cc_log).
Definition cc_mr_damaged : list cline := ((firstn 10%nat cc_mr ++ [CBad]) ++ [CBad]) ++ map CGood (skipn 12%nat cc_proj).
Definition cc_mr_torn : list cline := (firstn 39%nat cc_mr ++ [CBad]) ++ map CGood [].
Definition cc_mr_recreated : list cline := map CGood (skipn 39%nat cc_proj).
Definition cc_ks : list nat := [20%nat; 40%nat; 80%nat].

Lemma head_of_projection l f : head_of (Some (map CGood l)) = Some f -> last_frame l = Some f.
Proof.
  destruct l as [|x t]; [discriminate|]. destruct (@exists_last _ (x :: t)) as (l' & g & E); [discriminate|].
  rewrite E. unfold head_of. rewrite map_app. cbn [map]. rewrite last_last. intros H. inversion H; subst g.
  apply last_frame_app.
Qed.

Lemma cc_mr_faithful : MrFaithful cc_log (Some cc_mr) cc_full.
Proof. apply MrFaithful_of_file; [vm_compute; discriminate|]. exact (projection_file_faithful cc_log). Qed.

Lemma cc_absent_faithful : MrFaithful cc_log None cc_full.
Proof. intros fs G. rewrite all_good_c_map in G. now inversion G. Qed.

Lemma cc_head_faithful : HeadFaithful cc_log cc_full.
Proof. intros f H. exact (head_of_projection cc_log f H). Qed.

Lemma cc_damaged_faithful : MrFaithful cc_log (Some cc_mr_damaged) cc_full.
Proof.
  apply MrFaithful_of_file; [vm_compute; discriminate|].
  unfold cc_mr_damaged. apply (damaged_file_faithful cc_log (firstn 12%nat cc_proj)).
  unfold cc_proj. symmetry. apply firstn_skipn.
Qed.

Lemma cc_torn_faithful : MrFaithful cc_log (Some cc_mr_torn) cc_full.
Proof.
  apply MrFaithful_of_file; [vm_compute; discriminate|].
  unfold cc_mr_torn. apply (damaged_file_faithful cc_log cc_proj).
  unfold cc_proj. symmetry. apply app_nil_r.
Qed.

Lemma cc_no_window : forall a, WindowSpec 16 cc_log a None.
Proof. intros a evs from H. discriminate H. Qed.

(* intact: the first budget (20 lines) holds the anchor with 5 messages before it and is refused, the second (40) is
   accepted; garbage in the middle: the first scan does not reach it, the later ones fail and the replay answers; torn
   last line: every scan fails; no mr sidecar: built from the full sidecar.  All equal the replay's answer. *)
Lemma cc_examples :
  valid_log cc_log = true /\ wf_refs cc_log = true
  /\ users (compile_fast CountUpToCut code16 no_texts cc_ks (Some cc_mr) cc_full None cc_log 25) = map N.of_nat (seq 10 16)
  /\ users (compile_fast CountUpToCut code16 no_texts cc_ks (Some cc_mr_damaged) cc_full None cc_log 25) = map N.of_nat (seq 10 16)
  /\ users (compile_fast CountUpToCut code16 no_texts cc_ks (Some cc_mr_torn) cc_full None cc_log 25) = map N.of_nat (seq 10 16)
  /\ users (compile_fast CountUpToCut code16 no_texts cc_ks None cc_full None cc_log 25) = map N.of_nat (seq 10 16)
  /\ users (compile code16 no_texts cc_log 25) = map N.of_nat (seq 10 16)
  /\ option_map snd (input_fast CountUpToCut 16 cc_ks (Some cc_mr_damaged) cc_full None cc_log 38) = Some 38
  /\ option_map (fun x => length (fst x)) (input_fast CountUpToCut 16 cc_ks (Some cc_mr_damaged) cc_full None cc_log 38) = Some 20%nat.
Proof. conjs; vm_compute; reflexivity. Qed.

(* K2m is not vacuous (S4): the mr sidecar re-created by the append of the 40th message after its loss is a complete,
   well-formed file; the compiled context holds that one message where the log determines sixteen *)
Lemma K2m_changes_answer :
  ~ MrFaithful cc_log (Some cc_mr_recreated) cc_full
  /\ HeadFaithful cc_log cc_full
  /\ users (compile_fast CountUpToCut code16 no_texts cc_ks (Some cc_mr_recreated) cc_full None cc_log 40) = [40]
  /\ users (compile code16 no_texts cc_log 40) = map N.of_nat (seq 25 16).
Proof.
  conjs; try (vm_compute; reflexivity); [|exact cc_head_faithful].
  intros F. unfold MrFaithful, cc_mr_recreated in F.
  destruct (F [] _ (skipn 39%nat cc_proj) eq_refl (all_good_c_map _)) as (pre & E & Hn).
  rewrite (Hn eq_refl) in E. vm_compute in E. discriminate E.
Qed.

(* the acceptance test must count the messages at or before the cut (seed C04-6 / C08-2): counting every message of the
   scanned tail accepts the first budget, and the compiled context depends on whether the caches are there *)
Lemma compile_count_all_changes_answer :
  MrFaithful cc_log (Some cc_mr) cc_full /\ HeadFaithful cc_log cc_full
  /\ users (compile_fast CountAll code16 no_texts cc_ks (Some cc_mr) cc_full None cc_log 25) = [21; 22; 23; 24; 25]
  /\ users (compile_fast CountAll code16 no_texts cc_ks None None None cc_log 25) = map N.of_nat (seq 10 16)
  /\ users (compile code16 no_texts cc_log 25) = map N.of_nat (seq 10 16).
Proof. conjs; try (vm_compute; reflexivity); [exact cc_mr_faithful|exact cc_head_faithful]. Qed.

Lemma compile_transparent_example :
  Compile.valid_log cc_log = true /\ wf_refs cc_log = true
  /\ MrFaithful cc_log (Some cc_mr) cc_full /\ MrFaithful cc_log (Some cc_mr_damaged) cc_full
  /\ MrFaithful cc_log (Some cc_mr_torn) cc_full /\ MrFaithful cc_log None cc_full
  /\ HeadFaithful cc_log cc_full /\ (forall a, WindowSpec 16 cc_log a None)
  /\ users (compile_fast CountUpToCut code16 no_texts cc_ks (Some cc_mr_damaged) cc_full None cc_log 25) = map N.of_nat (seq 10 16)
  /\ users (compile code16 no_texts cc_log 25) = map N.of_nat (seq 10 16).
Proof.
  split; [vm_compute; reflexivity|]. split; [vm_compute; reflexivity|].
  split; [exact cc_mr_faithful|]. split; [exact cc_damaged_faithful|]. split; [exact cc_torn_faithful|].
  split; [exact cc_absent_faithful|]. split; [exact cc_head_faithful|]. split; [exact cc_no_window|].
  split; vm_compute; reflexivity.
Qed.

(* the healthy seek window (Compile.mr_window over the projection, at the thread's cut) meets WindowSpec: the
   admissibility argument of c08_window_path_agrees, stated for the loader's parameter *)
Definition healthy_window (limit : nat) (l : log) (a : N) : option (log * N) :=
  option_map (fun from => (mr_window limit l from, from)) (cut_point l a).

Lemma healthy_window_spec limit l a : WindowSpec limit l a (healthy_window limit l a).
Proof.
  intros evs from H. unfold healthy_window in H. destruct (cut_point l a) as [fr|] eqn:C; [|discriminate].
  cbn [option_map] in H. inversion H; subst evs from. clear H. split; [reflexivity|]. exists mr_keep.
  apply mr_window_admissible.
Qed.

Theorem compile_input_transparent_healthy_window (r : tail_count) (P : params) (texts : N -> N) (l : log) (a : N)
        (ks : list nat) (mr full : cfile) :
  tail_count_sound r = true -> incr l -> wf_refs l = true ->
  MrFaithful l mr full -> HeadFaithful l full ->
  compile_fast r P texts ks mr full (healthy_window (p_limit P) l a) l a = compile P texts l a.
Proof.
  intros R S W Fm Fh.
  exact (compile_input_transparent r P texts l a R S W ks mr full _ Fm Fh (healthy_window_spec (p_limit P) l a)).
Qed.

(* The compiler's checkpoint look-ups through the caches. *)
Lemma compile_with_core P texts evs cks from a :
  compile_with P texts evs cks from a =
  compile_core P texts evs (hierarchy (p_fixed P) from (p_max_refs P) cks) (latest_any (p_fixed P) from cks) from a.
Proof. reflexivity. Qed.

Lemma hierarchy_projection fixed from n l : hierarchy fixed from n (filter is_ckpt l) = hierarchy fixed from n l.
Proof. apply hierarchy_filter, visible_is_ckpt. Qed.
Lemma latest_any_projection fixed from l : latest_any fixed from (filter is_ckpt l) = latest_any fixed from l.
Proof. apply latest_any_filter, visible_is_ckpt. Qed.

Lemma better_true c b : better c b = true <-> ck_to b < ck_to c \/ (ck_to b = ck_to c /\ ck_seq b < ck_seq c).
Proof.
  unfold better. rewrite orb_true_iff, andb_true_iff, !N.ltb_lt, N.eqb_eq. tauto.
Qed.

(* the truth loop started from b answers b unless the stream holds a visible checkpoint with to_seq at or above b's *)
Lemma latest_fold_from fixed from : forall r b,
  fold_left (latest_step fixed from) r (Some b) =
  match latest_any fixed from r with
  | Some c => if ck_to b <=? ck_to c then Some c else Some b
  | None => Some b
  end.
Proof.
  unfold latest_any. induction r as [|y r IH]; intros b; [reflexivity|]. cbn [fold_left]. unfold latest_step at 2 4.
  destruct (ckpt_of y) as [cy|]; [|apply IH]. destruct (eligible fixed from cy); [|apply IH].
  rewrite (IH cy). destruct (ck_to b <=? ck_to cy) eqn:E1; rewrite IH;
    destruct (fold_left (latest_step fixed from) r None) as [c|]; try now rewrite ?E1.
  - destruct (ck_to cy <=? ck_to c) eqn:E2; [|now rewrite E1]. now replace (ck_to b <=? ck_to c) with true by lia.
  - destruct (ck_to cy <=? ck_to c) eqn:E2; [reflexivity|]. rewrite E1. now replace (ck_to b <=? ck_to c) with false by lia.
Qed.

Lemma ckpts_in l c : In c (ckpts l) -> exists f, In f l /\ ckpt_of f = Some c.
Proof.
  unfold ckpts. rewrite in_flat_map. intros (f & F & H). exists f. split; [exact F|].
  destruct (ckpt_of f) as [c'|]; [|destruct H]. destruct H as [<-|[]]. reflexivity.
Qed.

(* the reader's fold (latest first, explicit seq tie-break) and the truth loop (stream order, later frame wins a tie)
   agree on a stream with increasing seqs.  Model/Cache.v holds a second copy of this reader
   (latest_compaction_checkpoint_before_or_at_seq_v1 over `.comp`) for compaction status and cut points: latest_ckpt with ck_better, over
   frames with byte lengths; the same agreement is proved for it, by moving the last frame of a reversed list to the
   front, in Proofs/CacheProofs.v (ck_last, latest_ckpt_rev). *)
Lemma cache_fold_is_latest_any fixed from evs : incr evs ->
  fold_left (latest_step_cache fixed from) (rev evs) None = latest_any fixed from evs.
Proof.
  induction evs as [|x r IH]; intros S; [reflexivity|]. destruct S as [F S].
  cbn [rev]. rewrite fold_left_app, (IH S). unfold latest_any at 2. cbn [fold_left].
  unfold latest_step_cache, latest_step at 2.
  destruct (ckpt_of x) as [cx|] eqn:Cx; [|reflexivity]. destruct (eligible fixed from cx); [|reflexivity].
  rewrite latest_fold_from. destruct (latest_any fixed from r) as [c|] eqn:La; [|reflexivity].
  (* c comes from a later frame than x: the explicit tie-break never fires *)
  apply latest_any_in in La. destruct La as [La|[Ic _]]; [discriminate|].
  destruct (ckpts_in r c Ic) as (f & If & Cf). rewrite Forall_forall in F. specialize (F f If).
  rewrite <- (ckpt_of_seq x cx Cx), <- (ckpt_of_seq f c Cf) in F.
  unfold better. destruct (ck_to cx <=? ck_to c) eqn:E.
  - replace (ck_to c <? ck_to cx) with false by lia. replace (ck_seq c <? ck_seq cx) with false by lia.
    now rewrite andb_false_r.
  - now replace (ck_to c <? ck_to cx) with true by lia.
Qed.

(* a complete scan has read the whole file, and every line of it parses *)
Lemma scan_complete_all k ls evs : scan_lines k ls = ScTail evs true -> all_good_c ls = Some evs.
Proof.
  unfold scan_lines. intros H. destruct (all_good_c (lastn_lines k ls)) as [e|] eqn:G; [|discriminate].
  inversion H as [[He Hc]]. subst e. destruct (lastn_suffix k ls) as (p & Hp & Hn).
  apply Nat.leb_le in Hc. rewrite (Hn Hc) in Hp. cbn [app] in Hp. rewrite Hp. exact G.
Qed.

(* whatever file the checkpoint readers end up scanning: if it parses as a whole it is the projection *)
Lemma effective_comp_faithful l comp full cl fs :
  CompFaithfulC l comp full -> comp_effective comp full = Some (Some cl) -> all_good_c cl = Some fs -> fs = filter is_ckpt l.
Proof.
  unfold CompFaithfulC, comp_effective. destruct (seen comp) as [ls|].
  - intros F E G. inversion E; subst cl. exact (F fs G).
  - destruct full as [fl|]; [|discriminate]. destruct (all_good_c fl) as [f0|] eqn:G0; [|discriminate].
    intros F E G. rewrite (F f0 eq_refl) in E.
    destruct (filter is_ckpt l) as [|x r] eqn:Fc; [discriminate|]. inversion E; subst cl.
    change (CGood x :: map CGood r) with (map CGood (x :: r)) in G. rewrite all_good_c_map in G. now inversion G.
Qed.

Lemma latest_cache_ok fixed me comp full from l c :
  incr l -> CompFaithfulC l comp full -> latest_cache fixed me comp full from = LSome c -> latest_any fixed from l = Some c.
Proof.
  intros S F H. unfold latest_cache in H.
  destruct (comp_effective comp full) as [[cl|]|] eqn:E; try discriminate.
  destruct (scan_lines me cl) as [|evs cpl] eqn:Sc; [discriminate|]. destruct cpl; [|discriminate].
  pose proof (effective_comp_faithful l comp full cl evs F E (scan_complete_all me cl evs Sc)) as Ev. subst evs.
  rewrite (cache_fold_is_latest_any fixed from _ (incr_filter is_ckpt l S)), latest_any_projection in H.
  destruct (latest_any fixed from l); inversion H. reflexivity.
Qed.

Lemma idx_load_map x fs : idx_load (map CGood x) = Some fs -> fs = x.
Proof.
  unfold idx_load. rewrite all_good_c_map. destruct x as [|f r]; [discriminate|].
  destruct (mono_from 0 (f :: r)); [|discriminate]. intros H. now inversion H.
Qed.

Lemma idx_rebuild_cases l comp full cl idx0 :
  CompFaithfulC l comp full -> comp_effective comp full = Some (Some cl) ->
  idx_rebuild cl idx0 = idx0
  \/ (filter is_ckpt l <> [] /\ idx_rebuild cl idx0 = Some (map CGood (filter is_ckpt l)))
  \/ (filter is_ckpt l = [] /\ idx_rebuild cl idx0 = None).
Proof.
  intros F E. unfold idx_rebuild. destruct (all_good_c cl) as [fs|] eqn:G; [|now left].
  pose proof (effective_comp_faithful l comp full cl fs F E G) as Ef. subst fs.
  destruct (forallb is_ckpt (filter is_ckpt l)); [|now left].
  destruct (filter is_ckpt l) as [|x r] eqn:Fc; [right; right; now split|].
  right; left. split; [discriminate|reflexivity].
Qed.

Lemma idx_projection_faithful l : IdxFaithful l (Some (map CGood (filter is_ckpt l))).
Proof. intros fs L. exact (idx_load_map _ _ L). Qed.

(* an index file that is there: it loads, or it is rebuilt from the checkpoint sidecar and loaded again *)
Lemma hier_cache_present_ok comp full e0 l es :
  CompFaithfulC l comp full -> IdxFaithful l (Some e0) -> hier_cache comp full (Some e0) = HSome es -> es = filter is_ckpt l.
Proof.
  intros F Fi H. unfold hier_cache in H. destruct (idx_load e0) as [fs|] eqn:L0.
  - inversion H; subst es. exact (Fi fs L0).
  - destruct (comp_effective comp full) as [[cl|]|] eqn:E; try discriminate.
    destruct (idx_rebuild_cases l comp full cl (Some e0) F E) as [R|[[Ne R]|[Em R]]]; rewrite R in H.
    + rewrite L0 in H. discriminate.
    + destruct (idx_load (map CGood (filter is_ckpt l))) as [fs|] eqn:L1; [|discriminate].
      inversion H; subst es. exact (idx_load_map _ _ L1).
    + inversion H. now rewrite Em.
Qed.

(* no index file: it is built from the checkpoint sidecar, and the look-up goes on as if it had been found *)
Lemma hier_cache_absent comp full :
  hier_cache comp full None =
  match comp_effective comp full with
  | None => HErr
  | Some None => HNone
  | Some (Some cl) => match idx_rebuild cl None with Some es => hier_cache comp full (Some es) | None => HNone end
  end.
Proof.
  unfold hier_cache. destruct (comp_effective comp full) as [[cl|]|]; reflexivity.
Qed.

Lemma hier_cache_ok comp full idx l es :
  CompFaithfulC l comp full -> IdxFaithful l idx -> hier_cache comp full idx = HSome es -> es = filter is_ckpt l.
Proof.
  intros F Fi H. destruct idx as [e0|]; [exact (hier_cache_present_ok comp full e0 l es F Fi H)|].
  rewrite hier_cache_absent in H. destruct (comp_effective comp full) as [[cl|]|] eqn:E; try discriminate.
  destruct (idx_rebuild_cases l comp full cl None F E) as [R|[[Ne R]|[Em R]]]; rewrite R in H; try discriminate.
  exact (hier_cache_present_ok comp full _ l es F (idx_projection_faithful l) H).
Qed.

Lemma latest_for_compile_ok fixed me full comp idx l from :
  incr l -> CompFaithfulC l comp full ->
  latest_for_compile fixed me full comp idx l from = latest_any fixed from l.
Proof.
  intros S F. unfold latest_for_compile. destruct (caches_behind_head full comp idx); [reflexivity|].
  destruct (latest_cache fixed me comp full from) as [| |c] eqn:L; try reflexivity.
  symmetry. exact (latest_cache_ok fixed me comp full from l c S F L).
Qed.

Lemma hier_for_compile_ok fixed levels full comp idx l from :
  CompFaithfulC l comp full -> IdxFaithful l idx ->
  hier_for_compile fixed levels full comp idx l from = hierarchy fixed from levels l.
Proof.
  intros F Fi. unfold hier_for_compile. destruct (caches_behind_head full comp idx); [reflexivity|].
  destruct (hier_cache comp full idx) as [| |es] eqn:H; try reflexivity.
  rewrite (hier_cache_ok comp full idx l es F Fi H). apply hierarchy_projection.
Qed.

(* the whole read side of a run's context through the caches as found *)
Theorem compile_cached_transparent (r : tail_count) (P : params) (texts : N -> N) (l : log) (a : N) (ks : list nat) (me : nat)
        (mr full comp idx : cfile) (window : option (log * N)) :
  tail_count_sound r = true -> incr l -> wf_refs l = true ->
  MrFaithful l mr full -> HeadFaithful l full -> WindowSpec (p_limit P) l a window ->
  CompFaithfulC l comp full -> IdxFaithful l idx ->
  compile_cached r P texts ks me mr full comp idx window l a = compile P texts l a.
Proof.
  intros R S W Fm Fh Ws Fc Fi.
  rewrite <- (compile_input_transparent r P texts l a R S W ks mr full window Fm Fh Ws).
  unfold compile_cached, compile_fast. destruct (input_fast r (p_limit P) ks mr full window l a) as [[evs from]|]; [|reflexivity].
  f_equal. rewrite compile_with_core, hierarchy_projection, latest_any_projection.
  rewrite (hier_for_compile_ok (p_fixed P) (p_max_refs P) full comp idx l from Fc Fi).
  rewrite (latest_for_compile_ok (p_fixed P) me full comp idx l from S Fc). reflexivity.
Qed.

(* witnesses: 8 messages, cumulative checkpoints (frames 9, 10) up to messages 4 and 8, one more message *)
Definition ck_log : log :=
  mkf 0 BOther :: plain_msgs 8 1 ++ [mkf 9 (BCkpt true 4 1); mkf 10 (BCkpt true 8 2); mkf 11 BMsg].
Definition ck_full : cfile := Some (map CGood ck_log).
Definition ck_mr : cfile := Some (map CGood (filter mr_keep ck_log)).
Definition ck_comp : list cline := map CGood (filter is_ckpt ck_log).
Definition ck_comp_recreated : list cline := [CGood (mkf 9 (BCkpt true 4 1))].   (* K2: only one checkpoint left in a well-formed file *)
Definition ck_comp_damaged : list cline := [CBad; CGood (mkf 10 (BCkpt true 8 2))].
Definition ck_idx_garbage : list cline := [CBad].

Lemma CompFaithfulC_of_file l ls full :
  ls <> [] -> (forall fs, all_good_c ls = Some fs -> fs = filter is_ckpt l) -> CompFaithfulC l (Some ls) full.
Proof. intros Ne F. destruct ls as [|x r]; [contradiction|]. exact F. Qed.
Lemma comp_projection_faithfulC l full :
  filter is_ckpt l <> [] -> CompFaithfulC l (Some (map CGood (filter is_ckpt l))) full.
Proof.
  intros Ne. apply CompFaithfulC_of_file.
  - destruct (filter is_ckpt l); [contradiction|discriminate].
  - intros fs G. rewrite all_good_c_map in G. now inversion G.
Qed.
Lemma comp_with_bad_line_faithful l full u v : CompFaithfulC l (Some (u ++ CBad :: v)) full.
Proof.
  apply CompFaithfulC_of_file.
  - destruct u; discriminate.
  - intros fs G. rewrite all_good_c_bad in G. discriminate.
Qed.
Lemma idx_unloadable_faithful l es : idx_load es = None -> IdxFaithful l (Some es).
Proof. intros N fs L. rewrite N in L. discriminate. Qed.

Definition summaries (o : option (decision * bundle)) : list N :=
  match o with
  | Some (_, b) => flat_map (fun i => match i with ISummary _ t => [t] | _ => [] end) (b_items b)
  | None => []
  end.

Lemma ck_examples :
  valid_log ck_log = true /\ wf_refs ck_log = true
  /\ MrFaithful ck_log ck_mr ck_full /\ HeadFaithful ck_log ck_full
  /\ CompFaithfulC ck_log (Some ck_comp) ck_full /\ CompFaithfulC ck_log (Some ck_comp_damaged) ck_full /\ CompFaithfulC ck_log None ck_full
  /\ IdxFaithful ck_log (Some ck_comp) /\ IdxFaithful ck_log (Some ck_idx_garbage) /\ IdxFaithful ck_log None
  (* intact; checkpoint sidecar with an unparsable line and an index that does not load; neither file: two summary refs
     (to_seq 4 and 8) and the message after them, as the replay says *)
  /\ summaries (compile_cached CountUpToCut code16 no_texts [20%nat] 100%nat ck_mr ck_full (Some ck_comp) (Some ck_comp) None ck_log 11) = [4; 8]
  /\ summaries (compile_cached CountUpToCut code16 no_texts [20%nat] 100%nat ck_mr ck_full (Some ck_comp_damaged) (Some ck_idx_garbage) None ck_log 11) = [4; 8]
  /\ summaries (compile_cached CountUpToCut code16 no_texts [20%nat] 100%nat ck_mr ck_full None None None ck_log 11) = [4; 8]
  /\ summaries (compile code16 no_texts ck_log 11) = [4; 8]
  /\ users (compile code16 no_texts ck_log 11) = [11].
Proof.
  split; [vm_compute; reflexivity|]. split; [vm_compute; reflexivity|].
  split; [exact (projection_file_faithful ck_log)|].
  split; [intros f H; exact (head_of_projection ck_log f H)|].
  split; [apply (comp_projection_faithfulC ck_log ck_full); vm_compute; discriminate|].
  split; [exact (comp_with_bad_line_faithful ck_log ck_full [] [CGood (mkf 10 (BCkpt true 8 2))])|].
  split; [intros fs G; rewrite all_good_c_map in G; now inversion G|].
  split; [exact (idx_projection_faithful ck_log)|].
  split; [apply idx_unloadable_faithful; reflexivity|].
  split; [exact I|].
  conjs; vm_compute; reflexivity.
Qed.

(* K2 is not vacuous for the compiled context (S4): the checkpoint sidecar re-created by one append, the index built from it *)
Lemma K2_changes_compiled_context :
  ~ CompFaithfulC ck_log (Some ck_comp_recreated) ck_full
  /\ summaries (compile_cached CountUpToCut code16 no_texts [20%nat] 100%nat ck_mr ck_full (Some ck_comp_recreated) None None ck_log 11) = [4]
  /\ users (compile_cached CountUpToCut code16 no_texts [20%nat] 100%nat ck_mr ck_full (Some ck_comp_recreated) None None ck_log 11) = [5; 6; 7; 8; 11]
  /\ summaries (compile code16 no_texts ck_log 11) = [4; 8]
  /\ users (compile code16 no_texts ck_log 11) = [11].
Proof.
  split; [|conjs; vm_compute; reflexivity].
  intros F. specialize (F [mkf 9 (BCkpt true 4 1)] eq_refl). vm_compute in F. discriminate F.
Qed.
