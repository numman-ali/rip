(* C14: the automatic checkpoint of apply_patch.  The tool's file-system behaviour is the model of C12
   (Model/Patch.v: exec / run / apply_ops, validated against the real Workspace::apply_patch by C12's
   correspondence); here: what it changes lies at its affected paths, so the checkpoint of Patch::affected_paths undoes
   it - for every patch in which no affected path lies below another affected path; and the refutation without that
   hypothesis (finding S10j).  A patch that applies is the plain interpreter spec_ops (C12's success_spec): the
   arguments below run over that. *)
From RipV Require Import Base.Prelude Base.Fs Model.Paths Model.Checkpoint Proofs.PathsProofs Proofs.CheckpointProofs
  Proofs.AutoCoverProofs.
From RipV Require Model.Patch Proofs.FsProofs Proofs.PatchProofs Proofs.PatchAtomic.

(* comps, under the name the statements about dir_at use *)
Definition pk (p : list N) : path := comps p.

Section PatchGood.
  Variable f : fs.
  Variable K : path -> Prop.

  (* one operation of a patch stays inside Good *)
  Lemma spec_op_good g o g' : Good f K g ->
    (forall p, In p (Patch.op_paths o) -> K (comps p) /\ safe_parents f K (comps p)) ->
    Patch.spec_op [] g o = Ok g' -> Good f K g'.
  Proof.
    intros G HK H. destruct o as [p content|p|p mv hs]; cbn [Patch.spec_op] in H; unfold Patch.tg in H.
    - destruct (HK p (or_introl eq_refl)) as [Kp Sp].
      destruct (os_exists g (mk_tgt [] p)); [discriminate|].
      destruct (mk_parent_dirs g (mk_tgt [] p)) as [g2 [e|]] eqn:Em; [discriminate|].
      exact (good_write f K g2 p content g' (good_parents f K g p g2 None G Sp Em) Kp H).
    - destruct (negb (os_exists g (mk_tgt [] p))); [discriminate|].
      exact (good_remove f K g p g' G (proj1 (HK p (or_introl eq_refl))) H).
    - assert (Kp : K (comps p)) by (apply HK; destruct mv; left; reflexivity).
      destruct (negb (os_exists g (mk_tgt [] p))); [discriminate|].
      destruct (os_read g (mk_tgt [] p)) as [b|e]; [|discriminate].
      destruct (negb (utf8_ok b)); [discriminate|].
      destruct (Patch.apply_hunks_to_text b hs) as [b'|]; [|discriminate].
      destruct (os_write g (mk_tgt [] p) b') as [g2|e] eqn:Ew; [|discriminate].
      pose proof (good_write f K g p b' g2 G Kp Ew) as G2.
      destruct mv as [q|]; [|inversion H; subst g'; exact G2].
      destruct (HK q (or_intror (or_introl eq_refl))) as [Kq Sq].
      destruct (os_exists g2 (mk_tgt [] q)); [discriminate|].
      destruct (mk_parent_dirs g2 (mk_tgt [] q)) as [g4 [e|]] eqn:Em; [discriminate|].
      exact (good_rename f K g4 p q g' (good_parents f K g2 q g4 None G2 Sq Em) Kp Kq H).
  Qed.

  Lemma spec_ops_good : forall ops g g', Good f K g ->
    (forall p, In p (Patch.affected_paths ops) -> K (comps p) /\ safe_parents f K (comps p)) ->
    Patch.spec_ops [] g ops = Ok g' -> Good f K g'.
  Proof.
    induction ops as [|o ops IH]; intros g g' G HK H; cbn [Patch.spec_ops] in H; [inversion H; subst g'; exact G|].
    destruct (Patch.spec_op [] g o) as [g1|e] eqn:E; [|discriminate].
    unfold Patch.affected_paths in HK. cbn [flat_map] in HK.
    apply (IH g1 g'); [|intros p Hp; apply HK, in_or_app; right; exact Hp|exact H].
    apply (spec_op_good g o g1 G); [intros p Hp; apply HK, in_or_app; left; exact Hp|exact E].
  Qed.
End PatchGood.

(* no affected path lies strictly below another affected path - unless that one is a directory of the workspace
   (then the operation naming it fails anyway) *)
Definition nested_free (f : fs) (ps : list (list N)) : Prop :=
  forall p q, In p ps -> In q ps -> strict_prefix (comps p) (comps q) -> lookup f (comps p) = Some Dir.

(* a patch that applies changes files at its affected paths only *)
Theorem patch_good f ops g c : sane f -> nested_free f (Patch.affected_paths ops) ->
  Patch.apply_ops true [] f ops = Patch.Applied g c ->
  Good f (fun q => exists p, In p (Patch.affected_paths ops) /\ comps p = q) g.
Proof.
  intros Hs Hnest Ha. apply PatchProofs.success_spec in Ha.
  apply (spec_ops_good f _ ops f g (good_init f _ Hs)); [|exact (proj1 Ha)].
  intros p Hp. split; [exists p; split; [exact Hp|reflexivity]|].
  intros r Hsp (p0 & Hp0 & <-). exact (Hnest p0 p Hp0 Hp Hsp).
Qed.

Theorem auto_patch_undone f root ops g c ck :
  is_absolute root = true -> reachable_tree f -> nonul f ->
  (forall p, In p (Patch.affected_paths ops) -> is_absolute p = false /\ has_parent p = false) ->
  nested_free f (Patch.affected_paths ops) ->
  create f root (Patch.affected_paths ops) = Ok ck ->
  Patch.apply_ops true [] f ops = Patch.Applied g c ->
  exists f2, rewind g ck = (f2, None) /\ forall q, file_at f2 q = file_at f q.
Proof.
  intros Hroot Ht Hnul Hrel Hnest Hc Ha.
  apply (good_edit_undone f root _ ck _ g Hc Ht Hnul (patch_good f ops g c (tree_sane _ Ht) Hnest Ha)).
  intros q. symmetry. exact (create_keys f root _ ck Hroot Hrel Hc q).
Qed.

(* finding S10j: a patch that deletes a file and adds one below its name *)
Require Import Coq.Strings.String.
Definition j_root : str := bs "/r/ws"%string.
Definition j_a : list N := bs "a.txt"%string.
Definition j_ax : list N := bs "a.txt/x.txt"%string.
Definition j_ws : fs := [([j_a], File (bs "one"%string))].
Definition j_ops : list Patch.op := [Patch.Del j_a; Patch.Add j_ax (bs "inner"%string ++ [10])%list].
Definition j_text : list N :=
  (bs "*** Begin Patch"%string ++ [10] ++ bs "*** Delete File: a.txt"%string ++ [10] ++ bs "*** Add File: a.txt/x.txt"%string ++ [10]
   ++ bs "+inner"%string ++ [10] ++ bs "*** End Patch"%string)%list.
Definition j_after : fs := [([j_a; bs "x.txt"%string], File (bs "inner"%string ++ [10])); ([j_a], Dir)].
Definition j_ck : list entry := [(j_a, Some (bs "one"%string)); (j_ax, None)].
Lemma auto_patch_dir_refuted :
  exists f root text g c ck e,
    tree_b f = true /\ nonul_b f = true
    /\ Patch.apply_patch true [] f text = Patch.Applied g c
    /\ (exists ops, Patch.parse_patch text = Some ops /\ create f root (Patch.affected_paths ops) = Ok ck)
    /\ rewind g ck = (g, Some e) /\ g <> f.
Proof.
  exists j_ws, j_root, j_text, j_after. eexists. exists j_ck, EISDIR.
  do 3 (split; [vm_compute; reflexivity|]). split; [exists j_ops; split; vm_compute; reflexivity|].
  split; [vm_compute; reflexivity|discriminate].
Qed.

(* non-vacuity of auto_patch_undone: an add under two new directories, and a delete *)
Definition k_b : list N := bs "b.txt"%string.
Definition k_new : list N := bs "q/r/new.txt"%string.
Definition k_ws : fs := [([j_a], File (bs "one"%string)); ([k_b], File (bs "bee"%string))].
Definition k_ops : list Patch.op := [Patch.Add k_new (bs "n"%string); Patch.Del k_b].
Lemma ex_auto_patch_undone :
  tree_b k_ws = true /\ nonul_b k_ws = true
  /\ exists ck g c f2, create k_ws j_root (Patch.affected_paths k_ops) = Ok ck
       /\ Patch.apply_ops true [] k_ws k_ops = Patch.Applied g c
       /\ file_at g [k_b] = None /\ rewind g ck = (f2, None) /\ file_at f2 [k_b] = Some (bs "bee"%string).
Proof. do 2 (split; [vm_compute; reflexivity|]). do 4 eexists. repeat (split; [vm_compute; reflexivity|]). vm_compute; reflexivity. Qed.

(* every path of the patch is ok for a tool (okp); for a parsed patch each passed parse_rel_path *)
Definition okops (ops : list Patch.op) : Prop := forall p, In p (Patch.affected_paths ops) -> okp p.

Lemma parse_patch_ok text ops : Patch.parse_patch text = Some ops -> okops ops.
Proof.
  intros H p Hp. apply in_flat_map in Hp. destruct Hp as (o & Ho & Hp).
  pose proof (PatchProofs.parse_paths_safe text ops H) as F. rewrite Forall_forall in F.
  exact (proj2 (F o Ho p Hp)).
Qed.

(* the same for a patch TEXT: whatever the parser accepts.  The nesting hypothesis is nested_free written out, as
   Model/ToolDispatch.v arg_ok has it. *)
Theorem auto_patch_text_undone f root text g c ck :
  is_absolute root = true -> tree_b f = true -> nonul_b f = true ->
  forall ops, Patch.parse_patch text = Some ops ->
  (forall p q, In p (Patch.affected_paths ops) -> In q (Patch.affected_paths ops) ->
     (exists s, comps q = comps p ++ s /\ comps p <> [] /\ s <> []) -> lookup f (comps p) = Some Dir) ->
  create f root (Patch.affected_paths ops) = Ok ck ->
  Patch.apply_patch true [] f text = Patch.Applied g c ->
  exists f2, rewind g ck = (f2, None) /\ forall q, file_at f2 q = file_at f q.
Proof.
  intros Hr Ht Hn ops Hp Hnest Hc Ha. unfold Patch.apply_patch in Ha. rewrite Hp in Ha.
  exact (auto_patch_undone f root ops g c ck Hr (tree_b_sound _ Ht) (nonul_b_sound _ Hn) (parse_patch_ok text ops Hp) Hnest Hc Ha).
Qed.

(* a reachable directory at k: `exists()` answers true there; for a name with a NUL byte it answers false whatever
   stands there *)
Definition dir_at (g : fs) (k : path) : Prop := lookup g k = Some Dir /\ dirs_ok g [] k = None.

Lemma dir_exists g p : dir_at g (pk p) -> has_nul p = false -> os_exists g (Patch.tg [] p) = true.
Proof.
  intros [L O] Hn. unfold os_exists, pre_err. cbn [Patch.tg mk_tgt t_nul t_base t_comps t_path app].
  change (comps p) with (pk p). rewrite Hn, O, L. reflexivity.
Qed.
Lemma nul_not_exists g p : has_nul p = true -> os_exists g (Patch.tg [] p) = false.
Proof. intros Hn. unfold os_exists, pre_err. cbn [Patch.tg mk_tgt t_nul]. rewrite Hn. reflexivity. Qed.

(* The other half: when the checkpoint of the affected paths cannot be taken, the patch does not apply.
   An operation that names a path at which a directory stands fails: each primitive succeeds only at a file or at
   nothing (the specifications of FsProofs) *)
Lemma spec_op_dir_fails g o g' p : In p (Patch.op_paths o) -> lookup g (comps p) = Some Dir -> Patch.spec_op [] g o <> Ok g'.
Proof.
  intros Hin D H. destruct o as [p0 content|p0|p0 mv hs]; cbn [Patch.spec_op] in H; unfold Patch.tg in H.
  - destruct Hin as [<-|[]]. destruct (os_exists g (mk_tgt [] p0)); [discriminate|].
    destruct (mk_parent_dirs g (mk_tgt [] p0)) as [g2 [e|]] eqn:Em; [discriminate|].
    destruct (FsProofs.os_write_ok _ _ _ _ H) as (_ & _ & Hnd & _). exact (Hnd (parents_mono _ _ _ _ Em _ D)).
  - destruct Hin as [<-|[]]. destruct (negb (os_exists g (mk_tgt [] p0))); [discriminate|].
    destruct (FsProofs.os_remove_ok _ _ _ H) as (_ & _ & (b & L) & _). rewrite D in L. discriminate.
  - destruct (negb (os_exists g (mk_tgt [] p0))); [discriminate|].
    destruct (os_read g (mk_tgt [] p0)) as [b|e] eqn:Erd; [|discriminate].
    destruct (FsProofs.os_read_ok _ _ _ Erd) as (_ & _ & L0).
    assert (Hp0 : p <> p0) by (intros ->; rewrite D in L0; discriminate).
    destruct (negb (utf8_ok b)); [discriminate|].
    destruct (Patch.apply_hunks_to_text b hs) as [b'|]; [|discriminate].
    destruct (os_write g (mk_tgt [] p0) b') as [g2|e] eqn:Ew; [|discriminate].
    destruct mv as [q|]; [destruct Hin as [E|[->|[]]]|destruct Hin as [E|[]]]; try (destruct (Hp0 (eq_sym E))).
    destruct (FsProofs.os_write_ok _ _ _ _ Ew) as (_ & _ & _ & ->).
    destruct (os_exists _ (mk_tgt [] p)); [discriminate|].
    destruct (mk_parent_dirs _ (mk_tgt [] p)) as [g4 [e|]] eqn:Em; [discriminate|].
    destruct (FsProofs.os_rename_ok _ _ _ _ H) as (_ & _ & _ & _ & Hnd & _). apply Hnd, (parents_mono _ _ _ _ Em).
    rewrite lookup_set_diff; [exact D|]. intros E. rewrite <- E, L0 in D. discriminate.
Qed.

Lemma spec_ops_dir_fails : forall ops g g' p, FsProofs.fs_wf g -> In p (Patch.affected_paths ops) ->
  lookup g (comps p) = Some Dir -> Patch.spec_ops [] g ops <> Ok g'.
Proof.
  induction ops as [|o ops IH]; intros g g' p W Hin D H; [destruct Hin|].
  cbn [Patch.spec_ops] in H. destruct (Patch.spec_op [] g o) as [g1|e] eqn:E; [|discriminate].
  unfold Patch.affected_paths in Hin. cbn [flat_map] in Hin. apply in_app_or in Hin.
  destruct Hin as [Hin|Hin]; [exact (spec_op_dir_fails g o g1 p Hin D E)|].
  destruct (PatchAtomic.spec_op_keeps g o g1 W E) as [W1 D1].
  exact (IH g1 g' p W1 Hin (D1 _ D) H).
Qed.

(* no checkpoint of the affected paths (one of them is a directory) => the patch does not apply, and a patch that
   does not apply changes no file (C12's atomicity) *)
Theorem auto_patch_no_checkpoint f root ops e :
  is_absolute root = true -> FsProofs.fs_wf f -> okops ops ->
  create f root (Patch.affected_paths ops) = Err e ->
  exists g e', Patch.apply_ops true [] f ops = Patch.Failed g e' /\ forall q, file_at g q = file_at f q.
Proof.
  intros Hr W Hok Hc. destruct (create_err_dir f root _ e Hr Hok Hc) as (p & Hin & L).
  destruct (Patch.apply_ops true [] f ops) as [g c|g e'] eqn:Ea.
  - destruct (spec_ops_dir_fails ops f g p W Hin L (proj1 (PatchProofs.success_spec _ _ _ _ _ _ Ea))).
  - exists g, e'. split; [reflexivity|]. exact (PatchAtomic.apply_ops_atomic f ops g e' W Ea).
Qed.

Theorem auto_patch_text_no_checkpoint f root text ops e :
  is_absolute root = true -> Patch.wf_fsb f = true -> Patch.parse_patch text = Some ops ->
  create f root (Patch.affected_paths ops) = Err e ->
  exists g e', Patch.apply_patch true [] f text = Patch.Failed g e' /\ forall q, file_at g q = file_at f q.
Proof.
  intros Hr W Hp Hc. unfold Patch.apply_patch. rewrite Hp.
  exact (auto_patch_no_checkpoint f root ops e Hr (PatchAtomic.wf_fsb_sound f W) (parse_patch_ok text ops Hp) Hc).
Qed.
