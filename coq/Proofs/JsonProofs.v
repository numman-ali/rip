(* Round-trip proofs for the JSON printers of Base/Json.v and the parser of Base/JsonParse.v:
     parse (print j) = Some j,  parse (print_pretty j) = Some j   (json_ok j, json_depth j < 128),
   the recursion limit is real (depth 128 is refused), compact output has no raw LF / CR, print is injective,
   and json_eqb decides equality. *)
From RipV Require Import Base.Prelude Base.Json Base.JsonParse.
Require Coq.Strings.String Coq.Strings.Ascii.   (* only for the text literals of the examples at the end *)

(* The generated principle gives no hypothesis for the values inside the lists of JArr / JObj; this one does. *)
Fixpoint json_ind' (P : json -> Prop)
  (Hnull : P JNull) (Hbool : forall b, P (JBool b)) (Hnum : forall t, P (JNum t)) (Hstr : forall s, P (JStr s))
  (Harr : forall l, Forall P l -> P (JArr l))
  (Hobj : forall kvs, Forall (fun kv => P (snd kv)) kvs -> P (JObj kvs))
  (j : json) {struct j} : P j :=
  match j with
  | JNull => Hnull
  | JBool b => Hbool b
  | JNum t => Hnum t
  | JStr s => Hstr s
  | JArr l =>
    Harr l ((fix go (l : list json) : Forall P l :=
               match l with
               | [] => Forall_nil P
               | x :: r => Forall_cons x (json_ind' P Hnull Hbool Hnum Hstr Harr Hobj x) (go r)
               end) l)
  | JObj kvs =>
    Hobj kvs ((fix go (l : list (str * json)) : Forall (fun kv => P (snd kv)) l :=
                 match l with
                 | [] => Forall_nil _
                 | kv :: r =>
                   Forall_cons kv
                     (match kv as kv0 return P (snd kv0) with
                      | (k, v) => json_ind' P Hnull Hbool Hnum Hstr Harr Hobj v
                      end) (go r)
                 end) kvs)
  end.

Lemma str_eqb_spec a b : str_eqb a b = true <-> a = b.
Proof. apply lN_eqb_spec. Qed.

Theorem json_eqb_spec : forall a b, json_eqb a b = true <-> a = b.
Proof.
  induction a as [| x | t | s | l IH | kvs IH] using json_ind'; intros b; destruct b as [| y | t' | s' | l' | kvs'];
    cbn [json_eqb]; try (split; congruence).
  - rewrite Bool.eqb_true_iff. split; congruence.
  - rewrite str_eqb_spec. split; congruence.
  - rewrite str_eqb_spec. split; congruence.
  - revert l'. induction IH as [|x l Hx _ IHl]; intros [|y l']; try (split; congruence). split.
    + intros E. apply andb_true_iff in E as [E1 E2]. apply Hx in E1. apply IHl in E2. congruence.
    + intros E. injection E as -> ->. apply andb_true_iff. split; [apply Hx | apply IHl]; reflexivity.
  - revert kvs'. induction IH as [|[k v] l Hv _ IHl]; intros [|[k' v'] l']; try (split; congruence). cbn [snd] in Hv. split.
    + intros E. apply andb_true_iff in E as [E E2]. apply andb_true_iff in E as [E0 E1].
      apply str_eqb_spec in E0. apply Hv in E1. apply IHl in E2. congruence.
    + intros E. injection E as -> -> ->. rewrite (proj2 (str_eqb_spec k' k') eq_refl), (proj2 (Hv v') eq_refl). apply IHl. reflexivity.
Qed.

Lemma is_digit_num_char c : is_digit c = true -> is_num_char c = true.
Proof. unfold is_num_char. intros ->. reflexivity. Qed.

Lemma all_digits_num_chars l : all_digits l = true -> forallb is_num_char l = true.
Proof.
  induction l as [|c l IH]; cbn [all_digits forallb]; [reflexivity|].
  intros H. apply andb_true_iff in H as [Hc Hl]. rewrite (is_digit_num_char c Hc), (IH Hl). reflexivity.
Qed.

Lemma span_digits_spec l a b : span_digits l = (a, b) -> l = a ++ b /\ all_digits a = true.
Proof.
  revert a b. induction l as [|c l IH]; intros a b; cbn [span_digits].
  - intros E. inversion E. split; reflexivity.
  - destruct (is_digit c) eqn:Ec.
    + destruct (span_digits l) as [a' b'] eqn:El. intros E. inversion E; subst.
      destruct (IH a' b eq_refl) as [-> Ha]. cbn [app all_digits]. rewrite Ec, Ha. split; reflexivity.
    + intros E. inversion E; subst. split; reflexivity.
Qed.

Lemma exp_ok_num_chars t : exp_ok t = true -> forallb is_num_char t = true.
Proof.
  destruct t as [|c r]; [reflexivity|]. cbn [exp_ok forallb].
  destruct ((c =? 101) || (c =? 69)) eqn:Ec; [|discriminate].
  assert (Hc : is_num_char c = true) by (unfold is_num_char; lia). rewrite Hc. cbn [andb].
  destruct r as [|s r1]; [discriminate|].
  destruct ((s =? cPLUS) || (s =? cMINUS)) eqn:Es.
  - destruct r1 as [|x r2]; [discriminate|]. intros H. cbn [forallb].
    assert (Hs : is_num_char s = true) by (unfold is_num_char, cPLUS, cMINUS in *; lia). rewrite Hs.
    apply all_digits_num_chars in H. exact H.
  - intros H. apply all_digits_num_chars in H. exact H.
Qed.

Lemma num_ok_num_chars tok : num_ok tok = true -> forallb is_num_char tok = true.
Proof.
  unfold num_ok.
  set (t1 := match tok with [] => tok | c :: r => if c =? cMINUS then r else tok end).
  assert (Ht1 : forallb is_num_char t1 = true -> forallb is_num_char tok = true).
  { subst t1. destruct tok as [|c r]; [auto|]. destruct (c =? cMINUS) eqn:Ec; [|auto].
    intros H. cbn [forallb]. rewrite H. unfold is_num_char. rewrite Ec. rewrite !orb_true_r. reflexivity. }
  intros H. apply Ht1. clear Ht1. clearbody t1.
  destruct (span_digits t1) as [ip t2] eqn:E1. apply span_digits_spec in E1 as [-> Hip].
  apply andb_true_iff in H as [_ H]. rewrite forallb_app, (all_digits_num_chars ip Hip).
  destruct t2 as [|c r]; [reflexivity|].
  destruct (c =? cDOT) eqn:Ec.
  - destruct (span_digits r) as [fp t3] eqn:E2. apply span_digits_spec in E2 as [-> Hfp].
    cbn [forallb]. unfold is_num_char at 1. rewrite Ec, !orb_true_r. cbn [andb].
    rewrite forallb_app, (all_digits_num_chars fp Hfp). cbn [andb].
    destruct fp; [discriminate|]. apply exp_ok_num_chars. exact H.
  - apply exp_ok_num_chars. exact H.
Qed.

Lemma num_ok_start tok : num_ok tok = true -> exists c r, tok = c :: r /\ num_start c = true.
Proof.
  unfold num_ok. destruct tok as [|c r]; [cbn; discriminate|].
  intros H. exists c, r. split; [reflexivity|]. unfold num_start.
  destruct (c =? cMINUS) eqn:Ec; [reflexivity|]. cbn [orb].
  cbn [span_digits] in H. destruct (is_digit c); [reflexivity|]. cbn in H. discriminate.
Qed.

(* what may follow a number token: nothing that the lexer would take into the token *)
Definition delim (rest : str) : Prop :=
  match rest with [] => True | c :: _ => is_num_char c = false end.

Lemma span_num_app tok rest :
  forallb is_num_char tok = true -> delim rest -> span_num (tok ++ rest) = (tok, rest).
Proof.
  intros Ht Hr. induction tok as [|c t IH]; cbn [app].
  - destruct rest as [|c r]; [reflexivity|]. cbn [delim] in Hr. cbn [span_num]. rewrite Hr. reflexivity.
  - cbn [forallb] in Ht. apply andb_true_iff in Ht as [Hc Ht]. cbn [span_num]. rewrite Hc, (IH Ht). reflexivity.
Qed.

Definition all_ws (w : str) : Prop := forallb is_ws w = true.

Lemma all_ws_nil : all_ws [].
Proof. reflexivity. Qed.

Lemma skip_ws_app w x : all_ws w -> skip_ws (w ++ x) = skip_ws x.
Proof.
  unfold all_ws. induction w as [|c w IH]; cbn [app forallb skip_ws]; intros H; [reflexivity|].
  apply andb_true_iff in H as [Hc Hw]. rewrite Hc. auto.
Qed.

Lemma all_ws_nl_ind k : all_ws (nl_ind k).
Proof.
  unfold all_ws, nl_ind. cbn [forallb]. change (is_ws cNL) with true. cbn [andb].
  induction (2 * k)%nat as [|n IH]; cbn [repeat forallb]; [reflexivity|].
  change (is_ws cSP) with true. exact IH.
Qed.

Lemma all_ws_sp : all_ws [cSP].
Proof. reflexivity. Qed.

Lemma is_ws_not_num c : is_ws c = true -> is_num_char c = false.
Proof. unfold is_ws, is_num_char, is_digit, cMINUS, cPLUS, cDOT. lia. Qed.

Lemma delim_ws_close w c rest : all_ws w -> is_num_char c = false -> delim (w ++ c :: rest).
Proof.
  destruct w as [|a w]; cbn [app delim]; [auto|]. unfold all_ws. cbn [forallb]. intros H _.
  apply andb_true_iff in H as [Ha _]. apply is_ws_not_num. exact Ha.
Qed.

(* A printed value starts with one of these characters: none is whitespace or a closing bracket, so in front of it
   skip_ws does nothing and empty_close fails. *)
Definition is_val_start (c : N) : bool :=
  num_start c || (c =? 34) || (c =? 91) || (c =? 123) || (c =? 110) || (c =? 116) || (c =? 102).

Definition val_start (t : str) : Prop :=
  match t with [] => False | c :: _ => is_val_start c = true end.

Lemma is_val_start_facts c :
  is_val_start c = true -> is_ws c = false /\ (c =? 93) = false /\ (c =? 125) = false.
Proof. unfold is_val_start, num_start, is_digit, is_ws, cMINUS. lia. Qed.

Lemma val_start_app t x : val_start t -> val_start (t ++ x).
Proof. destruct t; [contradiction|]. auto. Qed.

Lemma skip_ws_val t : val_start t -> skip_ws t = t.
Proof.
  destruct t as [|c t]; [contradiction|]. cbn [val_start skip_ws]. intros H.
  apply is_val_start_facts in H as [-> _]. reflexivity.
Qed.

Lemma empty_close_val cl t : val_start t -> cl = 93 \/ cl = 125 -> empty_close cl t = None.
Proof.
  destruct t as [|c t]; [contradiction|]. cbn [val_start empty_close]. intros H Hcl.
  apply is_val_start_facts in H as (_ & H1 & H2). destruct Hcl as [-> | ->]; [rewrite H1|rewrite H2]; reflexivity.
Qed.

Lemma join_cons2 sep x y r : join sep (x :: y :: r) = x ++ sep ++ join sep (y :: r).
Proof. reflexivity. Qed.

Lemma sep_or_close_comma cl r : sep_or_close cl (44 :: r) = Some (true, skip_ws r).
Proof. reflexivity. Qed.

Lemma sep_or_close_close cl w r :
  all_ws w -> cl = 93 \/ cl = 125 -> sep_or_close cl (w ++ cl :: r) = Some (false, r).
Proof.
  intros Hw Hcl. unfold sep_or_close. rewrite skip_ws_app by exact Hw.
  destruct Hcl as [-> | ->]; reflexivity.
Qed.

Lemma lt32_cases (P : N -> Prop) : (forall n, (n < 32)%nat -> P (N.of_nat n)) -> forall c, c < 32 -> P c.
Proof. intros H c Hc. rewrite <- (N2Nat.id c). apply H. lia. Qed.

Lemma parse_str_chars_raw c r acc :
  (c =? 34) = false -> (c =? 92) = false -> (c <? 32) = false ->
  parse_str_chars (c :: r) acc = parse_str_chars r (c :: acc).
Proof. intros H1 H2 H3. cbn [parse_str_chars]. rewrite H1, H2, H3. reflexivity. Qed.

(* one printed character is read back as itself, whatever code point it is *)
Lemma parse_str_chars_esc c tail acc :
  parse_str_chars (esc_char c ++ tail) acc = parse_str_chars tail (c :: acc).
Proof.
  destruct (c <? 32) eqn:E.
  - apply N.ltb_lt in E. revert c E. apply lt32_cases. intros n Hn.
    do 32 (destruct n as [|n]; [reflexivity|]). lia.
  - unfold esc_char.
    destruct (c =? 34) eqn:E1; [apply N.eqb_eq in E1; subst c; reflexivity|].
    destruct (c =? 92) eqn:E2; [apply N.eqb_eq in E2; subst c; reflexivity|].
    replace (c =? 8) with false by lia. replace (c =? 9) with false by lia.
    replace (c =? 10) with false by lia. replace (c =? 12) with false by lia.
    replace (c =? 13) with false by lia. rewrite E. cbn [app].
    apply parse_str_chars_raw; assumption.
Qed.

Lemma parse_str_chars_print s rest acc :
  parse_str_chars (flat_map esc_char s ++ 34 :: rest) acc = Some (rev acc ++ s, rest).
Proof.
  revert acc. induction s as [|c s IH]; intros acc; cbn [flat_map app].
  - rewrite <- rev_append_rev. reflexivity.
  - rewrite <- app_assoc, parse_str_chars_esc, IH. cbn [rev]. rewrite <- app_assoc. reflexivity.
Qed.

Lemma print_str_app s rest : print_str s ++ rest = 34 :: flat_map esc_char s ++ 34 :: rest.
Proof. unfold print_str, cQUOTE. cbn [app]. rewrite <- app_assoc. reflexivity. Qed.

Lemma parse_key_print k cw x :
  all_ws cw -> parse_key (print_str k ++ 58 :: cw ++ x) = Some (k, skip_ws x).
Proof.
  intros Hw. rewrite print_str_app. rewrite <- (skip_ws_app cw x Hw).
  change (parse_key (34 :: flat_map esc_char k ++ 34 :: 58 :: cw ++ x))
    with (match parse_str_chars (flat_map esc_char k ++ 34 :: 58 :: cw ++ x) [] with
          | None => None
          | Some (k, r1) =>
            match skip_ws r1 with
            | [] => None
            | c1 :: r2 => if c1 =? cCOLON then Some (k, skip_ws r2) else None
            end
          end).
  rewrite parse_str_chars_print. reflexivity.
Qed.

Lemma parse_value_num f d c r :
  num_start c = true ->
  parse_value (S f) d (c :: r) =
  (let '(tok, r') := span_num (c :: r) in if num_ok tok then Some (JNum tok, r') else None).
Proof. intros H. cbn [parse_value]. rewrite H. reflexivity. Qed.

Lemma parse_value_str f d x :
  parse_value (S f) d (34 :: x) =
  match parse_str_chars x [] with None => None | Some (s, r') => Some (JStr s, r') end.
Proof. reflexivity. Qed.

Lemma parse_value_arr f d r :
  parse_value (S f) d (91 :: r) =
  match Nat.pred d with
  | O => None
  | S _ =>
    match empty_close 93 (skip_ws r) with
    | Some r2 => Some (JArr [], r2)
    | None =>
      match parse_elems f (Nat.pred d) (skip_ws r) [] with
      | None => None
      | Some (l, r2) => Some (JArr l, r2)
      end
    end
  end.
Proof. reflexivity. Qed.

Lemma parse_value_obj f d r :
  parse_value (S f) d (123 :: r) =
  match Nat.pred d with
  | O => None
  | S _ =>
    match empty_close 125 (skip_ws r) with
    | Some r2 => Some (JObj [], r2)
    | None =>
      match parse_members f (Nat.pred d) (skip_ws r) [] with
      | None => None
      | Some (l, r2) => Some (JObj l, r2)
      end
    end
  end.
Proof. reflexivity. Qed.

(* what the container lemmas need to know about the printer `f` of the items: its output starts like a value and
   is parsed back, whatever follows (as long as a number is not followed by a number character).  The fuel is that of
   `parse` (Base/JsonParse.v: S (2 * length txt)); parse_elems / parse_members spend one unit before they call
   parse_value, hence the `+ 2` in their lemmas.  (`%N` inside a `%nat` inequality: the code points are N.) *)
Definition elem_ok (f : json -> str) (x : json) : Prop :=
  val_start (f x) /\
  forall fuel d rest,
    (2 * length (f x ++ rest) + 1 <= fuel)%nat -> (json_depth x < d)%nat -> delim rest ->
    parse_value fuel d (f x ++ rest) = Some (x, rest).

(* pp k prints a scalar as print does, so these serve both printers *)
Lemma scalar_null : elem_ok print JNull.
Proof.
  split; [reflexivity|]. intros fuel d rest Hf _ _. destruct fuel as [|f]; [lia|]. reflexivity.
Qed.

Lemma scalar_bool b : elem_ok print (JBool b).
Proof.
  split; [destruct b; reflexivity|]. intros fuel d rest Hf _ _. destruct fuel as [|f]; [lia|].
  destruct b; reflexivity.
Qed.

Lemma scalar_num t : num_ok t = true -> elem_ok print (JNum t).
Proof.
  intros Hok. destruct (num_ok_start t Hok) as (c & r & -> & Hc). unfold elem_ok. cbn [print]. split.
  - cbn [val_start]. unfold is_val_start. rewrite Hc. reflexivity.
  - intros fuel d rest Hf _ Hd. destruct fuel as [|f]; [lia|]. cbn [app].
    rewrite parse_value_num by exact Hc. change (c :: r ++ rest) with ((c :: r) ++ rest).
    rewrite span_num_app by (auto using num_ok_num_chars). rewrite Hok. reflexivity.
Qed.

Lemma scalar_str s : elem_ok print (JStr s).
Proof.
  split; [reflexivity|]. intros fuel d rest Hf _ _. destruct fuel as [|f]; [lia|]. cbn [print].
  rewrite print_str_app, parse_value_str, parse_str_chars_print. reflexivity.
Qed.

(* what follows an item of a container: the tail, or a separator, the next item and what follows that *)
Fixpoint more (sep tail : str) (ts : list str) : str :=
  match ts with
  | [] => tail
  | t :: r => sep ++ t ++ more sep tail r
  end.

Lemma join_more sep tail ts : forall t, join sep (t :: ts) ++ tail = t ++ more sep tail ts.
Proof.
  induction ts as [|u r IH]; intro t; [reflexivity|].
  rewrite join_cons2, <- !app_assoc, IH. reflexivity.
Qed.

(* a maximum is below n exactly when every member is (json_depth is such a maximum) *)
Lemma depth_lt_Forall {A} (g : A -> nat) l n :
  (fold_right Nat.max 0%nat (map g l) < n)%nat -> Forall (fun y => (g y < n)%nat) l.
Proof.
  induction l as [|x l IH]; cbn [map fold_right]; intros H; constructor; [lia | apply IH; lia].
Qed.

Lemma fold_max_lt (l : list nat) n : (0 < n)%nat -> Forall (fun d => (d < n)%nat) l -> (fold_right Nat.max 0%nat l < n)%nat.
Proof. intros Hn H. induction H as [|d l Hd _ IH]; cbn [fold_right]; [exact Hn | lia]. Qed.

(* The items of a non-empty container, for any list parser P that spends one unit of fuel on an item text `txt x` and
   lets sep_or_close decide on what follows (parse_elems and parse_members are such): comma, then the next item; or the
   closing bracket. *)
Lemma items_more {X} (P : nat -> nat -> str -> list X -> option (list X * str)) (txt : X -> str)
  (ok : X -> Prop) (dep : X -> nat) (cl : N) sw ew rest :
  cl = 93 \/ cl = 125 -> all_ws sw -> all_ws ew -> (forall x, ok x -> val_start (txt x)) ->
  (forall x fuel d tail acc,
     ok x -> (dep x < d)%nat -> delim tail -> (2 * length (txt x ++ tail) + 1 <= fuel)%nat ->
     P (S fuel) d (txt x ++ tail) acc =
     match sep_or_close cl tail with
     | None => None
     | Some (true, r') => P fuel d r' (x :: acc)
     | Some (false, r') => Some (rev_append (x :: acc) [], r')
     end) ->
  forall l x fuel d acc,
    Forall ok (x :: l) -> Forall (fun y => (dep y < d)%nat) (x :: l) ->
    (2 * length (txt x ++ more (44 :: sw) (ew ++ cl :: rest) (map txt l))%N + 2 <= fuel)%nat ->
    P fuel d (txt x ++ more (44 :: sw) (ew ++ cl :: rest) (map txt l)) acc = Some (rev acc ++ x :: l, rest).
Proof.
  intros Hcl Hsw Hew Hval Hstep. induction l as [|y l IH]; intros x [|fuel] d acc Hok Hd Hf; try lia;
    inversion Hok as [|? ? Hx Hok']; subst; inversion Hd as [|? ? Hdx Hd']; subst; cbn [map more] in Hf |- *.
  - rewrite Hstep; [| exact Hx | exact Hdx | apply delim_ws_close; [exact Hew | destruct Hcl as [-> | ->]; reflexivity] | lia].
    rewrite sep_or_close_close, rev_append_rev by assumption. cbn [rev]. rewrite <- app_assoc. reflexivity.
  - rewrite Hstep; [| exact Hx | exact Hdx | reflexivity | lia].
    cbn [app]. rewrite sep_or_close_comma, skip_ws_app, skip_ws_val by (try apply val_start_app, Hval, (Forall_inv Hok'); assumption).
    rewrite !app_length in Hf. cbn [length] in Hf.
    rewrite IH; [| exact Hok' | exact Hd' | rewrite app_length; lia]. cbn [rev]. rewrite <- app_assoc. reflexivity.
Qed.

(* one element: the value is consumed, what follows it decides *)
Lemma parse_elems_step f x fuel d tail acc :
  elem_ok f x -> (json_depth x < d)%nat -> delim tail -> (2 * length (f x ++ tail) + 1 <= fuel)%nat ->
  parse_elems (S fuel) d (f x ++ tail) acc =
  match sep_or_close 93 tail with
  | None => None
  | Some (true, r') => parse_elems fuel d r' (x :: acc)
  | Some (false, r') => Some (rev_append (x :: acc) [], r')
  end.
Proof. intros [_ Hx] Hd Ht Hf. cbn [parse_elems]. rewrite Hx by assumption. reflexivity. Qed.

Lemma parse_value_arr_gen f sw ew x l fuel d rest :
  all_ws sw -> all_ws ew -> Forall (elem_ok f) (x :: l) ->
  (2 * length (91 :: sw ++ join (44 :: sw) (map f (x :: l)) ++ ew ++ 93 :: rest)%N + 1 <= fuel)%nat ->
  (json_depth (JArr (x :: l)) < d)%nat ->
  parse_value fuel d (91 :: sw ++ join (44 :: sw) (map f (x :: l)) ++ ew ++ 93 :: rest)
  = Some (JArr (x :: l), rest).
Proof.
  intros Hsw Hew Hok Hf Hd. destruct fuel as [|fuel]; [lia|]. cbn [map] in Hf |- *. rewrite join_more in *.
  change (json_depth (JArr (x :: l))) with (S (fold_right Nat.max 0%nat (map json_depth (x :: l)))) in Hd.
  destruct d as [|[|d]]; [lia | lia |]. apply Nat.succ_lt_mono, depth_lt_Forall in Hd.
  rewrite parse_value_arr. cbn [Nat.pred].
  rewrite skip_ws_app, skip_ws_val, empty_close_val by (try apply val_start_app, (Forall_inv Hok); auto).
  cbn [length] in Hf. rewrite app_length in Hf.
  rewrite (items_more parse_elems f (elem_ok f) json_depth 93 sw ew rest); auto using parse_elems_step; [|lia].
  intros y Hy. apply Hy.
Qed.

Definition mem_txt (f : json -> str) (cw : str) (kv : str * json) : str :=
  print_str (fst kv) ++ 58 :: cw ++ f (snd kv).

Lemma val_start_mem f cw kv : val_start (mem_txt f cw kv).
Proof. reflexivity. Qed.

Lemma mem_txt_app f cw k v tail : mem_txt f cw (k, v) ++ tail = print_str k ++ 58 :: cw ++ f v ++ tail.
Proof. unfold mem_txt. cbn [fst snd]. rewrite <- app_assoc. cbn [app]. rewrite <- app_assoc. reflexivity. Qed.

(* one member: key, colon and value are consumed, what follows decides *)
Lemma parse_members_step f cw kv fuel d tail acc :
  all_ws cw -> elem_ok f (snd kv) -> (json_depth (snd kv) < d)%nat -> delim tail ->
  (2 * length (mem_txt f cw kv ++ tail) + 1 <= fuel)%nat ->
  parse_members (S fuel) d (mem_txt f cw kv ++ tail) acc =
  match sep_or_close 125 tail with
  | None => None
  | Some (true, r') => parse_members fuel d r' (kv :: acc)
  | Some (false, r') => Some (rev_append (kv :: acc) [], r')
  end.
Proof.
  destruct kv as [k v]. cbn [snd]. intros Hcw [Hv Hx] Hd Ht Hf. rewrite mem_txt_app in *. cbn [parse_members].
  rewrite parse_key_print, skip_ws_val by auto using val_start_app. rewrite Hx; [reflexivity | | assumption..].
  rewrite app_length in Hf. cbn [length] in Hf. rewrite app_length in Hf. lia.
Qed.

Lemma parse_value_obj_gen f cw sw ew kv l fuel d rest :
  all_ws cw -> all_ws sw -> all_ws ew -> Forall (fun kv => elem_ok f (snd kv)) (kv :: l) ->
  (2 * length (123 :: sw ++ join (44 :: sw) (map (mem_txt f cw) (kv :: l)) ++ ew ++ 125 :: rest)%N + 1 <= fuel)%nat ->
  (json_depth (JObj (kv :: l)) < d)%nat ->
  parse_value fuel d (123 :: sw ++ join (44 :: sw) (map (mem_txt f cw) (kv :: l)) ++ ew ++ 125 :: rest)
  = Some (JObj (kv :: l), rest).
Proof.
  intros Hcw Hsw Hew Hok Hf Hd. destruct fuel as [|fuel]; [lia|]. cbn [map] in Hf |- *. rewrite join_more in *.
  change (json_depth (JObj (kv :: l)))
    with (S (fold_right Nat.max 0%nat (map (fun kv => json_depth (snd kv)) (kv :: l)))) in Hd.
  destruct d as [|[|d]]; [lia | lia |]. apply Nat.succ_lt_mono, depth_lt_Forall in Hd.
  rewrite parse_value_obj. cbn [Nat.pred].
  rewrite skip_ws_app, skip_ws_val, empty_close_val by (try apply val_start_app, val_start_mem; auto).
  cbn [length] in Hf. rewrite app_length in Hf.
  rewrite (items_more parse_members (mem_txt f cw) (fun kv => elem_ok f (snd kv)) (fun kv => json_depth (snd kv)) 125 sw ew rest);
    auto using val_start_mem; [|lia].
  intros y fuel' d' tail acc. apply parse_members_step, Hcw.
Qed.

Lemma print_arr_app x l rest :
  print (JArr (x :: l)) ++ rest = 91 :: [] ++ join (44 :: []) (map print (x :: l)) ++ [] ++ 93 :: rest.
Proof.
  change (print (JArr (x :: l))) with (91 :: join [44] (map print (x :: l)) ++ [93]).
  cbn [app]. rewrite <- app_assoc. reflexivity.
Qed.

Lemma print_obj_app kv l rest :
  print (JObj (kv :: l)) ++ rest
  = 123 :: [] ++ join (44 :: []) (map (mem_txt print []) (kv :: l)) ++ [] ++ 125 :: rest.
Proof.
  change (print (JObj (kv :: l))) with (123 :: join [44] (map (mem_txt print []) (kv :: l)) ++ [125]).
  cbn [app]. rewrite <- app_assoc. reflexivity.
Qed.

Lemma pp_arr_app k x l rest :
  pp k (JArr (x :: l)) ++ rest
  = 91 :: nl_ind (S k) ++ join (44 :: nl_ind (S k)) (map (pp (S k)) (x :: l)) ++ nl_ind k ++ 93 :: rest.
Proof.
  change (pp k (JArr (x :: l)))
    with (91 :: nl_ind (S k) ++ join (44 :: nl_ind (S k)) (map (pp (S k)) (x :: l)) ++ nl_ind k ++ [93]).
  cbn [app]. rewrite <- !app_assoc. reflexivity.
Qed.

Lemma pp_obj_app k kv l rest :
  pp k (JObj (kv :: l)) ++ rest
  = 123 :: nl_ind (S k) ++ join (44 :: nl_ind (S k)) (map (mem_txt (pp (S k)) [32]) (kv :: l))
      ++ nl_ind k ++ 125 :: rest.
Proof.
  change (pp k (JObj (kv :: l)))
    with (123 :: nl_ind (S k) ++ join (44 :: nl_ind (S k)) (map (mem_txt (pp (S k)) [32]) (kv :: l))
            ++ nl_ind k ++ [125]).
  cbn [app]. rewrite <- !app_assoc. reflexivity.
Qed.

Lemma empty_arr_ok f : f (JArr []) = [91; 93] -> elem_ok f (JArr []).
Proof.
  intros E. unfold elem_ok. rewrite E. split; [reflexivity|]. intros fuel d rest Hf Hd _.
  destruct fuel as [|fuel]; [lia|]. cbn [json_depth map fold_right] in Hd.
  destruct d as [|[|d]]; [lia | lia |]. reflexivity.
Qed.

Lemma empty_obj_ok f : f (JObj []) = [123; 125] -> elem_ok f (JObj []).
Proof.
  intros E. unfold elem_ok. rewrite E. split; [reflexivity|]. intros fuel d rest Hf Hd _.
  destruct fuel as [|fuel]; [lia|]. cbn [json_depth map fold_right] in Hd.
  destruct d as [|[|d]]; [lia | lia |]. reflexivity.
Qed.

(* The core lemma, for both printers (the pretty one at every indentation level): a printed value followed by anything
   that does not extend a number is parsed back, leaving exactly what followed.  All it needs of the value is that its
   number tokens are JSON numbers: `ok` is any property saying so that the items of a container inherit. *)
Lemma printers_elem_ok (ok : json -> Prop) :
  (forall t, ok (JNum t) -> num_ok t = true) ->
  (forall l, ok (JArr l) -> Forall ok l) ->
  (forall kvs, ok (JObj kvs) -> Forall (fun kv => ok (snd kv)) kvs) ->
  forall j, ok j -> elem_ok print j /\ forall k, elem_ok (pp k) j.
Proof.
  intros Hnum Harr Hobj. induction j as [| b | t | s | l IH | kvs IH] using json_ind'; intros Hok.
  - split; [|intro k]; exact scalar_null.
  - split; [|intro k]; exact (scalar_bool b).
  - split; [|intro k]; exact (scalar_num t (Hnum t Hok)).
  - split; [|intro k]; exact (scalar_str s).
  - assert (Hl : Forall (elem_ok print) l /\ forall k, Forall (elem_ok (pp k)) l).
    { apply Harr in Hok. split; [|intro k]; rewrite Forall_forall in *; intros x Hx; apply IH; auto. }
    destruct Hl as [Hl Hlk]. destruct l as [|x l]; [split; [|intro k]; apply empty_arr_ok; reflexivity|].
    split; [|intro k]; (split; [reflexivity|]); intros fuel d rest Hf Hd _.
    + rewrite print_arr_app in *. apply parse_value_arr_gen; auto using all_ws_nil.
    + rewrite pp_arr_app in *. apply parse_value_arr_gen; auto using all_ws_nl_ind.
  - assert (Hl : Forall (fun kv => elem_ok print (snd kv)) kvs /\ forall k, Forall (fun kv => elem_ok (pp k) (snd kv)) kvs).
    { apply Hobj in Hok. split; [|intro k]; rewrite Forall_forall in *; intros x Hx; apply IH; auto. }
    destruct Hl as [Hl Hlk]. destruct kvs as [|kv l]; [split; [|intro k]; apply empty_obj_ok; reflexivity|].
    split; [|intro k]; (split; [reflexivity|]); intros fuel d rest Hf Hd _.
    + rewrite print_obj_app in *. apply parse_value_obj_gen; auto using all_ws_nil.
    + rewrite pp_obj_app in *. apply parse_value_obj_gen; auto using all_ws_nl_ind, all_ws_sp.
Qed.

Lemma json_ok_elem_ok j : json_ok j = true -> elem_ok print j /\ forall k, elem_ok (pp k) j.
Proof.
  apply (printers_elem_ok (fun j => json_ok j = true)).
  - intros t H. exact H.
  - intros l H. apply Forall_forall, forallb_forall, H.
  - intros kvs H. apply Forall_forall. intros kv Hkv. cbn [json_ok] in H. rewrite forallb_forall in H.
    apply H, andb_true_iff in Hkv. apply Hkv.
Qed.

Lemma parse_of_elem_ok f j :
  elem_ok f j -> (json_depth j < 128)%nat -> parse (f j) = Some j.
Proof.
  intros [Hv Hp] Hd. unfold parse. rewrite skip_ws_val by exact Hv.
  specialize (Hp (S (2 * length (f j))) RECURSION_LIMIT []). rewrite app_nil_r in Hp.
  rewrite Hp; [reflexivity | lia | exact Hd | exact I].
Qed.

Theorem parse_print : forall j, json_ok j = true -> (json_depth j < 128)%nat -> parse (print j) = Some j.
Proof. intros j Hok Hd. apply parse_of_elem_ok; [apply json_ok_elem_ok, Hok | exact Hd]. Qed.

Theorem parse_print_pretty :
  forall j, json_ok j = true -> (json_depth j < 128)%nat -> parse (print_pretty j) = Some j.
Proof. intros j Hok Hd. apply (parse_of_elem_ok (pp 0)); [apply json_ok_elem_ok, Hok | exact Hd]. Qed.

Theorem print_inj :
  forall a b, json_ok a = true -> json_ok b = true -> (json_depth a < 128)%nat -> (json_depth b < 128)%nat ->
              print a = print b -> a = b.
Proof.
  intros a b Ha Hb Da Db E. pose proof (parse_print a Ha Da) as Pa. pose proof (parse_print b Hb Db) as Pb.
  rewrite E in Pa. congruence.
Qed.

Definition nested_arrays (n : nat) : json := Nat.iter n (fun x => JArr [x]) (JArr []).

Lemma nested_arrays_S n : nested_arrays (S n) = JArr [nested_arrays n].
Proof. reflexivity. Qed.

Lemma nested_arrays_ok n : json_ok (nested_arrays n) = true.
Proof. induction n as [|n IH]; [reflexivity|]. rewrite nested_arrays_S. cbn [json_ok forallb]. rewrite IH. reflexivity. Qed.

Lemma nested_arrays_depth n : json_depth (nested_arrays n) = S n.
Proof.
  induction n as [|n IH]; [reflexivity|]. rewrite nested_arrays_S. cbn [json_depth map fold_right].
  rewrite IH, Nat.max_0_r. reflexivity.
Qed.

Theorem parse_depth_limit_refuted : exists j, json_ok j = true /\ parse (print j) = None.
Proof. exists (nested_arrays 127). split; [apply nested_arrays_ok | vm_compute; reflexivity]. Qed.

Example depth_of_witness : json_depth (nested_arrays 127) = 128%nat.
Proof. exact (nested_arrays_depth 127). Qed.

(* one level below the limit both printers' output is read back: instances of the round-trip theorems *)
Example depth_127_parses : parse (print (nested_arrays 126)) = Some (nested_arrays 126).
Proof. apply parse_print; [apply nested_arrays_ok | rewrite nested_arrays_depth; apply Nat.lt_succ_diag_r]. Qed.

Example depth_127_parses_pretty : parse (print_pretty (nested_arrays 126)) = Some (nested_arrays 126).
Proof. apply parse_print_pretty; [apply nested_arrays_ok | rewrite nested_arrays_depth; apply Nat.lt_succ_diag_r]. Qed.

Definition nolfb (c : N) : bool := negb (c =? 10) && negb (c =? 13).

Lemma hexd_nolf n : nolfb (hexd n) = true.
Proof. unfold nolfb, hexd. destruct (n <? 10); lia. Qed.

Lemma esc_char_nolf c : forallb nolfb (esc_char c) = true.
Proof.
  unfold esc_char.
  destruct (c =? 34); [reflexivity|]. destruct (c =? 92); [reflexivity|]. destruct (c =? 8); [reflexivity|].
  destruct (c =? 9); [reflexivity|]. destruct (c =? 10); [reflexivity|]. destruct (c =? 12); [reflexivity|].
  destruct (c =? 13); [reflexivity|]. destruct (c <? 32) eqn:E.
  - cbn [forallb]. rewrite !hexd_nolf. reflexivity.
  - cbn [forallb]. unfold nolfb. lia.
Qed.

Lemma print_str_nolf s : forallb nolfb (print_str s) = true.
Proof.
  unfold print_str. cbn [forallb]. rewrite forallb_app. change (nolfb cQUOTE) with true. cbn [andb].
  rewrite andb_true_iff. split; [|reflexivity].
  induction s as [|c s IH]; cbn [flat_map]; [reflexivity|]. rewrite forallb_app, esc_char_nolf, IH. reflexivity.
Qed.

Lemma join_map_forallb {A} (p : N -> bool) sep (f : A -> str) l :
  forallb p sep = true -> Forall (fun x => forallb p (f x) = true) l -> forallb p (join sep (map f l)) = true.
Proof.
  intros Hs H. induction H as [|x l Hx Hl IH]; [reflexivity|].
  destruct l as [|y l]; [exact Hx|]. cbn [map] in *. rewrite join_cons2, !forallb_app, Hx, Hs, IH. reflexivity.
Qed.

Lemma num_char_nolf c : is_num_char c = true -> nolfb c = true.
Proof. unfold is_num_char, is_digit, nolfb, cMINUS, cPLUS, cDOT. lia. Qed.

Lemma print_nolf : forall j, json_ok j = true -> forallb nolfb (print j) = true.
Proof.
  induction j as [| b | t | s | l IH | kvs IH] using json_ind'; intros Hok.
  - reflexivity.
  - destruct b; reflexivity.
  - apply num_ok_num_chars in Hok. cbn [print]. rewrite forallb_forall in *. intros c Hc. apply num_char_nolf, Hok, Hc.
  - apply print_str_nolf.
  - cbn [json_ok] in Hok. rewrite forallb_forall in Hok. rewrite Forall_forall in IH. cbn [print forallb].
    rewrite forallb_app, (join_map_forallb nolfb [cCOMMA] print l); [reflexivity.. |]. apply Forall_forall. auto.
  - cbn [json_ok] in Hok. rewrite forallb_forall in Hok. rewrite Forall_forall in IH. cbn [print forallb].
    rewrite forallb_app, join_map_forallb; [reflexivity.. |]. apply Forall_forall. intros kv Hkv.
    pose proof (Hok kv Hkv) as Hv. apply andb_true_iff, proj2 in Hv.
    rewrite forallb_app, print_str_nolf. cbn [forallb]. rewrite (IH kv Hkv Hv). reflexivity.
Qed.

Theorem print_one_line : forall j, json_ok j = true -> ~ In 10 (print j) /\ ~ In 13 (print j).
Proof.
  intros j Hok. pose proof (print_nolf j Hok) as H. rewrite forallb_forall in H.
  split; intros Hin; apply H in Hin; discriminate Hin.
Qed.

Module JsonExamples.
  Import Coq.Strings.String Coq.Strings.Ascii.
  Local Open Scope string_scope.

  (* ASCII text as code points (inside a Coq string literal a double quote is written twice) *)
  Definition t (x : string) : str := map N_of_ascii (list_ascii_of_string x).

  (* escapes: \u0001, \n, a surrogate pair (either hex case), the one-character escapes *)
  Example ex_escapes : parse (t """a\u0001\n\ud83d\ude00""") = Some (JStr [97; 1; 10; 128512]).
  Proof. vm_compute. reflexivity. Qed.

  Example ex_escapes_upper : parse (t """\uD83D\uDE00\u00e9\u00E9""") = Some (JStr [128512; 233; 233]).
  Proof. vm_compute. reflexivity. Qed.

  Example ex_simple_escapes :
    parse (t """\""\\\/\b\f\n\r\t""") = Some (JStr [34; 92; 47; 8; 12; 10; 13; 9]).
  Proof. vm_compute. reflexivity. Qed.

  (* a raw U+2028 (and any other raw code point >= 32) is taken as is *)
  Example ex_raw_2028 : parse [34; 8232; 128512; 127; 34] = Some (JStr [8232; 128512; 127]).
  Proof. vm_compute. reflexivity. Qed.

  (* nested containers with whitespace everywhere it is allowed *)
  Example ex_nested_ws :
    parse (t "  { ""a"" : [ 1 , -2.5e+3 , [ ] , { } ] ,  ""b"":{""c"":null,""d"":[true,false]} }  ")
    = Some (JObj [(t "a", JArr [JNum (t "1"); JNum (t "-2.5e+3"); JArr []; JObj []]);
                  (t "b", JObj [(t "c", JNull); (t "d", JArr [JBool true; JBool false])])]).
  Proof. vm_compute. reflexivity. Qed.

  Example ex_ws_kinds : parse [9; 10; 13; 32; 91; 9; 49; 10; 44; 13; 50; 32; 93; 10] = Some (JArr [JNum [49]; JNum [50]]).
  Proof. vm_compute. reflexivity. Qed.

  (* duplicate keys are kept, in document order *)
  Example ex_dup_keys :
    parse (t "{""k"":1,""j"":2,""k"":3}") = Some (JObj [(t "k", JNum (t "1")); (t "j", JNum (t "2")); (t "k", JNum (t "3"))]).
  Proof. vm_compute. reflexivity. Qed.

  (* rejections *)
  Example ex_trailing_comma : parse (t "[1,]") = None.
  Proof. vm_compute. reflexivity. Qed.
  Example ex_trailing_comma_obj : parse (t "{""a"":1,}") = None.
  Proof. vm_compute. reflexivity. Qed.
  Example ex_leading_zero : parse (t "01") = None.
  Proof. vm_compute. reflexivity. Qed.
  Example ex_bad_numbers :
    map parse [t "-"; t "1."; t ".5"; t "1e"; t "+1"; t "1e+"; t "--1"; t "1-2"] = repeat None 8.
  Proof. vm_compute. reflexivity. Qed.
  Example ex_lone_high_surrogate : parse (t """\ud800""") = None.
  Proof. vm_compute. reflexivity. Qed.
  Example ex_lone_low_surrogate : parse (t """\udc00""") = None.
  Proof. vm_compute. reflexivity. Qed.
  Example ex_high_then_non_low : parse (t """\ud83d\u0041""") = None.
  Proof. vm_compute. reflexivity. Qed.
  Example ex_high_then_raw : parse (t """\ud83dA""") = None.
  Proof. vm_compute. reflexivity. Qed.
  Example ex_bad_escape : parse (t """\x41""") = None.
  Proof. vm_compute. reflexivity. Qed.
  Example ex_bad_hex : parse (t """\u00g1""") = None.
  Proof. vm_compute. reflexivity. Qed.
  Example ex_raw_control : parse [34; 97; 10; 34] = None.
  Proof. vm_compute. reflexivity. Qed.
  Example ex_raw_control_31 : parse [34; 31; 34] = None.
  Proof. vm_compute. reflexivity. Qed.
  Example ex_trailing_garbage : parse (t "{} x") = None.
  Proof. vm_compute. reflexivity. Qed.
  Example ex_trailing_garbage_num : parse (t "1 2") = None.
  Proof. vm_compute. reflexivity. Qed.
  Example ex_unterminated :
    map parse [t ""; t "   "; t "["; t "[1"; t "{""a"""; t "{""a"":"; t """abc"; t "tru"; t "nul"; t "[1 2]"; t "{1:2}"; t "{""a"" 1}"]
    = repeat None 12.
  Proof. vm_compute. reflexivity. Qed.

  (* a non-trivial document meeting the hypotheses of the round-trip theorems, and what the printers make of it *)
  Definition doc : json :=
    JObj [(t "type", JStr (t "frame")); (t "seq", JNum (t "18446744073709551615"));
          (34 :: 1 :: 10 :: 8232 :: 128512 :: t "\key", JArr [JNull; JBool true; JNum (t "-0.5E-7"); JArr []; JObj []]);
          (t "type", JArr [JArr [JArr [JStr []]]])].

  Example doc_ok : json_ok doc = true /\ (json_depth doc < 128)%nat.
  Proof. split; [vm_compute; reflexivity | vm_compute; lia]. Qed.

  Example doc_print_key :
    print (JStr (34 :: 1 :: 10 :: 8232 :: 128512 :: t "\key"))
    = (t """\""\u0001\n" ++ [8232; 128512] ++ t "\\key""")%list.
  Proof. vm_compute. reflexivity. Qed.

  Example doc_roundtrip : parse (print doc) = Some doc /\ parse (print_pretty doc) = Some doc.
  Proof. split; vm_compute; reflexivity. Qed.

  Example doc_one_line : existsb (fun c => N.eqb c 10 || N.eqb c 13) (print doc) = false
                         /\ existsb (N.eqb 10) (print_pretty doc) = true.
  Proof. split; vm_compute; reflexivity. Qed.
End JsonExamples.

Print Assumptions parse_print.
Print Assumptions parse_print_pretty.
Print Assumptions print_one_line.
Print Assumptions parse_depth_limit_refuted.
Print Assumptions print_inj.
Print Assumptions json_eqb_spec.
