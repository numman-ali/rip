(* C18 — the liveness probe as part of the decision "this authority is gone" (Model/AuthorityProbe.v).
   For EVERY classification table satisfying probe_wf (the T1 obligation on the table extracted from pid_liveness):
   only ESRCH is classified Dead; a process that exists is never classified Dead, whoever asks; the lock protocol with the
   probe inside (run_p) IS the protocol of Model/Authority.v (run), for every permission relation between the processes —
   so every theorem about `run` holds with real probes between processes of different uids.  Refuted for the table that
   classifies EPERM as Dead (C18-9): a contender that may not signal the live authority takes its lock. *)
From RipV Require Import Base.Prelude Model.Authority Model.AuthorityProbe.
From RipV Require Import Proofs.AuthorityInv Proofs.AuthorityTake.

Lemma is_alive_eq l : is_alive l = true -> l = LvAlive.
Proof. destruct l; cbn; congruence. Qed.
Lemma is_dead_eq l : is_dead l = true <-> l = LvDead.
Proof. destruct l; cbn; split; congruence. Qed.

Lemma wf_parts t : probe_wf t = true ->
  pt_signal t = 0 /\ is_alive (pt_ok t) = true /\ is_dead (pt_default t) = false
  /\ forallb (fun kv => negb (is_dead (snd kv)) || (fst kv =? ESRCH)) (pt_arms t) = true
  /\ is_dead (liveness_of t (PrErr ESRCH)) = true /\ is_alive (liveness_of t (PrErr EPERM)) = true.
Proof.
  unfold probe_wf. rewrite !andb_true_iff, negb_true_iff, N.eqb_eq. tauto.
Qed.

Lemma arm_lookup_dead arms d e :
  forallb (fun kv => negb (is_dead (snd kv)) || (fst kv =? ESRCH)) arms = true ->
  is_dead d = false -> is_dead (arm_lookup arms e d) = true -> e = ESRCH.
Proof.
  induction arms as [|[k v] r IH]; cbn [arm_lookup forallb fst snd]; intros H Hd Hl.
  - congruence.
  - apply andb_true_iff in H. destruct H as [H1 H2]. destruct (k =? e) eqn:E.
    + apply N.eqb_eq in E. subst k. apply orb_true_iff in H1. destruct H1 as [H1|H1].
      * rewrite Hl in H1. discriminate.
      * apply N.eqb_eq. exact H1.
    + apply IH; assumption.
Qed.

Theorem probe_dead_only_esrch t : probe_wf t = true ->
  forall o, liveness_of t o = LvDead -> o = PrErr ESRCH.
Proof.
  intros W o H. destruct (wf_parts t W) as [_ [Hok [Hd [Harms _]]]]. destruct o as [|e].
  - cbn [liveness_of] in H. rewrite H in Hok. discriminate.
  - cbn [liveness_of] in H. f_equal. apply (arm_lookup_dead (pt_arms t) (pt_default t) e Harms Hd).
    rewrite H. reflexivity.
Qed.

Theorem probe_exists_is_alive t : probe_wf t = true ->
  forall permitted, liveness_of t (kill0 true permitted) = LvAlive.
Proof.
  intros W p. destruct (wf_parts t W) as [_ [Hok [_ [_ [_ Hp]]]]]. destruct p; cbn [kill0].
  - cbn [liveness_of]. apply is_alive_eq. exact Hok.
  - apply is_alive_eq. exact Hp.
Qed.
Theorem probe_exists_never_dead t : probe_wf t = true ->
  forall permitted, liveness_of t (kill0 true permitted) <> LvDead.
Proof. intros W p. rewrite (probe_exists_is_alive t W p). discriminate. Qed.

Theorem probe_gone_is_dead t : probe_wf t = true ->
  forall permitted, liveness_of t (kill0 false permitted) = LvDead.
Proof.
  intros W p. destruct (wf_parts t W) as [_ [_ [_ [_ [He _]]]]]. cbn [kill0]. apply is_dead_eq. exact He.
Qed.

Theorem probed_is_truth t perm ps me p : probe_wf t = true -> probed t perm ps me p = pid_alive ps p.
Proof.
  intros W. unfold probed, says_alive. destruct (pid_alive ps p).
  - rewrite (probe_exists_is_alive t W). reflexivity.
  - rewrite (probe_gone_is_dead t W). reflexivity.
Qed.

(* the loops go on to a stale cleanup (StExists), or to the client's test that precedes one (LockExistsM), only on ESRCH *)
Theorem cleanup_only_after_esrch t : probe_wf t = true ->
  forall (ag : bool) (ps : list proc) (o : N) (p : pid) (out : probe),
  (server_next ag ps o (RLive p (says_alive t out)) = StExists p -> out = PrErr ESRCH)
  /\ (client_next ag ps o (RLive p (says_alive t out)) = StExists p -> out = PrErr ESRCH)
  /\ (client_next ag ps o (RLiveM p (says_alive t out)) = LockExistsM p -> out = PrErr ESRCH).
Proof.
  intros W ag ps o p out. unfold says_alive.
  destruct (is_dead (liveness_of t out)) eqn:E.
  - apply is_dead_eq in E. pose proof (probe_dead_only_esrch t W out E) as H. repeat split; intros _; exact H.
  - cbn [negb server_next client_next]. repeat split; intros H; try discriminate;
      destruct (o_deadline o); discriminate.
Qed.

Lemma micro_p_eq t perm ag s o q : probe_wf t = true -> micro_p t perm ag s o q = micro ag s o q.
Proof.
  intros W. unfold micro_p, micro. destruct (p_pc q); try reflexivity;
    rewrite (probed_is_truth t perm (s_procs s) (p_pid q) p W); reflexivity.
Qed.
Lemma step_p_eq t perm ag s e : probe_wf t = true -> step_p t perm ag s e = step ag s e.
Proof.
  intros W. destruct e as [i o|i]; [|reflexivity]. cbn [step_p step].
  destruct (nth_error (s_procs s) i) as [q|]; [|reflexivity].
  destruct (p_alive q); [|reflexivity]. rewrite (micro_p_eq t perm ag s o q W). reflexivity.
Qed.
Theorem run_p_eq t perm ag : probe_wf t = true -> forall es s, run_p t perm ag s es = run ag s es.
Proof.
  intros W es. unfold run_p, run. induction es as [|e r IH]; intros s; [reflexivity|].
  cbn [fold_left]. rewrite (step_p_eq t perm ag s e W). apply IH.
Qed.

(* hence a live authority is never disturbed by contenders of any uid, whether or not they may signal it *)
Theorem probed_live_authority_never_disturbed :
  forall (t : ptable) (perm : pid -> pid -> bool), probe_wf t = true ->
  forall (ag : bool) (b : pid) (m : metaf) (cs : list proc) (es : list event),
  (forall q, In q cs -> contender q) ->
  (forall e, In e es -> ev_idx e <> 0%nat) ->
  s_lock (run_p t perm ag (init (LRec b) m (serving b :: cs)) es) = LRec b
  /\ s_meta (run_p t perm ag (init (LRec b) m (serving b :: cs)) es) = m
  /\ holders (run_p t perm ag (init (LRec b) m (serving b :: cs)) es) = [b]
  /\ s_took_lock (run_p t perm ag (init (LRec b) m (serving b :: cs)) es) = false
  /\ s_took_meta (run_p t perm ag (init (LRec b) m (serving b :: cs)) es) = false.
Proof.
  intros t perm W ag b m cs es Hc He. rewrite (run_p_eq t perm ag W). apply live_authority_never_disturbed; assumption.
Qed.

Theorem probed_two_authorities_only_by_taking_a_live_lock :
  forall (t : ptable) (perm : pid -> pid -> bool), probe_wf t = true ->
  forall (ag : bool) (l : lockf) (m : metaf) (ps : list proc) (es : list event),
  init_ok l m ps ->
  s_took_lock (run_p t perm ag (init l m ps) es) = false ->
  (length (holders (run_p t perm ag (init l m ps) es)) <= 1)%nat
  /\ (forall p, In p (holders (run_p t perm ag (init l m ps) es)) ->
                lock_pid (s_lock (run_p t perm ag (init l m ps) es)) = Some p).
Proof.
  intros t perm W ag l m ps es Hi. rewrite (run_p_eq t perm ag W). apply two_authorities_only_by_taking. exact Hi.
Qed.

Lemma full_probe_table_wf : probe_wf full_probe_table = true.
Proof. vm_compute. reflexivity. Qed.
Lemma eperm_dead_table_not_wf : probe_wf eperm_dead_table = false.
Proof. vm_compute. reflexivity. Qed.

(* hypotheses of probed_live_authority_never_disturbed are satisfiable: authority 800, contender 101 (another uid:
   nobody may signal anybody else), 13 steps of the contender's server loop with the endpoint silent *)
Definition no_perm : pid -> pid -> bool := fun a b => a =? b.
Definition uid_procs : list proc := [fresh 101 DServer].
Definition uid_init : state := init (LRec 800) (MRec 800) (serving 800 :: uid_procs).
Definition uid_sched : list event := repeat (Step 1%nat 0) 13.
Lemma uid_example :
  probe_wf full_probe_table = true
  /\ (forall q, In q uid_procs -> contender q)
  /\ (forall e, In e uid_sched -> ev_idx e <> 0%nat).
Proof.
  split; [exact full_probe_table_wf|]. split.
  - intros q [H|[]]. subst q. left. reflexivity.
  - intros e H. apply repeat_spec in H. subst e. cbn. discriminate.
Qed.

(* C18-9: with EPERM classified Dead the same 13 steps take the live authority's lock and meta and make a second authority *)
Definition uid_final_eperm_dead : state := run_p eperm_dead_table no_perm true uid_init uid_sched.
Lemma eperm_dead_takes_live_lock :
  exists (perm : pid -> pid -> bool) (sched : list event),
    holders (run_p eperm_dead_table perm true uid_init sched) = [800; 101]
    /\ s_lock (run_p eperm_dead_table perm true uid_init sched) = LRec 101
    /\ s_took_lock (run_p eperm_dead_table perm true uid_init sched) = true
    /\ s_took_meta (run_p eperm_dead_table perm true uid_init sched) = true.
Proof. exists no_perm, uid_sched. vm_compute. repeat split; reflexivity. Qed.
(* ... and with the expected table they leave everything alone (an instance of the theorem, computed) *)
Lemma full_table_same_schedule :
  holders (run_p full_probe_table no_perm true uid_init uid_sched) = [800]
  /\ s_lock (run_p full_probe_table no_perm true uid_init uid_sched) = LRec 800.
Proof. vm_compute. split; reflexivity. Qed.
