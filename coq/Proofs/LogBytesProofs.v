(* Proofs about the byte-level model of EventLog::append (Model/LogBytes.v): with the single
   write of frame+LF the file is old bytes + whole frames after EVERY write(2); with two writes, or a
   serializer streaming into the BufWriter, a frame larger than the buffer is in the file in part. *)
From RipV Require Import Base.Prelude Model.Frames Model.Log Model.LogBytes Proofs.LogProofs.

(* blen is nlen on bytes *)
Lemma blen_app a b : blen (a ++ b) = blen a + blen b.
Proof. exact (nlen_app a b). Qed.

Lemma blen_nil : blen [] = 0.
Proof. reflexivity. Qed.

Lemma bw_run_app cap ops1 : forall s ops2,
  bw_run cap s (ops1 ++ ops2) =
  (fst (bw_run cap s ops1) ++ fst (bw_run cap (snd (bw_run cap s ops1)) ops2),
   snd (bw_run cap (snd (bw_run cap s ops1)) ops2)).
Proof.
  induction ops1 as [|o r IH]; intros s ops2.
  - cbn [app bw_run fst snd]. destruct (bw_run cap s ops2) as [w z]. reflexivity.
  - cbn [app bw_run]. destruct (bw_op cap s o) as [w1 s1]. rewrite IH.
    destruct (bw_run cap s1 r) as [w2 s2]. cbn [fst snd].
    destruct (bw_run cap s2 ops2) as [w3 s3]. cbn [fst snd]. rewrite app_assoc. reflexivity.
Qed.

Lemma bw_trace_app cap s ops1 ops2 :
  bw_trace cap s (ops1 ++ ops2) = bw_trace cap s ops1 ++ bw_trace cap (bw_final cap s ops1) ops2.
Proof. unfold bw_trace, bw_final. rewrite bw_run_app. reflexivity. Qed.

Lemma bw_trace_cons cap s o ops :
  bw_trace cap s (o :: ops) = fst (bw_op cap s o) ++ bw_trace cap (snd (bw_op cap s o)) ops.
Proof. unfold bw_trace. cbn [bw_run]. destruct (bw_op cap s o), (bw_run cap _ ops). reflexivity. Qed.

Lemma bw_final_app cap s ops1 ops2 :
  bw_final cap s (ops1 ++ ops2) = bw_final cap (bw_final cap s ops1) ops2.
Proof. unfold bw_final. rewrite bw_run_app. reflexivity. Qed.

(* one write_all into an empty buffer *)
Lemma write_from_empty cap F d :
  bw_op cap (bw_at F) (WWrite d) =
  if cap <=? blen d then ((if cap <? blen d then [F] else []) ++ [F ++ d], bw_at (F ++ d))
  else ([], {| bw_file := F; bw_buf := d |}).
Proof.
  unfold bw_op, bw_at, flush_buf. cbn [bw_buf bw_file]. rewrite blen_nil, N.add_0_l, app_nil_r.
  destruct (cap <? blen d) eqn:E1, (cap <=? blen d) eqn:E2; try reflexivity.
  apply N.ltb_lt in E1. apply N.leb_gt in E2. lia.
Qed.

Lemma append_single_run cap enc f F :
  bw_final cap (bw_at F) (append_single enc f) = bw_at (F ++ enc f ++ [10])
  /\ Forall (fun b => b = F \/ b = F ++ enc f ++ [10]) (bw_trace cap (bw_at F) (append_single enc f)).
Proof.
  unfold bw_final, bw_trace, append_single. cbn [bw_run]. rewrite write_from_empty.
  destruct (cap <=? blen (enc f ++ [10])); [destruct (cap <? blen (enc f ++ [10]))|];
    unfold bw_op, flush_buf, bw_at; cbn [bw_buf bw_file fst snd app]; rewrite ?app_nil_r;
    (split; [reflexivity|]); repeat (apply Forall_cons; [auto|]); apply Forall_nil.
Qed.

Lemma log_bytes_snoc enc l f : log_bytes enc (l ++ [f]) = log_bytes enc l ++ enc f ++ [10].
Proof. rewrite log_bytes_app. unfold log_bytes at 2. cbn [map concat]. rewrite app_nil_r. reflexivity. Qed.

Lemma appends_single_run cap enc fs : forall l,
  bw_final cap (bw_at (log_bytes enc l)) (appends_single enc fs) = bw_at (log_bytes enc (l ++ fs))
  /\ forall b, In b (bw_trace cap (bw_at (log_bytes enc l)) (appends_single enc fs)) ->
               exists k, b = log_bytes enc (l ++ firstn k fs).
Proof.
  induction fs as [|f r IH]; intros l.
  - unfold appends_single, bw_final, bw_trace. cbn [map concat bw_run fst snd]. rewrite app_nil_r.
    split; [reflexivity|]. intros b [].
  - unfold appends_single. cbn [map concat]. fold (appends_single enc r).
    rewrite bw_final_app, bw_trace_app.
    destruct (append_single_run cap enc f (log_bytes enc l)) as [Hfin Htr].
    rewrite Hfin. rewrite <- log_bytes_snoc.
    destruct (IH (l ++ [f])) as [IHfin IHtr]. split.
    + rewrite IHfin. rewrite <- app_assoc. reflexivity.
    + intros b Hin. apply in_app_or in Hin. destruct Hin as [Hin|Hin].
      * rewrite Forall_forall in Htr. destruct (Htr b Hin) as [Hb|Hb].
        -- exists 0%nat. cbn [firstn]. rewrite app_nil_r. exact Hb.
        -- exists 1%nat. cbn [firstn]. rewrite Hb, <- log_bytes_snoc. reflexivity.
      * destruct (IHtr b Hin) as [k Hk]. exists (S k). cbn [firstn].
        rewrite Hk, <- app_assoc. reflexivity.
Qed.

Lemma file_whole_lines_every_step (cap : N) (enc : frame -> bytes) (l fs : list frame) (b : bytes) :
  (forall f, ~ In 10 (enc f)) ->
  In b (bw_trace cap (bw_at (log_bytes enc l)) (appends_single enc fs)) ->
  exists k, b = log_bytes enc l ++ log_bytes enc (firstn k fs)
            /\ split_lines (log_bytes enc (firstn k fs)) = (map enc (firstn k fs), []).
Proof.
  intros Hn Hin. destruct (appends_single_run cap enc fs l) as [_ Htr].
  destruct (Htr b Hin) as [k Hk]. exists k. split.
  - rewrite Hk. apply log_bytes_app.
  - apply split_lines_log_bytes. exact Hn.
Qed.

Lemma file_after_appends (cap : N) (enc : frame -> bytes) (l fs : list frame) :
  bw_final cap (bw_at (log_bytes enc l)) (appends_single enc fs) = bw_at (log_bytes enc (l ++ fs)).
Proof. apply appends_single_run. Qed.

(* a program whose extracted shape passes the obligation IS the single-write append *)
Lemma ashape_eqb_eq a b : ashape_eqb a b = true -> a = b.
Proof. destruct a, b; cbn; congruence. Qed.
Lemma ashapes_eqb_eq a : forall b, ashapes_eqb a b = true -> a = b.
Proof.
  induction a as [|x r IH]; intros [|y s] H; cbn in H; try congruence.
  apply andb_true_iff in H. destruct H as [H1 H2]. apply ashape_eqb_eq in H1. apply IH in H2. congruence.
Qed.
Lemma shape_single_prog enc pieces f sh :
  shape_single_write sh = true -> prog_of_shape enc pieces f sh = append_single enc f.
Proof. intros H. apply ashapes_eqb_eq in H. subst. reflexivity. Qed.

Lemma split_lines_aux_nolf cur x : ~ In 10 x -> split_lines_aux cur x = ([], rev cur ++ x).
Proof.
  revert cur; induction x as [|y r IH]; intros cur Hn.
  - cbn [split_lines_aux]. rewrite app_nil_r. reflexivity.
  - cbn [split_lines_aux]. destruct (y =? 10) eqn:E.
    + apply N.eqb_eq in E. subst. exfalso. apply Hn. left. reflexivity.
    + rewrite IH by (intros Hin; apply Hn; right; exact Hin). cbn [rev]. rewrite <- app_assoc. reflexivity.
Qed.

(* whatever follows the bytes of a log is split on its own *)
Lemma split_lines_log_bytes_app enc l x :
  (forall f, ~ In 10 (enc f)) ->
  split_lines (log_bytes enc l ++ x) = (map enc l ++ fst (split_lines x), snd (split_lines x)).
Proof.
  intros Hn. unfold split_lines. induction l as [|f r IH].
  - cbn [log_bytes map concat app]. destruct (split_lines_aux [] x). reflexivity.
  - unfold log_bytes. cbn [map concat]. unfold encode_line at 1. rewrite <- !app_assoc.
    cbn [app]. rewrite split_lines_aux_line by apply Hn.
    change (concat (map (encode_line enc) r)) with (log_bytes enc r). rewrite IH. reflexivity.
Qed.

Lemma partial_tail_of enc l x :
  (forall f, ~ In 10 (enc f)) -> ~ In 10 x -> partial_tail (log_bytes enc l ++ x) = x.
Proof.
  intros Hn Hx. unfold partial_tail. rewrite split_lines_log_bytes_app by exact Hn.
  unfold split_lines. rewrite split_lines_aux_nolf by exact Hx. reflexivity.
Qed.

(* two writes: a frame of at least `cap` bytes is in the file without its terminator *)
Lemma two_writes_expose_body cap enc f F :
  cap <= blen (enc f) -> In (F ++ enc f) (bw_trace cap (bw_at F) (append_two_writes enc f)).
Proof.
  intros Hle. apply N.leb_le in Hle. unfold append_two_writes.
  rewrite bw_trace_cons, write_from_empty, Hle. cbn [fst].
  apply in_or_app. left. apply in_or_app. right. left. reflexivity.
Qed.

Lemma two_writes_partial_line cap enc l f :
  (forall g, ~ In 10 (enc g)) -> cap <= blen (enc f) -> enc f <> [] ->
  exists b, In b (bw_trace cap (bw_at (log_bytes enc l)) (append_two_writes enc f))
            /\ partial_tail b = enc f /\ partial_tail b <> [].
Proof.
  intros Hn Hle Hne. exists (log_bytes enc l ++ enc f). split; [apply two_writes_expose_body; exact Hle|].
  rewrite partial_tail_of by (try exact Hn; apply Hn). split; [reflexivity|exact Hne].
Qed.

(* a serializer streaming into the BufWriter: of the bytes held and the bytes written, a part y has gone to the file and the rest is held; when y is
   not empty the file has been seen with it *)
Definition Wrote (cap : N) (s : bw) (d : bytes) (r : list bytes * bw) : Prop :=
  exists y, bw_file (snd r) = bw_file s ++ y /\ y ++ bw_buf (snd r) = bw_buf s ++ d
    /\ (y = [] \/ In (bw_file (snd r)) (fst r))
    /\ (blen (bw_buf s) <= cap -> blen (bw_buf (snd r)) <= cap).

Lemma bw_op_wrote cap s d : Wrote cap s d (bw_op cap s (WWrite d)).
Proof.
  unfold Wrote. cbn [bw_op]. destruct (cap <? blen (bw_buf s) + blen d) eqn:E1; destruct (cap <=? blen d) eqn:E2;
    unfold flush_buf; cbn [bw_buf bw_file fst snd].
  - exists (bw_buf s ++ d). rewrite app_nil_r, <- app_assoc. repeat split.
    + right. apply in_or_app. right. left. reflexivity.
    + intros _. rewrite blen_nil. lia.
  - apply N.leb_gt in E2. exists (bw_buf s). repeat split.
    + right. left. reflexivity.
    + intros _. rewrite blen_app, blen_nil. lia.
  - apply N.ltb_ge in E1. apply N.leb_le in E2.
    assert (Hb : bw_buf s = []) by (apply length_zero_iff_nil; unfold blen in *; lia). rewrite Hb. exists d. rewrite app_nil_r. repeat split.
    + right. left. reflexivity.
    + intros _. rewrite blen_nil. lia.
  - apply N.ltb_ge in E1. exists []. rewrite app_nil_r. repeat split.
    + left. reflexivity.
    + intros _. rewrite blen_app. exact E1.
Qed.

Lemma bw_run_wrote cap ps : forall s, Wrote cap s (concat ps) (bw_run cap s (map WWrite ps)).
Proof.
  induction ps as [|d ps IH]; intros s; cbn [map bw_run concat].
  - exists []. cbn [fst snd]. rewrite !app_nil_r. auto.
  - destruct (bw_op_wrote cap s d) as (y1 & Hf1 & Hb1 & Hs1 & Hc1).
    destruct (bw_op cap s (WWrite d)) as [w1 s1]. cbn [fst snd] in *.
    destruct (IH s1) as (y2 & Hf2 & Hb2 & Hs2 & Hc2).
    destruct (bw_run cap s1 (map WWrite ps)) as [w2 s2]. cbn [fst snd] in *.
    exists (y1 ++ y2). cbn [fst snd]. repeat split.
    + rewrite Hf2, Hf1, app_assoc. reflexivity.
    + rewrite <- app_assoc, Hb2, !app_assoc, Hb1. reflexivity.
    + destruct Hs2 as [->|Hs2]; [|right; apply in_or_app; right; exact Hs2].
      rewrite app_nil_r in *. rewrite Hf2. destruct Hs1 as [Hs1|Hs1]; [left; exact Hs1|].
      right. apply in_or_app. left. exact Hs1.
    + intros Hle. apply Hc2, Hc1, Hle.
Qed.

Lemma streamed_partial cap pieces F :
  ~ In 10 (concat pieces) -> cap < blen (concat pieces) ->
  exists b x, In b (bw_trace cap (bw_at F) (append_streamed pieces))
              /\ b = F ++ x /\ x <> [] /\ ~ In 10 x.
Proof.
  intros Hn Hlt. unfold append_streamed. rewrite bw_trace_app. unfold bw_trace at 1.
  destruct (bw_run_wrote cap pieces (bw_at F)) as (y & Hf & Hb & Hs & Hc).
  destruct (bw_run cap (bw_at F) (map WWrite pieces)) as [w s']. cbn [fst snd bw_at bw_file bw_buf app] in *.
  specialize (Hc ltac:(rewrite blen_nil; lia)).
  assert (Hlen : blen y + blen (bw_buf s') = blen (concat pieces)) by (rewrite <- blen_app, Hb; reflexivity).
  exists (bw_file s'), y. repeat split.
  - apply in_or_app. left. destruct Hs as [->|Hs]; [|exact Hs]. rewrite blen_nil in Hlen. lia.
  - exact Hf.
  - intros ->. rewrite blen_nil in Hlen. lia.
  - intros Hin. apply Hn. rewrite <- Hb. apply in_or_app. left. exact Hin.
Qed.

Lemma streamed_partial_line cap enc l pieces :
  (forall g, ~ In 10 (enc g)) -> ~ In 10 (concat pieces) -> cap < blen (concat pieces) ->
  exists b, In b (bw_trace cap (bw_at (log_bytes enc l)) (append_streamed pieces)) /\ partial_tail b <> [].
Proof.
  intros Hn Hp Hlt. destruct (streamed_partial cap pieces (log_bytes enc l) Hp Hlt) as (b & x & Hin & Hb & Hx & Hnx).
  exists b. split; [exact Hin|]. rewrite Hb, partial_tail_of by assumption. exact Hx.
Qed.

(* witnesses (w_) at the real capacity *)
Definition w_frame : frame := {| fid := 0; sid := 0; seq := 0; ety := ESessionStarted; args := [] |}.
Definition w_enc (f : frame) : bytes := repeat 65 (N.to_nat bufwriter_capacity).     (* 8192 x 'A' *)
Definition w_pieces : list bytes := repeat (repeat 65 100%nat) 82%nat.               (* 82 pieces of 100 bytes *)

(* stated for any element: matching a goal against repeat_spec directly unfolds the 8192 bytes *)
Lemma not_in_repeat {A} (x y : A) n : y <> x -> ~ In y (repeat x n).
Proof. intros H Hin. apply H. exact (repeat_spec _ _ _ Hin). Qed.

Lemma w_enc_nolf : forall g, ~ In 10 (w_enc g).
Proof. intros g. apply not_in_repeat. discriminate. Qed.

Lemma w_enc_len f : blen (w_enc f) = bufwriter_capacity.
Proof. unfold w_enc, blen. rewrite repeat_length. apply N2Nat.id. Qed.

Lemma w_two_writes_refuted :
  exists b, In b (bw_trace bufwriter_capacity (bw_at (log_bytes w_enc [w_frame])) (append_two_writes w_enc w_frame))
            /\ partial_tail b <> [].
Proof.
  destruct (two_writes_partial_line bufwriter_capacity w_enc [w_frame] w_frame w_enc_nolf) as (b & Hin & _ & Hne).
  - rewrite w_enc_len. apply N.le_refl.
  - intros E. pose proof (w_enc_len w_frame) as L. rewrite E in L. discriminate L.
  - exists b. split; assumption.
Qed.

Lemma w_streamed_refuted :
  exists b, In b (bw_trace bufwriter_capacity (bw_at (log_bytes w_enc [w_frame])) (append_streamed w_pieces))
            /\ partial_tail b <> [].
Proof.
  apply streamed_partial_line.
  - exact w_enc_nolf.
  - intros Hin. apply in_concat in Hin. destruct Hin as (p & Hp & Hin).
    apply repeat_spec in Hp. subst p. revert Hin. apply not_in_repeat. discriminate.
  - vm_compute. reflexivity.
Qed.

(* non-vacuity: three frames through the single-write append at capacity 4 (smaller than a line):
   the file goes through old, old+f1, old+f1+f2, .. only *)
Definition d_enc (f : frame) : bytes := [123; 48 + seq f; 125; 65; 65; 65].     (* "{n}AAA" *)
Definition d_frames : list frame :=
  [w_frame; {| fid := 1; sid := 0; seq := 1; ety := ESessionStarted; args := [] |};
   {| fid := 2; sid := 0; seq := 2; ety := ESessionStarted; args := [] |}].
Lemma d_trace :
  bw_trace 4 (bw_at (log_bytes d_enc [w_frame])) (appends_single d_enc (tl d_frames)) =
  [log_bytes d_enc [w_frame]; log_bytes d_enc (firstn 2 d_frames); log_bytes d_enc (firstn 2 d_frames);
   log_bytes d_enc (firstn 2 d_frames); log_bytes d_enc d_frames; log_bytes d_enc d_frames]
  /\ bw_trace 4 (bw_at (log_bytes d_enc [w_frame])) (append_two_writes d_enc (nth 1 d_frames w_frame)) =
     [log_bytes d_enc [w_frame]; log_bytes d_enc [w_frame] ++ d_enc (nth 1 d_frames w_frame);
      log_bytes d_enc (firstn 2 d_frames)].
Proof. vm_compute. split; reflexivity. Qed.
