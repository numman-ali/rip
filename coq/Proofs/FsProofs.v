(* Lemmas about the file-system model Base/Fs.v: lookups after set/unset, well-formed trees and
   their preservation by every os-level operation, specifications of the operations. *)
From RipV Require Import Base.Prelude Base.Fs.
Open Scope N_scope.
Open Scope list_scope.

Lemma path_eqb_eq a b : path_eqb a b = true <-> a = b.
Proof. apply list_eqb_spec. apply lN_eqb_spec. Qed.
Lemma path_eqb_refl a : path_eqb a a = true.
Proof. apply path_eqb_eq. reflexivity. Qed.
Lemma path_eqb_false a b : path_eqb a b = false <-> a <> b.
Proof.
  split.
  - intros H E. apply path_eqb_eq in E. congruence.
  - intros H. destruct (path_eqb a b) eqn:E; [|reflexivity]. apply path_eqb_eq in E. contradiction.
Qed.
Lemma path_eqb_sym a b : path_eqb a b = path_eqb b a.
Proof.
  destruct (path_eqb a b) eqn:E.
  - apply path_eqb_eq in E. subst. symmetry. apply path_eqb_refl.
  - apply path_eqb_false in E. symmetry. apply path_eqb_false. congruence.
Qed.

Ltac peq :=
  repeat match goal with
  | H : path_eqb _ _ = true |- _ => apply path_eqb_eq in H
  | H : path_eqb _ _ = false |- _ => apply path_eqb_false in H
  end.

Lemma existsb_false {A} (p : A -> bool) l x : existsb p l = false -> In x l -> p x = false.
Proof.
  intros H I. destruct (p x) eqn:E; [|reflexivity]. rewrite <- H. symmetry. apply existsb_exists. exists x. auto.
Qed.

Lemma is_prefix_iff a : forall p, is_prefix a p = true <-> exists s, p = a ++ s.
Proof.
  induction a as [|x a IH]; intros p; cbn [is_prefix].
  - split; [intros _; exists p; reflexivity|reflexivity].
  - destruct p as [|y p].
    + split; [discriminate|intros [s H]; discriminate].
    + rewrite andb_true_iff, lN_eqb_spec, IH. split.
      * intros [-> [s ->]]. exists s. reflexivity.
      * intros [s H]. cbn [app] in H. inversion H; subst. split; [reflexivity|exists s; reflexivity].
Qed.

Lemma assoc_remove_key p f q : assoc (remove_key p f) q = if path_eqb p q then None else assoc f q.
Proof.
  induction f as [|[r n] f IH]; cbn [remove_key assoc].
  - destruct (path_eqb p q); reflexivity.
  - destruct (path_eqb r p) eqn:E.
    + peq. subst r. rewrite IH. destruct (path_eqb p q); reflexivity.
    + cbn [assoc]. rewrite IH. destruct (path_eqb r q) eqn:E2; [|reflexivity].
      peq. subst r. apply path_eqb_false in E. rewrite path_eqb_sym, E. reflexivity.
Qed.

Lemma lookup_set f p n q : p <> [] ->
  lookup (set f p n) q = if path_eqb p q then Some n else lookup f q.
Proof.
  intros Hp. destruct q as [|c q].
  - cbn [lookup]. assert (path_eqb p [] = false) as -> by (apply path_eqb_false; exact Hp). reflexivity.
  - cbn [lookup set assoc]. destruct (path_eqb p (c :: q)) eqn:E; [reflexivity|].
    rewrite assoc_remove_key, E. reflexivity.
Qed.

Lemma lookup_set_same f p n : p <> [] -> lookup (set f p n) p = Some n.
Proof. intros H. rewrite lookup_set by exact H. rewrite path_eqb_refl. reflexivity. Qed.
Lemma lookup_set_other f p n q : p <> [] -> p <> q -> lookup (set f p n) q = lookup f q.
Proof. intros H D. rewrite lookup_set by exact H. apply path_eqb_false in D. rewrite D. reflexivity. Qed.

Lemma lookup_unset f p q : p <> [] ->
  lookup (unset f p) q = if path_eqb p q then None else lookup f q.
Proof.
  intros Hp. destruct q as [|c q].
  - cbn [lookup]. assert (path_eqb p [] = false) as -> by (apply path_eqb_false; exact Hp). reflexivity.
  - cbn [lookup unset]. apply assoc_remove_key.
Qed.
Lemma lookup_unset_same f p : p <> [] -> lookup (unset f p) p = None.
Proof. intros H. rewrite lookup_unset by exact H. rewrite path_eqb_refl. reflexivity. Qed.
Lemma lookup_unset_other f p q : p <> [] -> p <> q -> lookup (unset f p) q = lookup f q.
Proof. intros H D. rewrite lookup_unset by exact H. apply path_eqb_false in D. rewrite D. reflexivity. Qed.

Lemma assoc_in f q n : assoc f q = Some n -> In (q, n) f.
Proof.
  induction f as [|[r m] f IH]; cbn [assoc]; [discriminate|].
  destruct (path_eqb r q) eqn:E.
  - peq. subst. intros H; inversion H; subst. left; reflexivity.
  - intros H. right. apply IH. exact H.
Qed.
Lemma in_assoc f q n : NoDup (map fst f) -> In (q, n) f -> assoc f q = Some n.
Proof.
  induction f as [|[r m] f IH]; cbn [assoc map fst]; intros ND I; [contradiction|].
  inversion ND as [|? ? N1 N2]; subst. destruct I as [I|I].
  - inversion I; subst. rewrite path_eqb_refl. reflexivity.
  - destruct (path_eqb r q) eqn:E.
    + peq. subst. exfalso. apply N1. apply (in_map fst) in I. exact I.
    + apply IH; assumption.
Qed.

Lemma keys_remove_key p f q : In q (map fst (remove_key p f)) <-> In q (map fst f) /\ q <> p.
Proof.
  induction f as [|[r m] f IH]; cbn [remove_key map fst In]; [intuition|].
  destruct (path_eqb r p) eqn:E; peq.
  - subst. rewrite IH. intuition congruence.
  - cbn [map fst In]. rewrite IH. intuition congruence.
Qed.
Lemma keys_set f p n q : In q (map fst (set f p n)) <-> q = p \/ (In q (map fst f) /\ q <> p).
Proof. cbn [set map fst In]. rewrite keys_remove_key. intuition. Qed.
Lemma nodup_remove_key p f : NoDup (map fst f) -> NoDup (map fst (remove_key p f)).
Proof.
  induction f as [|[r m] f IH]; cbn [remove_key map fst]; intros ND; [constructor|].
  inversion ND as [|? ? N1 N2]; subst.
  destruct (path_eqb r p); [apply IH; exact N2|].
  cbn [map fst]. constructor; [|apply IH; exact N2].
  rewrite keys_remove_key. intuition.
Qed.
Lemma keys_filter (P : path * node -> bool) f q : In q (map fst (filter P f)) -> In q (map fst f).
Proof.
  induction f as [|[r m] f IH]; cbn [filter map fst In]; [auto|].
  destruct (P (r, m)); cbn [map fst In]; intuition.
Qed.
Lemma nodup_filter (P : path * node -> bool) f : NoDup (map fst f) -> NoDup (map fst (filter P f)).
Proof.
  induction f as [|[r m] f IH]; cbn [filter map fst]; intros ND; [constructor|].
  inversion ND as [|? ? N1 N2]; subst.
  destruct (P (r, m)); [|apply IH; exact N2].
  cbn [map fst]. constructor; [|apply IH; exact N2].
  intros I. apply N1. eapply keys_filter. exact I.
Qed.
Lemma assoc_filter (P : path * node -> bool) f q : NoDup (map fst f) ->
  assoc (filter P f) q = match assoc f q with Some n => if P (q, n) then Some n else None | None => None end.
Proof.
  induction f as [|[r m] f IH]; cbn [filter assoc map fst]; intros ND; [reflexivity|].
  inversion ND as [|? ? N1 N2]; subst.
  destruct (path_eqb r q) eqn:E.
  - peq. subst r. destruct (P (q, m)) eqn:Pq.
    + cbn [assoc]. rewrite path_eqb_refl. reflexivity.
    + rewrite IH by exact N2. destruct (assoc f q) as [n|] eqn:A; [|reflexivity].
      exfalso. apply N1. apply assoc_in in A. apply (in_map fst) in A. exact A.
  - destruct (P (r, m)); [cbn [assoc]; rewrite E|]; apply IH; exact N2.
Qed.

(* every ancestor of an entry is a directory *)
Definition tree (f : fs) : Prop :=
  forall x s n, lookup f (x ++ s) = Some n -> s <> [] -> lookup f x = Some Dir.
(* one entry per path, none for the top directory (lookup answers Dir there by itself), and a tree *)
Definition fs_wf (f : fs) : Prop := NoDup (map fst f) /\ ~ In [] (map fst f) /\ tree f.

(* all proper non-empty prefixes of cur ++ rest that extend cur are directories *)
Definition pdirs (f : fs) (cur : path) (rest : list name) : Prop :=
  forall x s, rest = x ++ s -> x <> [] -> s <> [] -> lookup f (cur ++ x) = Some Dir.
(* NAME_MAX: no component is longer than 255 bytes *)
Definition names_ok (cs : list name) : Prop := forall c, In c cs -> (255 <? nlen c) = false.

Lemma app_nonnil_r {A} (x s : list A) : s <> [] -> x ++ s <> x.
Proof.
  intros Hs E. apply Hs. rewrite <- (app_nil_r x) in E at 2. apply app_inv_head in E. exact E.
Qed.

Lemma tree_pdirs f k : tree f -> (exists n, lookup f k = Some n) -> pdirs f [] k.
Proof. intros T [n L] x s -> Hx Hs. cbn [app]. eapply T; eauto. Qed.

Lemma names_ok_cons c cs : names_ok (c :: cs) <-> (255 <? nlen c) = false /\ names_ok cs.
Proof.
  unfold names_ok. cbn [In]. split.
  - intros H. split; [apply H; left; reflexivity|intros d I; apply H; right; exact I].
  - intros [A B] d [<-|I]; [exact A|apply B; exact I].
Qed.

Lemma pdirs_one f cur c : pdirs f cur [c].
Proof.
  intros x s E Hx Hs. destruct x as [|x0 x]; [congruence|]. cbn [app] in E. inversion E as [[E1 E2]].
  symmetry in E2. apply app_eq_nil in E2. destruct E2; congruence.
Qed.

Lemma pdirs_cons f cur c r : r <> [] ->
  (pdirs f cur (c :: r) <-> lookup f (cur ++ [c]) = Some Dir /\ pdirs f (cur ++ [c]) r).
Proof.
  intros Hr. split.
  - intros P. split; [apply (P [c] r eq_refl); [discriminate|exact Hr]|].
    intros x s E Hx Hs. rewrite <- app_assoc. apply (P (c :: x) s); [cbn [app]; rewrite E; reflexivity|discriminate|exact Hs].
  - intros [L P] x s E Hx Hs. destruct x as [|x0 x]; [congruence|]. cbn [app] in E. inversion E as [[E1 E2]].
    subst x0. destruct x as [|x1 x]; [exact L|]. specialize (P (x1 :: x) s E2). rewrite <- app_assoc in P.
    apply P; [discriminate|exact Hs].
Qed.

Lemma dirs_ok_iff f : forall rest cur, dirs_ok f cur rest = None <-> names_ok rest /\ pdirs f cur rest.
Proof.
  induction rest as [|c r IH]; intros cur.
  - cbn [dirs_ok]. split; [intros _|reflexivity]. split; [intros c []|].
    intros x s E. symmetry in E. apply app_eq_nil in E. destruct E; subst. congruence.
  - rewrite names_ok_cons. destruct r as [|c2 r].
    + cbn [dirs_ok]. destruct (255 <? nlen c).
      * split; [discriminate|intros [[H _] _]; discriminate].
      * split; [intros _|reflexivity]. split; [split; [reflexivity|intros d []]|apply pdirs_one].
    + rewrite pdirs_cons by discriminate.
      (* cbn would also unfold the recursive call on c2 :: r *)
      change (dirs_ok f cur (c :: c2 :: r)) with
        (if 255 <? nlen c then Some ENAMETOOLONG else
           match lookup f (cur ++ [c]) with
           | Some Dir => dirs_ok f (cur ++ [c]) (c2 :: r)
           | Some (File _) => Some ENOTDIR
           | None => Some ENOENT
           end).
      destruct (255 <? nlen c); [split; [discriminate|intros [[H _] _]; discriminate]|].
      destruct (lookup f (cur ++ [c])) as [[b|]|].
      * split; [discriminate|intros [_ [H _]]; discriminate].
      * rewrite IH. intuition.
      * split; [discriminate|intros [_ [H _]]; discriminate].
Qed.

(* g has every directory of f *)
Definition dirs_le (f g : fs) : Prop := forall q, lookup f q = Some Dir -> lookup g q = Some Dir.
Lemma pdirs_mono f g cur rest : dirs_le f g -> pdirs f cur rest -> pdirs g cur rest.
Proof. intros D P x s E Hx Hs. apply D. eapply P; eauto. Qed.
Lemma dirs_le_refl f : dirs_le f f.
Proof. intros q H; exact H. Qed.
Lemma dirs_le_trans f g h : dirs_le f g -> dirs_le g h -> dirs_le f h.
Proof. intros A B q H. apply B, A, H. Qed.

Lemma wf_set f k n : fs_wf f -> k <> [] -> pdirs f [] k -> lookup f k <> Some Dir -> fs_wf (set f k n).
Proof.
  intros [ND [NN T]] Hk P L. split; [|split].
  - cbn [set map fst]. constructor; [rewrite keys_remove_key; intuition|apply nodup_remove_key; exact ND].
  - rewrite keys_set. intros [E|[I _]]; [congruence|contradiction].
  - intros x s m. rewrite !lookup_set by exact Hk. intros H Hs.
    destruct (path_eqb k x) eqn:E1; peq.
    { subst x. exfalso. destruct (path_eqb k (k ++ s)) eqn:E2; peq.
      - symmetry in E2. revert E2. apply app_nonnil_r. exact Hs.
      - apply L. eapply T; eauto. }
    destruct (path_eqb k (x ++ s)) eqn:E2; peq.
    + destruct x as [|x0 x]; [reflexivity|]. apply (P (x0 :: x) s); [exact E2|discriminate|exact Hs].
    + eapply T; eauto.
Qed.

Lemma wf_unset_file f k b : fs_wf f -> k <> [] -> lookup f k = Some (File b) -> fs_wf (unset f k).
Proof.
  intros [ND [NN T]] Hk L. split; [|split].
  - apply nodup_remove_key. exact ND.
  - unfold unset. rewrite keys_remove_key. intuition.
  - intros x s n. rewrite !lookup_unset by exact Hk. intros H Hs.
    destruct (path_eqb k (x ++ s)) eqn:E2; [discriminate|].
    destruct (path_eqb k x) eqn:E1; peq; [|eapply T; eauto].
    subst x. exfalso. assert (lookup f k = Some Dir) by (eapply T; eauto). congruence.
Qed.

(* g holds the same files as f (directories may differ) *)
Definition files_eq (f g : fs) : Prop := forall q, file_at g q = file_at f q.
Definition ext (f g : fs) : Prop :=       (* g = f plus some directories where f had nothing *)
  (forall q n, lookup f q = Some n -> lookup g q = Some n) /\
  (forall q, lookup f q = None -> lookup g q = None \/ lookup g q = Some Dir).

Lemma ext_refl f : ext f f.
Proof. split; [auto|intros q H; left; exact H]. Qed.
Lemma ext_trans f g h : ext f g -> ext g h -> ext f h.
Proof.
  intros [A1 A2] [B1 B2]. split.
  - intros q n H. apply B1, A1, H.
  - intros q H. destruct (A2 q H) as [G|G]; [apply B2; exact G|right; apply B1; exact G].
Qed.
Lemma ext_files f g : ext f g -> files_eq f g.
Proof.
  intros [A1 A2] q. unfold file_at. destruct (lookup f q) as [n|] eqn:L.
  - rewrite (A1 _ _ L). reflexivity.
  - destruct (A2 q L) as [-> | ->]; reflexivity.
Qed.
Lemma ext_dirs f g : ext f g -> dirs_le f g.
Proof. intros [A1 _] q H. apply A1. exact H. Qed.

Lemma ext_of f g : dirs_le f g -> files_eq f g -> ext f g.
Proof.
  intros D F. split.
  - intros q [b|] L; [|apply D; exact L]. specialize (F q). unfold file_at in F. rewrite L in F.
    destruct (lookup g q) as [[b'|]|]; congruence.
  - intros q L. specialize (F q). unfold file_at in F. rewrite L in F.
    destruct (lookup g q) as [[b'|]|]; [discriminate|right; reflexivity|left; reflexivity].
Qed.

Lemma ext_set_dir f k : k <> [] -> lookup f k = None -> ext f (set f k Dir).
Proof.
  intros Hk L. split.
  - intros q n H. rewrite lookup_set by exact Hk. destruct (path_eqb k q) eqn:E; peq; [congruence|exact H].
  - intros q H. rewrite lookup_set by exact Hk. destruct (path_eqb k q); [right; reflexivity|left; exact H].
Qed.

Lemma snoc_nonnil {A} (l : list A) (x : A) : l ++ [x] <> [].
Proof. destruct l; discriminate. Qed.

Lemma pdirs_child f cur c : tree f -> lookup f cur = Some Dir -> pdirs f [] (cur ++ [c]).
Proof.
  intros T LC x s E Hx Hs. cbn [app]. destruct (exists_last Hs) as [s' [y ->]]. rewrite app_assoc in E.
  apply app_inj_tail in E. destruct E as [E _]. destruct s' as [|s0 s']; [rewrite app_nil_r in E; subst; exact LC|].
  rewrite E in LC. eapply T; [exact LC|discriminate].
Qed.

(* the last part, what create_dir_all promises on success, is not used below *)
Lemma mkdir_all_spec : forall cs f cur f' r,
  fs_wf f -> lookup f cur = Some Dir -> mkdir_all f cur cs = (f', r) ->
  fs_wf f' /\ ext f f' /\ (r = None -> names_ok cs /\ lookup f' (cur ++ cs) = Some Dir).
Proof.
  induction cs as [|c cs IH]; intros f cur f' r W LC H; cbn [mkdir_all] in H.
  - inversion H; subst. split; [exact W|]. split; [apply ext_refl|]. intros _.
    rewrite app_nil_r. split; [intros c []|exact LC].
  - destruct (255 <? nlen c) eqn:L.
    { inversion H; subst. split; [exact W|]. split; [apply ext_refl|]. discriminate. }
    assert (DOWN : forall g, fs_wf g -> ext f g -> lookup g (cur ++ [c]) = Some Dir ->
              mkdir_all g (cur ++ [c]) cs = (f', r) ->
              fs_wf f' /\ ext f f' /\ (r = None -> names_ok (c :: cs) /\ lookup f' (cur ++ c :: cs) = Some Dir)).
    { intros g Wg Eg Lg Hg. destruct (IH g (cur ++ [c]) f' r Wg Lg Hg) as [W' [E' R']].
      split; [exact W'|]. split; [eapply ext_trans; eassumption|]. intros Hr. destruct (R' Hr) as [N LL].
      rewrite <- app_assoc in LL. split; [apply names_ok_cons; split; assumption|exact LL]. }
    destruct (lookup f (cur ++ [c])) as [[b|]|] eqn:LK.
    + inversion H; subst. split; [exact W|]. split; [apply ext_refl|]. discriminate.
    + apply (DOWN f); [exact W|apply ext_refl|exact LK|exact H].
    + pose proof (snoc_nonnil cur c) as Hk.
      apply (DOWN (set f (cur ++ [c]) Dir)); [|apply ext_set_dir; assumption|apply lookup_set_same; exact Hk|exact H].
      apply wf_set; [exact W|exact Hk|apply pdirs_child; [apply W|exact LC]|rewrite LK; discriminate].
Qed.

Lemma mkdir_all_noop : forall cs f cur y,
  names_ok cs -> pdirs f cur (cs ++ [y]) -> mkdir_all f cur cs = (f, None).
Proof.
  induction cs as [|c cs IH]; intros f cur y N P; cbn [mkdir_all]; [reflexivity|].
  apply names_ok_cons in N. destruct N as [L N]. rewrite L.
  cbn [app] in P. apply pdirs_cons in P; [|apply snoc_nonnil]. destruct P as [LK P]. rewrite LK.
  eapply IH; eassumption.
Qed.

(* a raw path that names a file position: no NUL, no trailing slash or dot, short components, not the top itself.
   From here on targets are taken below the top directory, `mk_tgt [] raw`, where check_case runs the model and
   where `pdirs f [] k` covers every ancestor of k; for another root the ancestors of the root would have to be
   assumed directories, and nothing below is stated or proved for that case. *)
Definition clean (raw : list N) : Prop :=
  has_nul raw = false /\ raw_trail raw = TNone /\ names_ok (comps raw) /\ comps raw <> [].

Lemma pre_err_none f raw :
  pre_err f (mk_tgt [] raw) = None <-> has_nul raw = false /\ names_ok (comps raw) /\ pdirs f [] (comps raw).
Proof.
  unfold pre_err. cbn [mk_tgt t_nul t_base t_comps]. destruct (has_nul raw).
  - split; [discriminate|intros [H _]; discriminate].
  - rewrite dirs_ok_iff. intuition.
Qed.

Lemma tgt_clean f raw : pre_err f (mk_tgt [] raw) = None -> raw_trail raw = TNone ->
  lookup f (comps raw) <> Some Dir -> clean raw /\ pdirs f [] (comps raw).
Proof.
  intros PE TR L. apply pre_err_none in PE. destruct PE as [NU [NM PD]].
  split; [|exact PD]. repeat split; try assumption. intros K. apply L. rewrite K. reflexivity.
Qed.

Lemma os_write_ok f raw d f' : os_write f (mk_tgt [] raw) d = Ok f' ->
  clean raw /\ pdirs f [] (comps raw) /\ lookup f (comps raw) <> Some Dir /\ f' = set f (comps raw) (File d).
Proof.
  unfold os_write. destruct (pre_err f (mk_tgt [] raw)) eqn:PE; [discriminate|].
  cbn [mk_tgt t_path t_base t_comps t_trail app].
  destruct (lookup f (comps raw)) as [[b|]|] eqn:L; [|discriminate|];
    destruct (raw_trail raw) eqn:TR; try discriminate; intros H; inversion H; subst;
    (destruct (tgt_clean f raw PE TR) as [CL PD]; [congruence|]);
    (split; [exact CL|]); (split; [exact PD|]); (split; [congruence|reflexivity]).
Qed.

Lemma os_write_at f raw d : clean raw -> pdirs f [] (comps raw) -> lookup f (comps raw) <> Some Dir ->
  os_write f (mk_tgt [] raw) d = Ok (set f (comps raw) (File d)).
Proof.
  intros [NU [TR [NM KN]]] PD L. unfold os_write.
  assert (PE : pre_err f (mk_tgt [] raw) = None) by (apply pre_err_none; auto). rewrite PE.
  cbn [mk_tgt t_path t_base t_comps t_trail app]. rewrite TR.
  destruct (lookup f (comps raw)) as [[b|]|]; [reflexivity|congruence|reflexivity].
Qed.

Lemma os_remove_ok f raw f' : os_remove_file f (mk_tgt [] raw) = Ok f' ->
  clean raw /\ pdirs f [] (comps raw) /\ (exists b, lookup f (comps raw) = Some (File b)) /\ f' = unset f (comps raw).
Proof.
  unfold os_remove_file. destruct (pre_err f (mk_tgt [] raw)) eqn:PE; [discriminate|].
  cbn [mk_tgt t_path t_base t_comps t_trail app].
  destruct (lookup f (comps raw)) as [[b|]|] eqn:L; try discriminate.
  destruct (raw_trail raw) eqn:TR; try discriminate. intros H; inversion H; subst.
  destruct (tgt_clean f raw PE TR) as [CL PD]; [congruence|].
  split; [exact CL|]. split; [exact PD|]. split; [eexists; reflexivity|reflexivity].
Qed.

Lemma os_remove_at f raw : clean raw -> pdirs f [] (comps raw) ->
  os_remove_file f (mk_tgt [] raw) =
  match lookup f (comps raw) with
  | Some (File _) => Ok (unset f (comps raw))
  | Some Dir => Err EISDIR
  | None => Err ENOENT
  end.
Proof.
  intros [NU [TR [NM KN]]] PD. unfold os_remove_file.
  assert (PE : pre_err f (mk_tgt [] raw) = None) by (apply pre_err_none; auto). rewrite PE.
  cbn [mk_tgt t_path t_base t_comps t_trail app]. rewrite TR. reflexivity.
Qed.

Lemma os_read_ok f raw b : os_read f (mk_tgt [] raw) = Ok b ->
  clean raw /\ pdirs f [] (comps raw) /\ lookup f (comps raw) = Some (File b).
Proof.
  unfold os_read. destruct (pre_err f (mk_tgt [] raw)) eqn:PE; [discriminate|].
  cbn [mk_tgt t_path t_base t_comps t_trail app].
  destruct (lookup f (comps raw)) as [[b0|]|] eqn:L; try discriminate.
  destruct (raw_trail raw) eqn:TR; try discriminate. intros H; inversion H; subst.
  destruct (tgt_clean f raw PE TR) as [CL PD]; [congruence|].
  split; [exact CL|]. split; [exact PD|reflexivity].
Qed.

Lemma os_read_exists f t b : os_read f t = Ok b -> os_exists f t = true.
Proof.
  unfold os_read, os_exists. destruct (pre_err f t); [discriminate|].
  destruct (lookup f (t_path t)) as [[x|]|]; try discriminate. destruct (t_trail t); try discriminate. reflexivity.
Qed.

Lemma os_exists_false_nofile f raw : fs_wf f -> os_exists f (mk_tgt [] raw) = false ->
  has_nul raw = false -> names_ok (comps raw) -> raw_trail raw = TNone -> file_at f (comps raw) = None.
Proof.
  intros [_ [_ T]] X NU NM TR. unfold file_at. destruct (lookup f (comps raw)) as [[b|]|] eqn:L; try reflexivity.
  exfalso. unfold os_exists in X.
  assert (PE : pre_err f (mk_tgt [] raw) = None).
  { apply pre_err_none. split; [exact NU|]. split; [exact NM|]. apply tree_pdirs; [exact T|eexists; exact L]. }
  rewrite PE in X. cbn [mk_tgt t_path t_base t_comps t_trail app] in X. rewrite L, TR in X. discriminate.
Qed.

Lemma split_aux_in c : forall s cur piece x, In piece (split_aux c cur s) -> In x piece -> In x cur \/ In x s.
Proof.
  induction s as [|y s IH]; intros cur piece x IP IX; cbn [split_aux] in IP.
  - destruct IP as [<-|[]]. left. apply in_rev. exact IX.
  - destruct (y =? c).
    + destruct IP as [<-|IP]; [left; apply in_rev; exact IX|].
      destruct (IH [] piece x IP IX) as [[]|I]. right. right. exact I.
    + destruct (IH (y :: cur) piece x IP IX) as [[->|I]|I]; [right; left; reflexivity|left; exact I|right; right; exact I].
Qed.

Lemma removelast_incl {A} (l : list A) x : In x (removelast l) -> In x l.
Proof.
  induction l as [|y l IH]; [intros []|]. destruct l as [|z r]; [intros []|].
  cbn [removelast]. intros [->|I]; [left; reflexivity|right; apply IH; exact I].
Qed.

Lemma parent_no_nul raw : has_nul raw = false -> comps_nul (removelast (comps raw)) = false.
Proof.
  intros NU. destruct (comps_nul (removelast (comps raw))) eqn:E; [|reflexivity]. exfalso. unfold comps_nul in E.
  apply existsb_exists in E. destruct E as [c [I H]]. apply existsb_exists in H. destruct H as [z [IZ HZ]].
  apply N.eqb_eq in HZ. subst z. apply removelast_incl in I. unfold comps in I. apply filter_In in I. destruct I as [I _].
  destruct (split_aux_in 47 raw [] c 0 I IZ) as [[]|J].
  discriminate (existsb_false _ _ _ NU J).
Qed.

Lemma mk_parent_dirs_spec f raw f' r : fs_wf f -> mk_parent_dirs f (mk_tgt [] raw) = (f', r) ->
  fs_wf f' /\ ext f f'.
Proof.
  intros W. unfold mk_parent_dirs. cbn [mk_tgt t_nul t_base t_comps].
  destruct (comps_nul (removelast (comps raw))); [intros H; inversion H; subst; split; [exact W|apply ext_refl]|].
  intros H. apply mkdir_all_spec in H; [|exact W|reflexivity]. destruct H as [A [B _]]. split; assumption.
Qed.

Lemma mk_parent_dirs_noop f raw : has_nul raw = false -> names_ok (comps raw) -> pdirs f [] (comps raw) ->
  mk_parent_dirs f (mk_tgt [] raw) = (f, None).
Proof.
  intros NU NM PD. unfold mk_parent_dirs. cbn [mk_tgt t_nul t_base t_comps].
  rewrite (parent_no_nul raw NU).
  destruct (comps raw) as [|c k] eqn:K; [reflexivity|]. rewrite <- K in *.
  assert (Ey : comps raw = removelast (comps raw) ++ [last (comps raw) []])
    by (apply app_removelast_last; rewrite K; discriminate).
  apply (mkdir_all_noop _ _ _ (last (comps raw) [])); [|rewrite <- Ey; exact PD].
  intros d I. apply NM. rewrite Ey. apply in_or_app. left. exact I.
Qed.

Lemma os_rename_ok f rs rd f' : os_rename_file f (mk_tgt [] rs) (mk_tgt [] rd) = Ok f' ->
  clean rs /\ pdirs f [] (comps rs) /\ clean rd /\ pdirs f [] (comps rd) /\ lookup f (comps rd) <> Some Dir /\
  exists b, lookup f (comps rs) = Some (File b) /\ f' = set (unset f (comps rs)) (comps rd) (File b).
Proof.
  unfold os_rename_file. destruct (pre_err f (mk_tgt [] rs)) eqn:PE; [discriminate|].
  cbn [mk_tgt t_path t_base t_comps t_trail app].
  destruct (lookup f (comps rs)) as [[b|]|] eqn:L; try discriminate.
  destruct (raw_trail rs) eqn:TR; try discriminate.
  destruct (tgt_clean f rs PE TR) as [CL PD]; [congruence|].
  destruct (pre_err f (mk_tgt [] rd)) eqn:PE2; [discriminate|].
  destruct (lookup f (comps rd)) as [[b2|]|] eqn:L2; [|discriminate|];
    destruct (raw_trail rd) eqn:TR2; try discriminate; intros H; inversion H; subst;
    (destruct (tgt_clean f rd PE2 TR2) as [CL2 PD2]; [congruence|]);
    (split; [exact CL|]); (split; [exact PD|]); (split; [exact CL2|]);
    (split; [exact PD2|]); (split; [congruence|]); exists b; split; reflexivity.
Qed.

Lemma file_at_set f k b q : k <> [] ->
  file_at (set f k (File b)) q = if path_eqb k q then Some b else file_at f q.
Proof. intros Hk. unfold file_at. rewrite lookup_set by exact Hk. destruct (path_eqb k q); reflexivity. Qed.
Lemma file_at_unset f k q : k <> [] ->
  file_at (unset f k) q = if path_eqb k q then None else file_at f q.
Proof. intros Hk. unfold file_at. rewrite lookup_unset by exact Hk. destruct (path_eqb k q); reflexivity. Qed.

Lemma dirs_le_set_file f k b : k <> [] -> lookup f k <> Some Dir -> dirs_le f (set f k (File b)).
Proof.
  intros Hk L q H. rewrite lookup_set by exact Hk. destruct (path_eqb k q) eqn:E; peq; [subst; congruence|exact H].
Qed.
Lemma dirs_le_unset_file f k b : k <> [] -> lookup f k = Some (File b) -> dirs_le f (unset f k).
Proof.
  intros Hk L q H. rewrite lookup_unset by exact Hk. destruct (path_eqb k q) eqn:E; peq; [subst; congruence|exact H].
Qed.

(* g is a well-formed tree that has every directory of f and, outside the paths ks, the files of f *)
Definition edits (ks : list path) (f g : fs) : Prop :=
  fs_wf g /\ dirs_le f g /\ forall q, ~ In q ks -> file_at g q = file_at f q.

Lemma edits_refl ks f : fs_wf f -> edits ks f f.
Proof. intros W. split; [exact W|]. split; [apply dirs_le_refl|reflexivity]. Qed.
Lemma edits_trans ks f g h : edits ks f g -> edits ks g h -> edits ks f h.
Proof.
  intros [_ [D1 F1]] [W [D2 F2]]. split; [exact W|]. split; [eapply dirs_le_trans; eassumption|].
  intros q N. rewrite F2, F1 by exact N. reflexivity.
Qed.
Lemma edits_incl ks ks' f g : incl ks ks' -> edits ks f g -> edits ks' f g.
Proof. intros I [W [D F]]. split; [exact W|]. split; [exact D|]. intros q N. apply F. intros J. apply N, I, J. Qed.

Lemma ext_edits f g : fs_wf g -> ext f g -> edits [] f g.
Proof. intros W E. split; [exact W|]. split; [apply ext_dirs; exact E|]. intros q _. apply ext_files. exact E. Qed.

Lemma edits_set_file f k b : fs_wf f -> k <> [] -> pdirs f [] k -> lookup f k <> Some Dir ->
  edits [k] f (set f k (File b)).
Proof.
  intros W Hk P L. split; [apply wf_set; assumption|]. split; [apply dirs_le_set_file; assumption|].
  intros q N. rewrite file_at_set by exact Hk. destruct (path_eqb k q) eqn:E; [|reflexivity].
  peq. exfalso. apply N. left. exact E.
Qed.
Lemma edits_unset_file f k b : fs_wf f -> k <> [] -> lookup f k = Some (File b) -> edits [k] f (unset f k).
Proof.
  intros W Hk L. split; [eapply wf_unset_file; eassumption|]. split; [eapply dirs_le_unset_file; eassumption|].
  intros q N. rewrite file_at_unset by exact Hk. destruct (path_eqb k q) eqn:E; [|reflexivity].
  peq. exfalso. apply N. left. exact E.
Qed.

Lemma write_edits f raw d f' : fs_wf f -> os_write f (mk_tgt [] raw) d = Ok f' -> edits [comps raw] f f'.
Proof.
  intros W H. apply os_write_ok in H. destruct H as [[_ [_ [_ KN]]] [PD [L ->]]]. apply edits_set_file; assumption.
Qed.
Lemma remove_edits f raw f' : fs_wf f -> os_remove_file f (mk_tgt [] raw) = Ok f' -> edits [comps raw] f f'.
Proof.
  intros W H. apply os_remove_ok in H. destruct H as [[_ [_ [_ KN]]] [_ [[b L] ->]]]. eapply edits_unset_file; eassumption.
Qed.
Lemma rename_edits f rs rd f' : fs_wf f -> os_rename_file f (mk_tgt [] rs) (mk_tgt [] rd) = Ok f' ->
  edits [comps rs; comps rd] f f'.
Proof.
  intros W H. apply os_rename_ok in H.
  destruct H as [[_ [_ [_ KS]]] [_ [[_ [_ [_ KD]]] [PD [LD [b [LS ->]]]]]]].
  pose proof (edits_unset_file f _ b W KS LS) as E1. pose proof E1 as [W1 [D1 _]].
  apply (edits_trans _ _ (unset f (comps rs))).
  - eapply edits_incl; [|exact E1]. intros x [<-|[]]. left. reflexivity.
  - eapply edits_incl; [|apply edits_set_file; [exact W1|exact KD|eapply pdirs_mono; eassumption|]].
    + intros x [<-|[]]. right. left. reflexivity.
    + rewrite lookup_unset by exact KS. destruct (path_eqb (comps rs) (comps rd)); [discriminate|exact LD].
Qed.

Lemma file_under_iff f a : NoDup (map fst f) -> ~ In [] (map fst f) ->
  file_under f a = true <-> exists s b, lookup f (a ++ s) = Some (File b).
Proof.
  intros ND NN. unfold file_under. rewrite existsb_exists. split.
  - intros [[q n] [I H]]. unfold under in H. cbn [fst snd] in H. apply andb_true_iff in H. destruct H as [H1 H2].
    destruct n as [b|]; [|discriminate]. apply is_prefix_iff in H1. destruct H1 as [s ->].
    exists s, b. pose proof (in_assoc _ _ _ ND I) as A.
    destruct (a ++ s) as [|c r] eqn:E; [exfalso; apply NN; apply (in_map fst) in I; exact I|]. exact A.
  - intros [s [b L]]. exists (a ++ s, File b). split.
    + destruct (a ++ s) as [|c r] eqn:E; [cbn [lookup] in L; discriminate|]. apply assoc_in. exact L.
    + unfold under. cbn [fst snd]. rewrite andb_true_iff. split; [apply is_prefix_iff; eexists; reflexivity|reflexivity].
Qed.

Lemma lookup_filter (P : path * node -> bool) f q : NoDup (map fst f) -> q <> [] ->
  lookup (filter P f) q = match lookup f q with Some n => if P (q, n) then Some n else None | None => None end.
Proof. intros ND Hq. destruct q as [|c q]; [congruence|]. cbn [lookup]. apply assoc_filter. exact ND. Qed.

Lemma prune_dirs_not_dir f a : is_dir f a = false -> prune_dirs f a = f.
Proof. intros ID. unfold prune_dirs. destruct a; [reflexivity|]. rewrite ID. reflexivity. Qed.

Lemma lookup_prune_dirs f a q : NoDup (map fst f) -> a <> [] -> is_dir f a = true ->
  lookup (prune_dirs f a) q =
  match lookup f q with
  | Some Dir => if is_prefix a q && negb (file_under f q) then None else Some Dir
  | x => x
  end.
Proof.
  intros ND Ha ID. unfold prune_dirs. destruct a as [|a0 a']; [congruence|]. rewrite ID.
  destruct q as [|q0 q']; [reflexivity|]. rewrite lookup_filter by (assumption || discriminate).
  destruct (lookup f (q0 :: q')) as [[b|]|]; [|unfold under|reflexivity]; cbn [fst snd is_dirnode].
  - rewrite andb_false_r. reflexivity.
  - destruct (is_prefix (a0 :: a') (q0 :: q')); destruct (file_under f (q0 :: q')); reflexivity.
Qed.

Lemma wf_prune_dirs f a : fs_wf f -> fs_wf (prune_dirs f a).
Proof.
  intros W. destruct a as [|a0 a']; [exact W|]. set (a := a0 :: a'). assert (Ha : a <> []) by discriminate.
  destruct (is_dir f a) eqn:ID; [|rewrite prune_dirs_not_dir; assumption].
  pose proof W as [ND [NN T]]. pose proof (fun x => file_under_iff f x ND NN) as FU.
  split; [|split].
  - unfold prune_dirs. destruct a; [exact ND|]. rewrite ID. apply nodup_filter. exact ND.
  - unfold prune_dirs. destruct a; [exact NN|]. rewrite ID. intros I. apply NN. eapply keys_filter. exact I.
  - intros x s n. rewrite !lookup_prune_dirs by assumption. intros L Hs.
    destruct (lookup f (x ++ s)) as [m|] eqn:L0; [|discriminate]. rewrite (T x s m L0 Hs).
    destruct (is_prefix a x) eqn:IP; [|reflexivity]. destruct (file_under f x) eqn:FX; [reflexivity|exfalso].
    (* x goes, so nothing below x holds a file; yet x ++ s stays *)
    apply is_prefix_iff in IP. destruct IP as [w ->].
    assert (NF : forall t b, lookup f ((a ++ w) ++ t) <> Some (File b)).
    { intros t b LT. assert (file_under f (a ++ w) = true) by (apply FU; exists t, b; exact LT). congruence. }
    destruct m as [b|]; [exact (NF s b L0)|].
    assert (IP : is_prefix a ((a ++ w) ++ s) = true) by (apply is_prefix_iff; exists (w ++ s); rewrite app_assoc; reflexivity).
    rewrite IP in L. destruct (file_under f ((a ++ w) ++ s)) eqn:FS; [|discriminate].
    apply FU in FS. destruct FS as [t [b LT]]. rewrite <- app_assoc in LT. exact (NF _ _ LT).
Qed.

Lemma prune_dirs_keeps f a : fs_wf f -> a <> [] ->
  files_eq f (prune_dirs f a) /\
  (forall q, lookup f q = Some Dir -> (forall s, q <> a ++ s) -> lookup (prune_dirs f a) q = Some Dir) /\
  ((forall q, (exists s, q = a ++ s /\ s <> []) -> file_at f q = None) -> lookup (prune_dirs f a) a <> Some Dir).
Proof.
  intros [ND [NN _]] Ha. destruct (is_dir f a) eqn:ID.
  2:{ rewrite prune_dirs_not_dir by exact ID. split; [intros q; reflexivity|]. split; [auto|].
      intros _ L. unfold is_dir in ID. rewrite L in ID. discriminate. }
  split; [|split].
  - intros p. unfold file_at. rewrite lookup_prune_dirs by assumption.
    destruct (lookup f p) as [[x|]|]; [reflexivity| |reflexivity]. destruct (_ && _); reflexivity.
  - intros q L NA. rewrite lookup_prune_dirs, L by assumption.
    destruct (is_prefix a q) eqn:IP; [|reflexivity]. apply is_prefix_iff in IP. destruct IP as [s E]. destruct (NA s E).
  - intros NF. rewrite lookup_prune_dirs by assumption. unfold is_dir in ID.
    destruct (lookup f a) as [[x|]|] eqn:L0; try discriminate.
    assert (is_prefix a a = true) as -> by (apply is_prefix_iff; exists []; rewrite app_nil_r; reflexivity).
    destruct (file_under f a) eqn:FU; [exfalso|discriminate].
    apply file_under_iff in FU; [|assumption|assumption]. destruct FU as [s [b LS]].
    destruct s as [|s0 s]; [rewrite app_nil_r in LS; congruence|].
    assert (NF' : file_at f (a ++ s0 :: s) = None) by (apply NF; exists (s0 :: s); split; [reflexivity|discriminate]).
    unfold file_at in NF'. rewrite LS in NF'. discriminate.
Qed.
