(* C09 — what feeds an auto-compaction summary (compaction_auto_run_spawned_job_v1): which base summary and which
   messages.  The text rendering stays abstract (compared byte for byte between builds by the harness); here the
   INPUT selection of Model/Compaction.v (`cut_read`: select_base + message slice) is characterised declaratively and
   shown to be a function of the history up to the cut. *)
From RipV Require Import Base.Prelude Model.Compaction Proofs.CompactionProofs.
From Coq Require Import Sorting.Sorted Sorting.Permutation.

(* the seq of a full message: the key of `sorted_ms` *)
Definition mseq (m : N * N * (N * N)) : N := fst (fst m).

Lemma basis_of_spec rd b :
  let '(base_id, bootstrap, note, used) := basis_of rd b in
  base_id = option_map ck_art b /\ bootstrap = negb used
  /\ (used = true <-> exists a w, base_id = Some a /\ rd a = Some w /\ su_kind w <> 1)
  /\ note = match base_id with
            | None => 0
            | Some a => match rd a with Some w => if su_kind w =? 1 then 1 else 0 | None => 2 end
            end.
Proof.
  unfold basis_of. destruct (option_map ck_art b) as [a|]; [destruct (rd a) as [w|] eqn:Ea; [destruct (su_kind w =? 1) eqn:Ek|]|];
    (split; [reflexivity|]; split; [reflexivity|]; split; [|rewrite ?Ea, ?Ek; reflexivity]).
  - apply N.eqb_eq in Ek. split; [discriminate|]. intros (a' & w' & Ha & Hw & Hk). congruence.
  - apply N.eqb_neq in Ek. split; [|reflexivity]. intros _. exists a, w. auto.
  - split; [discriminate|]. intros (a' & w' & Ha & Hw & _). congruence.
  - split; [discriminate|]. intros (a' & w' & Ha & _). discriminate.
Qed.


(* o is the latest checkpoint frame of L strictly below t: largest to_seq < t, then latest in the stream *)
Definition latest_below (L : list ck) (t : N) (o : option ck) : Prop :=
  match o with
  | None => forall k, In k L -> t <= ck_to k
  | Some b => In b L /\ ck_to b < t /\ forall k, In k L -> ck_to k < t -> not_better k b
  end.

Lemma best_le_latest_below L t : 1 < t -> latest_below L t (best_le L (t - 1)).
Proof.
  intros Ht. pose proof (best_le_spec L (t - 1)) as H. unfold latest_below.
  destruct (best_le L (t - 1)) as [b|]; cbn [BestInv] in H.
  - destruct H as [Hi [Hm Hb]]. split; [exact Hi|]. split; [lia|]. intros k Hk Hlt. apply Hb; [exact Hk | lia].
  - intros k Hk. specialize (H k Hk). lia.
Qed.

Lemma latest_below_rev L t o : latest_below (rev L) t o -> latest_below L t o.
Proof.
  unfold latest_below. destruct o as [b|].
  - intros [Hi [Hlt Hb]]. split; [apply in_rev; exact Hi|]. split; [exact Hlt|].
    intros k Hk. apply Hb. apply in_rev in Hk. exact Hk.
  - intros H k Hk. apply H. apply in_rev in Hk. exact Hk.
Qed.

Definition to_of (o : option ck) : N := match o with Some b => ck_to b | None => 0 end.

Lemma best_le_to L m : to_of (best_le L m) <= m.
Proof. pose proof (best_le_spec L m) as H. destruct (best_le L m); cbn [BestInv to_of] in *; lia. Qed.

(* The truth scan below bound t is best_le with bound t - 1.  Its state is (best, to_seq of best, seq of best), started
   at (None, 0, 0) and replaced on a strict improvement only: against the start state every frame improves, except one
   with to_seq 0 — the one place where the hypothesis is needed. *)
Definition truth_st (o : option ck) : option ck * N * N :=
  (o, to_of o, match o with Some b => ck_seq b | None => 0 end).
Definition truth_step (t : N) (acc : option ck * N * N) (c : ck) : option ck * N * N :=
  let '(best, bt, bs) := acc in
  if t <=? ck_to c then acc
  else if (bt <? ck_to c) || ((ck_to c =? bt) && (bs <? ck_seq c)) then (Some c, ck_to c, ck_seq c) else acc.

Lemma truth_step_best t o c : ck_to c <> 0 -> truth_step t (truth_st o) c = truth_st (best_step (t - 1) o c).
Proof.
  intros Hc. unfold truth_step, truth_st, best_step.
  replace (t - 1 <? ck_to c) with (t <=? ck_to c) by (apply eq_true_iff_eq; rewrite N.leb_le, N.ltb_lt; lia).
  destruct (t <=? ck_to c); [reflexivity|]. destruct o as [b|]; cbn [to_of].
  - unfold ck_better. destruct ((ck_to b <? ck_to c) || ((ck_to c =? ck_to b) && (ck_seq b <? ck_seq c))); reflexivity.
  - replace (0 <? ck_to c) with true by (symmetry; apply N.ltb_lt; lia). reflexivity.
Qed.

Lemma best_lt_truth_best L t :
  Forall (fun c => ck_to c <> 0) L -> best_lt_truth L t = (best_le L (t - 1), to_of (best_le L (t - 1))).
Proof.
  intros HL. unfold best_lt_truth, best_le.
  change (fold_left _ L (None, 0, 0)) with (fold_left (truth_step t) L (truth_st None)).
  change (fold_left _ L None) with (fold_left (best_step (t - 1)) L None).
  enough (E : forall o, fold_left (truth_step t) L (truth_st o) = truth_st (fold_left (best_step (t - 1)) L o))
    by (rewrite E; reflexivity).
  induction HL as [|c L Hc _ IH]; intros o; cbn [fold_left]; [reflexivity|].
  rewrite truth_step_best by exact Hc. apply IH.
Qed.

(* select_base, given that no checkpoint frame of the snapshot has to_seq 0: the base and its to_seq *)
Definition pick_base (within : bool) (ccur csnap : list ck) (t : N) : option ck :=
  if t <=? 1 then None
  else match (if within then best_le (rev ccur) (t - 1) else None) with
       | Some c => Some c
       | None => best_le csnap (t - 1)
       end.

Lemma select_base_pick K cur snap t :
  Forall (fun c => ck_to c <> 0) (ckpts snap) ->
  select_base K cur snap t
  = (pick_base (nlen (ckpts cur) <=? k_ck_window K) (ckpts cur) (ckpts snap) t,
     to_of (pick_base (nlen (ckpts cur) <=? k_ck_window K) (ckpts cur) (ckpts snap) t)).
Proof.
  intros H0. unfold select_base, pick_base, ck_lookup. destruct (t <=? 1); [reflexivity|].
  rewrite (best_lt_truth_best _ t H0).
  destruct (nlen (ckpts cur) <=? k_ck_window K); [destruct (best_le (rev (ckpts cur)) (t - 1))|]; reflexivity.
Qed.

Lemma pick_base_to_le w ccur csnap t : to_of (pick_base w ccur csnap t) <= t.
Proof.
  unfold pick_base. destruct (t <=? 1); [cbn; lia|].
  pose proof (best_le_to (rev ccur) (t - 1)). pose proof (best_le_to csnap (t - 1)).
  destruct w; [destruct (best_le (rev ccur) (t - 1))|]; cbn [to_of] in *; lia.
Qed.

(* which checkpoint frame is the base of the summary of the cut at to_seq t: the latest one below the cut (largest
   to_seq < t, then latest in the stream) of the CURRENT stream when the bounded sidecar scan answers and finds one,
   of the job's replay snapshot otherwise *)
Definition base_spec (K : consts) (cur snap : list ev) (t : N) (o : option ck) : Prop :=
  if t <=? 1 then o = None
  else if (nlen (ckpts cur) <=? k_ck_window K) && existsb (fun c => ck_to c <? t) (ckpts cur)
       then latest_below (ckpts cur) t o
       else latest_below (ckpts snap) t o.

Lemma latest_below_existsb L t o :
  latest_below L t o -> existsb (fun c => ck_to c <? t) L = match o with Some _ => true | None => false end.
Proof.
  destruct o as [b|]; cbn [latest_below].
  - intros [Hi [Hlt _]]. apply existsb_exists. exists b. split; [exact Hi | apply N.ltb_lt; exact Hlt].
  - intros H. apply not_true_is_false. intros E. apply existsb_exists in E. destruct E as [k [Hk Hlt]].
    apply N.ltb_lt in Hlt. specialize (H k Hk). lia.
Qed.

Theorem select_base_spec K cur snap t :
  Forall (fun c => ck_to c <> 0) (ckpts snap) ->
  base_spec K cur snap t (fst (select_base K cur snap t))
  /\ snd (select_base K cur snap t) = match fst (select_base K cur snap t) with Some b => ck_to b | None => 0 end.
Proof.
  intros H0. rewrite (select_base_pick K cur snap t H0). split; [|reflexivity]. cbn [fst]. unfold pick_base, base_spec.
  destruct (t <=? 1) eqn:Et; [reflexivity|]. apply N.leb_gt in Et.
  destruct (nlen (ckpts cur) <=? k_ck_window K); cbn [andb]; [|apply best_le_latest_below, Et].
  pose proof (latest_below_rev _ _ _ (best_le_latest_below (rev (ckpts cur)) t Et)) as Hb.
  rewrite (latest_below_existsb _ _ _ Hb).
  destruct (best_le (rev (ckpts cur)) (t - 1)); [exact Hb | apply best_le_latest_below, Et].
Qed.

Lemma select_base_to_le K cur snap t :
  Forall (fun c => ck_to c <> 0) (ckpts snap) -> snd (select_base K cur snap t) <= t.
Proof. intros H0. rewrite (select_base_pick K cur snap t H0). apply pick_base_to_le. Qed.

(* sorted message lists: upper_bound / firstn / skipn are filters *)

Lemma filter_above_all (ms : mfull) x :
  Forall (fun y => x < y) (map mseq ms) ->
  filter (fun m => mseq m <=? x) ms = [] /\ filter (fun m => x <? mseq m) ms = ms.
Proof.
  induction ms as [|a ms IH]; intros H; [split; reflexivity|]. cbn [map] in H.
  destruct (IH (Forall_inv_tail H)) as [I1 I2]. apply Forall_inv in H. cbn [filter].
  rewrite (proj2 (N.leb_gt _ _) H), (proj2 (N.ltb_lt _ _) H), I1, I2. split; reflexivity.
Qed.

Lemma sorted_split (ms : mfull) x :
  sorted_ms ms -> ms = filter (fun m => mseq m <=? x) ms ++ filter (fun m => x <? mseq m) ms.
Proof.
  unfold sorted_ms. induction ms as [|a ms IH]; intros Hs; [reflexivity|]. cbn [map] in Hs.
  apply StronglySorted_inv in Hs. destruct Hs as [Hs Ha]. cbn [filter].
  destruct (N.leb_spec (mseq a) x) as [E|E].
  - rewrite (proj2 (N.ltb_ge _ _) E). cbn [app]. f_equal. apply IH, Hs.
  - rewrite (proj2 (N.ltb_lt _ _) E). destruct (filter_above_all ms x) as [I1 I2]; [|rewrite I1, I2; reflexivity].
    eapply Forall_impl; [|exact Ha]. intros y. apply N.lt_trans, E.
Qed.

Lemma upper_bound_len (ms : mfull) x : upper_bound ms x = length (filter (fun m => mseq m <=? x) ms).
Proof. reflexivity. Qed.

Lemma firstn_ub (ms : mfull) x : sorted_ms ms -> firstn (upper_bound ms x) ms = filter (fun m => mseq m <=? x) ms.
Proof.
  intros Hs. rewrite upper_bound_len. rewrite (sorted_split ms x Hs) at 2.
  rewrite firstn_app, Nat.sub_diag, firstn_all. cbn [firstn]. apply app_nil_r.
Qed.
Lemma skipn_ub (ms : mfull) x : sorted_ms ms -> skipn (upper_bound ms x) ms = filter (fun m => x <? mseq m) ms.
Proof.
  intros Hs. rewrite upper_bound_len. rewrite (sorted_split ms x Hs) at 2.
  rewrite skipn_app, Nat.sub_diag, skipn_all. cbn [skipn app]. reflexivity.
Qed.

Lemma filter_filter_le (ms : mfull) x t :
  x <= t -> filter (fun m => mseq m <=? x) (filter (fun m => mseq m <=? t) ms) = filter (fun m => mseq m <=? x) ms.
Proof.
  intros Hxt. induction ms as [|a ms IH]; [reflexivity|]. cbn [filter].
  destruct (N.leb_spec (mseq a) t) as [Et|Et]; cbn [filter]; rewrite IH; [reflexivity|].
  rewrite (proj2 (N.leb_gt _ _) (N.le_lt_trans _ _ _ Hxt Et)). reflexivity.
Qed.

Lemma sorted_filter (ms : mfull) f : sorted_ms ms -> sorted_ms (filter f ms).
Proof.
  unfold sorted_ms. induction ms as [|a ms IH]; intros Hs; [constructor|]. cbn [map] in Hs.
  apply StronglySorted_inv in Hs. destruct Hs as [Hs Ha]. cbn [filter]. destruct (f a); [|apply IH, Hs].
  cbn [map]. constructor; [apply IH, Hs|]. rewrite Forall_map in *. exact (incl_Forall (incl_filter f ms) Ha).
Qed.

Lemma slice_filter (ms : mfull) lo t :
  sorted_ms ms -> lo <= t ->
  skipn (upper_bound ms lo) (firstn (upper_bound ms t) ms) = filter (fun m => (lo <? mseq m) && (mseq m <=? t)) ms.
Proof.
  intros Hs Hlt. rewrite (firstn_ub ms t Hs).
  replace (upper_bound ms lo) with (upper_bound (filter (fun m => mseq m <=? t) ms) lo)
    by (rewrite !upper_bound_len; f_equal; apply filter_filter_le, Hlt).
  rewrite skipn_ub by (apply sorted_filter, Hs).
  clear. induction ms as [|a ms IH]; [reflexivity|]. cbn [filter].
  destruct (mseq a <=? t); cbn [filter]; rewrite ?andb_true_r, ?andb_false_r; [|exact IH].
  destruct (lo <? mseq a); rewrite IH; reflexivity.
Qed.

(* the checkpoint frame chosen as base by the job that reads snapshot `snap` while the stream is `log s` *)
Definition base_ck (K : consts) (snap : list ev) (s : st) (p : plan) : option ck :=
  fst (select_base K (log s) snap (pl_seq p)).

Theorem summary_feeds K snap s p v :
  msorted snap -> Forall (fun c => ck_to c <> 0) (ckpts snap) ->
  cut_read K snap s p = Ok v ->
  base_spec K (log s) snap (pl_seq p) (base_ck K snap s p)
  /\ su_base v = option_map ck_art (base_ck K snap s p)
  /\ (su_base_used v = true <-> exists a w, su_base v = Some a /\ art_read s a = Some w /\ su_kind w <> 1)
  /\ su_note v = match su_base v with
                 | None => 0
                 | Some a => match art_read s a with Some w => if su_kind w =? 1 then 1 else 0 | None => 2 end
                 end
  /\ su_slice v = map snd (filter (fun m => ((if su_base_used v then match base_ck K snap s p with Some c => ck_to c | None => 0 end else 0) <? mseq m)
                                            && (mseq m <=? pl_seq p)) (msg_full snap))
  /\ su_to_seq v = pl_seq p /\ su_to_mid v = Some (pl_mid p).
Proof.
  intros Hs H0 Hr. unfold base_ck. destruct (select_base_spec K (log s) snap (pl_seq p) H0) as [Hspec Hto].
  split; [exact Hspec|].
  pose proof (select_base_to_le K (log s) snap (pl_seq p) H0) as Hle. rewrite Hto in Hle.
  rewrite cut_read_is_g in Hr. apply cut_read_g_ok in Hr. destruct Hr as [_ ->]. rewrite Hto.
  pose proof (basis_of_spec (art_read s) (fst (select_base K (log s) snap (pl_seq p)))) as Hb.
  destruct (basis_of (art_read s) (fst (select_base K (log s) snap (pl_seq p)))) as [[[base_id bootstrap] note] used].
  destruct Hb as [Hbase [Hboot [Hused Hnote]]].
  cbn [summ_of su_base su_base_used su_note su_slice su_to_seq su_to_mid].
  split; [exact Hbase|]. split; [exact Hused|]. split; [exact Hnote|]. split; [|split; reflexivity].
  subst bootstrap. rewrite slice_filter; [destruct used; reflexivity | exact Hs|].
  destruct used; [exact Hle | apply N.le_0_l].
Qed.

Theorem run_cut_writes_inputs K snap stride s p s2 c :
  run_cut K snap stride s p = Ok (s2, c) ->
  exists v, cut_read K snap s p = Ok v /\ arts s2 = arts s ++ [(cr_art c, v)] /\ art_read s2 (cr_art c) = Some v
            /\ cr_seq c = pl_seq p /\ cr_mid c = pl_mid p.
Proof.
  rewrite run_cut_split. destruct (cut_read K snap s p) as [v|e] eqn:Er; [|discriminate].
  unfold put_art. intros H. injection H as <- <-. exists v. split; [reflexivity|].
  cbn [cr_art cr_seq cr_mid]. unfold append. cbn [arts log]. split; [reflexivity|]. split; [|split; reflexivity].
  unfold art_read. cbn [arts]. rewrite art_get_app_fresh by (apply fresh_art_not_key).
  apply cut_read_covers in Er. destruct Er as [_ [_ [Hp _]]]. rewrite Hp. reflexivity.
Qed.

(* the frames that can feed the summary of the cut at to_seq t: messages up to the cut, checkpoint frames for
   earlier cuts (wherever they stand in the stream) *)
Definition relevant_frame (t : N) (e : ev) : bool :=
  match ebody e with
  | BMsg _ _ => eseq e <=? t
  | BCkpt _ _ to _ => to <? t
  | _ => false
  end.
Definition relevant (t : N) (l : list ev) : list ev := filter (relevant_frame t) l.

Lemma flat_map_filter {A B} (f : A -> list B) (p : A -> bool) (q : B -> bool) (l : list A) :
  (forall e, filter q (f e) = if p e then f e else []) -> flat_map f (filter p l) = filter q (flat_map f l).
Proof.
  intros H. induction l as [|e l IH]; [reflexivity|]. cbn [filter flat_map]. rewrite filter_app, H, <- IH.
  destruct (p e); reflexivity.
Qed.

Lemma ckpts_relevant t l : ckpts (relevant t l) = filter (fun c => ck_to c <? t) (ckpts l).
Proof.
  apply flat_map_filter. intros e. unfold relevant_frame.
  destruct (ebody e); cbn [filter ck_to]; [destruct (eseq e <=? t)| | | | |]; reflexivity.
Qed.

Lemma msg_full_relevant t l : msg_full (relevant t l) = filter (fun m => mseq m <=? t) (msg_full l).
Proof.
  apply flat_map_filter. intros e. unfold relevant_frame.
  destruct (ebody e); cbn [filter mseq fst]; [| destruct (to_seq <? t) | | | |]; reflexivity.
Qed.

Lemma best_fold_filter m L : forall acc,
  fold_left (best_step m) L acc = fold_left (best_step m) (filter (fun c => negb (m <? ck_to c)) L) acc.
Proof.
  induction L as [|c L IH]; intros acc; [reflexivity|]. cbn [fold_left filter].
  destruct (m <? ck_to c) eqn:E; cbn [negb fold_left].
  - unfold best_step at 2. rewrite E. apply IH.
  - apply IH.
Qed.

Lemma best_le_filter L t : 1 < t -> best_le L (t - 1) = best_le (filter (fun c => ck_to c <? t) L) (t - 1).
Proof.
  intros Ht. unfold best_le.
  change (fold_left (best_step (t - 1)) L None = fold_left (best_step (t - 1)) (filter (fun c => ck_to c <? t) L) None).
  rewrite best_fold_filter. f_equal. apply filter_ext. intros c. rewrite <- N.leb_antisym.
  apply eq_true_iff_eq. rewrite N.leb_le, N.ltb_lt. lia.
Qed.

Lemma pick_base_filter w ccur csnap t :
  pick_base w ccur csnap t
  = pick_base w (filter (fun c => ck_to c <? t) ccur) (filter (fun c => ck_to c <? t) csnap) t.
Proof.
  unfold pick_base. destruct (t <=? 1) eqn:Et; [reflexivity|]. apply N.leb_gt in Et.
  rewrite <- filter_rev, <- !best_le_filter by exact Et. reflexivity.
Qed.

Lemma cut_read_g_filter sb rd (ms : mfull) p x :
  sorted_ms ms -> In (pl_seq p, pl_mid p, x) ms -> snd sb <= pl_seq p ->
  cut_read_g sb rd ms p = cut_read_g sb rd (filter (fun m => mseq m <=? pl_seq p) ms) p.
Proof.
  intros Hs Hin Hle. unfold cut_read_g, summ_of. destruct (basis_of rd (fst sb)) as [[[base_id bootstrap] note] used].
  set (t := pl_seq p). set (below := filter (fun m => mseq m <=? t) ms).
  assert (Hub : forall y, y <= t -> upper_bound below y = upper_bound ms y).
  { intros y Hy. rewrite !upper_bound_len. f_equal. apply filter_filter_le, Hy. }
  rewrite !(Hub t (N.le_refl t)), Hub by (destruct bootstrap; [apply N.le_0_l | exact Hle]).
  rewrite (firstn_ub ms t Hs). fold below.
  change (upper_bound ms t) with (length below). rewrite firstn_all.
  replace (nth_error ms (length below - 1)) with (nth_error below (length below - 1)); [reflexivity|].
  rewrite (sorted_split ms t Hs) at 1. fold below. symmetry. apply nth_error_app1.
  assert (Hi : In (t, pl_mid p, x) below) by (apply filter_In; split; [exact Hin | apply N.leb_refl]).
  destruct below; [destruct Hi | cbn [length]; lia].
Qed.

(* the inputs are determined by the relevant part of the two streams the job reads (its snapshot, the current
   stream), by whether the bounded sidecar scan answers, and by the readable summaries *)
Theorem summary_inputs_local K snap snap' s s' p x :
  msorted snap -> msorted snap' ->
  Forall (fun c => ck_to c <> 0) (ckpts snap) -> Forall (fun c => ck_to c <> 0) (ckpts snap') ->
  In (pl_seq p, pl_mid p, x) (msg_full snap) ->
  relevant (pl_seq p) snap = relevant (pl_seq p) snap' ->
  relevant (pl_seq p) (log s) = relevant (pl_seq p) (log s') ->
  (nlen (ckpts (log s)) <=? k_ck_window K) = (nlen (ckpts (log s')) <=? k_ck_window K) ->
  (forall a, art_read s a = art_read s' a) ->
  cut_read K snap s p = cut_read K snap' s' p.
Proof.
  intros Hs Hs' H0 H0' Hin Hsnap Hcur Hw Hrd.
  assert (Hin' : In (pl_seq p, pl_mid p, x) (msg_full snap')).
  { assert (Hi : In (pl_seq p, pl_mid p, x) (filter (fun m => mseq m <=? pl_seq p) (msg_full snap))).
    { apply filter_In. split; [exact Hin|]. unfold mseq. cbn [fst]. apply N.leb_refl. }
    rewrite <- msg_full_relevant, Hsnap, msg_full_relevant in Hi. apply filter_In in Hi. apply Hi. }
  rewrite !cut_read_is_g.
  rewrite (cut_read_g_filter _ _ (msg_full snap) p x Hs Hin) by (apply select_base_to_le, H0).
  rewrite (cut_read_g_filter _ _ (msg_full snap') p x Hs' Hin') by (apply select_base_to_le, H0').
  rewrite <- !msg_full_relevant, Hsnap.
  rewrite (select_base_pick K _ snap _ H0), (select_base_pick K _ snap' _ H0'), Hw.
  rewrite (pick_base_filter _ (ckpts (log s))), (pick_base_filter _ (ckpts (log s'))).
  rewrite <- !ckpts_relevant, Hsnap, Hcur. unfold cut_read_g, summ_of, basis_of. cbn [fst].
  destruct (option_map ck_art _) as [a|]; [rewrite Hrd|]; reflexivity.
Qed.

(* in particular frames beyond the cut — later messages, checkpoints of this or later cuts, anything that is neither a
   message nor a checkpoint — feed nothing *)
Definition beyond (t : N) (e : ev) : Prop := relevant_frame t e = false.

Lemma relevant_app_beyond t l later : Forall (beyond t) later -> relevant t (l ++ later) = relevant t l.
Proof.
  intros H. unfold relevant. rewrite filter_app.
  assert (E : filter (relevant_frame t) later = []).
  { induction later as [|e later IH]; [reflexivity|]. inversion H as [|e' l' He Hl]; subst.
    cbn [filter]. rewrite He. apply IH, Hl. }
  rewrite E. apply app_nil_r.
Qed.

Lemma ckpts_beyond_nonzero t later : 0 < t -> Forall (beyond t) later -> Forall (fun c => ck_to c <> 0) (ckpts later).
Proof.
  intros Ht H. unfold ckpts. induction later as [|e later IH]; [constructor|]. inversion H as [|e' l' He Hl]; subst.
  cbn [flat_map]. unfold beyond, relevant_frame in He.
  destruct (ebody e); cbn [app]; try (apply IH, Hl).
  constructor; [|apply IH, Hl]. cbn [ck_to]. apply N.ltb_ge in He. lia.
Qed.

Theorem summary_ignores_frames_beyond_cut K snap s p x later later' arts' :
  msorted snap -> msorted (snap ++ later) ->
  Forall (fun c => ck_to c <> 0) (ckpts snap) ->
  In (pl_seq p, pl_mid p, x) (msg_full snap) -> pl_seq p <> 0 ->
  Forall (beyond (pl_seq p)) later -> Forall (beyond (pl_seq p)) later' ->
  (nlen (ckpts (log s)) <=? k_ck_window K) = (nlen (ckpts (log s ++ later')) <=? k_ck_window K) ->
  (forall a, art_read s a = art_read {| log := log s ++ later'; arts := arts' |} a) ->
  cut_read K (snap ++ later) {| log := log s ++ later'; arts := arts' |} p = cut_read K snap s p.
Proof.
  intros Hs Hs2 H0 Hin Hnz Hl Hl' Hw Hrd. symmetry.
  assert (Hpos : 0 < pl_seq p) by lia.
  apply (summary_inputs_local K snap (snap ++ later) s {| log := log s ++ later'; arts := arts' |} p x); try assumption.
  - rewrite ckpts_app. apply Forall_app. split; [exact H0 | apply (ckpts_beyond_nonzero (pl_seq p)); assumption].
  - rewrite relevant_app_beyond by exact Hl. reflexivity.
  - cbn [log]. rewrite relevant_app_beyond by exact Hl'. reflexivity.
Qed.

(* non-vacuity: 7 messages, stride 2, max_new 2 (demo7 of CompactionProofs)
   the job writes the summary of the 4th message from scratch (no earlier checkpoint: all four messages feed it) and
   the summary of the 6th on top of it (base = the artifact just written, only messages 5 and 6 feed it) *)
Definition demo7_after : st := fst (auto real_consts (Some 2) (Some 2) None demo7).
Definition demo7_cut4 : plan := {| pl_ord := 4; pl_seq := 5; pl_mid := 6 |}.
Definition demo7_later : list ev :=
  [{| eseq := 40; eid := 41; ebody := BMsg 3 9 |}; {| eseq := 41; eid := 42; ebody := BCkpt 0 7 5 (Some 6) |};
   {| eseq := 42; eid := 43; ebody := BOther |}].
Lemma demo7_summary_inputs :
  (msorted (log demo7) /\ Forall (fun c => ck_to c <> 0) (ckpts (log demo7))
   /\ In (pl_seq demo7_cut4, pl_mid demo7_cut4, (1, 4)) (msg_full (log demo7)))
  /\ map (fun kv => (fst kv, su_to_seq (snd kv), su_base (snd kv), su_base_used (snd kv), su_slice (snd kv))) (arts demo7_after)
     = [(1, 5, None, false, [(0, 1); (1, 2); (0, 3); (1, 4)]); (2, 7, Some 1, true, [(0, 5); (1, 6)])]
  /\ (Forall (beyond (pl_seq demo7_cut4)) demo7_later /\ msorted (log demo7 ++ demo7_later))
  /\ cut_read real_consts (log demo7 ++ demo7_later) {| log := log demo7 ++ demo7_later; arts := arts demo7 |} demo7_cut4
     = cut_read real_consts (log demo7) demo7 demo7_cut4.
Proof.
  split; [split; [apply valid_msgs_sorted, demo7_valid | split; [vm_compute; constructor | vm_compute; tauto]]|].
  split; [vm_compute; reflexivity|].
  split; [split; [vm_compute; repeat constructor | vm_compute; repeat constructor]|].
  vm_compute. reflexivity.
Qed.

(* the stream is not empty, no message has seq 0 and no checkpoint frame has to_seq 0 *)
Definition G (l : list ev) : Prop :=
  l <> [] /\ Forall (fun m => fst m <> 0) (msgs l) /\ Forall (fun c => ck_to c <> 0) (ckpts l).

Lemma next_seq_nonzero l : l <> [] -> next_seq l <> 0.
Proof.
  intros H. unfold next_seq. destruct (rev l) as [|e r] eqn:E; [|lia].
  apply (f_equal (@rev ev)) in E. rewrite rev_involutive in E. cbn in E. contradiction.
Qed.

Lemma G_frame_inv : frame_inv G.
Proof.
  intros l e [Hn [Hm Hc]] Es Hb. split; [|split].
  - intros E. apply app_eq_nil in E. destruct E as [_ E]. discriminate.
  - rewrite msgs_app. apply Forall_app. split; [exact Hm|]. unfold msgs. cbn [flat_map].
    destruct (ebody e); cbn [app]; try constructor; [|constructor]. cbn [fst]. rewrite Es. apply next_seq_nonzero, Hn.
  - rewrite ckpts_app. apply Forall_app. split; [exact Hc|]. unfold ckpts. cbn [flat_map].
    destruct (ebody e) eqn:Eb; cbn [app]; try constructor; [|constructor]. cbn [ck_to].
    specialize (Hb _ _ _ _ eq_refl). apply in_map_iff in Hb. destruct Hb as [m [<- Hin]].
    rewrite Forall_forall in Hm. apply (Hm m Hin).
Qed.

Lemma G_same_log s s' : log s' = log s -> G (log s) -> G (log s').
Proof. intros ->. auto. Qed.

Lemma G_put_art s v : G (log s) -> G (log (fst (put_art s v))).
Proof. intros H. exact H. Qed.

Lemma G_st0 : G (log st0).
Proof. split; [discriminate|]. split; constructor. Qed.

Theorem reachable_ck_nonzero K ops :
  Forall (fun c => ck_to c <> 0) (ckpts (log (fst (run_ops K st0 ops [])))).
Proof. apply (run_ops_inv G K G_frame_inv ops st0 [] G_st0). Qed.

(* the hypotheses of the summary theorems hold in every state the modelled operations reach from a fresh thread *)
Theorem reachable_summary_hyps K ops :
  msorted (log (fst (run_ops K st0 ops [])))
  /\ Forall (fun c => ck_to c <> 0) (ckpts (log (fst (run_ops K st0 ops [])))).
Proof.
  split; [|apply reachable_ck_nonzero].
  apply valid_msgs_sorted. apply (reachable_valid K ops st0 []). apply valid_st0.
Qed.

Definition count_actor (a : N) (sl : list (N * N)) : N := nlen (filter (fun m => fst m =? a) sl).

Definition hget (a : N) (h : list (N * N)) : N :=
  match find (fun p => fst p =? a) h with Some p => snd p | None => 0 end.

Lemma bump_get a b h : hget b (bump a h) = if b =? a then hget b h + 1 else hget b h.
Proof.
  unfold hget. induction h as [|[x c] h IH]; cbn [bump find fst snd].
  - destruct (b =? a) eqn:E.
    + apply N.eqb_eq in E. subst b. rewrite N.eqb_refl. reflexivity.
    + rewrite (N.eqb_sym a b), E. reflexivity.
  - destruct (x =? a) eqn:Exa; cbn [find fst snd].
    + apply N.eqb_eq in Exa. subst x. destruct (b =? a) eqn:E.
      * apply N.eqb_eq in E. subst b. rewrite N.eqb_refl. reflexivity.
      * rewrite (N.eqb_sym a b), E. reflexivity.
    + destruct (x =? b) eqn:Exb.
      * apply N.eqb_eq in Exb. subst x. rewrite Exa. reflexivity.
      * exact IH.
Qed.

Lemma bump_key_in a h x : In x (map fst (bump a h)) -> x = a \/ In x (map fst h).
Proof.
  induction h as [|[b c] h IH]; cbn [bump map fst In]; [intros [<-|[]]; left; reflexivity|].
  destruct (b =? a); cbn [map fst In]; tauto.
Qed.

Lemma bump_nodup a h : NoDup (map fst h) -> NoDup (map fst (bump a h)).
Proof.
  induction h as [|[b c] h IH]; cbn [bump map fst]; intros Hn; [constructor; [intros []|constructor]|].
  destruct (b =? a) eqn:E; [exact Hn|]. cbn [map fst]. inversion Hn as [|y l Hb Hn']; subst. constructor; [|apply IH, Hn'].
  intros H. apply bump_key_in in H. destruct H as [->|H]; [rewrite N.eqb_refl in E; discriminate | exact (Hb H)].
Qed.

Lemma bump_pos a h : Forall (fun p => 0 < snd p) h -> Forall (fun p => 0 < snd p) (bump a h).
Proof.
  induction h as [|[x c] h IH]; intros H; cbn [bump]; [constructor; [reflexivity | constructor]|].
  pose proof (Forall_inv H) as Hc. apply Forall_inv_tail in H.
  destruct (x =? a); constructor; [apply N.add_pos_l, Hc | exact H | exact Hc | apply IH, H].
Qed.

Definition HistInv (sl : list (N * N)) (h : list (N * N)) : Prop :=
  NoDup (map fst h) /\ Forall (fun p => 0 < snd p) h /\ forall a, hget a h = count_actor a sl.

Lemma histo_fold_inv : forall sl done h, HistInv done h -> HistInv (done ++ sl) (fold_left (fun h m => bump (fst m) h) sl h).
Proof.
  induction sl as [|m sl IH]; intros done h H; cbn [fold_left]; [rewrite app_nil_r; exact H|].
  replace (done ++ m :: sl) with ((done ++ [m]) ++ sl) by (rewrite <- app_assoc; reflexivity).
  apply IH. destruct H as [Hn [Hp Hg]]. split; [apply bump_nodup, Hn|]. split; [apply bump_pos, Hp|].
  intros a. rewrite bump_get, Hg. unfold count_actor, nlen. rewrite filter_app, app_length. cbn [filter].
  destruct (fst m =? a) eqn:E.
  - apply N.eqb_eq in E. subst a. rewrite N.eqb_refl. cbn [length]. lia.
  - rewrite (N.eqb_sym a (fst m)), E. cbn [length]. lia.
Qed.

(* the histogram: one entry per actor that wrote a message of the delta, with the number of its messages *)
Theorem histo_spec sl : HistInv sl (histo sl).
Proof.
  apply (histo_fold_inv sl [] []). split; [constructor|]. split; [constructor|]. intros a. reflexivity.
Qed.

(* most frequent first, ties by actor *)
Definition hist_le (x y : N * N) : Prop := snd y < snd x \/ (snd x = snd y /\ fst x <= fst y).
Lemma hist_leb_spec x y : if hist_leb x y then hist_le x y else hist_le y x.
Proof.
  unfold hist_leb, hist_le. destruct (N.ltb_spec (snd y) (snd x)); cbn [orb]; [left; assumption|].
  destruct (N.eqb_spec (snd x) (snd y)); cbn [andb]; [|left; lia].
  destruct (N.leb_spec (fst x) (fst y)); right; split; [assumption | assumption | symmetry; assumption | lia].
Qed.
Lemma hist_le_trans x y z : hist_le x y -> hist_le y z -> hist_le x z.
Proof. unfold hist_le. lia. Qed.

Lemma hist_sort_perm l : Permutation (hist_sort l) l.
Proof. apply (isort_perm hist_leb). Qed.
Lemma hist_sort_sorted l : StronglySorted hist_le (hist_sort l).
Proof. apply (isort_sorted hist_leb hist_le hist_leb_spec hist_le_trans). Qed.

(* `- delta_actors:` of the model: the first 6 of the per-actor counts of the slice, most frequent first, ties by actor;
   every entry (a, c) says that exactly c > 0 messages of the slice were written by a *)
Theorem delta_actors_spec sl :
  exists rest, Permutation (delta_actors sl ++ rest) (histo sl)
  /\ StronglySorted hist_le (delta_actors sl ++ rest)
  /\ (length (delta_actors sl) <= k_actors_shown)%nat
  /\ (rest <> [] -> length (delta_actors sl) = k_actors_shown)
  /\ forall a c, In (a, c) (delta_actors sl) -> c = count_actor a sl /\ 0 < c.
Proof.
  unfold delta_actors. exists (skipn k_actors_shown (hist_sort (histo sl))). rewrite firstn_skipn.
  split; [apply hist_sort_perm|]. split; [apply hist_sort_sorted|]. split; [apply firstn_le_length|]. split.
  - intros Hr. rewrite firstn_length. apply Nat.min_l. destruct (le_lt_dec k_actors_shown (length (hist_sort (histo sl)))) as [H|H]; [exact H|].
    exfalso. apply Hr. apply skipn_all2. lia.
  - intros a c Hin. assert (Hi : In (a, c) (histo sl)).
    { apply (Permutation_in _ (hist_sort_perm (histo sl))). eapply In_firstn, Hin. }
    destruct (histo_spec sl) as [Hn [Hp Hg]]. split.
    + rewrite <- Hg. unfold hget.
      assert (Hf : forall h, NoDup (map fst h) -> In (a, c) h -> find (fun p => fst p =? a) h = Some (a, c)).
      { induction h as [|[x d] h IH]; intros Hnd Hx; [destruct Hx|]. cbn [find fst]. inversion Hnd as [|y l Hx' Hnd']; subst.
        destruct Hx as [E|Hx].
        - injection E as -> ->. rewrite N.eqb_refl. reflexivity.
        - destruct (x =? a) eqn:E; [|apply IH; assumption]. apply N.eqb_eq in E. subst x. exfalso. apply Hx'.
          apply in_map_iff. exists (a, c). split; [reflexivity | exact Hx]. }
      rewrite (Hf _ Hn Hi). reflexivity.
    + rewrite Forall_forall in Hp. apply (Hp (a, c) Hi).
Qed.

(* `## Recent Delta Highlights` of the model: the last 12 messages of the slice, in order *)
Theorem delta_highlights_spec sl :
  exists pre, sl = pre ++ delta_highlights sl
  /\ (nlen (delta_highlights sl) <= k_highlights) /\ (pre <> [] -> nlen (delta_highlights sl) = k_highlights).
Proof.
  unfold delta_highlights, lastn. destruct (nlen sl <=? k_highlights) eqn:E.
  - apply N.leb_le in E. exists []. split; [reflexivity|]. split; [exact E|]. intros H. contradiction.
  - apply N.leb_gt in E. exists (firstn (length sl - N.to_nat k_highlights) sl). rewrite firstn_skipn.
    split; [reflexivity|]. unfold nlen in *. rewrite skipn_length. split; [lia|]. intros _. lia.
Qed.

Lemma art_get_app_keep a m extra v : art_get a m = Some v -> art_get a (m ++ extra) = Some v.
Proof. apply art_get_app_some. Qed.

Lemma art_read_grow s s' extra a v : arts s' = arts s ++ extra -> art_read s a = Some v -> art_read s' a = Some v.
Proof.
  unfold art_read. intros ->. destruct (art_get a (arts s)) as [w|] eqn:E; [|discriminate].
  rewrite (art_get_app_keep _ _ extra _ E). exact (fun H => H).
Qed.

(* artifacts are only ever added by the loop: what a cut wrote is still readable at the end *)
Lemma run_cuts_keeps K snap stride a v : forall ps s acc s' made err,
  run_cuts K snap stride s ps acc = (s', made, err) -> art_read s a = Some v -> art_read s' a = Some v.
Proof.
  induction ps as [|p ps IH]; intros s acc s' made err H Ha; cbn [run_cuts] in H; [injection H as <- _ _; exact Ha|].
  destruct (run_cut K snap stride s p) as [[s2 c]|e] eqn:E; [|injection H as <- _ _; exact Ha].
  apply (IH _ _ _ _ _ H). destruct (run_cut_writes_inputs _ _ _ _ _ _ _ E) as [w [_ [Hs2 _]]].
  exact (art_read_grow _ _ _ _ _ Hs2 Ha).
Qed.

(* the created list names, cut by cut, a readable summary equal to the value read for that cut *)
Inductive fed_at (K : consts) (snap : list ev) (final : st) : list (list ev) -> list plan -> list created -> Prop :=
| fa_nil : fed_at K snap final [] [] []
| fa_cons cur curs p ps c made v s :
    log s = cur -> cut_read K snap s p = Ok v -> art_read final (cr_art c) = Some v ->
    cr_seq c = pl_seq p -> cr_mid c = pl_mid p ->
    fed_at K snap final curs ps made -> fed_at K snap final (cur :: curs) (p :: ps) (c :: made).

Lemma run_cuts_fed_at K snap stride final : forall ps s acc s' made,
  run_cuts K snap stride s ps acc = (s', made, None) ->
  (forall a v, art_read s' a = Some v -> art_read final a = Some v) ->
  exists new curs, made = acc ++ new /\ fed_at K snap final curs ps new /\ length curs = length ps
                   /\ match curs with [] => True | cur :: _ => cur = log s end.
Proof.
  induction ps as [|p ps IH]; intros s acc s' made H Hfin; cbn [run_cuts] in H.
  - injection H as <- <-. exists [], []. rewrite app_nil_r. repeat split. constructor.
  - destruct (run_cut K snap stride s p) as [[s2 c]|e] eqn:E; [|discriminate].
    destruct (IH _ _ _ _ H Hfin) as [new [curs [-> [Hfa [Hlen _]]]]].
    destruct (run_cut_writes_inputs _ _ _ _ _ _ _ E) as [v [Hr [_ [Hrd [Hs Hm]]]]].
    exists (c :: new), (log s :: curs). rewrite <- app_assoc. cbn [length]. rewrite Hlen. repeat split.
    apply (fa_cons _ _ _ _ _ _ _ _ _ v s); try assumption; [reflexivity|].
    apply Hfin. exact (run_cuts_keeps _ _ _ _ _ _ _ _ _ _ _ H Hrd).
Qed.

(* compaction_auto_v1, completed: with s1 = `append s (BJobSpawned …)`, the stream right after job_spawned (the job's
   replay snapshot), the result lists, in ascending to_seq order of the plan, one created checkpoint per planned cut whose summary is readable at
   the end and equals cut_read of that cut on (snapshot s1, the stream at that moment); the first cut reads s1 itself *)
Theorem auto_summaries_fed K ostride omax odry s s' r :
  auto K ostride omax odry s = (s', Ok r) -> ar_status r = 2 ->
  exists j curs,
    ar_job r = Some j
    /\ fed_at K (log (append s (BJobSpawned j (ar_planned r) (ar_stride r)))) s' curs (plan_sort (ar_planned r)) (ar_result r)
    /\ length curs = length (plan_sort (ar_planned r))
    /\ match curs with [] => True | cur :: _ => cur = log (append s (BJobSpawned j (ar_planned r) (ar_stride r))) end.
Proof.
  unfold auto. destruct (opt_or ostride (k_default_stride K) =? 0); [discriminate|].
  set (stride := opt_or ostride (k_default_stride K)).
  set (maxnew := clamp (k_maxnew_lo K) (k_maxnew_hi K) (opt_or omax 1)).
  unfold auto_spawn. destruct (plan_cuts K stride maxnew (log s)) as [|p0 pr] eqn:Ep.
  - cbn [ar_job]. intros H. injection H as <- <-. cbn [ar_status]. discriminate.
  - destruct (opt_orb odry false).
    + cbn [ar_job]. intros H. injection H as <- <-. cbn [ar_status]. discriminate.
    + cbn [ar_job ar_planned ar_count]. unfold run_job.
      set (s1 := append s (BJobSpawned (fresh_job (log s)) (p0 :: pr) stride)).
      destruct (run_cuts K (log s1) stride s1 (plan_sort (p0 :: pr)) []) as [[sx made] err] eqn:Er.
      intros H. injection H as <- <-. cbn [ar_status ar_job ar_planned ar_stride ar_result].
      destruct err as [e|]; [discriminate|]. intros _.
      exists (fresh_job (log s)).
      destruct (run_cuts_fed_at K (log s1) stride (append sx (BJobEnded (fresh_job (log s)) 0 made)) _ _ _ _ _ Er (fun a v H => H))
        as [new [curs [-> [Hfa [Hl Hh]]]]].
      exists curs. split; [reflexivity|]. split; [exact Hfa|]. split; [exact Hl | exact Hh].
Qed.

Lemma demo7_auto_completed :
  exists r, auto real_consts (Some 2) (Some 2) None demo7 = (demo7_after, Ok r) /\ ar_status r = 2
            /\ map cr_seq (ar_result r) = [5; 7].
Proof. vm_compute. eexists. split; [reflexivity|]. split; reflexivity. Qed.

Definition is_prefix {A} (a b : list A) : Prop := exists r, b = a ++ r.
Lemma prefix_refl {A} (a : list A) : is_prefix a a.
Proof. exists []. rewrite app_nil_r. reflexivity. Qed.
Lemma prefix_trans {A} (a b c : list A) : is_prefix a b -> is_prefix b c -> is_prefix a c.
Proof. intros [r ->] [q ->]. exists (r ++ q). rewrite app_assoc. reflexivity. Qed.
Lemma prefix_app {A} (a b : list A) : is_prefix a (a ++ b).
Proof. exists b. reflexivity. Qed.

(* v was read for cut p by a job whose snapshot is `snap`, at a moment `cur` of the race: snap is a prefix of that
   moment's stream, which is a prefix of stream l *)
Definition read_at (K : consts) (l : list ev) (snap : list ev) (p : plan) (v : summ) : Prop :=
  exists cur, is_prefix snap (log cur) /\ is_prefix (log cur) l /\ cut_read K snap cur p = Ok v.

Lemma read_at_mono K l fr snap p v : read_at K l snap p v -> read_at K (l ++ fr) snap p v.
Proof.
  intros [cur [H1 [H2 H3]]]. exists cur. split; [exact H1|]. split; [|exact H3].
  eapply prefix_trans; [exact H2 | apply prefix_app].
Qed.

(* what a job remembers of its reads: its snapshot is a prefix of the stream, and the summary it is about to write was
   read from that snapshot at some moment of the race *)
Definition actor_reads (K : consts) (l : list ev) (a : astate) : Prop :=
  match a with
  | ACut _ _ snap _ _ => is_prefix snap l
  | AWrite _ _ snap p v _ _ => is_prefix snap l /\ read_at K l snap p v
  | _ => True
  end.

Lemma actor_reads_mono K l fr a : actor_reads K l a -> actor_reads K (l ++ fr) a.
Proof.
  destruct a; cbn [actor_reads]; auto.
  - intros H. eapply prefix_trans; [exact H | apply prefix_app].
  - intros [H1 H2]. split; [eapply prefix_trans; [exact H1 | apply prefix_app] | apply read_at_mono, H2].
Qed.

(* the checkpoint frames of `new` reference readable summaries that were read that way *)
Definition fed_ckpts (K : consts) (s : st) (new : list ev) : Prop :=
  forall e r a ts tm, In e new -> ebody e = BCkpt r a ts (Some tm) ->
    exists snap p v, art_read s a = Some v /\ read_at K (log s) snap p v /\ pl_seq p = ts /\ pl_mid p = tm.

Lemma actor_reads_next K s a : actor_reads K (log s) a -> actor_reads K (log (fst (astep K s a))) (snd (astep K s a)).
Proof.
  intros Ha. destruct a; unfold astep; cbn [astep_gen]; try exact I.
  - (* AStart *) destruct (c_sched c); [destruct (plan_cuts K (c_stride c) (c_maxnew c) (log s))|]; exact I.
  - (* ACheck *) destruct (if c_block c then find_inflight K (log s) else None); exact I.
  - (* APlan *) destruct (plan_cuts K (c_stride c) (c_maxnew c) (log s)); exact I.
  - (* ASpawn *) destruct (c_sched c); exact I.
  - (* ADecide *) destruct (c_exec c); exact I.
  - (* ASnap *) apply prefix_refl.
  - (* ACut *) cbn [actor_reads] in Ha. destruct todo as [|p rest]; [exact I|]. destruct (cut_read K snap s p) as [v|e] eqn:E; [|exact I].
    split; [exact Ha|]. exists s. split; [exact Ha|]. split; [apply prefix_refl | exact E].
  - (* AWrite *) destruct Ha as [Hpre _]. cbv beta iota zeta delta [put_art]. cbn [fst snd append log actor_reads].
    eapply prefix_trans; [exact Hpre | apply prefix_app].
  - (* AMsgStart *) destruct ms; exact I.
  - (* AMsgs *) destruct ms as [|[ac co] rest]; [exact I|]. destruct rest; exact I.
Qed.

(* appending a frame, after possibly storing artifacts: the old frames keep what they reference, the new one needs its own *)
Lemma fed_ckpts_append K s0 s s1 b new :
  (forall a v, art_read s a = Some v -> art_read s1 a = Some v) -> log s1 = log s -> log s = log s0 ++ new ->
  fed_ckpts K s new ->
  (forall r x ts tm, b = BCkpt r x ts (Some tm) ->
     exists snap p v, art_read s1 x = Some v /\ read_at K (log s) snap p v /\ pl_seq p = ts /\ pl_mid p = tm) ->
  exists new', log (append s1 b) = log s0 ++ new' /\ fed_ckpts K (append s1 b) new'.
Proof.
  intros Ha Hl1 Hl Hg Hb. eexists. split; [unfold append; cbn [log]; rewrite Hl1, Hl, <- app_assoc; reflexivity|].
  assert (Hgrow : forall snap p v, read_at K (log s) snap p v -> read_at K (log (append s1 b)) snap p v).
  { intros snap p v H. unfold append. cbn [log]. rewrite Hl1. apply read_at_mono, H. }
  intros e r x ts tm Hin He. apply in_app_or in Hin. destruct Hin as [Hin|[<-|[]]].
  - destruct (Hg e r x ts tm Hin He) as (snap & p & v & Hr & Hat & H12). exists snap, p, v.
    split; [apply Ha, Hr|]. split; [apply Hgrow, Hat | exact H12].
  - destruct (Hb r x ts tm He) as (snap & p & v & Hr & Hat & H12). exists snap, p, v.
    split; [exact Hr|]. split; [apply Hgrow, Hat | exact H12].
Qed.

(* G (no checkpoint frame with to_seq 0, see above) rides along: the write step keeps it because the to_seq it appends
   is the seq of a message of the job's snapshot, which only `actor_reads` knows *)
Definition fed_ok (K : consts) (s0 s : st) (acts : list astate) : Prop :=
  Forall (actor_reads K (log s)) acts /\ (G (log s0) -> G (log s)) /\ exists new, log s = log s0 ++ new /\ fed_ckpts K s new.

Lemma fed_ok_step K s0 s pre a post :
  fed_ok K s0 s (pre ++ a :: post) -> fed_ok K s0 (fst (astep K s a)) (pre ++ snd (astep K s a) :: post).
Proof.
  intros [Hf [HG [new [Hl Hg]]]]. pose proof (Forall_inv (proj2 (proj1 (Forall_app _ _ _) Hf))) as Ha.
  split; [apply (Forall_astep (actor_reads K)); [apply actor_reads_mono | exact Hf | apply actor_reads_next, Ha]|].
  assert (Hquiet : forall b, (forall r x t m, b <> BCkpt r x t m) ->
            (G (log s0) -> G (log (append s b)))
            /\ exists new', log (append s b) = log s0 ++ new' /\ fed_ckpts K (append s b) new').
  { intros b Hb. split; [intros H0; apply inv_append; [apply G_frame_inv | auto|]; intros r x t m E; destruct (Hb _ _ _ _ E)|].
    apply (fed_ckpts_append K s0 s s b new (fun a v H => H) eq_refl Hl Hg). intros r x ts tm E. destruct (Hb _ _ _ _ E). }
  destruct (astep_kind K s a) as [-> _ | b Hb -> _ | p0 st -> _ _ | c j snap p v rest made -> -> _ | c j stt m err _ -> _].
  - split; [exact HG | exists new; auto].
  - apply Hquiet. intros r x t m ->. exact Hb.
  - apply Hquiet. discriminate.
  - (* the one step that appends a checkpoint frame: for a message of the snapshot, a prefix of the stream *)
    destruct Ha as [[q Hq] Hat]. pose proof Hat as [cur [_ [_ Hr]]].
    set (s1 := {| log := log s; arts := arts s ++ [(fresh_art s, v)] |}). split.
    + intros H0. apply (inv_append G s1); [apply G_frame_inv | apply HG, H0|]. intros r x t m [= _ _ <- _].
      destruct (cut_read_in _ _ _ _ _ Hr) as [y Hy]. apply (in_map fst _ (pl_seq p, pl_mid p)).
      unfold s1. cbn [log]. rewrite <- msgs_of_full, Hq, msg_full_app. apply (in_map fst _ (pl_seq p, pl_mid p, y)), in_or_app. left. exact Hy.
    + apply (fed_ckpts_append K s0 s s1 _ new); [|reflexivity | exact Hl | exact Hg|].
      * intros a w. apply (art_read_grow s s1 [(fresh_art s, v)]). reflexivity.
      * intros r x ts tm [= _ <- <- <-]. exists snap, p, v. split; [|split; [exact Hat | split; reflexivity]].
        apply cut_read_covers in Hr. destruct Hr as [_ [_ [H3 _]]].
        unfold art_read, s1. cbn [arts]. rewrite art_get_app_fresh by (apply fresh_art_not_key). rewrite H3. reflexivity.
  - apply Hquiet. discriminate.
Qed.

Lemma fed_ok_start K s calls : fed_ok K s s (map start_of calls).
Proof.
  split; [|split; [auto|]].
  - apply Forall_start; intros; exact I.
  - exists []. rewrite app_nil_r. split; [reflexivity|]. intros e r a ts tm [].
Qed.

(* every interleaving of calls and message appenders: every checkpoint frame appended during the race references a
   readable summary that is `cut_read K snap cur p` for the frame's cut p = (to_seq, to_message_id), the snapshot `snap`
   of the job that wrote it and a moment `cur` of the race (snap a prefix of cur's stream, that a prefix of the final one) *)
Theorem concurrent_summaries_fed K s calls s' acts' :
  sys_steps K (s, map start_of calls) (s', acts') ->
  exists new, log s' = log s ++ new /\ fed_ckpts K s' new.
Proof. intros H. apply (sys_steps_inv K (fed_ok K s) (fun x => fed_ok_step K s x) _ _ H), fed_ok_start. Qed.

(* in particular it is readable and covers the frame's cut *)
Theorem concurrent_ckpts_covered K s calls s' acts' :
  sys_steps K (s, map start_of calls) (s', acts') ->
  exists new, log s' = log s ++ new /\ good_ckpts s' new.
Proof.
  intros H. destruct (concurrent_summaries_fed K s calls s' acts' H) as [new [Hl Hf]]. exists new. split; [exact Hl|].
  intros e r a ts tm Hin Hb. destruct (Hf e r a ts tm Hin Hb) as (snap & p & v & Hr & [cur [_ [_ Hc]]] & <- & <-).
  exists v. split; [exact Hr|]. apply cut_read_covers in Hc. destruct Hc as [H1 [H2 _]]. auto.
Qed.

(* any interleaving of concurrent calls and message appenders, started after any modelled operations on a fresh
   thread: still no checkpoint frame with to_seq 0, message seqs still sorted *)
Theorem concurrent_summary_hyps K ops calls s' acts' :
  sys_steps K (fst (run_ops K st0 ops []), map start_of calls) (s', acts') ->
  msorted (log s') /\ Forall (fun c => ck_to c <> 0) (ckpts (log s')).
Proof.
  intros H. split.
  - apply valid_msgs_sorted. apply (valid_steps K _ _ H). cbn [fst]. apply (reachable_valid K ops st0 []), valid_st0.
  - destruct (sys_steps_inv K (fed_ok K _) (fun x => fed_ok_step K _ x) _ _ H (fed_ok_start K _ calls)) as [_ [HG _]]. apply HG, (run_ops_inv G K G_frame_inv ops st0 [] G_st0).
Qed.

(* the hypotheses of c09_summary_feeds pass to prefixes *)
Lemma prefix_summary_hyps (a b : list ev) :
  is_prefix a b -> valid b -> Forall (fun c => ck_to c <> 0) (ckpts b) ->
  msorted a /\ Forall (fun c => ck_to c <> 0) (ckpts a).
Proof.
  intros [r ->] Hv Hc. split.
  - apply valid_msgs_sorted. unfold valid in *. rewrite map_app in Hv.
    clear Hc. induction (map eseq a) as [|x l IH]; [constructor|]. cbn [app] in Hv. inversion Hv as [|y l' Hs Hx]; subst.
    constructor; [apply IH, Hs|]. apply Forall_app in Hx. apply Hx.
  - rewrite ckpts_app in Hc. apply Forall_app in Hc. apply Hc.
Qed.

(* capstone: from any state the modelled operations reach on a fresh thread, through any interleaving: every checkpoint
   frame appended during the race references a readable summary v = cut_read K snap cur p with p the frame's cut, and
   (snap, cur) meet the hypotheses of c09_summary_feeds — so v's base, note, slice and coverage are what that theorem says *)
Theorem concurrent_summary_feeds K ops calls s' acts' :
  sys_steps K (fst (run_ops K st0 ops []), map start_of calls) (s', acts') ->
  exists new, log s' = log (fst (run_ops K st0 ops [])) ++ new
    /\ forall e r a ts tm, In e new -> ebody e = BCkpt r a ts (Some tm) ->
       exists snap cur p v,
         art_read s' a = Some v /\ cut_read K snap cur p = Ok v /\ pl_seq p = ts /\ pl_mid p = tm
         /\ is_prefix snap (log cur) /\ is_prefix (log cur) (log s')
         /\ msorted snap /\ Forall (fun c => ck_to c <> 0) (ckpts snap).
Proof.
  intros H. destruct (concurrent_summaries_fed K _ calls s' acts' H) as [new [Hl Hf]].
  destruct (concurrent_summary_hyps K ops calls s' acts' H) as [_ Hck].
  assert (Hv : valid (log s')).
  { apply (valid_steps K _ _ H). cbn [fst]. apply (reachable_valid K ops st0 []), valid_st0. }
  exists new. split; [exact Hl|]. intros e r a ts tm Hin Hb.
  destruct (Hf e r a ts tm Hin Hb) as [snap [p [v [Hr [[cur [H1 [H2 H3]]] [Hs Hm]]]]]].
  exists snap, cur, p, v. split; [exact Hr|]. split; [exact H3|]. split; [exact Hs|]. split; [exact Hm|].
  split; [exact H1|]. split; [exact H2|].
  apply (prefix_summary_hyps snap (log s')); [eapply prefix_trans; eassumption | exact Hv | exact Hck].
Qed.

(* non-vacuity: the race of CompactionProofs (two schedule calls, both checkpoint cut 2) is such an interleaving *)
Lemma race_is_interleaving :
  sys_steps real_consts (fst (run_ops real_consts st0 [OMsg 0 1; OMsg 1 2] []), map start_of [SCall race_call; SCall race_call])
            (run_sched real_consts race_state [AStart race_call; AStart race_call] [0; 1; 0; 1; 0; 0; 0; 0; 1; 1; 1; 1])
  /\ map ck_to (ckpts (log race_end)) = [2; 2].
Proof. split; [apply (run_sched_steps real_consts _ race_state) | vm_compute; reflexivity]. Qed.

(* observed (faithful, not a violation): beyond the scan window the job's later cuts use the snapshot
   3 checkpoint frames for cut 2 and a scan window of 2 frames (small_window; 10 000 in the code): the bounded look-up
   refuses, the base of every planned cut comes from the job's replay snapshot, which does not hold the checkpoint the
   job has just written for cut 4 — the summary of cut 6 is built on the summary of cut 2 out of messages 3..6 (it still
   covers the thread up to its cut exactly once).  Inside the window it is built on the summary of cut 4 out of 5, 6. *)
Definition quirk_manual (q : N) : op :=
  OManual {| mr_md := Some 0; mr_art := None; mr_to_mid := None; mr_to_seq := Some q; mr_stride := None |}.
Definition quirk_ops : list op :=
  [OMsg 0 1; OMsg 1 2; quirk_manual 2; quirk_manual 2; quirk_manual 2; OMsg 0 3; OMsg 1 4; OMsg 0 5; OMsg 1 6].
Definition summ_view (s : st) : list (N * N * option N * bool * list (N * N)) :=
  map (fun kv => (fst kv, su_to_seq (snd kv), su_base (snd kv), su_base_used (snd kv), su_slice (snd kv))) (arts s).
Lemma beyond_window_observed :
  skipn 3 (summ_view (fst (auto small_window (Some 2) (Some 2) None (fst (run_ops small_window st0 quirk_ops [])))))
  = [(4, 7, Some 3, true, [(0, 3); (1, 4)]); (5, 9, Some 3, true, [(0, 3); (1, 4); (0, 5); (1, 6)])]
  /\ skipn 3 (summ_view (fst (auto real_consts (Some 2) (Some 2) None (fst (run_ops real_consts st0 quirk_ops [])))))
     = [(4, 7, Some 3, true, [(0, 3); (1, 4)]); (5, 9, Some 4, true, [(0, 5); (1, 6)])].
Proof. split; vm_compute; reflexivity. Qed.
