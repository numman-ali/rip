(* C04 — termination of the tail-doubling driver (Model/TailLoop.v), for arbitrary constants,
   arbitrary scan results and arbitrary accumulators. *)
From RipV Require Import Base.Prelude Model.TailLoop.

(* the parts of the generated obligation that the proofs use; its two bounds, 0 < l_max_events and
   l_initial <= l_max_bytes, are needed by none *)
Lemma loop_wf_parts c : loop_wf c = true ->
  l_cap_break c = true /\ l_clears c = true /\ l_incomplete_fallback c = true /\ 0 < l_initial c.
Proof.
  unfold loop_wf. intros H. repeat (apply andb_prop in H; destruct H as [H ?]).
  apply N.ltb_lt in H. auto.
Qed.

Section Term.
  Context {E A : Type}.
  Variable c : cfg.
  Variable scan : N -> N -> sres E.
  Variable acc0 : A.
  Variable examine : A -> list E -> A.
  Variable done : A -> bool.

  Notation step := (loop_step c scan acc0 examine done).
  Notation it := (iter c scan acc0 examine done).

  Lemma step_inl_tb st st' :
    l_cap_break c = true -> step st = inl st' ->
    s_tb st < l_max_bytes c /\ s_tb st' = N.min (s_tb st * 2) (l_max_bytes c).
  Proof.
    intros Hc. unfold loop_step.
    destruct ((l_max_bytes c <? s_tb st) || done (s_acc st)) eqn:E0; [discriminate|].
    destruct (scan (l_max_events c) (s_tb st)) as [| |evs cpl]; try discriminate.
    destruct cpl; [discriminate|]. rewrite Hc. cbn [andb].
    destruct (l_max_bytes c <=? s_tb st) eqn:E1; [discriminate|].
    intros H; inversion H; subst st'; cbn [s_tb]. split; [lia | reflexivity].
  Qed.

  (* a window that n doublings take to the cap leaves within S n rounds *)
  Lemma iter_terminates_aux :
    l_cap_break c = true ->
    forall n st, l_max_bytes c <= s_tb st * 2 ^ N.of_nat n -> exists fin, it (S n) st = Some fin.
  Proof.
    intros Hc. induction n as [|n IH]; intros st Hn; cbn [iter].
    all: destruct (step st) as [st'|fin] eqn:Es; [|eauto].
    all: destruct (step_inl_tb _ _ Hc Es) as [Hlt Htb].
    - (* the window is at the cap already: the step does not go round *)
      cbn in Hn. lia.
    - apply IH. rewrite Htb. rewrite Nat2N.inj_succ, N.pow_succ_r' in Hn.
      pose proof (N.pow_nonzero 2 (N.of_nat n)).
      destruct (N.min_spec (s_tb st * 2) (l_max_bytes c)) as [[_ ->]|[_ ->]]; nia.
  Qed.

  Lemma doublings_reach_cap tb :
    0 < tb -> l_max_bytes c <= tb * 2 ^ (N.log2_up (l_max_bytes c) - N.log2 tb).
  Proof.
    intros Hp. destruct (N.eq_0_gt_0_cases (l_max_bytes c)) as [E0|Hm]; [rewrite E0 at 1; apply N.le_0_l|].
    pose proof (N.log2_log2_up_spec _ Hm) as [_ Hup]. pose proof (N.log2_spec _ Hp) as [Hlo _].
    etransitivity; [exact Hup|]. etransitivity; [|apply N.mul_le_mono_r; exact Hlo].
    rewrite <- N.pow_add_r. apply N.pow_le_mono_r; lia.
  Qed.

  (* every start state with a positive window leaves the loop within rounds_bound rounds *)
  Theorem loop_terminates :
    l_cap_break c = true ->
    forall st, 0 < s_tb st ->
    exists n fin, (n <= rounds_bound c (s_tb st))%nat /\ it n st = Some fin.
  Proof.
    intros Hc st Hp.
    destruct (iter_terminates_aux Hc (N.to_nat (N.log2_up (l_max_bytes c) - N.log2 (s_tb st))) st) as [fin Hf].
    - rewrite N2Nat.id. exact (doublings_reach_cap _ Hp).
    - exists (rounds_bound c (s_tb st)), fin. split; [apply le_n | exact Hf].
  Qed.

  (* more fuel never changes the outcome *)
  Lemma iter_mono n st fin : it n st = Some fin -> forall m, (n <= m)%nat -> it m st = Some fin.
  Proof.
    revert st; induction n as [|n IH]; intros st H m Hm; [discriminate|].
    destruct m as [|m]; [lia|]. cbn [iter] in *.
    destruct (step st) as [st'|f]; [apply IH; [exact H | lia] | exact H].
  Qed.

  Theorem run_loop_some :
    l_cap_break c = true -> 0 < l_initial c ->
    exists fin, run_loop c scan acc0 examine done = Some fin.
  Proof.
    intros Hc Hp. destruct (loop_terminates Hc (l_init c acc0) Hp) as (n & fin & Hn & Hf).
    exists fin. exact (iter_mono n _ _ Hf _ Hn).
  Qed.

  Lemma iter_inl st st' : step st = inl st' -> (forall fuel, it fuel st' = None) -> forall fuel, it fuel st = None.
  Proof. intros H Hn [|fuel]; cbn [iter]; [reflexivity|]. rewrite H. apply Hn. Qed.

  (* a fixpoint of the step function is a loop that never ends *)
  Lemma fixpoint_never_exits st : step st = inl st -> forall fuel, it fuel st = None.
  Proof. intros H fuel; induction fuel as [|f IH]; cbn [iter]; [reflexivity|]. rewrite H. exact IH. Qed.
End Term.

(* Without the cap break the step function has a fixpoint (S1): window at the cap, scan incomplete, nothing
   found.  262144 / 8388608 / 10000 are the source's INITIAL_TAIL_BYTES / MAX_TAIL_BYTES / MAX_TAIL_EVENTS. *)
Definition s1_cfg : cfg :=
  {| l_initial := 262144; l_max_bytes := 8388608; l_max_events := 10000;
     l_cap_break := false; l_clears := true; l_incomplete_fallback := true |}.
Definition s1_scan : N -> N -> sres N := fun _ _ => STail [] false.
Definition s1_state : lstate (option N) :=
  {| s_tb := 8388608; s_acc := None; s_scanned := true; s_complete := false |}.
Definition s1_examine (a : option N) (evs : list N) : option N :=
  match a with Some _ => a | None => hd_error (rev evs) end.
Definition s1_done (a : option N) : bool := match a with Some _ => true | None => false end.

Lemma s1_fixpoint : loop_step s1_cfg s1_scan None s1_examine s1_done s1_state = inl s1_state.
Proof. vm_compute. reflexivity. Qed.

Lemma s1_reachable :
  iter s1_cfg s1_scan None s1_examine s1_done 5 (l_init s1_cfg None) = None
  /\ exists k st, (k = 5)%nat /\ loop_step s1_cfg s1_scan None s1_examine s1_done st = inl s1_state.
Proof.
  split; [vm_compute; reflexivity|].
  exists 5%nat, {| s_tb := 4194304; s_acc := None; s_scanned := true; s_complete := false |}.
  split; [reflexivity | vm_compute; reflexivity].
Qed.

Theorem status_diverges_unfixed :
  exists (c : cfg) (scan : N -> N -> sres N) (st : lstate (option N)),
    l_cap_break c = false /\ 0 < l_initial c /\
    (forall fuel, iter c scan None s1_examine s1_done fuel st = None) /\
    (forall fuel, iter c scan None s1_examine s1_done fuel (l_init c None) = None).
Proof.
  exists s1_cfg, s1_scan, s1_state. split; [reflexivity|]. split; [vm_compute; reflexivity|].
  pose proof (fixpoint_never_exits s1_cfg s1_scan None s1_examine s1_done s1_state s1_fixpoint) as Hfix.
  split; [exact Hfix|].
  (* five doublings lead from the initial window to the fixpoint *)
  do 5 (eapply iter_inl; [reflexivity|]). exact Hfix.
Qed.

(* the same constants with the cap break, on the same never-complete scan: the loop leaves in the 6th round and
   not in the 5th, so rounds_bound is met and is tight *)
Definition s1_cfg_fixed : cfg :=
  {| l_initial := 262144; l_max_bytes := 8388608; l_max_events := 10000;
     l_cap_break := true; l_clears := true; l_incomplete_fallback := true |}.
Lemma fixed_demo :
  loop_wf s1_cfg_fixed = true /\
  rounds_bound s1_cfg_fixed (l_initial s1_cfg_fixed) = 6%nat /\
  iter s1_cfg_fixed s1_scan None s1_examine s1_done 5 (l_init s1_cfg_fixed None) = None /\
  option_map (@s_tb _) (iter s1_cfg_fixed s1_scan None s1_examine s1_done 6 (l_init s1_cfg_fixed None))
    = Some 8388608.
Proof. vm_compute. repeat split; reflexivity. Qed.
