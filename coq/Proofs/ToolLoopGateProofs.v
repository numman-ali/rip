(* C16 — the send gate decides by the validator's verdict alone (Model/ToolLoopGate.v). *)
From Coq Require Import Strings.String Strings.Ascii Lia.
From RipV Require Import Base.Prelude Base.Json Base.Utf8 Model.ToolLoop Model.ToolLoopGate Proofs.ToolLoopProofs.

Lemma filter_map_total_length {A B} (f : A -> option B) (l : list A) :
  (forall x, f x <> None) -> length (filter_map f l) = length l.
Proof.
  intros Ht. induction l as [|x r IH]; cbn [filter_map length]; [reflexivity|].
  destruct (f x) eqn:E; [cbn [length]; now rewrite IH | now elim (Ht x)].
Qed.

Lemma filter_map_keep (l : list str) : filter_map POST_KEEP l = l.
Proof. induction l as [|x r IH]; cbn [filter_map POST_KEEP]; [reflexivity | now rewrite IH]. Qed.

(* a post-processing that never drops a message: as many errors as the validator reported *)
Lemma payload_errors_count post verrs :
  (forall m, post m <> None) -> length (payload_errors post verrs) = length verrs.
Proof. intros Ht. unfold payload_errors. now apply filter_map_total_length. Qed.

Lemma gate_open_total post verrs :
  (forall m, post m <> None) -> gate_open post verrs = is_nil verrs.
Proof.
  intros Ht. unfold gate_open. pose proof (payload_errors_count post verrs Ht) as Hl.
  destruct (payload_errors post verrs), verrs; cbn [length is_nil] in *; try reflexivity; discriminate.
Qed.

Lemma shape_total s post : shape_never_drops s = true -> shape_admits s post -> forall m, post m <> None.
Proof.
  destruct s; cbn [shape_never_drops shape_admits]; intros Hs Ha m; try discriminate.
  - rewrite Ha. discriminate.
  - apply Ha.
Qed.

(* the gate is the validator's verdict, for every shape T1 accepts *)
Lemma gate_is_verdict s post verrs :
  shape_never_drops s = true -> shape_admits s post ->
  gate_open post verrs = is_nil verrs /\ length (payload_errors post verrs) = length verrs.
Proof.
  intros Hs Ha. pose proof (shape_total s post Hs Ha) as Ht. split.
  - now apply gate_open_total.
  - now apply payload_errors_count.
Qed.

(* ... hence independent of the messages themselves (their lengths, what they quote): only their number counts,
   and only whether it is zero *)
Lemma gate_ignores_messages s post verrs verrs' :
  shape_never_drops s = true -> shape_admits s post ->
  (verrs = [] <-> verrs' = []) -> gate_open post verrs = gate_open post verrs'.
Proof.
  intros Hs Ha Hn. pose proof (shape_total s post Hs Ha) as Ht.
  rewrite !gate_open_total by assumption.
  destruct verrs, verrs'; cbn [is_nil]; try reflexivity.
  - destruct Hn as [Hn _]. specialize (Hn eq_refl). discriminate.
  - destruct Hn as [_ Hn]. specialize (Hn eq_refl). discriminate.
Qed.

Lemma gate_keep verrs : gate_open POST_KEEP verrs = is_nil verrs /\ payload_errors POST_KEEP verrs = verrs.
Proof.
  split.
  - apply gate_open_total. intros m. unfold POST_KEEP. discriminate.
  - apply filter_map_keep.
Qed.

Lemma post_keep_admitted : shape_admits POST_SHAPE POST_KEEP /\ shape_never_drops POST_SHAPE = true.
Proof. split; [intros m; reflexivity | reflexivity]. Qed.

Lemma is_nil_true {A} (l : list A) : is_nil l = true <-> l = [].
Proof. destruct l; cbn [is_nil]; split; intros H; try reflexivity; discriminate. Qed.
Lemma is_nil_false {A} (l : list A) : is_nil l = false <-> l <> [].
Proof. destruct l; cbn [is_nil]; split; intros H; try discriminate; try reflexivity; now elim H. Qed.

(* the loop with the gate spelled out: every request that is sent had NO validator message; a request with a message
   is refused and ends the run — whatever the messages are *)
Lemma invalid_never_sent_by_errors s post verrs g tool prompt init script :
  shape_never_drops s = true -> shape_admits s post ->
  (forall i q, nth_error (sent (run g (valid_by post verrs) tool prompt init script)) i = Some q ->
     verrs (N.of_nat i) q = []) /\
  (forall q, res_rejected (run g (valid_by post verrs) tool prompt init script) = Some q ->
     res_reason (run g (valid_by post verrs) tool prompt init script) = InvalidRequest /\
     verrs (nlen (sent (run g (valid_by post verrs) tool prompt init script))) q <> []).
Proof.
  intros Hs Ha. pose proof (shape_total s post Hs Ha) as Ht.
  destruct (invalid_never_sent g (valid_by post verrs) tool prompt init script) as [H1 H2]. split.
  - intros i q Hq. specialize (H1 i q Hq). unfold valid_by in H1.
    rewrite gate_open_total in H1 by assumption. now apply is_nil_true.
  - intros q Hq. destruct (H2 q Hq) as [Hr Hv]. split; [assumption|]. unfold valid_by in Hv.
    rewrite gate_open_total in Hv by assumption. now apply is_nil_false.
Qed.

Lemma clip_floor_total n m : clip_floor n m <> None.
Proof. unfold clip_floor. destruct (blen m <=? n); discriminate. Qed.

Lemma cp_len_pos c : 1 <= cp_len c.
Proof.
  unfold cp_len, encode_cp, nlen.
  destruct (c <? 128); [cbn; lia|]. destruct (c <? 2048); [cbn; lia|]. destruct (c <? 65536); cbn; lia.
Qed.

(* floor_to m n, the part of a message clip_floor keeps before the ellipsis: at most n bytes, a prefix of m *)
Lemma floor_to_bound m : forall n, blen (floor_to m n) <= n.
Proof.
  induction m as [|c r IH]; intros n; cbn [floor_to blen]; [lia|].
  destruct (cp_len c <=? n) eqn:E; cbn [blen]; [|lia].
  apply N.leb_le in E. specialize (IH (n - cp_len c)). lia.
Qed.
Lemma floor_to_prefix m : forall n, exists t, m = floor_to m n ++ t.
Proof.
  induction m as [|c r IH]; intros n; cbn [floor_to]; [now exists []|].
  destruct (cp_len c <=? n); [|now exists (c :: r)].
  destruct (IH (n - cp_len c)) as [t Ht]. exists t. cbn [app]. now rewrite <- Ht.
Qed.

(* the 2049-byte message: `get(..2048)` answers None (byte 2048 is inside the last character), `get(..2047)` does not *)
Lemma msg_2049_shape : blen MSG_2049 = 2049 /\ get_to MSG_2049 2048 = None /\ get_to MSG_2049 2047 <> None.
Proof.
  split; [vm_compute; reflexivity|]. split; [vm_compute; reflexivity|].
  (* only whether a prefix comes back is evaluated, not the 1024 characters of it *)
  assert (H : match get_to MSG_2049 2047 with Some _ => true | None => false end = true) by (vm_compute; reflexivity).
  intros E. rewrite E in H. discriminate H.
Qed.

Lemma clip_get_drops : clip_get 2048 MSG_2049 = None.
Proof. destruct msg_2049_shape as (Hb & Hg & _). unfold clip_get. rewrite Hb, Hg. reflexivity. Qed.

Lemma gate_clip_get : gate_open (clip_get 2048) [MSG_2049] = true.
Proof. unfold gate_open, payload_errors. cbn [filter_map]. rewrite clip_get_drops. reflexivity. Qed.

Lemma gate_clip_floor n m verrs : gate_open (clip_floor n) (m :: verrs) = false.
Proof. rewrite gate_open_total by apply clip_floor_total. reflexivity. Qed.

(* clipping with `get(..n)?` under filter_map opens the gate for an invalid request *)
Lemma clip_get_gate_refuted :
  exists verrs, verrs <> [] /\ gate_open (clip_get 2048) verrs = true /\ gate_open (clip_floor 2048) verrs = false.
Proof. exists [MSG_2049]. split; [discriminate|]. split; [exact gate_clip_get | apply gate_clip_floor]. Qed.

(* ... and the loop then SENDS a request the validator has a message for *)
Definition clip_cfg : cfg := {| g_stateless := false; g_choice := JStr (lit "auto"); g_followup := None; g_fixed := true |}.
Definition clip_verrs : N -> request -> list str := fun _ _ => [MSG_2049].
Definition clip_run (post : str -> option str) : result :=
  run clip_cfg (valid_by post clip_verrs) (fun _ _ => lit "o") (lit "p") None [].

(* a stateful run for which nothing is scripted: the prompt is sent, or refused *)
Lemma run_no_script g valid tool prompt :
  g_stateless g = false ->
  run g valid tool prompt None []
  = let q := mkreq 0 None (InText prompt) in
    if valid 0 q then mkres [mkiter q [] []] None ProviderError else mkres [] (Some q) InvalidRequest.
Proof.
  intros Hst. unfold run, lst0. cbn [loop s_count build s_follow s_init s_idx]. rewrite Hst.
  destruct (valid 0 _); reflexivity.
Qed.

Lemma clip_get_sends_invalid_refuted :
  exists q, nth_error (sent (clip_run (clip_get 2048))) 0 = Some q /\ clip_verrs 0 q <> [] /\
            res_rejected (clip_run (clip_get 2048)) = None /\
            sent (clip_run (clip_floor 2048)) = [] /\ res_reason (clip_run (clip_floor 2048)) = InvalidRequest.
Proof.
  unfold clip_run. rewrite !run_no_script by reflexivity. unfold valid_by, clip_verrs. cbv zeta.
  rewrite gate_clip_get, gate_clip_floor. eexists. split; [reflexivity|]. split; [discriminate|].
  repeat split; reflexivity.
Qed.

(* example: three messages of very different lengths; the gate stays shut when they are kept and when they are
   clipped at a character boundary *)
Lemma ex_gate_long_and_short :
  gate_open POST_KEEP [MSG_2049; lit "x"; []] = false /\ gate_open (clip_floor 2048) [MSG_2049; lit "x"; []] = false /\
  gate_open POST_KEEP [] = true.
Proof.
  rewrite gate_clip_floor. repeat split; reflexivity.
Qed.
