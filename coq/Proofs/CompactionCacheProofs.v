(* C09 x C04 — the cut points of Model/Compaction.v (C09: planner, theorems c09_cut_points_exact / c09_checkpointed_iff)
   are the truth answer of Model/Cache.v (C04), hence — under C04's faithfulness hypotheses on the sidecars and the
   ordinal index — the answer of C04's model of the cached route (`cut_points_ord`: message count and ordinal look-ups
   through the ordinal index, checkpoint look-up through the `.comp` sidecar, every fallback).
   `abs_log` forgets what C04 does not look at (ids, authors, summaries)
   and what C09 does not look at (line lengths: every frame gets length 1, job / decision / run frames become BOther —
   the cut-point query inspects none of them). *)
From RipV Require Import Base.Prelude Model.Compaction Proofs.CompactionProofs.
From RipV Require Model.Cache Proofs.CacheProofs.
From Coq Require Import Sorting.Sorted.

(* every checkpoint frame of C09 is a cumulative one: the flag of C04's BCheckpoint *)
Definition abs_body (b : body) : Cache.fbody :=
  match b with
  | BMsg _ _ => Cache.BMessage
  | BCkpt _ _ t _ => Cache.BCheckpoint true t
  | _ => Cache.BOther
  end.
Definition abs_ev (e : ev) : Cache.frame :=
  {| Cache.fseq := eseq e; Cache.flen := 1; Cache.fb := abs_body (ebody e) |}.
Definition abs_log (l : list ev) : Cache.log := map abs_ev l.

Lemma abs_lens_pos l : CacheProofs.log_lens_pos (abs_log l) = true.
Proof. unfold CacheProofs.log_lens_pos, abs_log. induction l as [|e l IH]; [reflexivity|]. cbn. exact IH. Qed.

(* a message of C09 as a frame of C04 *)
Definition mabs (m : N * N) : Cache.frame := {| Cache.fseq := fst m; Cache.flen := 1; Cache.fb := Cache.BMessage |}.

Lemma messages_abs l : Cache.messages (abs_log l) = map mabs (msgs l).
Proof.
  unfold Cache.messages, abs_log, msgs. induction l as [|e l IH]; [reflexivity|].
  cbn [map filter flat_map]. unfold Cache.is_message at 1. unfold abs_ev at 1. cbn [Cache.fb].
  destruct (ebody e) eqn:Eb; cbn [abs_body app map]; try exact IH.
  rewrite IH. unfold abs_ev, mabs. rewrite Eb. reflexivity.
Qed.

Lemma nlen_messages_abs l : nlen (Cache.messages (abs_log l)) = nlen (msgs l).
Proof. rewrite messages_abs. unfold nlen. rewrite map_length. reflexivity. Qed.

(* the simulation relation of the two scans: the best frame so far has the same to_seq and the same frame seq *)
Definition Rck (o : option ck) (o' : option Cache.frame) : Prop :=
  match o, o' with
  | None, None => True
  | Some c, Some f => Cache.ck_to_seq f = ck_to c /\ Cache.fseq f = ck_seq c
  | _, _ => False
  end.

Lemma sim_fold s : forall l acc acc', Rck acc acc' ->
  Rck (fold_left (best_step s) (ckpts l) acc) (Cache.latest_ckpt s acc' (abs_log l)).
Proof.
  induction l as [|e l IH]; intros acc acc' HR; [exact HR|].
  unfold ckpts, abs_log in *. cbn [flat_map map Cache.latest_ckpt].
  unfold Cache.is_checkpoint at 1. unfold abs_ev at 1 2. cbn [Cache.fb].
  destruct (ebody e) eqn:Eb; cbn [abs_body app andb]; try (apply IH; exact HR).
  cbn [fold_left]. unfold Cache.ck_to_seq at 1. cbn [Cache.fb]. unfold best_step at 2. cbn [ck_to].
  destruct (s <? to_seq) eqn:E1.
  - apply N.ltb_lt in E1. destruct (to_seq <=? s) eqn:E2; [apply N.leb_le in E2; lia|]. apply IH. exact HR.
  - apply N.ltb_ge in E1. destruct (to_seq <=? s) eqn:E2; [|apply N.leb_gt in E2; lia].
    assert (Ht : Cache.ck_to_seq (abs_ev e) = to_seq).
    { unfold Cache.ck_to_seq, abs_ev. cbn [Cache.fb]. rewrite Eb. reflexivity. }
    apply IH. destruct acc as [b|], acc' as [f|]; cbn [Rck] in HR; try contradiction.
    + destruct HR as [H1 H2].
      assert (Eq : Cache.ck_better (abs_ev e) f
                   = ck_better {| ck_to := to_seq; ck_seq := eseq e; ck_id := eid e; ck_art := art; ck_rule := rule; ck_mid := to_mid |} b).
      { unfold Cache.ck_better, ck_better. rewrite Ht, H1, H2. cbn [ck_to ck_seq abs_ev Cache.fseq]. reflexivity. }
      rewrite Eq. destruct (ck_better _ b); cbn [Rck].
      * split; [exact Ht | reflexivity].
      * split; assumption.
    + cbn [Rck]. split; [exact Ht | reflexivity].
Qed.

Lemma ckpts_rev l : ckpts (rev l) = rev (ckpts l).
Proof.
  induction l as [|e l IH]; [reflexivity|]. cbn [rev]. rewrite ckpts_app, IH.
  change (e :: l) with ([e] ++ l). rewrite (ckpts_app [e] l), rev_app_distr.
  f_equal. unfold ckpts. cbn [flat_map]. rewrite app_nil_r. destruct (ebody e); reflexivity.
Qed.

Lemma lookup_sim K l s :
  Cache.valid_log (abs_log l) = true -> Rck (cut_lookup K l s) (Cache.latest_ckpt s None (abs_log l)).
Proof.
  intros Hv. unfold cut_lookup, ck_lookup. destruct (nlen (ckpts l) <=? k_ck_window K).
  - rewrite <- ckpts_rev.
    rewrite <- (CacheProofs.latest_ckpt_rev s (abs_log l) None (CacheProofs.valid_seq_inj _ Hv)).
    unfold abs_log. rewrite <- map_rev. apply (sim_fold s (rev l) None None). exact I.
  - apply (sim_fold s l None None). exact I.
Qed.

(* C04 names the latest checkpoint by the seq of its frame, C09 by its id: both are projections of the same frame,
   `cut_lookup K l (cp_seq c)` (c09_checkpointed_latest_wins) *)
Definition to_c04 (K : consts) (l : list ev) (c : cutpt) : Cache.cutpoint :=
  {| Cache.cp_ordinal := cp_ord c; Cache.cp_to_seq := cp_seq c; Cache.cp_already := cp_done c;
     Cache.cp_latest := if cp_done c then option_map ck_seq (cut_lookup K l (cp_seq c)) else None |}.

Lemma cut_point_at_bridge K l ord :
  ord <> 0 -> Cache.valid_log (abs_log l) = true ->
  match Cache.cut_point_at (abs_log l) ord with Some cp => [cp] | None => [] end
  = map (to_c04 K l) (cut_point_at K l ord).
Proof.
  intros Ho Hv. unfold Cache.cut_point_at, cut_point_at. rewrite messages_abs, nth_error_map.
  destruct (ord =? 0) eqn:E0; [apply N.eqb_eq in E0; contradiction|]. cbn [orb].
  destruct (nth_error (msgs l) (N.to_nat (ord - 1))) as [[s id]|] eqn:En; cbn [option_map].
  - assert (Hlt : (nlen (msgs l) <? ord) = false).
    { apply N.ltb_ge. assert (H : (N.to_nat (ord - 1) < length (msgs l))%nat) by (apply nth_error_Some; rewrite En; discriminate).
      unfold nlen. lia. }
    rewrite Hlt. cbn [map]. f_equal.
    change (match ck_lookup K (ckpts l) s with Some b => b | None => best_le (ckpts l) s end) with (cut_lookup K l s).
    pose proof (lookup_sim K l s Hv) as HR. unfold to_c04, mk_cut. cbn [cp_ord cp_seq cp_done cp_ck mabs Cache.fseq fst].
    destruct (cut_lookup K l s) as [b|], (Cache.latest_ckpt s None (abs_log l)) as [f|]; cbn [Rck] in HR; try contradiction.
    + destruct HR as [H1 H2]. rewrite H1. destruct (ck_to b =? s); cbn [option_map]; [rewrite H2|]; reflexivity.
    + reflexivity.
  - destruct (nlen (msgs l) <? ord); reflexivity.
Qed.

Lemma cut_ords_zero n stride : cut_ords n 0 stride = [].
Proof. destruct n; reflexivity. Qed.

Lemma loop_bridge K l stride latest :
  Cache.valid_log (abs_log l) = true -> forall n i,
  Cache.cut_points_from (abs_log l) stride latest i n
  = map (to_c04 K l) (flat_map (cut_point_at K l) (cut_ords n (latest - i * stride) stride)).
Proof.
  intros Hv. induction n as [|n IH]; intros i; [reflexivity|].
  cbn [Cache.cut_points_from cut_ords].
  destruct (latest - i * stride =? 0) eqn:E0; [reflexivity|]. apply N.eqb_neq in E0.
  cbn [flat_map]. rewrite map_app, <- (cut_point_at_bridge K l _ E0 Hv).
  replace (latest - i * stride - stride) with (latest - (i + 1) * stride) by lia.
  rewrite <- IH. destruct (Cache.cut_point_at (abs_log l) (latest - i * stride)); reflexivity.
Qed.

(* 1 and 32 are the bounds Cache.clamp_limit hard-wires *)
Theorem cut_points_truth_bridge K l stride lim :
  k_limit_lo K = 1 -> k_limit_hi K = 32 -> Cache.valid_log (abs_log l) = true ->
  Cache.cut_points_truth (abs_log l) stride lim = (nlen (msgs l), map (to_c04 K l) (cut_points K stride lim l)).
Proof.
  intros Hlo Hhi Hv. unfold Cache.cut_points_truth, cut_points. rewrite nlen_messages_abs. f_equal.
  assert (Ec : Cache.clamp_limit lim = clamp (k_limit_lo K) (k_limit_hi K) lim).
  { unfold Cache.clamp_limit, clamp. rewrite Hlo, Hhi. reflexivity. }
  destruct (nlen (msgs l) / stride * stride =? 0) eqn:E0.
  - apply N.eqb_eq in E0. rewrite E0, cut_ords_zero. reflexivity.
  - rewrite (loop_bridge K l stride _ Hv), Ec. rewrite N.mul_0_l, N.sub_0_r. reflexivity.
Qed.

(* under C04's hypotheses the cached route of C04's model returns C09's cut points *)
Theorem fast_path_is_planner K l stride lim me mb comp full ord known :
  k_limit_lo K = 1 -> k_limit_hi K = 32 ->
  Cache.valid_log (abs_log l) = true ->
  CacheProofs.FullFaithful (abs_log l) full -> CacheProofs.CompFaithful (abs_log l) comp full ->
  CacheProofs.OrdFaithful (abs_log l) ord ->
  Cache.cut_points_ord me mb comp full (abs_log l) ord known stride lim
  = (nlen (msgs l), map (to_c04 K l) (cut_points K stride lim l)).
Proof.
  intros Hlo Hhi Hv Hff Hcf Hof.
  rewrite (CacheProofs.cut_points_ord_eq_truth me mb comp full (abs_log l) ord known stride lim Hv (abs_lens_pos l) Hff Hcf Hof).
  apply cut_points_truth_bridge; assumption.
Qed.

(* … so they are exactly the k*stride-th messages (c09_cut_points_exact carried to the cached route) … *)
Theorem fast_path_exact K l stride lim me mb comp full ord known :
  k_limit_lo K = 1 -> k_limit_hi K = 32 -> stride <> 0 ->
  Cache.valid_log (abs_log l) = true ->
  CacheProofs.FullFaithful (abs_log l) full -> CacheProofs.CompFaithful (abs_log l) comp full ->
  CacheProofs.OrdFaithful (abs_log l) ord ->
  fst (Cache.cut_points_ord me mb comp full (abs_log l) ord known stride lim) = nlen (msgs l)
  /\ map (fun c => (Cache.cp_ordinal c, Some (Cache.cp_to_seq c)))
         (snd (Cache.cut_points_ord me mb comp full (abs_log l) ord known stride lim))
     = map (fun k => (k * stride, option_map fst (nth_error (msgs l) (N.to_nat (k * stride - 1)))))
           (ks (limit_of K lim) (nlen (msgs l) / stride)).
Proof.
  intros Hlo Hhi Hs Hv Hff Hcf Hof.
  rewrite (fast_path_is_planner K l stride lim me mb comp full ord known Hlo Hhi Hv Hff Hcf Hof).
  cbn [fst snd]. split; [reflexivity|].
  pose proof (cut_points_exact K stride lim l Hs) as He.
  apply (f_equal (map (fun x : N * option (N * N) => (fst x, option_map fst (snd x))))) in He.
  rewrite !map_map in He. cbn [fst snd option_map] in He.
  rewrite map_map. unfold to_c04. cbn [Cache.cp_ordinal Cache.cp_to_seq]. exact He.
Qed.

(* … and a cut point of the cached route counts as checkpointed exactly when a checkpoint frame for that seq exists
   (c09_checkpointed_iff carried to the cached route) *)
Theorem fast_path_checkpointed_iff K l stride lim me mb comp full ord known c' :
  k_limit_lo K = 1 -> k_limit_hi K = 32 ->
  Cache.valid_log (abs_log l) = true ->
  CacheProofs.FullFaithful (abs_log l) full -> CacheProofs.CompFaithful (abs_log l) comp full ->
  CacheProofs.OrdFaithful (abs_log l) ord ->
  In c' (snd (Cache.cut_points_ord me mb comp full (abs_log l) ord known stride lim)) ->
  (Cache.cp_already c' = true <-> exists e r a m, In e l /\ ebody e = BCkpt r a (Cache.cp_to_seq c') m)
  /\ (forall q, Cache.cp_latest c' = Some q <->
        exists b, latest_for (ckpts l) (Cache.cp_to_seq c') b /\ ck_seq b = q /\ cut_lookup K l (Cache.cp_to_seq c') = Some b).
Proof.
  intros Hlo Hhi Hv Hff Hcf Hof Hin.
  rewrite (fast_path_is_planner K l stride lim me mb comp full ord known Hlo Hhi Hv Hff Hcf Hof) in Hin.
  cbn [snd] in Hin. apply in_map_iff in Hin. destruct Hin as [c [<- Hc]].
  unfold to_c04. cbn [Cache.cp_already Cache.cp_to_seq Cache.cp_latest]. split.
  - apply (checkpointed_iff K stride lim l c Hc).
  - apply (cut_points_latest K stride lim l c ck_seq Hc).
Qed.

(* non-vacuity: the demo thread of CompactionProofs (two cut points, one checkpointed twice), all caches lost
   (C04's hypotheses hold vacuously for absent files) and with the projections in place *)
Definition demo_abs : Cache.log := abs_log demo_log.

Lemma demo_bridge :
  Cache.valid_log demo_abs = true
  /\ (CacheProofs.FullFaithful demo_abs None /\ CacheProofs.CompFaithful demo_abs None None /\ CacheProofs.OrdFaithful demo_abs Cache.OAbsent)
  /\ (CacheProofs.FullFaithful demo_abs (Some (Cache.project_full demo_abs))
      /\ CacheProofs.CompFaithful demo_abs (Some (Cache.comp_projection demo_abs)) (Some (Cache.project_full demo_abs)))
  /\ Cache.cut_points_truth demo_abs 2 32
     = (5, [ {| Cache.cp_ordinal := 4; Cache.cp_to_seq := 5; Cache.cp_already := false; Cache.cp_latest := None |};
             {| Cache.cp_ordinal := 2; Cache.cp_to_seq := 2; Cache.cp_already := true; Cache.cp_latest := Some 8 |} ]).
Proof.
  split; [vm_compute; reflexivity|]. split; [repeat split|].
  split; [split; [apply CacheProofs.project_full_faithful | apply CacheProofs.comp_projection_faithful]|].
  vm_compute. reflexivity.
Qed.
