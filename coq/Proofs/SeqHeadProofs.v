(* C01 — the head of a provider request (crates/ripd/src/session.rs stream_openresponses_request): the capture frame
   `openresponses_request` behind RIP_OPENRESPONSES_DUMP_REQUEST is one more single emit site in front of
   `openresponses_request_started`.  The head is re-read statement by statement (Gen/RequestHead.v); when it is a
   concatenation of sites (the obligation), its frames are exactly what Model/SeqCount.v's `SSite`s write, so a run with
   any number of such heads, other sites and provider pipes writes 0,1,2,.. (run_with_pipes_valid).  A head that emits
   the capture frame after request_started (seeded C01-11) or builds request_started before the capture frame (seeded
   C03-10) writes n, n, n+2: the validator rejects the stream. *)
From RipV Require Import Base.Prelude Model.Frames Model.Log Model.ContStore Model.SessGuard Model.SeqCount Model.WireRun
  Proofs.LogProofs Proofs.SeqCountProofs Proofs.RunSitesProofs.

(* the frame kind of a slot of the head (Model/WireRun.v: slot 0 = the capture frame, the other = request_started) *)
Definition slot_ety (t : N) : etype := if t =? 0 then EOpenResponsesRequest else EOpenResponsesRequestStarted.
(* the kinds of the frames a head emits, in order, and the frames themselves from counter c *)
Definition head_kinds (capture : bool) (h : head) : list etype := map slot_ety (sites_of (head_prog capture h)).
Definition head_frames (sid c : N) (capture : bool) (h : head) : log :=
  map (fun x => mkf sid (slot_ety (fst x), snd x)) (r_out (rrun c (head_prog capture h))).

Lemma sites_as_segs ck sid ts : forall c,
  map (fun x => mkf sid (slot_ety (fst x), snd x)) (WireRun.number c ts) = run_segs ck sid c (map SSite (map slot_ety ts)).
Proof. induction ts as [|t ts IH]; intro c; [reflexivity|]. cbn [WireRun.number map run_segs fst snd]. f_equal. apply IH. Qed.

Lemma head_prog_wf capture h : wf_head h = true -> wf_run (head_prog capture h) = true.
Proof. intro H. unfold wf_head in H. apply andb_true_iff in H. destruct H as [H1 H2]. destruct capture; assumption. Qed.

Theorem head_frames_are_sites ck sid c capture h :
  wf_head h = true -> head_frames sid c capture h = run_segs ck sid c (map SSite (head_kinds capture h)).
Proof.
  intro H. unfold head_frames, head_kinds.
  destruct (run_numbered c _ (head_prog_wf capture h H)) as [A _]. rewrite A. apply sites_as_segs.
Qed.

Lemma head_kinds_ok capture h : forallb seg_ok (map SSite (head_kinds capture h)) = true.
Proof.
  unfold head_kinds. induction (sites_of (head_prog capture h)) as [|t ts IH]; [reflexivity|].
  cbn [map forallb seg_ok]. rewrite IH. unfold slot_ety. destruct (t =? 0); reflexivity.
Qed.

Theorem run_with_request_heads sid pre post h capture :
  forallb seg_ok pre = true -> forallb seg_ok post = true -> wf_head h = true ->
  Valid (run_segs CutParsed sid 0 (pre ++ map SSite (head_kinds capture h) ++ post))
  /\ (forall ck c, head_frames sid c capture h = run_segs ck sid c (map SSite (head_kinds capture h)))
  /\ (forall c, r_cnt (rrun c (head_prog capture h)) = c + nlen (head_frames sid c capture h)).
Proof.
  intros Hpre Hpost Hh. split; [|split].
  - apply run_with_pipes_valid. rewrite !forallb_app, Hpre, Hpost, head_kinds_ok. reflexivity.
  - intros ck c. apply head_frames_are_sites. exact Hh.
  - intro c. destruct (run_numbered c _ (head_prog_wf capture h Hh)) as [_ [_ B]]. rewrite B.
    unfold head_frames, nlen. rewrite map_length. reflexivity.
Qed.

(* a whole small run around a head: session_started, the head, session_ended at the counter the head hands back *)
Definition run_head_log (sid : N) (capture : bool) (h : head) : log :=
  mkf sid (ESessionStarted, 0) :: head_frames sid 1 capture h
  ++ [mkf sid (ESessionEnded, r_cnt (rrun 1 (head_prog capture h)))].

Theorem head_capture_late_refuted :
  wf_head head_capture_emitted_late = false
  /\ map seq (run_head_log 7 true head_capture_emitted_late) = [0; 1; 1; 3]
  /\ map ety (run_head_log 7 true head_capture_emitted_late) = [ESessionStarted; EOpenResponsesRequestStarted; EOpenResponsesRequest; ESessionEnded]
  /\ validate (run_head_log 7 true head_capture_emitted_late) = false
  /\ validate (run_head_log 7 false head_capture_emitted_late) = true
  /\ map seq (run_head_log 7 true head_code) = [0; 1; 2; 3]
  /\ validate (run_head_log 7 true head_code) = true.
Proof. repeat split; vm_compute; reflexivity. Qed.

Theorem head_started_early_refuted :
  wf_head head_started_built_early = false
  /\ map seq (run_head_log 7 true head_started_built_early) = [0; 1; 1; 3]
  /\ map ety (run_head_log 7 true head_started_built_early) = [ESessionStarted; EOpenResponsesRequest; EOpenResponsesRequestStarted; ESessionEnded]
  /\ validate (run_head_log 7 true head_started_built_early) = false
  /\ validate (run_head_log 7 false head_started_built_early) = true.
Proof. repeat split; vm_compute; reflexivity. Qed.

Example request_head_example :
  wf_head head_code = true /\ head_kinds true head_code = [EOpenResponsesRequest; EOpenResponsesRequestStarted]
  /\ head_kinds false head_code = [EOpenResponsesRequestStarted]
  /\ forallb seg_ok [SSite ESessionStarted] = true.
Proof. repeat split; vm_compute; reflexivity. Qed.
