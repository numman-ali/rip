(* C08 — proofs about Model/Compile.v.
   What `compile_with` reads of its input window is `messages_spec` (compile_with_evs_congr) and of its checkpoint
   source the visible checkpoint frames (compile_with_cks_filter); the statements about prefixes, read paths and
   racing appends are these two facts applied to a filter, a suffix or an append. *)
From RipV Require Import Base.Prelude Model.Compile.

Ltac conjs := repeat match goal with |- _ /\ _ => split end.

Lemma filter_filter_and {A} (p q : A -> bool) (l : list A) :
  filter p (filter q l) = filter (fun x => p x && q x) l.
Proof.
  induction l as [|x r IH]; [reflexivity|]. cbn [filter].
  destruct (q x); cbn [filter]; rewrite ?andb_true_r, ?andb_false_r; destruct (p x); now rewrite ?IH.
Qed.

Lemma filter_filter_implied {A} (p k : A -> bool) (l : list A) :
  (forall x, p x = true -> k x = true) -> filter p (filter k l) = filter p l.
Proof.
  intros H. rewrite filter_filter_and. apply filter_ext. intros x.
  destruct (p x) eqn:Px; [now rewrite (H x Px) | reflexivity].
Qed.

Lemma find_filter_implied {A} (p k : A -> bool) (l : list A) :
  (forall x, p x = true -> k x = true) -> find p (filter k l) = find p l.
Proof.
  intros H. induction l as [|x l IH]; [reflexivity|]. cbn [filter find].
  destruct (k x) eqn:K; cbn [find].
  - now rewrite IH.
  - destruct (p x) eqn:Px; [rewrite (H _ Px) in K; discriminate | exact IH].
Qed.

Lemma fold_left_filter {A B} (step : B -> A -> B) (k : A -> bool) (l : list A) :
  (forall u x, k x = false -> step u x = u) ->
  forall u, fold_left step (filter k l) u = fold_left step l u.
Proof.
  intros H. induction l as [|x l IH]; intros u; [reflexivity|]. cbn [filter fold_left].
  destruct (k x) eqn:K; cbn [fold_left]; [apply IH | rewrite (H u x K); apply IH].
Qed.

Lemma filter_all {A} (p : A -> bool) (l : list A) : (forall x, In x l -> p x = true) -> filter p l = l.
Proof.
  induction l as [|x r IH]; intros H; [reflexivity|]. cbn [filter].
  rewrite (H x (or_introl eq_refl)). f_equal. apply IH. intros y Hy. apply H. now right.
Qed.

Lemma filter_snoc_false {A} (k : A -> bool) l x : k x = false -> filter k (l ++ [x]) = filter k l.
Proof. intros K. rewrite filter_app. cbn [filter]. rewrite K. apply app_nil_r. Qed.

Lemma find_none_intro {A} (p : A -> bool) (l : list A) : (forall x, In x l -> p x = false) -> find p l = None.
Proof.
  induction l as [|x l IH]; [reflexivity|]. intros H. cbn [find].
  rewrite (H x (or_introl eq_refl)). apply IH. intros y Y. apply H. now right.
Qed.

Lemma find_split {A} (p : A -> bool) l n : find p l = Some n ->
  exists pre post, l = pre ++ n :: post /\ find p pre = None.
Proof.
  induction l as [|x l IH]; [discriminate|]. cbn [find]. destruct (p x) eqn:Px; intros H.
  - inversion H; subst. now exists [], l.
  - destruct (IH H) as (pre & post & -> & Np). exists (x :: pre), post. split; [reflexivity|]. cbn [find]. now rewrite Px.
Qed.

Lemma last_cons {A} (l : list A) : forall x d, last (x :: l) d = last l x.
Proof.
  induction l as [|y l IH]; intros x d; [reflexivity|].
  change (last (x :: y :: l) d) with (last (y :: l) d). now rewrite !IH.
Qed.

Lemma lastn_app_ge {A} n (a b : list A) : (n <= length b)%nat -> lastn n (a ++ b) = lastn n b.
Proof.
  intros H. unfold lastn. rewrite rev_app_distr, firstn_app, rev_length.
  rewrite (proj2 (Nat.sub_0_le _ _) H). now rewrite firstn_O, app_nil_r.
Qed.

Lemma lastn_incl {A} n (x : list A) y : In y (lastn n x) -> In y x.
Proof.
  unfold lastn. intros H. apply in_rev in H. apply in_rev.
  rewrite <- (firstn_skipn n (rev x)). apply in_or_app. now left.
Qed.

Lemma lastn_suffix {A} k (x : list A) :
  exists pre, x = pre ++ lastn k x /\ ((length x <= k)%nat -> pre = []).
Proof.
  unfold lastn. exists (rev (skipn k (rev x))). split.
  - rewrite <- rev_app_distr, firstn_skipn, rev_involutive. reflexivity.
  - intros H. rewrite skipn_all2; [reflexivity|]. rewrite rev_length. exact H.
Qed.

Lemma firstn_map_app {A B} (g : A -> B) (h : list A) (x : list B) : firstn (length h) (map g h ++ x) = map g h.
Proof. induction h as [|y h IH]; [reflexivity|]. cbn [length map app firstn]. now rewrite IH. Qed.

(* seqs strictly increase along the stream: all that most proofs use of a valid stream (valid_incr) *)
Fixpoint incr (l : log) : Prop :=
  match l with [] => True | f :: r => Forall (fun g => fseq f < fseq g) r /\ incr r end.

Lemma above_weaken a b l : a <= b -> Forall (fun g => b < fseq g) l -> Forall (fun g => a < fseq g) l.
Proof. intros H. apply Forall_impl. cbn. intros g G. lia. Qed.

Lemma contig_cons b f r : contig_from b (f :: r) = true -> fseq f = b /\ contig_from (b + 1) r = true.
Proof. cbn [contig_from]. rewrite andb_true_iff, N.eqb_eq. tauto. Qed.

Lemma contig_bounds b l : contig_from b l = true -> Forall (fun g => b <= fseq g) l.
Proof.
  revert b. induction l as [|f r IH]; intros b H; [constructor|].
  apply contig_cons in H. destruct H as [E C].
  constructor; [lia|]. eapply Forall_impl; [|exact (IH _ C)]. cbn. intros g G. lia.
Qed.

Lemma contig_incr b l : contig_from b l = true -> incr l.
Proof.
  revert b. induction l as [|f r IH]; intros b H; [exact I|].
  apply contig_cons in H. destruct H as [E C].
  split; [|eapply IH; exact C].
  eapply Forall_impl; [|exact (contig_bounds _ _ C)]. cbn. intros g G. lia.
Qed.

Lemma valid_incr l : valid_log l = true -> incr l.
Proof. apply contig_incr. Qed.

Lemma incr_filter k l : incr l -> incr (filter k l).
Proof.
  induction l as [|f r IH]; [auto|]. intros [F S]. cbn [filter].
  destruct (k f); [|auto]. split; [|auto].
  apply Forall_forall. intros g G. apply filter_In in G. destruct G as [G _].
  rewrite Forall_forall in F. auto.
Qed.

Lemma incr_app_inv a b : incr (a ++ b) -> incr a /\ incr b /\ (forall x y, In x a -> In y b -> fseq x < fseq y).
Proof.
  induction a as [|f a IH]; cbn [app incr].
  - intros H. repeat split; auto. intros x y [].
  - intros [F S]. destruct (IH S) as (Ia & Ib & L). rewrite Forall_app in F. destruct F as [Fa Fb].
    repeat split; auto. intros x y [<-|X] Y; [|auto]. rewrite Forall_forall in Fb. auto.
Qed.

Lemma wf_refs_in l f : wf_refs l = true -> In f l -> names_earlier f = true.
Proof. unfold wf_refs. rewrite forallb_forall. auto. Qed.

Lemma wf_refs_filter k l : wf_refs l = true -> wf_refs (filter k l) = true.
Proof.
  unfold wf_refs. rewrite !forallb_forall. intros H f F. apply filter_In in F. apply H, F.
Qed.

Lemma wf_refs_app_l l x : wf_refs (l ++ x) = true -> wf_refs l = true.
Proof. unfold wf_refs. rewrite forallb_app. intros H. apply andb_true_iff in H. apply H. Qed.

Lemma head_seq_cons f g r : head_seq (f :: g :: r) = head_seq (g :: r).
Proof. reflexivity. Qed.

Lemma head_seq_app l f : head_seq (l ++ [f]) = fseq f.
Proof. unfold head_seq. rewrite map_app. apply last_last. Qed.

Lemma head_seq_ge l : incr l -> forall f, In f l -> fseq f <= head_seq l.
Proof.
  induction l as [|x r IH]; [intros _ f []|]. intros [F S] f [<-|X].
  - destruct r as [|g r']; [unfold head_seq; cbn; lia|]. rewrite head_seq_cons.
    rewrite Forall_forall in F. specialize (F g (or_introl eq_refl)).
    specialize (IH S g (or_introl eq_refl)). lia.
  - destruct r as [|g r']; [destruct X|]. rewrite head_seq_cons. auto.
Qed.

Lemma head_seq_in l : l <> [] -> exists f, In f l /\ fseq f = head_seq l.
Proof.
  intros Ne. destruct (exists_last Ne) as (l' & x & ->). exists x. split; [apply in_or_app; right; now left|].
  now rewrite head_seq_app.
Qed.

Lemma last_frame_app l f : last_frame (l ++ [f]) = Some f.
Proof. unfold last_frame. rewrite map_app. apply last_last. Qed.

Lemma last_frame_inv l f : last_frame l = Some f -> exists l', l = l' ++ [f].
Proof.
  intros H. destruct l as [|x t]; [discriminate|]. destruct (@exists_last _ (x :: t)) as (l' & g & E); [discriminate|].
  rewrite E, last_frame_app in H. inversion H; subst g. now exists l'.
Qed.

Lemma head_seen_unfixed full mr : head_seen false full mr = match last_frame full with Some f => fseq f | None => 0 end.
Proof. unfold head_seen. destruct (last_frame full); reflexivity. Qed.

Lemma contig_after_head b l f post : contig_from b (l ++ f :: post) = true -> l <> [] -> fseq f = head_seq l + 1.
Proof.
  revert b. induction l as [|x r IH]; intros b C Ne; [congruence|]. apply contig_cons in C. destruct C as [E C].
  destruct r as [|y r'].
  - apply contig_cons in C. destruct C as [E' _]. unfold head_seq. cbn. lia.
  - rewrite head_seq_cons. apply (IH _ C). discriminate.
Qed.

Lemma upto_app c a b : upto c (a ++ b) = upto c a ++ upto c b.
Proof. apply filter_app. Qed.

Lemma upto_all_above c l : Forall (fun g => c < fseq g) l -> upto c l = [].
Proof. rewrite Forall_forall. intros H. apply filter_none. intros g G. specialize (H g G). lia. Qed.

Lemma upto_all_below c l : (forall f, In f l -> fseq f <= c) -> upto c l = l.
Proof.
  intros H. apply filter_all. intros f F. apply N.leb_le, H, F.
Qed.


Lemma take_rev_spec p rl n acc : take_rev p rl n acc = rev (firstn n (filter p rl)) ++ acc.
Proof.
  revert n acc. induction rl as [|f r IH]; intros n acc.
  - cbn [take_rev filter]. rewrite firstn_nil. reflexivity.
  - cbn [take_rev filter]. destruct n as [|k]; [reflexivity|].
    destruct (p f).
    + rewrite IH. cbn [firstn rev]. now rewrite <- app_assoc.
    + apply IH.
Qed.

Lemma sel_pred_window from after f : sel_pred from after f = in_window from after f.
Proof.
  unfold sel_pred, in_window. destruct after as [a|].
  - rewrite <- N.ltb_antisym. destruct (is_msg f), (fseq f <=? from), (a <? fseq f); reflexivity.
  - destruct (is_msg f), (fseq f <=? from); reflexivity.
Qed.

Lemma take_rev_window evs from after n :
  take_rev (sel_pred from after) (rev evs) n [] = lastn n (filter (in_window from after) evs).
Proof.
  unfold lastn. rewrite take_rev_spec, app_nil_r, filter_rev. do 3 f_equal.
  apply filter_ext, sel_pred_window.
Qed.

Lemma select_recent_spec evs from n :
  select_recent evs from n = lastn n (filter (in_window from None) evs).
Proof. apply take_rev_window. Qed.

Lemma select_recent_after_spec evs from after n :
  select_recent_after evs from after n = lastn n (filter (in_window from (Some after)) evs).
Proof. apply take_rev_window. Qed.

Lemma in_window_true from after f : in_window from after f = true -> is_msg f = true /\ fseq f <=? from = true.
Proof. unfold in_window. rewrite !andb_true_iff. tauto. Qed.

Lemma mr_keep_msg f : is_msg f = true -> mr_keep f = true.
Proof. unfold mr_keep. now intros ->. Qed.

Lemma ends_for_props from m f : ends_for from m f = true ->
  is_run_ended f = true /\ fseq f <= from /\ exists r, fb f = BRunEnded r m.
Proof.
  unfold ends_for, is_run_ended. destruct (fb f) as [|r m'| |]; try discriminate.
  intros H. apply andb_true_iff in H. destruct H as [E L]. apply N.eqb_eq in E. subst. repeat split; [lia|eauto].
Qed.

Lemma find_ends_none from m l :
  Forall (fun g => from < fseq g) l -> find (ends_for from m) l = None.
Proof.
  rewrite Forall_forall. intros H. apply find_none_intro. intros g G.
  destruct (ends_for from m g) eqn:E; [|reflexivity].
  apply ends_for_props in E. specialize (H g G). lia.
Qed.

Lemma ended_runs_cons from f r acc :
  ended_runs from (f :: r) acc =
  if from <? fseq f then acc
  else ended_runs from r (match fb f with BRunEnded run msg => (msg, run) :: acc | _ => acc end).
Proof. cbn [ended_runs]. destruct (fb f); reflexivity. Qed.

Lemma ended_runs_spec from m l : incr l -> forall acc,
  lookup m (ended_runs from l acc) =
  match find (ends_for from m) (rev l) with Some f => Some (run_of f) | None => lookup m acc end.
Proof.
  induction l as [|f r IH]; intros S acc; [reflexivity|]. destruct S as [F S].
  rewrite ended_runs_cons. destruct (from <? fseq f) eqn:C.
  - rewrite find_ends_none; [reflexivity|].
    apply Forall_rev. constructor; [lia | apply (above_weaken from (fseq f)); [lia | exact F]].
  - cbn [rev]. rewrite find_app, (IH S). destruct (find (ends_for from m) (rev r)); [reflexivity|].
    cbn [find]. unfold ends_for, run_of. destruct (fb f) as [|run msg| |] eqn:B; try reflexivity.
    cbn [lookup]. replace (fseq f <=? from) with true by lia.
    rewrite andb_true_r, (N.eqb_sym msg m). destruct (m =? msg); [now rewrite B | reflexivity].
Qed.

Lemma reply_items_spec texts from l m : incr l ->
  reply_items texts (ended_runs from l []) m = reply_spec texts l from m.
Proof.
  intros S. unfold reply_items, reply_spec, answered_by. rewrite (ended_runs_spec from m l S []).
  destruct (find (ends_for from m) (rev l)); reflexivity.
Qed.

Lemma msg_items_spec texts from l sel : incr l ->
  msg_items texts (ended_runs from l []) sel =
  flat_map (fun f => IUser (fseq f) :: reply_spec texts l from (fseq f)) sel.
Proof.
  intros S. induction sel as [|f r IH]; [reflexivity|].
  cbn [msg_items flat_map]. rewrite IH, reply_items_spec by exact S. reflexivity.
Qed.

(* what the compiler makes of its input window, for either selection *)
Lemma msg_items_window P texts evs from after : incr evs ->
  msg_items texts (ended_runs from evs []) (take_rev (sel_pred from after) (rev evs) (p_limit P) [])
  = messages_spec P texts evs from after.
Proof. intros S. unfold messages_spec. now rewrite msg_items_spec, take_rev_window. Qed.

Lemma first_msg_find l : first_msg_seq l = option_map fseq (find is_msg l).
Proof. induction l as [|f r IH]; [reflexivity|]. cbn [first_msg_seq find]. destruct (is_msg f); auto. Qed.

Lemma find_next_after a l :
  Forall (fun g => a < fseq g) l ->
  find (fun f => is_msg f && (a <? fseq f)) l = find is_msg l.
Proof.
  induction 1 as [|g l G _ IH]; [reflexivity|]. cbn [find].
  replace (a <? fseq g) with true by lia. rewrite andb_true_r. now rewrite IH.
Qed.

Lemma no_anchor_after a l :
  Forall (fun g => a < fseq g) l -> existsb (is_anchor a) l = false.
Proof.
  induction 1 as [|g l G _ IH]; [reflexivity|]. cbn [existsb]. rewrite IH.
  unfold is_anchor. replace (fseq g =? a) with false by lia. now rewrite andb_false_r.
Qed.

Lemma cut_scan_spec a l : incr l ->
  cut_scan a l =
  if existsb (is_anchor a) l
  then Some (a, option_map fseq (find (fun f => is_msg f && (a <? fseq f)) l))
  else None.
Proof.
  induction l as [|f r IH]; [reflexivity|]. intros [F S].
  cbn [cut_scan existsb find]. fold (is_anchor a f). destruct (is_anchor a f) eqn:A.
  - cbn [orb]. unfold is_anchor in A. apply andb_true_iff in A. destruct A as [M E]. apply N.eqb_eq in E.
    rewrite M. replace (a <? fseq f) with false by lia. cbn [andb].
    rewrite first_msg_find, find_next_after; [now rewrite E|].
    apply (above_weaken a (fseq f)); [lia | exact F].
  - cbn [orb]. rewrite (IH S). destruct (is_msg f && (a <? fseq f)) eqn:N; [|reflexivity].
    apply andb_true_iff in N. destruct N as [_ L].
    rewrite no_anchor_after; [reflexivity|]. apply (above_weaken a (fseq f)); [lia | exact F].
Qed.

Lemma existsb_anchor_in a l : existsb (is_anchor a) l = true -> exists f, In f l /\ is_msg f = true /\ fseq f = a.
Proof.
  intros H. apply existsb_exists in H. destruct H as (f & I & A). unfold is_anchor in A.
  apply andb_true_iff in A. destruct A as [M E]. apply N.eqb_eq in E. eauto.
Qed.

Theorem cut_point_spec l a : incr l -> cut_point l a = cut_spec l a.
Proof.
  intros S. unfold cut_point, cut_spec. rewrite (cut_scan_spec a l S).
  destruct (existsb (is_anchor a) l) eqn:E; [|reflexivity]. cbn [option_map]. f_equal.
  unfold cut_of. cbn [fst snd].
  destruct (find (fun f => is_msg f && (a <? fseq f)) l) as [n|] eqn:Fd; cbn [option_map].
  - apply find_some in Fd. destruct Fd as [_ P]. apply andb_true_iff in P. destruct P as [_ L]. lia.
  - destruct (existsb_anchor_in _ _ E) as (f & I & _ & Ea). pose proof (head_seq_ge l S f I). lia.
Qed.

Lemma cut_point_le_head l a c : incr l -> cut_point l a = Some c -> c <= head_seq l.
Proof.
  intros S. rewrite (cut_point_spec l a S). unfold cut_spec.
  destruct (existsb (is_anchor a) l); [|discriminate].
  destruct (find (fun f => is_msg f && (a <? fseq f)) l) as [n|] eqn:F; intros H; inversion H; subst c; [|lia].
  apply find_some in F. destruct F as [In_ _]. pose proof (head_seq_ge l S n In_). lia.
Qed.

(* ---- the scan itself: over a projection that keeps the messages, and over an append *)
Lemma first_msg_filter keep l : (forall f, is_msg f = true -> keep f = true) ->
  first_msg_seq (filter keep l) = first_msg_seq l.
Proof.
  intros K. rewrite !first_msg_find. f_equal. apply find_filter_implied, K.
Qed.

Lemma cut_scan_filter keep a l : (forall f, is_msg f = true -> keep f = true) ->
  cut_scan a (filter keep l) = cut_scan a l.
Proof.
  intros K. induction l as [|f r IH]; [reflexivity|]. cbn [filter cut_scan].
  destruct (keep f) eqn:Kf; cbn [cut_scan].
  - now rewrite IH, first_msg_filter.
  - destruct (is_msg f) eqn:M; [rewrite (K f M) in Kf; discriminate | exact IH].
Qed.

Lemma first_msg_app x y : first_msg_seq (x ++ y) = match first_msg_seq x with Some n => Some n | None => first_msg_seq y end.
Proof.
  induction x as [|f r IH]; [reflexivity|]. cbn [app first_msg_seq]. destruct (is_msg f); [reflexivity|exact IH].
Qed.

Lemma first_msg_exists l : existsb is_msg l = match first_msg_seq l with Some _ => true | None => false end.
Proof.
  induction l as [|f r IH]; [reflexivity|]. cbn [existsb first_msg_seq]. destruct (is_msg f); [reflexivity|exact IH].
Qed.

(* the next message is looked for in `y` only when `x` holds the anchor and no message after it *)
Lemma cut_scan_app a x y :
  cut_scan a (x ++ y) =
  match cut_scan a x with
  | Some r => Some (fst r, match snd r with Some n => Some n | None => first_msg_seq y end)
  | None => cut_scan a y
  end.
Proof.
  induction x as [|f r IH]; [reflexivity|]. cbn [app cut_scan].
  destruct (is_msg f && (fseq f =? a)); [|exact IH]. cbn [fst snd]. now rewrite first_msg_app.
Qed.

Lemma cut_scan_anchor a l : existsb (is_anchor a) l = match cut_scan a l with Some _ => true | None => false end.
Proof.
  induction l as [|f r IH]; [reflexivity|]. cbn [cut_scan existsb]. unfold is_anchor at 1.
  destruct (is_msg f && (fseq f =? a)); [reflexivity|exact IH].
Qed.

Lemma tail_cut_anchor evs h a c : tail_cut evs h a = Some c -> existsb (is_anchor a) evs = true.
Proof. unfold tail_cut. rewrite cut_scan_anchor. now destruct (cut_scan a evs). Qed.

Lemma existsb_filter_keep (p keep : frame -> bool) l : (forall f, p f = true -> keep f = true) ->
  existsb p (filter keep l) = existsb p l.
Proof.
  intros K. induction l as [|f r IH]; [reflexivity|]. cbn [filter existsb].
  destruct (keep f) eqn:Kf; cbn [existsb]; rewrite IH; [reflexivity|].
  destruct (p f) eqn:Pf; [rewrite (K f Pf) in Kf; discriminate|reflexivity].
Qed.

Lemma max_to_single c : max_to [c] = ck_to c.
Proof. apply N.max_0_l. Qed.

(* the bundle over any input window and checkpoint source: the summary refs, then messages_spec of the window *)
Lemma compile_with_bundle P texts evs cks from a : incr evs ->
  snd (compile_with P texts evs cks from a) =
  let h := hierarchy (p_fixed P) from (p_max_refs P) cks in
  {| b_strategy := strategy_of h; b_from := from; b_anchor := a;
     b_items := summary_refs h ++ messages_spec P texts evs from (after_of h) |}.
Proof.
  intros S. unfold compile_with, select_recent, select_recent_after. cbv zeta.
  destruct (hierarchy (p_fixed P) from (p_max_refs P) cks) as [|c [|c2 r]];
    cbn [snd strategy_of summary_refs after_of map app]; rewrite msg_items_window by exact S;
    now rewrite ?max_to_single.
Qed.

Theorem bundle_meets_spec P texts l a : incr l ->
  option_map snd (compile P texts l a) = bundle_spec P texts l a.
Proof.
  intros S. unfold compile, bundle_spec. rewrite (cut_point_spec l a S).
  destruct (cut_spec l a) as [cut|]; [|reflexivity]. cbn [option_map]. f_equal.
  apply compile_with_bundle, S.
Qed.

(* the decision names exactly the checkpoints whose summaries the bundle references, and the strategy follows their number *)
Theorem decision_matches_bundle P texts l a d b :
  compile P texts l a = Some (d, b) ->
  d_strategy d = b_strategy b /\ b_strategy b = strategy_of (d_ckpts d)
  /\ firstn (length (d_ckpts d)) (b_items b) = summary_refs (d_ckpts d).
Proof.
  unfold compile. destruct (cut_point l a) as [cut|]; [|discriminate]. intros H. inversion H as [E]. clear H.
  unfold compile_with in E. set (h := hierarchy (p_fixed P) cut (p_max_refs P) l) in E.
  destruct h as [|c [|c2 r]]; cbv beta iota in E; injection E as Ed Eb; subst d b;
    cbn [d_strategy b_strategy d_ckpts b_items strategy_of]; (repeat split; try reflexivity).
  exact (firstn_map_app (fun c0 => ISummary (ck_art c0) (ck_to c0)) (c :: c2 :: r) _).
Qed.

(* What the compiler reads of its two sources.  Of the input window: messages_spec *)
Lemma compile_with_evs_congr P texts e1 e2 cks from a : incr e1 -> incr e2 ->
  (forall after, messages_spec P texts e1 from after = messages_spec P texts e2 from after) ->
  compile_with P texts e1 cks from a = compile_with P texts e2 cks from a.
Proof.
  intros S1 S2 H. unfold compile_with, select_recent, select_recent_after. cbv zeta.
  destruct (hierarchy (p_fixed P) from (p_max_refs P) cks) as [|c [|c2 r]];
    now rewrite !msg_items_window, H by assumption.
Qed.

(* ... which looks at messages and run_ended frames at or before the cut only *)
Lemma messages_spec_filter P texts k l from after :
  (forall f, mr_keep f = true -> fseq f <=? from = true -> k f = true) ->
  messages_spec P texts (filter k l) from after = messages_spec P texts l from after.
Proof.
  intros K. unfold messages_spec, reply_spec, answered_by. rewrite filter_filter_implied.
  - apply flat_map_ext. intros f. rewrite <- filter_rev, find_filter_implied; [reflexivity|].
    intros x X. apply ends_for_props in X. destruct X as (R & L & _).
    apply K; [unfold mr_keep; rewrite R; apply orb_true_r | lia].
  - intros x X. apply in_window_true in X. destruct X as [M L]. exact (K x (mr_keep_msg x M) L).
Qed.

Lemma compile_with_evs_upto P texts l cks c a : incr l ->
  compile_with P texts (upto c l) cks c a = compile_with P texts l cks c a.
Proof.
  intros S. apply compile_with_evs_congr; [apply incr_filter, S | exact S |].
  intros after. apply messages_spec_filter. auto.
Qed.

(* of the checkpoint source: the visible checkpoint frames *)
Lemma ckpt_of_seq f k : ckpt_of f = Some k -> ck_seq k = fseq f.
Proof. unfold ckpt_of. destruct (fb f); try discriminate. intros H. inversion H. reflexivity. Qed.

Lemma visible_is_ckpt fixed c f : visible fixed c f = true -> is_ckpt f = true.
Proof. unfold visible, ckpt_of, is_ckpt. destruct (fb f); intros H; (discriminate H || reflexivity). Qed.

Lemma visible_fixed_upto c f : visible true c f = true -> fseq f <=? c = true.
Proof.
  unfold visible, eligible. destruct (ckpt_of f) as [k|] eqn:E; [|discriminate].
  rewrite <- (ckpt_of_seq f k E). intros H. apply andb_true_iff in H. exact (proj2 H).
Qed.

Section CheckpointSource.
  Variables (fixed : bool) (c : N) (k : frame -> bool).
  Hypothesis Hk : forall f, visible fixed c f = true -> k f = true.

  Lemma dropped_invisible f : k f = false -> ckpt_of f = None \/ exists x, ckpt_of f = Some x /\ eligible fixed c x = false.
  Proof.
    intros K. destruct (ckpt_of f) as [x|] eqn:E; [right|now left].
    exists x. split; [reflexivity|]. destruct (eligible fixed c x) eqn:El; [|reflexivity].
    rewrite Hk in K; [discriminate|]. unfold visible. now rewrite E.
  Qed.

  Lemma unique_of_filter l : unique_of fixed c (filter k l) = unique_of fixed c l.
  Proof.
    unfold unique_of. apply fold_left_filter. intros u f K. unfold unique_step.
    destruct (dropped_invisible f K) as [-> | (x & -> & ->)]; reflexivity.
  Qed.

  Lemma hierarchy_filter n l : hierarchy fixed c n (filter k l) = hierarchy fixed c n l.
  Proof. unfold hierarchy. now rewrite unique_of_filter. Qed.

  Lemma latest_any_filter l : latest_any fixed c (filter k l) = latest_any fixed c l.
  Proof.
    unfold latest_any. apply fold_left_filter. intros u f K. unfold latest_step.
    destruct (dropped_invisible f K) as [-> | (x & -> & ->)]; reflexivity.
  Qed.
End CheckpointSource.

Lemma compile_with_cks_filter P texts evs k l c a :
  (forall f, visible (p_fixed P) c f = true -> k f = true) ->
  compile_with P texts evs (filter k l) c a = compile_with P texts evs l c a.
Proof. intros K. unfold compile_with. now rewrite hierarchy_filter, latest_any_filter. Qed.

(* the checkpoint sidecar / index (the projection of the stream on checkpoint frames) gives the same decision *)
Lemma checkpoint_projection_agrees P texts evs l from a :
  compile_with P texts evs (filter is_ckpt l) from a = compile_with P texts evs l from a.
Proof. apply compile_with_cks_filter, visible_is_ckpt. Qed.

(* ------------------------------------------------------------------ exact dependence for BOTH visibility rules:
   decision and bundle are a function of the frames at or before the cut and of the visible checkpoint frames *)
Theorem depends_on_prefix_and_visible P texts l a c :
  incr l -> cut_point l a = Some c ->
  compile P texts l a = Some (compile_with P texts (upto c l) (filter (visible (p_fixed P) c) l) c a).
Proof.
  intros S H. unfold compile. rewrite H. f_equal.
  now rewrite compile_with_cks_filter, compile_with_evs_upto.
Qed.

Lemma cut_spec_upto l a c : valid_log l = true -> cut_spec l a = Some c -> cut_spec (upto c l) a = Some c.
Proof.
  intros V H. pose proof (valid_incr l V) as S. unfold cut_spec in H.
  destruct (existsb (is_anchor a) l) eqn:E; [|discriminate].
  destruct (find (fun f => is_msg f && (a <? fseq f)) l) as [n|] eqn:Fd; inversion H as [Hc]; clear H.
  - (* a next message n: the prefix is the thread in front of it; it holds the anchor, no later message, and ends one
       frame before n *)
    pose proof (find_some _ _ Fd) as [_ Pn]. apply andb_true_iff in Pn. destruct Pn as [_ Ln]. apply N.ltb_lt in Ln.
    destruct (find_split _ _ _ Fd) as (pre & post & -> & Np).
    destruct (incr_app_inv _ _ S) as (_ & [Fn _] & Lt).
    assert (Up : upto (fseq n - 1) (pre ++ n :: post) = pre).
    { rewrite upto_app, (upto_all_above _ (n :: post)), app_nil_r.
      - apply upto_all_below. intros f F. specialize (Lt f n F (or_introl eq_refl)). lia.
      - constructor; [lia | apply (above_weaken _ (fseq n)); [lia | exact Fn]]. }
    rewrite existsb_app, (no_anchor_after a (n :: post)), orb_false_r in E
      by (constructor; [exact Ln | exact (above_weaken a _ _ (N.lt_le_incl _ _ Ln) Fn)]).
    rewrite Up. unfold cut_spec. rewrite E, Np. f_equal.
    rewrite (contig_after_head 0 pre n post V); [symmetry; apply N.add_sub | intros ->; discriminate E].
  - rewrite upto_all_below.
    + unfold cut_spec. now rewrite E, Fd.
    + intros f I. apply head_seq_ge; assumption.
Qed.

(* under the repaired rule the prefix alone decides *)
Theorem pure_up_to_cut P texts l a c :
  valid_log l = true -> p_fixed P = true -> cut_point l a = Some c ->
  compile P texts (upto c l) a = compile P texts l a.
Proof.
  intros V Fx H. pose proof (valid_incr l V) as S.
  assert (Su : incr (upto c l)) by (apply incr_filter, S).
  assert (Hu : cut_point (upto c l) a = Some c).
  { rewrite cut_point_spec in * by assumption. now apply cut_spec_upto. }
  rewrite (depends_on_prefix_and_visible P texts l a c S H), (depends_on_prefix_and_visible P texts _ a c Su Hu), Fx.
  do 2 f_equal; apply filter_filter_implied; [auto | apply visible_fixed_upto].
Qed.

(* ---- frames appended after the cut are not noticed unless one of them is a visible checkpoint *)
Theorem ignores_after_cut_general P texts l later a g :
  valid_log (l ++ later) = true ->
  existsb (is_anchor a) l = true ->
  find (fun f => is_msg f && (a <? fseq f)) l = Some g ->
  (forall f, In f later -> visible (p_fixed P) (fseq g - 1) f = false) ->
  compile P texts (l ++ later) a = compile P texts l a.
Proof.
  intros V Ea Fg Hv.
  pose proof (valid_incr _ V) as S. destruct (incr_app_inv _ _ S) as (Sl & _ & L).
  set (c := fseq g - 1) in *.
  assert (C1 : cut_point l a = Some c).
  { rewrite (cut_point_spec l a Sl). unfold cut_spec. now rewrite Ea, Fg. }
  assert (C2 : cut_point (l ++ later) a = Some c).
  { rewrite (cut_point_spec _ a S). unfold cut_spec. rewrite existsb_app, Ea. cbn [orb].
    now rewrite find_app, Fg. }
  rewrite (depends_on_prefix_and_visible P texts _ a c S C2), (depends_on_prefix_and_visible P texts _ a c Sl C1).
  f_equal. rewrite upto_app, filter_app, (filter_none _ later Hv), app_nil_r.
  rewrite (upto_all_above c later); [now rewrite app_nil_r|].
  apply Forall_forall. intros y Y.
  pose proof (find_some _ _ Fg) as [Ig _]. specialize (L g y Ig Y). unfold c. lia.
Qed.

(* ... and under the repaired rule none of them is *)
Theorem ignores_after_cut P texts l later a g :
  valid_log (l ++ later) = true -> p_fixed P = true ->
  existsb (is_anchor a) l = true ->
  find (fun f => is_msg f && (a <? fseq f)) l = Some g ->
  compile P texts (l ++ later) a = compile P texts l a.
Proof.
  intros V Fx Ea Fg. apply (ignores_after_cut_general P texts l later a g V Ea Fg).
  intros f F. rewrite Fx. destruct (visible true (fseq g - 1) f) eqn:Vis; [|reflexivity].
  apply visible_fixed_upto in Vis.
  destruct (incr_app_inv _ _ (valid_incr _ V)) as (_ & _ & L).
  specialize (L g f (proj1 (find_some _ _ Fg)) F). lia.
Qed.

(* ---- S9: with the visibility rule of the code before the repair, a checkpoint frame appended after
   the cut changes the bundle *)
Definition mkf (s : N) (b : body) : frame := {| fseq := s; fb := b |}.
Definition s9_log : log := [mkf 0 BOther; mkf 1 BMsg; mkf 2 BMsg; mkf 3 BMsg].
Definition s9_later : log := [mkf 4 (BCkpt true 1 0)].
(* 16 = RECENT_MESSAGES_V1_LIMIT, 3 = the maximal number of summary refs (session.rs), as the examples below use them *)
Definition unfixed_params : params := {| p_limit := 16; p_max_refs := 3; p_fixed := false |}.
Definition fixed_params : params := {| p_limit := 16; p_max_refs := 3; p_fixed := true |}.
Definition no_texts : N -> N := fun _ => 0.

Lemma late_checkpoint_refuted :
  exists l later a g,
    valid_log (l ++ later) = true /\ existsb (is_anchor a) l = true
    /\ find (fun f => is_msg f && (a <? fseq f)) l = Some g
    /\ compile unfixed_params no_texts (l ++ later) a <> compile unfixed_params no_texts l a.
Proof.
  exists s9_log, s9_later, 2, (mkf 3 BMsg). conjs; try (vm_compute; reflexivity).
  vm_compute. discriminate.
Qed.

(* the hypotheses of ignores_after_cut are satisfiable (the same thread, repaired rule) *)
Lemma ignores_after_cut_example :
  valid_log (s9_log ++ s9_later) = true /\ existsb (is_anchor 2) s9_log = true
  /\ find (fun f => is_msg f && (2 <? fseq f)) s9_log = Some (mkf 3 BMsg)
  /\ compile fixed_params no_texts (s9_log ++ s9_later) 2 = compile fixed_params no_texts s9_log 2
  /\ compile fixed_params no_texts s9_log 2 <> None.
Proof. conjs; try (vm_compute; reflexivity). vm_compute. discriminate. Qed.

Lemma ignores_after_cut_general_example :
  valid_log (s9_log ++ [mkf 4 BMsg; mkf 5 (BCkpt true 4 0); mkf 6 (BRunEnded 0 1)]) = true
  /\ existsb (is_anchor 2) s9_log = true
  /\ find (fun f => is_msg f && (2 <? fseq f)) s9_log = Some (mkf 3 BMsg)
  /\ forallb (fun f => negb (visible false (3 - 1) f)) [mkf 4 BMsg; mkf 5 (BCkpt true 4 0); mkf 6 (BRunEnded 0 1)] = true.
Proof. conjs; vm_compute; reflexivity. Qed.

(* a suffix of an increasing stream that is all of it, or holds `limit` messages at or before the cut, selects the same
   messages; and no frame in front of it answers one of them, since a run_ended frame follows the message it names *)
Lemma messages_spec_suffix P texts pre evs from after :
  incr (pre ++ evs) -> wf_refs (pre ++ evs) = true ->
  pre = [] \/ (p_limit P <= count_msgs_upto from evs)%nat ->
  messages_spec P texts evs from after = messages_spec P texts (pre ++ evs) from after.
Proof.
  intros S W [->|Hc]; [reflexivity|]. destruct (incr_app_inv _ _ S) as (_ & _ & Lt).
  unfold messages_spec.
  assert (A : lastn (p_limit P) (filter (in_window from after) (pre ++ evs))
              = lastn (p_limit P) (filter (in_window from after) evs)).
  { rewrite filter_app. destruct (filter (in_window from after) pre) as [|x xs] eqn:Fp; [reflexivity|].
    rewrite <- Fp. apply lastn_app_ge.
    (* a frame of `pre` is in the window: then so is every message of `evs` at or before the cut *)
    assert (Ix : In x (filter (in_window from after) pre)) by (rewrite Fp; now left).
    apply filter_In in Ix. destruct Ix as [Ix Wx].
    unfold count_msgs_upto in Hc.
    replace (filter (in_window from after) evs) with (filter (fun f => (fseq f <=? from) && is_msg f) evs); [exact Hc|].
    apply filter_ext_in. intros y Y. specialize (Lt x y Ix Y). unfold in_window in *. destruct after as [a|].
    - apply andb_true_iff in Wx. destruct Wx as [_ Wa].
      replace (a <? fseq y) with true by lia. rewrite andb_true_r. apply andb_comm.
    - rewrite andb_true_r. apply andb_comm. }
  rewrite A, !flat_map_concat_map. f_equal. apply map_ext_in. intros f F. f_equal.
  apply lastn_incl, filter_In in F. destruct F as [F _].
  unfold reply_spec, answered_by. rewrite rev_app_distr, find_app.
  destruct (find (ends_for from (fseq f)) (rev evs)); [reflexivity|].
  rewrite find_none_intro; [reflexivity|]. intros x X. apply in_rev in X.
  destruct (ends_for from (fseq f) x) eqn:Ex; [|reflexivity].
  apply ends_for_props in Ex. destruct Ex as (_ & _ & r & B).
  pose proof (wf_refs_in _ x W (in_or_app _ _ _ (or_introl X))) as Nx. unfold names_earlier in Nx. rewrite B in Nx.
  specialize (Lt x f X F). lia.
Qed.

Theorem paths_agree P texts keep l cks from a evs :
  incr l -> wf_refs l = true -> admissible_input keep (p_limit P) l from evs ->
  compile_with P texts evs cks from a = compile_with P texts l cks from a.
Proof.
  intros S W (K & src & pre & Hs & Hsp & Hf).
  assert (Ss : incr src /\ wf_refs src = true).
  { destruct Hs as [->| ->]; unfold upto; split; auto using incr_filter, wf_refs_filter. }
  assert (SL : incr (pre ++ evs)) by (rewrite <- Hsp; apply incr_filter, Ss).
  apply compile_with_evs_congr; [exact (proj1 (proj2 (incr_app_inv _ _ SL))) | exact S |]. intros after.
  rewrite (messages_spec_suffix P texts pre evs from after SL);
    [| rewrite <- Hsp; apply wf_refs_filter, Ss | exact Hf].
  rewrite <- Hsp, messages_spec_filter by auto.
  destruct Hs as [->| ->]; [reflexivity | apply messages_spec_filter; auto].
Qed.

(* all read paths: any admissible window + the checkpoint projection + the cut give the full-replay result *)
Theorem all_paths_agree P texts keep l a from evs :
  incr l -> wf_refs l = true -> cut_point l a = Some from ->
  admissible_input keep (p_limit P) l from evs ->
  Some (compile_with P texts evs (filter is_ckpt l) from a) = compile P texts l a.
Proof.
  intros S W C Ad. unfold compile. rewrite C. f_equal.
  rewrite checkpoint_projection_agrees. apply (paths_agree P texts keep l l from a evs S W Ad).
Qed.

Lemma admissible_suffix keep limit l from pre evs :
  (forall f, mr_keep f = true -> keep f = true) -> filter keep l = pre ++ evs ->
  pre = [] \/ (limit <= count_msgs_upto from evs)%nat -> admissible_input keep limit l from evs.
Proof. intros K E H. split; [exact K|]. exists l, pre. auto. Qed.

Lemma tail_cut_projection keep l a : (forall f, is_msg f = true -> keep f = true) ->
  tail_cut (filter keep l) (head_seq l) a = cut_point l a.
Proof. intros K. unfold tail_cut, cut_point. now rewrite cut_scan_filter. Qed.

Theorem tail_cut_agrees keep l pre evs a :
  incr l -> (forall f, mr_keep f = true -> keep f = true) ->
  filter keep l = pre ++ evs -> existsb (is_anchor a) evs = true ->
  tail_cut evs (head_seq l) a = cut_point l a.
Proof.
  intros S K Hs Ea. rewrite <- (tail_cut_projection keep l a) by (intros f M; apply K, mr_keep_msg, M).
  unfold tail_cut. rewrite Hs, cut_scan_app.
  destruct (cut_scan a pre) eqn:Cp; [exfalso|reflexivity].
  pose proof (cut_scan_anchor a pre) as Ep. rewrite Cp in Ep.
  (* the anchor would stand in front of itself *)
  assert (SL : incr (pre ++ evs)) by (rewrite <- Hs; apply incr_filter; exact S).
  destruct (incr_app_inv _ _ SL) as (_ & _ & Lt).
  destruct (existsb_anchor_in _ _ Ea) as (fa & Ia & _ & Efa).
  destruct (existsb_anchor_in _ _ Ep) as (fp & Ip & _ & Efp).
  specialize (Lt fp fa Ip Ia). lia.
Qed.

(* a scanned tail of a projection with its own cut, complete or holding `limit` messages at or before it *)
Theorem tail_input_agrees P texts keep l pre evs a from :
  incr l -> wf_refs l = true -> (forall f, mr_keep f = true -> keep f = true) ->
  filter keep l = pre ++ evs -> tail_cut evs (head_seq l) a = Some from ->
  pre = [] \/ (p_limit P <= count_msgs_upto from evs)%nat ->
  Some (compile_with P texts evs (filter is_ckpt l) from a) = compile P texts l a.
Proof.
  intros S W K E Tc H.
  apply (all_paths_agree P texts keep l a from evs S W); [|exact (admissible_suffix keep _ l from pre evs K E H)].
  rewrite <- Tc. symmetry. apply (tail_cut_agrees keep l pre evs a S K E), (tail_cut_anchor _ _ _ _ Tc).
Qed.

Lemma projection_agrees P texts l a from :
  incr l -> wf_refs l = true -> cut_point l a = Some from ->
  Some (compile_with P texts (filter mr_keep l) (filter is_ckpt l) from a) = compile P texts l a.
Proof.
  intros S W C. apply (all_paths_agree P texts mr_keep l a from _ S W C).
  apply (admissible_suffix mr_keep _ l from []); auto.
Qed.

(* non-vacuity: a 20-message thread with replies; the mr tail holding the last 17 messages is admissible for
   the newest message and is not the whole projection *)
Fixpoint ex_msgs (n : nat) (s : N) : log :=
  match n with O => [] | S k => mkf s BMsg :: mkf (s + 1) (BRunEnded s s) :: mkf (s + 2) BOther :: ex_msgs k (s + 3) end.
Definition ex_log : log := mkf 0 BOther :: ex_msgs 20 1.
Definition ex_tail : log := skipn 6 (filter mr_keep ex_log).
Lemma paths_agree_example :
  valid_log ex_log = true /\ wf_refs ex_log = true /\ cut_point ex_log 58 = Some 60
  /\ filter mr_keep ex_log = firstn 6 (filter mr_keep ex_log) ++ ex_tail
  /\ firstn 6 (filter mr_keep ex_log) <> []
  /\ (16 <= count_msgs_upto 60 ex_tail)%nat
  /\ tail_cut ex_tail (head_seq ex_log) 58 = Some 60.
Proof. conjs; try (vm_compute; reflexivity); try (vm_compute; discriminate); try (vm_compute; lia). Qed.

(* ------------------------------------------------------------------ S24: a compile racing with an append.
   The tail path reads the messages from the mr sidecar and the head from the full sidecar; an append writes the
   full sidecar first.  In between, the input is (mr projection of l, head of l ++ [f]): the cut is then neither the
   cut of l nor the cut of l ++ [f] when f is a message. *)
Definition race_log : log := [mkf 0 BOther; mkf 1 BMsg; mkf 2 BMsg].
Definition race_frame : frame := mkf 3 BMsg.
Lemma racing_cut_refuted :
  exists l f a,
    valid_log (l ++ [f]) = true
    /\ tail_cut (filter mr_keep l) (head_seq (l ++ [f])) a <> cut_point l a
    /\ tail_cut (filter mr_keep l) (head_seq (l ++ [f])) a <> cut_point (l ++ [f]) a.
Proof. exists race_log, race_frame, 2. conjs; vm_compute; [reflexivity | discriminate | discriminate]. Qed.

(* with the projection and the head of the SAME thread state the tail path is right: tail_cut_projection; and an
   appended frame that is not in the projection linearizes to "after" *)
Lemma racing_cut_non_mr_frame keep l f a :
  incr (l ++ [f]) -> (forall g, mr_keep g = true -> keep g = true) -> keep f = false ->
  existsb (is_anchor a) (filter keep l) = true ->
  tail_cut (filter keep l) (head_seq (l ++ [f])) a = cut_point (l ++ [f]) a.
Proof.
  intros _ K Kf _. rewrite <- (filter_snoc_false keep l f Kf). apply tail_cut_projection.
  intros g M. apply K, mr_keep_msg, M.
Qed.

Lemma last_filter_before k l f : incr (l ++ [f]) ->
  match last_frame (filter k l) with Some g => fseq g <? fseq f | None => true end = true.
Proof.
  intros S. destruct (last_frame (filter k l)) as [g|] eqn:Lg; [|reflexivity].
  destruct (last_frame_inv _ _ Lg) as (x & E).
  assert (Ig : In g (filter k l)) by (rewrite E; apply in_or_app; right; now left).
  apply filter_In in Ig. destruct (incr_app_inv _ _ S) as (_ & _ & Lt).
  specialize (Lt g f (proj1 Ig) (or_introl eq_refl)). lia.
Qed.

(* the fix (head_seq_seen_by_messages_runs_v1): with the head the repaired readers use, a compile that runs while the
   frame f is being appended (full sidecar written; mr sidecar not yet, or already) takes the cut of the thread before the
   append when f belongs in the mr sidecar and is not there yet, and the cut of the thread after it otherwise *)
Theorem racing_append_linearizes l f a :
  valid_log (l ++ [f]) = true -> l <> [] ->
  existsb (is_anchor a) (filter mr_keep l) = true ->
  tail_cut (filter mr_keep l) (head_seen true (l ++ [f]) (filter mr_keep l)) a
    = (if mr_keep f then cut_point l a else cut_point (l ++ [f]) a)
  /\ tail_cut (filter mr_keep (l ++ [f])) (head_seen true (l ++ [f]) (filter mr_keep (l ++ [f]))) a
    = cut_point (l ++ [f]) a.
Proof.
  intros V Ne _. pose proof (valid_incr _ V) as S.
  unfold head_seen. rewrite last_frame_app. cbn [andb]. split.
  - destruct (mr_keep f) eqn:Kf; cbn [andb].
    + rewrite (last_filter_before mr_keep l f S). cbv iota.
      replace (fseq f - 1) with (head_seq l).
      * apply tail_cut_projection, mr_keep_msg.
      * rewrite (contig_after_head 0 l f [] V Ne). symmetry. apply N.add_sub.
    + rewrite <- (head_seq_app l f), <- (filter_snoc_false mr_keep l f Kf). apply tail_cut_projection, mr_keep_msg.
  - assert (C : mr_keep f && match last_frame (filter mr_keep (l ++ [f])) with Some g => fseq g <? fseq f | None => true end = false).
    { destruct (mr_keep f) eqn:Kf; [|reflexivity].
      rewrite filter_app. cbn [filter]. rewrite Kf, last_frame_app. apply N.ltb_irrefl. }
    rewrite C, <- (head_seq_app l f). apply tail_cut_projection, mr_keep_msg.
Qed.

(* ... and so do decision and bundle (the checkpoint source is the checkpoint sidecar, which a frame that is not a
   checkpoint does not touch) *)
Theorem racing_compile_linearizes P texts l f a from :
  valid_log (l ++ [f]) = true -> wf_refs (l ++ [f]) = true -> l <> [] -> is_ckpt f = false ->
  tail_cut (filter mr_keep l) (head_seen true (l ++ [f]) (filter mr_keep l)) a = Some from ->
  Some (compile_with P texts (filter mr_keep l) (filter is_ckpt l) from a)
  = if mr_keep f then compile P texts l a else compile P texts (l ++ [f]) a.
Proof.
  intros V W Ne Ck Tc. pose proof (valid_incr _ V) as S.
  destruct (racing_append_linearizes l f a V Ne (tail_cut_anchor _ _ _ _ Tc)) as [R _]. rewrite Tc in R.
  destruct (mr_keep f) eqn:Kf.
  - apply projection_agrees; [exact (proj1 (incr_app_inv _ _ S)) | exact (wf_refs_app_l _ _ W) | now symmetry].
  - rewrite <- (filter_snoc_false mr_keep l f Kf), <- (filter_snoc_false is_ckpt l f Ck).
    apply projection_agrees; [exact S | exact W | now symmetry].
Qed.

(* A compile that SPANS complete appends: the head was read from the thread l, the mr sidecar (and the checkpoint caches)
   after `later` had been appended completely.  The cut is the cut of the thread after the appends when one of them is a
   message, and the cut of the thread before them otherwise (frames beyond the cut are then ignored by the compiler). *)
Theorem span_cut_linearizes l later a :
  incr (l ++ later) -> existsb (is_anchor a) (filter mr_keep l) = true ->
  tail_cut (filter mr_keep (l ++ later)) (head_seq l) a
  = if existsb is_msg later then cut_point (l ++ later) a else cut_point l a.
Proof.
  intros _ Ea. rewrite existsb_filter_keep, cut_scan_anchor in Ea
    by (intros f A; apply mr_keep_msg; unfold is_anchor in A; now destruct (is_msg f)).
  unfold tail_cut, cut_point. rewrite cut_scan_filter, cut_scan_app by exact mr_keep_msg. revert Ea.
  (* only an anchor without a next message in l looks further: at the appended frames, else at the head it was given *)
  destruct (cut_scan a l) as [[m [n|]]|]; [| |discriminate]; intros _; cbn [fst snd option_map].
  - now destruct (existsb is_msg later).
  - rewrite first_msg_exists. now destruct (first_msg_seq later).
Qed.

(* ... and decision and bundle, when none of the appended frames is a checkpoint (a checkpoint appended in between is
   found by the lookups that run afterwards: the S9 shape, open) *)
Theorem span_compile_linearizes P texts l later a from :
  valid_log (l ++ later) = true -> wf_refs (l ++ later) = true -> l <> [] ->
  forallb (fun f => negb (is_ckpt f)) later = true ->
  existsb (is_anchor a) (filter mr_keep l) = true ->
  tail_cut (filter mr_keep (l ++ later)) (head_seq l) a = Some from ->
  Some (compile_with P texts (filter mr_keep (l ++ later)) (filter is_ckpt (l ++ later)) from a)
  = if existsb is_msg later then compile P texts (l ++ later) a else compile P texts l a.
Proof.
  intros V W Ne Nc Ea Tc. pose proof (valid_incr _ V) as S.
  destruct (incr_app_inv _ _ S) as (Sl & _ & Lt).
  pose proof (span_cut_linearizes l later a S Ea) as R. rewrite Tc in R.
  destruct (existsb is_msg later); [apply projection_agrees; [exact S | exact W | now symmetry]|].
  (* the cut is the cut of l; the appended frames lie beyond it and none is a checkpoint *)
  rewrite <- (projection_agrees P texts l a from Sl (wf_refs_app_l _ _ W) (eq_sym R)). f_equal.
  rewrite (filter_app is_ckpt), (filter_none is_ckpt later), app_nil_r.
  - rewrite <- compile_with_evs_upto, <- (compile_with_evs_upto P texts (filter mr_keep l)) by (apply incr_filter; assumption).
    f_equal. rewrite filter_app, upto_app, (upto_all_above from (filter mr_keep later)); [apply app_nil_r|].
    pose proof (cut_point_le_head l a from Sl (eq_sym R)) as Hf. destruct (head_seq_in l Ne) as (hf & Ih & Eh).
    apply Forall_forall. intros g G. apply filter_In in G. specialize (Lt hf g Ih (proj1 G)). lia.
  - intros f F. rewrite forallb_forall in Nc. specialize (Nc f F). now destruct (is_ckpt f).
Qed.

Lemma span_example :
  valid_log (race_log ++ [mkf 3 (BRunEnded 0 2); mkf 4 BOther]) = true
  /\ tail_cut (filter mr_keep (race_log ++ [mkf 3 (BRunEnded 0 2); mkf 4 BOther])) (head_seq race_log) 2 = Some 2
  /\ tail_cut (filter mr_keep (race_log ++ [mkf 3 BOther; mkf 4 BMsg])) (head_seq race_log) 2 = Some 3
  /\ cut_point (race_log ++ [mkf 3 BOther; mkf 4 BMsg]) 2 = Some 3.
Proof. conjs; vm_compute; reflexivity. Qed.

(* S25: a checkpoint frame in flight.  The head is the checkpoint frame (it is not in the mr projection); the repaired
   lookups notice that the checkpoint caches do not hold it yet and answer from the stream: the thread after the append *)
Theorem racing_checkpoint_linearizes P texts l f a from :
  valid_log (l ++ [f]) = true -> wf_refs (l ++ [f]) = true -> is_ckpt f = true ->
  tail_cut (filter mr_keep l) (head_seen true (l ++ [f]) (filter mr_keep l)) a = Some from ->
  Some (compile_with P texts (filter mr_keep l) (ckpts_seen true (l ++ [f]) (filter is_ckpt l)) from a)
  = compile P texts (l ++ [f]) a.
Proof.
  intros V W Ck Tc. pose proof (valid_incr _ V) as S.
  pose proof (tail_cut_anchor _ _ _ _ Tc) as Ea.
  assert (Ne : l <> []) by (intros ->; discriminate Ea).
  assert (Kf : mr_keep f = false).
  { unfold mr_keep, is_msg, is_run_ended. unfold is_ckpt in Ck. destruct (fb f); try discriminate; reflexivity. }
  destruct (racing_append_linearizes l f a V Ne Ea) as [R _]. rewrite Tc, Kf in R.
  unfold ckpts_seen. rewrite last_frame_app, Ck, (last_filter_before is_ckpt l f S). cbn [andb].
  rewrite <- (filter_snoc_false mr_keep l f Kf). apply projection_agrees; [exact S | exact W | now symmetry].
Qed.

(* before that fix: cut = the checkpoint frame, checkpoints = those of the thread before it: neither state of the thread *)
Definition race_ckpt : frame := mkf 3 (BCkpt true 1 0).
Lemma racing_checkpoint_unfixed_refuted :
  valid_log (race_log ++ [race_ckpt]) = true /\ wf_refs (race_log ++ [race_ckpt]) = true
  /\ tail_cut (filter mr_keep race_log) (head_seen true (race_log ++ [race_ckpt]) (filter mr_keep race_log)) 2 = Some 3
  /\ Some (compile_with unfixed_params no_texts (filter mr_keep race_log) (ckpts_seen false (race_log ++ [race_ckpt]) (filter is_ckpt race_log)) 3 2)
     <> compile unfixed_params no_texts race_log 2
  /\ Some (compile_with unfixed_params no_texts (filter mr_keep race_log) (ckpts_seen false (race_log ++ [race_ckpt]) (filter is_ckpt race_log)) 3 2)
     <> compile unfixed_params no_texts (race_log ++ [race_ckpt]) 2
  /\ option_map (fun r => b_items (snd r)) (compile unfixed_params no_texts (race_log ++ [race_ckpt]) 2) = Some [ISummary 0 1; IUser 2].
Proof. conjs; try (vm_compute; reflexivity); vm_compute; discriminate. Qed.

(* the code before the fix is the `fixed = false` head: racing_cut_refuted in terms of head_seen *)
Lemma racing_cut_unfixed_refuted :
  valid_log (race_log ++ [race_frame]) = true /\ race_log <> []
  /\ existsb (is_anchor 2) (filter mr_keep race_log) = true
  /\ tail_cut (filter mr_keep race_log) (head_seen false (race_log ++ [race_frame]) (filter mr_keep race_log)) 2 = Some 3
  /\ cut_point race_log 2 = Some 2 /\ cut_point (race_log ++ [race_frame]) 2 = Some 2
  /\ tail_cut (filter mr_keep race_log) (head_seen true (race_log ++ [race_frame]) (filter mr_keep race_log)) 2 = Some 2.
Proof. conjs; try (vm_compute; reflexivity). discriminate. Qed.

(* the checkpoints of a thread, in stream order *)
Definition ckpts (l : log) : list ckpt :=
  flat_map (fun f => match ckpt_of f with Some c => [c] | None => [] end) l.
(* the checkpoints a compile for `from` may use: visible, cumulative *)
Definition elig (fixed : bool) (from : N) (l : log) : list ckpt :=
  filter (fun c => eligible fixed from c && ck_cum c) (ckpts l).

(* The invariant of latest_by_to_seq (unique_of).  asc: strictly ascending by to_seq.  rep u e: e is represented in u by an
   entry with the same to_seq and a frame at least as late.  covers u S: every checkpoint of S is. *)
Fixpoint asc (u : list ckpt) : Prop :=
  match u with [] => True | d :: r => Forall (fun e => ck_to d < ck_to e) r /\ asc r end.
Definition rep (u : list ckpt) (e : ckpt) : Prop := exists d, In d u /\ ck_to d = ck_to e /\ ck_seq e <= ck_seq d.
Definition covers (u S : list ckpt) : Prop := forall e, In e S -> rep u e.

Lemma rep_self u d : In d u -> rep u d.
Proof. intros H. exists d. repeat split; [exact H|lia]. Qed.

Lemma ins_spec c u : asc u -> asc (ins c u) /\ incl (ins c u) (c :: u) /\ covers (ins c u) (c :: u).
Proof.
  induction u as [|x r IH]; cbn [ins asc].
  - intros _. repeat split; [constructor | apply incl_refl | intros e; apply rep_self].
  - intros [F A]. destruct (ck_to c <? ck_to x) eqn:L; [|destruct (ck_to c =? ck_to x) eqn:T].
    + apply N.ltb_lt in L. repeat split; [|exact F|exact A|apply incl_refl|intros e; apply rep_self].
      constructor; [exact L|]. eapply Forall_impl; [|exact F]. intros e G. exact (N.lt_trans _ _ _ L G).
    + (* the same to_seq: the later frame stays *)
      apply N.eqb_eq in T. destruct (ck_seq c <=? ck_seq x) eqn:Sq; (split; [|split]).
      * exact (conj F A).
      * apply incl_tl, incl_refl.
      * apply N.leb_le in Sq. intros e [<-|Ie]; [exists x; repeat split; [now left|now symmetry|exact Sq] | now apply rep_self].
      * cbn [asc]. rewrite T. exact (conj F A).
      * intros d [<-|D]; [now left | right; now right].
      * apply N.leb_gt, N.lt_le_incl in Sq.
        intros e [<-|[<-|Ie]]; [apply rep_self; now left | exists c; repeat split; [now left|exact T|exact Sq] | apply rep_self; now right].
    + assert (Lt : ck_to x < ck_to c) by lia.
      destruct (IH A) as (A' & I' & C'). split; [|split].
      * split; [|exact A']. apply Forall_forall. intros d D. destruct (I' d D) as [<-|D']; [exact Lt|].
        rewrite Forall_forall in F. auto.
      * intros d [<-|D]; [right; now left|]. destruct (I' d D) as [<-|D']; [now left | right; now right].
      * intros e Ie. assert (R : e = x \/ In e (c :: r)) by (destruct Ie as [<-|[<-|Ie]]; auto using in_eq, in_cons).
        destruct R as [->|R]; [apply rep_self; now left|].
        destruct (C' e R) as (d & D & Hd). exists d. split; [now right | exact Hd].
Qed.

(* unique_of is a fold_left, so the thread is taken apart at its end: one more frame is one more insertion *)
Lemma unique_of_inv fixed from l :
  asc (unique_of fixed from l) /\ incl (unique_of fixed from l) (elig fixed from l)
  /\ covers (unique_of fixed from l) (elig fixed from l).
Proof.
  induction l as [|f l (A & I & C)] using rev_ind; [repeat split; intros x []|].
  unfold unique_of, elig, ckpts in *. rewrite fold_left_app, flat_map_app, filter_app. cbn [fold_left flat_map].
  unfold unique_step. destruct (ckpt_of f) as [c|]; cbn [app filter]; [|now rewrite app_nil_r].
  destruct (eligible fixed from c && ck_cum c); [|now rewrite app_nil_r].
  set (U := fold_left _ l []) in *. set (E := filter _ _) in *.
  destruct (ins_spec c U A) as (A' & I' & C'). split; [exact A'|split].
  - intros d D. apply in_or_app. destruct (I' d D) as [<-|D']; [right; now left | left; auto].
  - intros e Ie. apply in_app_or in Ie. destruct Ie as [Ie|[<-|[]]]; [|apply C'; now left].
    destruct (C e Ie) as (d & D & T & S). destruct (C' d (or_intror D)) as (d' & D' & T' & S').
    exists d'. split; [exact D'|]. split; [now rewrite T' | exact (N.le_trans _ _ _ S S')].
Qed.

Lemma find_le_acc t : forall u best,
  find_le t u best = match find_le t u None with Some c => Some c | None => best end.
Proof.
  induction u as [|x r IH]; intros best; [reflexivity|]. cbn [find_le].
  destruct (ck_to x <=? t); [|reflexivity]. rewrite (IH (Some x)). now destruct (find_le t r None).
Qed.

Lemma find_le_spec t u : asc u ->
  match find_le t u None with
  | Some c => In c u /\ ck_to c <= t /\ (forall d, In d u -> ck_to d <= t -> ck_to d <= ck_to c)
  | None => forall d, In d u -> t < ck_to d
  end.
Proof.
  induction u as [|x r IH]; [intros _ d []|]. intros [F A]. rewrite Forall_forall in F. cbn [find_le].
  destruct (ck_to x <=? t) eqn:L.
  - apply N.leb_le in L. rewrite find_le_acc. specialize (IH A). destruct (find_le t r None) as [c|].
    + destruct IH as (Ic & Lc & Mx). split; [now right|]. split; [exact Lc|].
      intros d [<-|D] Ld; [apply N.lt_le_incl, F, Ic | exact (Mx d D Ld)].
    + split; [now left|]. split; [exact L|]. intros d [<-|D] Ld; [apply N.le_refl|].
      destruct (proj1 (N.lt_nge _ _) (IH d D) Ld).
  - apply N.leb_gt in L. intros d [<-|D]; [exact L | exact (N.lt_trans _ _ _ L (F d D))].
Qed.

Lemma asc_inj u : asc u -> forall a b, In a u -> In b u -> ck_to a = ck_to b -> a = b.
Proof.
  induction u as [|x r IH]; [intros _ a b []|]. intros [F A] a b [<-|Ia] [<-|Ib] E; auto.
  - rewrite Forall_forall in F. specialize (F b Ib). lia.
  - rewrite Forall_forall in F. specialize (F a Ia). lia.
Qed.

Lemma asc_app_inv a b : asc (a ++ b) -> asc a /\ asc b /\ forall x y, In x a -> In y b -> ck_to x < ck_to y.
Proof.
  induction a as [|f a IH]; cbn [app asc].
  - intros H. repeat split; auto. intros x y [].
  - intros [F S]. destruct (IH S) as (Ia & Ib & L). rewrite Forall_app in F. destruct F as [Fa Fb].
    repeat split; auto. intros x y [<-|X] Y; [|auto]. rewrite Forall_forall in Fb. auto.
Qed.

Lemma asc_last_max u x r : asc u -> rev u = x :: r -> In x u /\ forall d, In d u -> ck_to d <= ck_to x.
Proof.
  intros A R. assert (U : u = rev r ++ [x]) by (rewrite <- (rev_involutive u), R; reflexivity).
  subst u. split; [apply in_or_app; right; now left|].
  destruct (asc_app_inv _ _ A) as (_ & _ & L). intros d D. apply in_app_or in D.
  destruct D as [D|[<-|[]]]; [|lia]. specialize (L d x D (or_introl eq_refl)). lia.
Qed.

(* the largest entry of the list at or below t is, among all checkpoints seen, one with the largest to_seq at or
   below t and of these the latest frame *)
Lemma best_transfer U E t d : asc U -> covers U E -> In d U ->
  (forall x, In x U -> ck_to x <= t -> ck_to x <= ck_to d) ->
  forall e, In e E -> ck_to e <= t -> ck_to e <= ck_to d /\ (ck_to e = ck_to d -> ck_seq e <= ck_seq d).
Proof.
  intros A C Id Mx e Ie Le. destruct (C e Ie) as (x & Ix & T & S). specialize (Mx x Ix). split; [lia|].
  intros Eq. assert (x = d) by (apply (asc_inj U A); auto; lia). subst x. exact S.
Qed.

(* The halving ladder below `hi`, top down: each entry is an eligible checkpoint with the largest to_seq at or below half
   of the previous one (of `hi` for the first), and among those the latest frame. *)
Fixpoint ladderE (E : list ckpt) (hi : N) (l : list ckpt) : Prop :=
  match l with
  | [] => True
  | lo :: r =>
    In lo E /\ ck_to lo <= hi / 2
    /\ (forall e, In e E -> ck_to e <= hi / 2 ->
          ck_to e <= ck_to lo /\ (ck_to e = ck_to lo -> ck_seq e <= ck_seq lo))
    /\ ladderE E (ck_to lo) r
  end.

Lemma ladderE_incl E : forall l hi, ladderE E hi l -> incl l E.
Proof.
  induction l as [|x r IH]; intros hi; [intros _ c []|]. cbn [ladderE].
  intros (Ix & _ & _ & Rest) c [<-|Hc]; [exact Ix | exact (IH _ Rest c Hc)].
Qed.

Lemma half_bounds cur : 1 < cur -> 0 < cur / 2 < cur.
Proof. intros H. split; [apply N.div_str_pos | apply N.div_lt]; lia. Qed.

(* the loop yields a ladder of at most `fuel` entries and stops early only when there is nothing at or below half of the
   last to_seq (or it is <= 1) *)
Lemma halve_spec U E : asc U -> incl U E -> covers U E -> forall k cur,
  ladderE E cur (halve U cur k) /\ (length (halve U cur k) <= k)%nat
  /\ ((length (halve U cur k) < k)%nat ->
      let final := last (map ck_to (halve U cur k)) cur in
      final <= 1 \/ forall e, In e E -> final / 2 < ck_to e).
Proof.
  intros A I C. induction k as [|k IH]; intros cur.
  { split; [exact Logic.I|]. split; [apply Nat.le_refl|]. intros H. inversion H. }
  cbn [halve]. destruct (cur <=? 1) eqn:C1.
  { apply N.leb_le in C1. split; [exact Logic.I|]. split; [apply Nat.le_0_l|]. intros _. now left. }
  apply N.leb_gt, half_bounds in C1. destruct C1 as [Pos Lt]. cbv zeta.
  destruct (cur / 2 =? 0) eqn:T0; [apply N.eqb_eq in T0; rewrite T0 in Pos; now apply N.lt_irrefl in Pos|].
  pose proof (find_le_spec (cur / 2) U A) as Sp.
  destruct (find_le (cur / 2) U None) as [c|].
  - destruct Sp as (Hin & Lc & Mx).
    destruct (cur <=? ck_to c) eqn:Cc.
    { apply N.leb_le in Cc. now apply (N.le_trans _ _ _ Cc), N.le_ngt in Lc. }
    destruct (IH (ck_to c)) as (Ld & Ln & Fin). cbn [ladderE length map]. rewrite last_cons.
    split; [|split; [apply le_n_S, Ln | intros Hl; apply Fin, Nat.succ_lt_mono, Hl]].
    pose proof (best_transfer U E (cur / 2) c A C Hin Mx) as Bt.
    split; [apply I, Hin | split; [exact Lc | split; [exact Bt | exact Ld]]].
  - split; [exact Logic.I|]. split; [apply Nat.le_0_l|]. intros _. right. intros e Ie.
    destruct (C e Ie) as (x & Ix & T & _). rewrite <- T. apply Sp, Ix.
Qed.

(* hierarchy against the eligible checkpoints E, in this order: at most n are selected; all of them are eligible; none is
   selected only if n = 0 or none is eligible; the last selected one has the largest to_seq of E (latest frame on a tie),
   the others form the halving ladder below it, and fewer than n are selected only when nothing eligible lies at or
   below half of the lowest one (or that is <= 1). *)
Theorem hierarchy_spec fixed from n l :
  let E := elig fixed from l in
  let H := hierarchy fixed from n l in
  (length H <= n)%nat
  /\ incl H E
  /\ (H = [] <-> (n = O \/ E = []))
  /\ (forall latest rest, rev H = latest :: rest ->
        (forall e, In e E -> ck_to e <= ck_to latest /\ (ck_to e = ck_to latest -> ck_seq e <= ck_seq latest))
        /\ ladderE E (ck_to latest) rest
        /\ ((length H < n)%nat ->
             let final := last (map ck_to rest) (ck_to latest) in
             final <= 1 \/ forall e, In e E -> final / 2 < ck_to e)).
Proof.
  cbv zeta. destruct (unique_of_inv fixed from l) as (A & I & C). unfold hierarchy.
  set (U := unique_of fixed from l) in *. set (E := elig fixed from l) in *.
  destruct n as [|k].
  { split; [apply Nat.le_0_l|]. split; [intros x []|]. split; [split; auto|]. intros ? ? H. discriminate H. }
  destruct (rev U) as [|latest tl] eqn:R.
  { assert (U = []) by (rewrite <- (rev_involutive U), R; reflexivity).
    assert (EE : E = []).
    { destruct E as [|e E'] eqn:Ee; [reflexivity|]. destruct (C e (or_introl eq_refl)) as (d & Id & _). rewrite H in Id. destruct Id. }
    split; [apply Nat.le_0_l|]. split; [intros x []|]. split; [split; auto|]. intros ? ? H0. discriminate H0. }
  destruct (asc_last_max U latest tl A R) as [Il Mx].
  destruct (halve_spec U E A I C k (ck_to latest)) as (Ld & Ln & Fin).
  rewrite rev_length. cbn [length]. split; [apply le_n_S, Ln|]. split; [|split].
  - intros c Hc. apply in_rev in Hc. destruct Hc as [<-|Hc]; [auto | exact (ladderE_incl E _ _ Ld c Hc)].
  - split.
    + intros H. apply (f_equal (@length ckpt)) in H. rewrite rev_length in H. discriminate H.
    + intros [H|H]; [discriminate|]. specialize (I latest Il). rewrite H in I. destruct I.
  - intros latest' rest H. rewrite rev_involutive in H. inversion H; subst latest' rest. clear H.
    split; [|split; [exact Ld | intros Hl; apply Fin, Nat.succ_lt_mono, Hl]].
    intros e Ie. destruct (C e Ie) as (x & Ix & T & _).
    apply (best_transfer U E (ck_to latest) latest A C Il); [intros y Iy _; apply Mx, Iy | exact Ie | rewrite <- T; apply Mx, Ix].
Qed.

Lemma latest_any_in fixed from l : forall best c,
  fold_left (latest_step fixed from) l best = Some c ->
  best = Some c \/ (In c (ckpts l) /\ eligible fixed from c = true).
Proof.
  induction l as [|f r IH]; intros best c H; [left; exact H|].
  cbn [fold_left] in H. apply IH in H.
  unfold ckpts. cbn [flat_map]. fold (ckpts r).
  destruct H as [H|[H E]]; [|right; split; [apply in_or_app; now right|exact E]].
  unfold latest_step in H. destruct (ckpt_of f) as [k|]; [|now left].
  destruct (eligible fixed from k) eqn:El; [|now left].
  assert (K : best = Some c \/ k = c).
  { destruct best as [b|]; [destruct (ck_to b <=? ck_to k)|]; inversion H; auto. }
  destruct K as [K| <-]; [now left | right; split; [now left|exact El]].
Qed.

(* the cause "no_supported_compaction_checkpoint" cannot occur: when no cumulative checkpoint is visible, the latest
   visible checkpoint (if any) is of another kind *)
Theorem no_supported_cause_unreachable P texts evs l from a :
  p_max_refs P <> O -> d_cause (fst (compile_with P texts evs l from a)) <> 1.
Proof.
  intros Hn. unfold compile_with.
  destruct (hierarchy_spec (p_fixed P) from (p_max_refs P) l) as (_ & _ & Emp & _). cbv zeta in Emp.
  destruct (hierarchy (p_fixed P) from (p_max_refs P) l) as [|c [|c2 r]] eqn:Hh; cbn [fst d_cause]; try discriminate.
  destruct (proj1 Emp eq_refl) as [H0|HE]; [contradiction|].
  destruct (latest_any (p_fixed P) from l) as [k|] eqn:La; cbn [fst]; [|discriminate].
  destruct (ck_cum k) eqn:Ck; cbn [fst]; [|discriminate]. exfalso.
  apply latest_any_in in La. destruct La as [La|[Ik Ek]]; [discriminate|].
  assert (In k (elig (p_fixed P) from l)).
  { unfold elig. apply filter_In. split; [exact Ik|]. now rewrite Ek, Ck. }
  rewrite HE in H. destruct H.
Qed.

(* a thread whose visible checkpoints have to_seq 1, 3, 7, 20, 41 (41 twice): the ladder for cut 60 is 41 (the later
   frame), 20, 7 — three levels, 3 and 1 not reached *)
Definition hier_log : log :=
  ex_log ++ [mkf 61 (BCkpt true 1 0); mkf 62 (BCkpt true 41 1); mkf 63 (BCkpt true 7 2); mkf 64 (BCkpt true 20 3);
             mkf 65 (BCkpt true 41 4); mkf 66 (BCkpt true 3 5); mkf 67 (BCkpt false 55 6)].
Lemma hierarchy_example :
  map ck_seq (hierarchy false 60 3 hier_log) = [63; 64; 65]
  /\ map ck_to (hierarchy false 60 3 hier_log) = [7; 20; 41]
  /\ hierarchy true 60 3 hier_log = []
  /\ map ck_to (hierarchy false 60 2 hier_log) = [20; 41]
  /\ map ck_to (hierarchy false 6 3 hier_log) = [1; 3].
Proof. conjs; vm_compute; reflexivity. Qed.

Fixpoint plain_msgs (n : nat) (s : N) : log :=
  match n with O => [] | S k => mkf s BMsg :: plain_msgs k (s + 1) end.
Definition users (o : option (decision * bundle)) : list N :=
  match o with
  | Some (_, b) => flat_map (fun i => match i with IUser s => [s] | _ => [] end) (b_items b)
  | None => []
  end.
(* the limits of the code with its visibility rule: the same record as unfixed_params *)
Definition code16 : params := {| p_limit := 16; p_max_refs := 3; p_fixed := false |}.
Lemma boundary_examples :
  (* exactly `limit` messages: all of them; one more: the oldest is dropped *)
  users (compile code16 no_texts (mkf 0 BOther :: plain_msgs 16 1) 16) = map N.of_nat (seq 1 16)
  /\ users (compile code16 no_texts (mkf 0 BOther :: plain_msgs 17 1) 17) = map N.of_nat (seq 2 16)
  (* anchor = head: the cut is the head; anchor followed by non-message frames only: still the head *)
  /\ option_map (fun r => b_from (snd r)) (compile code16 no_texts (mkf 0 BOther :: plain_msgs 3 1) 3) = Some 3
  /\ option_map (fun r => b_from (snd r)) (compile code16 no_texts (mkf 0 BOther :: plain_msgs 3 1 ++ [mkf 4 BOther; mkf 5 BOther]) 3) = Some 5
  (* mid-thread anchor: the cut is the frame before the next message *)
  /\ option_map (fun r => b_from (snd r)) (compile code16 no_texts (mkf 0 BOther :: plain_msgs 2 1 ++ [mkf 3 BOther; mkf 4 BMsg]) 2) = Some 3
  (* a checkpoint whose to_seq is the anchor itself: the bundle holds the summary ref and no message *)
  /\ option_map (fun r => b_items (snd r)) (compile code16 no_texts (mkf 0 BOther :: plain_msgs 2 1 ++ [mkf 3 (BCkpt true 2 7)]) 2)
     = Some [ISummary 7 2]
  (* to_seq tie: the later frame's artifact is referenced *)
  /\ option_map (fun r => b_items (snd r)) (compile code16 no_texts (mkf 0 BOther :: plain_msgs 2 1 ++ [mkf 3 (BCkpt true 1 7); mkf 4 (BCkpt true 1 8)]) 2)
     = Some [ISummary 8 1; IUser 2]
  (* halving thresholds: latest to_seq 1 -> no second level; latest 2 -> threshold 1; latest 3 -> threshold 1 *)
  /\ map ck_to (hierarchy false 9 3 [mkf 5 (BCkpt true 1 0)]) = [1]
  /\ map ck_to (hierarchy false 9 3 [mkf 5 (BCkpt true 1 0); mkf 6 (BCkpt true 2 1)]) = [1; 2]
  /\ map ck_to (hierarchy false 9 3 [mkf 5 (BCkpt true 1 0); mkf 6 (BCkpt true 3 1); mkf 7 (BCkpt true 2 2)]) = [1; 3]
  /\ map ck_to (hierarchy false 9 3 [mkf 5 (BCkpt true 0 0); mkf 6 (BCkpt true 1 1)]) = [1]
  (* unknown anchor / anchor that is not a message / empty thread: no bundle *)
  /\ compile code16 no_texts (mkf 0 BOther :: plain_msgs 2 1) 9 = None
  /\ compile code16 no_texts (mkf 0 BOther :: plain_msgs 2 1) 0 = None
  /\ compile code16 no_texts [] 0 = None.
Proof. conjs; vm_compute; reflexivity. Qed.

(* any counting rule the acceptance test may use, as long as it is the sound one (messages at or before the cut) *)
Theorem tail_path_rule_agrees r P texts k l a evs from :
  tail_count_sound r = true ->
  incr l -> wf_refs l = true ->
  tail_path_with r (p_limit P) k l a = Some (evs, from) ->
  Some (compile_with P texts evs (filter is_ckpt l) from a) = compile P texts l a.
Proof.
  intros R S W H. destruct r; [|discriminate R]. clear R.
  unfold tail_path_with, tail_message_count in H. cbv zeta in H.
  destruct (tail_cut (mr_tail k l) (head_seq l) a) as [fr|] eqn:Tc; [|discriminate].
  destruct (mr_tail_complete k l || (p_limit P <=? count_msgs_upto fr (mr_tail k l))%nat) eqn:Acc; [|discriminate].
  inversion H; subst evs from. clear H.
  destruct (lastn_suffix k (filter mr_keep l)) as (pre & Hs & Hc).
  apply (tail_input_agrees P texts mr_keep l pre _ a fr S W (fun f H => H) Hs Tc).
  apply orb_true_iff in Acc. destruct Acc as [Cm|Ct]; [left | right; now apply Nat.leb_le].
  apply Hc, Nat.leb_le, Cm.
Qed.

Theorem tail_path_agrees P texts k l a evs from :
  incr l -> wf_refs l = true ->
  tail_path (p_limit P) k l a = Some (evs, from) ->
  Some (compile_with P texts evs (filter is_ckpt l) from a) = compile P texts l a.
Proof. exact (tail_path_rule_agrees CountUpToCut P texts k l a evs from eq_refl). Qed.

(* counting every message of the scanned tail (also those after the cut) is unsound: 40 messages, a tail of the newest
   20 frames, the anchor the 5th message of that tail: accepted (20 >= 16), and the bundle holds 5 messages where the
   full replay gives 16.  (This is the acceptance test with `message_events.len()` in place of the count up to the cut.) *)
Definition count_all_log : log := mkf 0 BOther :: plain_msgs 40 1.
Definition count_all_tail : log := plain_msgs 20 21.
Lemma tail_count_all_refuted :
  valid_log count_all_log = true /\ wf_refs count_all_log = true
  /\ tail_path_with CountAll 16 20 count_all_log 25 = Some (count_all_tail, 25)
  /\ tail_path_with CountUpToCut 16 20 count_all_log 25 = None
  /\ users (Some (compile_with code16 no_texts count_all_tail (filter is_ckpt count_all_log) 25 25)) = [21; 22; 23; 24; 25]
  /\ users (compile code16 no_texts count_all_log 25) = map N.of_nat (seq 10 16)
  /\ Some (compile_with code16 no_texts count_all_tail (filter is_ckpt count_all_log) 25 25) <> compile code16 no_texts count_all_log 25.
Proof. conjs; try (vm_compute; reflexivity). vm_compute. discriminate. Qed.

(* the window loop keeps a prefix (in scan order) of the frames at or before the cut, all of them or up to the
   limit-th message *)
Lemma window_rev_spec from limit : forall rl found acc,
  exists taken rest,
    filter (fun f => fseq f <=? from) rl = taken ++ rest
    /\ window_rev from rl limit found acc = rev taken ++ acc
    /\ (rest = [] \/ (limit <= found + length (filter is_msg taken))%nat).
Proof.
  induction rl as [|f r IH]; intros found acc.
  - exists [], []. split; [reflexivity|split; [reflexivity|now left]].
  - cbn [window_rev filter]. rewrite (N.ltb_antisym (fseq f) from). destruct (fseq f <=? from); cbn [negb].
    + destruct (is_msg f) eqn:M.
      * destruct (limit <=? S found)%nat eqn:L.
        -- exists [f], (filter (fun g => fseq g <=? from) r). split; [reflexivity|split; [reflexivity|]].
           right. cbn [filter length]. rewrite M. cbn [length]. apply Nat.leb_le in L. now rewrite Nat.add_1_r.
        -- destruct (IH (S found) (f :: acc)) as (tk & rs & E & Wn & Ct).
           exists (f :: tk), rs. split; [|split].
           ++ cbn [app]. now rewrite E.
           ++ rewrite Wn. cbn [rev]. now rewrite <- app_assoc.
           ++ destruct Ct as [Ct|Ct]; [now left|right]. cbn [filter]. rewrite M. cbn [length]. now rewrite <- plus_n_Sm.
      * destruct (IH found (f :: acc)) as (tk & rs & E & Wn & Ct).
        exists (f :: tk), rs. split; [|split].
        -- cbn [app]. now rewrite E.
        -- rewrite Wn. cbn [rev]. now rewrite <- app_assoc.
        -- destruct Ct as [Ct|Ct]; [now left|right]. cbn [filter]. rewrite M. exact Ct.
    + apply IH.
Qed.

Lemma count_msgs_upto_all from x :
  (forall f, In f x -> fseq f <=? from = true) -> count_msgs_upto from x = length (filter is_msg x).
Proof.
  intros H. unfold count_msgs_upto. f_equal. apply filter_ext_in. intros f F. now rewrite (H f F).
Qed.

Lemma filter_is_msg_rev (x : log) : length (filter is_msg (rev x)) = length (filter is_msg x).
Proof. now rewrite filter_rev, rev_length. Qed.

(* the mr seek window is a suffix of the projection of the thread up to the cut: all of it, or from the limit-th message *)
Lemma mr_window_admissible limit l from : admissible_input mr_keep limit l from (mr_window limit l from).
Proof.
  split; [auto|]. unfold mr_window.
  destruct (window_rev_spec from limit (rev (filter mr_keep l)) 0 []) as (tk & rs & E & Wn & Ct).
  rewrite Wn, app_nil_r. exists (upto from l), (rev rs). repeat split; [now right| |].
  - rewrite <- rev_app_distr, <- E, filter_rev, rev_involutive. unfold upto.
    rewrite !filter_filter_and. apply filter_ext. intros f. apply andb_comm.
  - destruct Ct as [->|Ct]; [now left|right].
    rewrite count_msgs_upto_all, filter_is_msg_rev; [exact Ct|].
    intros f F. apply in_rev in F.
    assert (In f (filter (fun g => fseq g <=? from) (rev (filter mr_keep l)))) by (rewrite E; apply in_or_app; now left).
    apply filter_In in H. tauto.
Qed.

Theorem window_path_agrees P texts l a from :
  incr l -> wf_refs l = true -> cut_point l a = Some from ->
  Some (compile_with P texts (mr_window (p_limit P) l from) (filter is_ckpt l) from a) = compile P texts l a.
Proof.
  intros S W C. exact (all_paths_agree P texts mr_keep l a from _ S W C (mr_window_admissible (p_limit P) l from)).
Qed.

(* S26, before the fix: a window cut short at the scan bound drops messages the full replay selects *)
Lemma window_cap_refuted :
  valid_log count_all_log = true /\ wf_refs count_all_log = true /\ cut_point count_all_log 40 = Some 40
  /\ users (Some (compile_with code16 no_texts (mr_window_capped 16 12 count_all_log 40) (filter is_ckpt count_all_log) 40 40))
     = map N.of_nat (seq 29 12)
  /\ users (compile code16 no_texts count_all_log 40) = map N.of_nat (seq 25 16)
  /\ mr_window_capped 16 16 count_all_log 40 = mr_window 16 count_all_log 40.
Proof. conjs; vm_compute; reflexivity. Qed.

(* both producers on the example thread: the 17-message tail is accepted, a 10-frame tail is not; the window holds
   exactly 16 messages *)
Lemma producers_example :
  option_map snd (tail_path 16 34 ex_log 58) = Some 60
  /\ tail_path 16 10 ex_log 58 = None
  /\ count_msgs_upto 60 (mr_window 16 ex_log 60) = 16%nat
  /\ (length (mr_window 16 ex_log 60) < length (filter mr_keep ex_log))%nat.
Proof. conjs; vm_compute; try reflexivity. lia. Qed.
