(* Proofs about Model/LogFile.v: opening and reading are the identity on the bytes of the truth log for EVERY
   file content; every history of opens, reads, torn writes and appends keeps every earlier content as an
   exact prefix; what the next append does after a torn tail; an open that cuts an unterminated tail off (OCutTail, trial patch C02-10) refuted. *)
From RipV Require Import Base.Prelude Model.Frames Model.Log Model.LogBytes Model.LogFile
  Proofs.LogProofs Proofs.LogBytesProofs Proofs.SidecarInvProofs.

Lemma open_keep_id : forall b, open_file OKeep b = b.
Proof. reflexivity. Qed.

Lemma is_prefix_refl b : is_prefix_of b b.
Proof. exists []. rewrite app_nil_r. reflexivity. Qed.

Lemma is_prefix_trans a b c : is_prefix_of a b -> is_prefix_of b c -> is_prefix_of a c.
Proof. intros [t ->] [u ->]. exists (t ++ u). rewrite app_assoc. reflexivity. Qed.

Lemma is_prefix_len a b : is_prefix_of a b -> (length a <= length b)%nat.
Proof. intros [t ->]. rewrite app_length. lia. Qed.

Lemma fstep_keep_prefix b o : is_prefix_of b (fstep OKeep b o).
Proof.
  destruct o as [| |line|d]; cbn [fstep open_file].
  - apply is_prefix_refl.
  - apply is_prefix_refl.
  - exists line. reflexivity.
  - exists d. reflexivity.
Qed.

Lemma ffinal_app p ops1 : forall b ops2, ffinal p b (ops1 ++ ops2) = ffinal p (ffinal p b ops1) ops2.
Proof. intros b ops2. unfold ffinal. apply fold_left_app. Qed.

(* the append-only statement across process lifetimes: whatever the file held at the start (nothing, whole
   lines, a torn tail, garbage), after ANY history of opens / reads / torn writes / appends, the content at
   every earlier moment is an exact prefix of the content at every later moment *)
Lemma history_prefix (b : bytes) (ops1 ops2 : list fop) :
  is_prefix_of (ffinal OKeep b ops1) (ffinal OKeep b (ops1 ++ ops2)).
Proof. exact (fold_left_history (fun b => b) (fstep OKeep) fstep_keep_prefix ops1 ops2 b). Qed.

(* the same about the trace: the i-th content is a prefix of the j-th for i <= j *)
Lemma ftrace_nth p ops : forall b i x,
  nth_error (ftrace p b ops) i = Some x -> x = ffinal p b (firstn (S i) ops).
Proof.
  induction ops as [|o r IH]; intros b [|i] x H; cbn [ftrace nth_error] in H; try discriminate.
  - inversion H. reflexivity.
  - apply (IH _ _ _ H).
Qed.

Lemma trace_prefix (b : bytes) (ops : list fop) (i j : nat) (x y : bytes) :
  (i <= j)%nat -> nth_error (ftrace OKeep b ops) i = Some x -> nth_error (ftrace OKeep b ops) j = Some y ->
  is_prefix_of x y.
Proof.
  intros Hij Hx Hy. apply ftrace_nth in Hx, Hy. subst x y.
  replace (firstn (S j) ops) with (firstn (S i) ops ++ skipn (S i) (firstn (S j) ops)); [apply history_prefix|].
  rewrite <- (firstn_skipn (S i) (firstn (S j) ops)) at 2. f_equal.
  rewrite firstn_firstn. f_equal. lia.
Qed.

(* opening and reading, any number of times, in any order: the same bytes *)
Definition opens_or_reads (o : fop) : bool := match o with FOpen | FRead => true | _ => false end.

Lemma opens_and_reads_keep_bytes ops : forall b,
  forallb opens_or_reads ops = true -> ffinal OKeep b ops = b.
Proof.
  induction ops as [|o r IH]; intros b H; [reflexivity|].
  cbn [forallb] in H. apply andb_prop in H. destruct H as [Ho Hr].
  change (ffinal OKeep b (o :: r)) with (ffinal OKeep (fstep OKeep b o) r).
  rewrite IH by exact Hr. destruct o; try discriminate; reflexivity.
Qed.

(* what the code does with the next frame after a torn tail: the process is restarted (any number
   of opens and reads), the frame and its LF go to the end of the file as it is *)
Lemma append_after_torn_tail (enc : frame -> bytes) (b d : bytes) (f : frame) (ops : list fop) :
  forallb opens_or_reads ops = true ->
  ffinal OKeep b (FTorn d :: ops ++ [FAppend (frame_line enc f)]) = b ++ d ++ enc f ++ [10].
Proof.
  intros H. change (ffinal OKeep b (FTorn d :: ops ++ [FAppend (frame_line enc f)]))
    with (ffinal OKeep (b ++ d) (ops ++ [FAppend (frame_line enc f)])).
  rewrite ffinal_app. rewrite (opens_and_reads_keep_bytes ops (b ++ d) H).
  cbn. unfold frame_line. rewrite <- app_assoc. reflexivity.
Qed.

(* ... so the file is whole lines again, every earlier line is untouched, and the torn bytes and the new
   frame share ONE line (which is neither of them: the glued line is what a reader finds) *)
Lemma append_after_torn_tail_lines (enc : frame -> bytes) (l : list frame) (d : bytes) (f : frame) :
  (forall g, ~ In 10 (enc g)) -> ~ In 10 d ->
  split_lines (log_bytes enc l ++ d ++ enc f ++ [10]) = (map enc l ++ [d ++ enc f], []).
Proof.
  intros Hn Hd. rewrite split_lines_log_bytes_app by exact Hn. unfold split_lines.
  rewrite app_assoc, split_lines_aux_line; [reflexivity|].
  intros Hin. apply in_app_or in Hin. destruct Hin as [Hin|Hin]; [exact (Hd Hin) | exact (Hn f Hin)].
Qed.

(* cut_tail on a file that ends in the byte x, for a window that is not empty *)
Lemma cut_tail_snoc (w : N) (b : bytes) (x : N) (start := (S (length b) - N.to_nat w)%nat) :
  w <> 0 ->
  cut_tail w (b ++ [x]) =
  if x =? 10 then b ++ [x]
  else match last_lf (skipn start b ++ [x]) with
       | Some nl => firstn (start + nl + 1) (b ++ [x])
       | None => []
       end.
Proof.
  intros Hw. unfold cut_tail. cbv zeta. rewrite app_length, Nat.add_1_r. fold start.
  rewrite skipn_app. replace (start - length b)%nat with O by lia. cbn [skipn].
  rewrite rev_app_distr. reflexivity.
Qed.

(* on a file of whole lines - and on an empty one - it does nothing: every test that lets appends finish
   (the repository's whole suite) sees the identity *)
Lemma cut_tail_hidden_on_whole_lines (w : N) (b : bytes) :
  b = [] \/ (exists b', b = b' ++ [10]) -> cut_tail w b = b.
Proof.
  intros [->|[b' ->]]; [reflexivity|]. destruct (N.eq_dec w 0) as [->|Hw].
  - unfold cut_tail. cbv zeta. rewrite Nat.sub_0_r, skipn_all. reflexivity.
  - rewrite cut_tail_snoc by exact Hw. reflexivity.
Qed.

(* witnesses: window 4, a log of one whole line "a\n", a torn part
   of 4 bytes (= the window): the window holds no LF, `unwrap_or(0)` - the WHOLE log is cut away *)
Definition ct_window : N := 4.
Definition ct_log : bytes := [97; 10].
Definition ct_torn : bytes := [98; 98; 98; 98].
Definition ct_torn_small : bytes := [98; 98; 98].

Lemma cut_tail_witness_total_loss : open_file (OCutTail ct_window) (ct_log ++ ct_torn) = [].
Proof. vm_compute. reflexivity. Qed.

Lemma cut_tail_witness_small : open_file (OCutTail ct_window) (ct_log ++ ct_torn_small) = ct_log.
Proof. vm_compute. reflexivity. Qed.

Lemma not_prefix_of_shorter a b : (length b < length a)%nat -> ~ is_prefix_of a b.
Proof. intros Hl Hp. apply is_prefix_len in Hp. lia. Qed.

Lemma open_cutting_tail_refuted :
  exists (w : N) (b d : bytes),
    ~ is_prefix_of (ffinal OKeep b [FTorn d]) (ffinal (OCutTail w) b [FTorn d; FOpen])
    /\ ffinal (OCutTail w) b [FTorn d; FOpen] = [].
Proof.
  exists ct_window, ct_log, ct_torn. split.
  - apply not_prefix_of_shorter. vm_compute. lia.
  - vm_compute. reflexivity.
Qed.

(* with a torn part shorter than the window the whole lines survive but the restart still rewrites the file:
   the content before the restart is not a prefix of the content after it *)
Lemma open_cutting_tail_small_refuted :
  exists (w : N) (b d : bytes),
    ~ is_prefix_of (ffinal OKeep b [FTorn d]) (ffinal (OCutTail w) b [FTorn d; FOpen])
    /\ ffinal (OCutTail w) b [FTorn d; FOpen] = b.
Proof.
  exists ct_window, ct_log, ct_torn_small. split.
  - apply not_prefix_of_shorter. vm_compute. lia.
  - vm_compute. reflexivity.
Qed.

Lemma last_lf_bound l : forall i, last_lf l = Some i -> (i < length l)%nat.
Proof.
  induction l as [|x r IH]; intros i H; cbn [last_lf] in H; [discriminate|].
  destruct (last_lf r) as [j|] eqn:E.
  - injection H as <-. specialize (IH j eq_refl). cbn [length]. lia.
  - destruct (x =? 10); [injection H as <-; cbn [length]; lia | discriminate].
Qed.

Lemma last_lf_snoc_not_last l x : x <> 10 -> forall i, last_lf (l ++ [x]) = Some i -> (i < length l)%nat.
Proof.
  intros Hx. induction l as [|y r IH]; intros i H.
  - cbn in H. destruct (x =? 10) eqn:E; [apply N.eqb_eq in E; contradiction | discriminate].
  - cbn [app last_lf] in H. destruct (last_lf (r ++ [x])) as [j|] eqn:E.
    + injection H as <-. specialize (IH j eq_refl). cbn [length]. lia.
    + destruct (y =? 10); [injection H as <-; cbn [length]; lia | discriminate].
Qed.

(* in general: whenever the file does not end in LF the cutting open removes at least one byte - no file with
   an unterminated tail survives a restart *)
Lemma cut_tail_removes_bytes (w : N) (b : bytes) (x : N) :
  w <> 0 -> x <> 10 -> (length (cut_tail w (b ++ [x])) < length (b ++ [x]))%nat.
Proof.
  intros Hw Hx. rewrite cut_tail_snoc, app_length by exact Hw. cbn [length].
  destruct (x =? 10) eqn:E; [apply N.eqb_eq in E; contradiction|].
  destruct (last_lf _) as [nl|] eqn:El; [|cbn [length]; lia].
  apply last_lf_snoc_not_last in El; [|exact Hx]. rewrite skipn_length in El.
  rewrite firstn_length, app_length. cbn [length]. lia.
Qed.

Lemma open_cutting_tail_never_keeps_a_torn_tail (w : N) (b : bytes) (x : N) :
  w <> 0 -> x <> 10 -> ~ is_prefix_of (b ++ [x]) (open_file (OCutTail w) (b ++ [x])).
Proof. intros Hw Hx. apply not_prefix_of_shorter. cbn [open_file]. apply cut_tail_removes_bytes; assumption. Qed.

(* non-vacuity: a history with a torn tail, two restarts, reads, a glued append, a clean append *)
Definition lf_demo_ops : list lfop := [LAppend 5; LTorn 3 0; LOpen; LRead; LOpen; LAppend 4; LTorn 6 2; LOpen; LAppend 2].
Lemma lf_demo :
  model_obs_logfile {| lf_ops := lf_demo_ops; lf_expect := [] |} =
  [5; 0;  8; 3;  8; 3;  8; 3;  8; 3;  12; 0;  18; 4;  18; 4;  20; 0].
Proof. vm_compute. reflexivity. Qed.

(* the file-system effects read off the source (Gen/LogOpen.v): a list that passes the obligation leaves the bytes alone *)
Lemma harmless_effects_keep_bytes es : forall b, forallb effect_harmless es = true -> effects_bytes es b = Some b.
Proof.
  induction es as [|e r IH]; intros b H; [reflexivity|].
  cbn [forallb] in H. apply andb_prop in H. destruct H as [He Hr].
  cbn [effects_bytes]. destruct e; try discriminate; cbn [effect_bytes]; apply IH; exact Hr.
Qed.

Lemma open_effects_ok_keep_bytes es b : open_effects_ok es = true -> effects_bytes es b = Some b.
Proof. intros H. apply andb_prop in H. apply harmless_effects_keep_bytes. apply H. Qed.

Lemma read_effects_ok_keep_bytes es b : read_effects_ok es = true -> effects_bytes es b = Some b.
Proof.
  intros H. apply andb_prop in H. destruct H as [H _]. apply harmless_effects_keep_bytes.
  rewrite forallb_forall in *. intros e He. specialize (H e He). destruct e; try discriminate; reflexivity.
Qed.

(* the shape of trial patch C02-10: [mkdir; open create+append; open read+write; set_len] is not the identity *)
Lemma cutting_effects_rejected : open_effects_ok [EMkdirParents; EOpenCreateAppend; EOpenWrite; ESetLen] = false.
Proof. reflexivity. Qed.
