(* C03 — proofs about the schema-driven frame codec of Model/Wire.v, for EVERY well-formed schema:
     decode_event s (encode_event s e) = Some (canon_event s e)            (wf_schema s, wt_event s e)
     encode_event s (canon_event s e) = encode_event s e                   (wire_event s e)
     canon_event s e = e                                                   (exact_event s e)
   and their text-level forms through Base/Json.v's printers and Base/JsonParse.v's parser (line form and
   pretty snapshot form).  The schema read from the source (Gen/EventSchema.v) satisfies wf_schema by a generated
   obligation. *)
From RipV Require Import Base.Prelude Base.Json Base.JsonParse Model.Wire Proofs.JsonProofs.
From Coq Require DecimalN DecimalPos Decimal DecimalFacts.

Lemma str_eqb_refl a : str_eqb a a = true.
Proof. apply str_eqb_spec. reflexivity. Qed.

Lemma str_eqb_false a b : str_eqb a b = false <-> a <> b.
Proof. rewrite <- Bool.not_true_iff_false, str_eqb_spec. reflexivity. Qed.

Lemma mem_str_In s l : mem_str s l = true <-> In s l.
Proof.
  unfold mem_str. rewrite existsb_exists. split.
  - intros [x [Hin E]]. apply str_eqb_spec in E. subst. exact Hin.
  - intros Hin. exists s. split; [exact Hin | apply str_eqb_refl].
Qed.

Lemma mem_str_false s l : mem_str s l = false <-> ~ In s l.
Proof. rewrite <- Bool.not_true_iff_false, mem_str_In. reflexivity. Qed.

Lemma nodup_str_NoDup l : nodup_str l = true <-> NoDup l.
Proof.
  induction l as [|x l IH]; cbn [nodup_str].
  - split; [constructor | reflexivity].
  - rewrite andb_true_iff, negb_true_iff, mem_str_false, IH. split.
    + intros [H1 H2]. constructor; assumption.
    + intros H. inversion H. auto.
Qed.

Lemma disjoint_str_spec a b : disjoint_str a b = true <-> (forall x, In x a -> ~ In x b).
Proof.
  unfold disjoint_str. rewrite forallb_forall.
  split; intros H x Hx; [apply mem_str_false, negb_true_iff | apply negb_true_iff, mem_str_false]; apply H, Hx.
Qed.

Lemma str_to_uint_to_str d : str_to_uint (uint_to_str d) = Some d.
Proof. induction d; cbn [uint_to_str str_to_uint]; try rewrite IHd; reflexivity. Qed.

Lemma parse_unsigned_dec max n : n <= max -> parse_unsigned max (dec n) = Some n.
Proof.
  intros H. unfold parse_unsigned, dec. rewrite str_to_uint_to_str. cbn zeta.
  rewrite DecimalN.Unsigned.of_to, str_eqb_refl. apply N.leb_le in H. rewrite H. reflexivity.
Qed.

Lemma uint_to_str_head d : d <> Decimal.Nil -> exists c r, uint_to_str d = c :: r /\ is_digit c = true.
Proof. destruct d; intros H; [congruence | ..]; cbn [uint_to_str]; eexists; eexists; (split; reflexivity). Qed.

Lemma to_uint_nonnil n : N.to_uint n <> Decimal.Nil.
Proof. destruct n as [|p]; cbn; [discriminate | apply DecimalPos.Unsigned.to_uint_nonnil]. Qed.

Lemma dec_head n : exists c r, dec n = c :: r /\ is_digit c = true.
Proof. apply uint_to_str_head, to_uint_nonnil. Qed.

Lemma is_digit_not_minus c : is_digit c = true -> (c =? cMINUS) = false.
Proof. unfold is_digit, cMINUS. lia. Qed.

Lemma parse_signed_decz z : (I32MIN <= z <= I32MAX)%Z -> parse_signed I32MIN I32MAX (decz z) = Some z.
Proof.
  unfold I32MIN, I32MAX. intros H. unfold decz. destruct (z <? 0)%Z eqn:Ez.
  - unfold parse_signed. change (cMINUS =? cMINUS) with true.
    rewrite parse_unsigned_dec by lia.
    destruct (Z.to_N (- z) =? 0) eqn:E0; [lia|].
    rewrite Z2N.id, Z.opp_involutive by lia.
    destruct (-2147483648 <=? z)%Z eqn:El; [reflexivity | lia].
  - destruct (dec_head (Z.to_N z)) as [c [r [Ed Hc]]]. unfold parse_signed. rewrite Ed.
    rewrite (is_digit_not_minus c Hc), <- Ed, parse_unsigned_dec by (unfold U64MAX; lia).
    rewrite Z2N.id by lia. destruct (z <=? 2147483647)%Z eqn:El; [reflexivity | lia].
Qed.

Lemma all_digits_uint d : all_digits (uint_to_str d) = true.
Proof. induction d; cbn [uint_to_str all_digits]; try rewrite IHd; reflexivity. Qed.

Lemma span_digits_all l : all_digits l = true -> span_digits l = (l, []).
Proof.
  induction l as [|c l IH]; cbn [all_digits span_digits]; [reflexivity|].
  intros H. apply andb_true_iff in H as [Hc Hl]. rewrite Hc, (IH Hl). reflexivity.
Qed.

Lemma to_uint_unorm n : Decimal.unorm (N.to_uint n) = N.to_uint n.
Proof. rewrite <- (DecimalN.Unsigned.of_to n) at 2. rewrite DecimalN.Unsigned.to_of. reflexivity. Qed.

(* unorm d = d: d is "0" or starts with a nonzero digit *)
Lemma num_ok_uint d : Decimal.unorm d = d -> num_ok (uint_to_str d) = true.
Proof.
  intros Hn. unfold num_ok.
  replace (match uint_to_str d with c :: r => if c =? cMINUS then r else uint_to_str d | [] => uint_to_str d end)
    with (uint_to_str d) by (destruct d; reflexivity).
  rewrite (span_digits_all _ (all_digits_uint d)), andb_true_r.
  unfold Decimal.unorm in Hn. destruct (Decimal.nzhead d) eqn:En; rewrite <- Hn.
  1: reflexivity.
  1: exfalso; exact (DecimalFacts.nzhead_nonzero d u En).
  all: cbn [uint_to_str int_part_ok]; destruct (uint_to_str u); reflexivity.
Qed.

Lemma num_ok_dec n : num_ok (dec n) = true.
Proof. apply num_ok_uint, to_uint_unorm. Qed.

Lemma num_ok_minus t : num_ok t = true -> (exists c r, t = c :: r /\ is_digit c = true) -> num_ok (cMINUS :: t) = true.
Proof.
  intros H [c [r [-> Hc]]]. unfold num_ok in *. change (cMINUS =? cMINUS) with true.
  rewrite (is_digit_not_minus c Hc) in H. exact H.
Qed.

Lemma num_ok_decz z : num_ok (decz z) = true.
Proof.
  unfold decz. destruct (z <? 0)%Z; [apply num_ok_minus; [apply num_ok_dec | apply dec_head] | apply num_ok_dec].
Qed.

(* As JsonProofs.json_ind': the generated principle gives no hypothesis for the field types inside TStruct. *)
Fixpoint ty_ind' (P : ty -> Prop)
  (HStr : P TStr) (HU64 : P TU64) (HU32 : P TU32) (HU16 : P TU16) (HI32 : P TI32) (HBool : P TBool) (HVal : P TVal)
  (HOpt : forall t, P t -> P (TOpt t)) (HVec : forall t, P t -> P (TVec t)) (HEnum : forall tags, P (TEnum tags))
  (HStruct : forall fs, Forall (fun f => P (snd f)) fs -> P (TStruct fs)) (HUnk : P TUnknown)
  (t : ty) {struct t} : P t :=
  match t with
  | TStr => HStr | TU64 => HU64 | TU32 => HU32 | TU16 => HU16 | TI32 => HI32 | TBool => HBool | TVal => HVal
  | TOpt t' => HOpt t' (ty_ind' P HStr HU64 HU32 HU16 HI32 HBool HVal HOpt HVec HEnum HStruct HUnk t')
  | TVec t' => HVec t' (ty_ind' P HStr HU64 HU32 HU16 HI32 HBool HVal HOpt HVec HEnum HStruct HUnk t')
  | TEnum tags => HEnum tags
  | TStruct fs =>
    HStruct fs ((fix go (l : list field) : Forall (fun f => P (snd f)) l :=
                   match l with
                   | [] => Forall_nil _
                   | f :: r =>
                     Forall_cons f
                       (match f as f0 return P (snd f0) with
                        | (m, t') => ty_ind' P HStr HU64 HU32 HU16 HI32 HBool HVal HOpt HVec HEnum HStruct HUnk t'
                        end) (go r)
                   end) fs)
  | TUnknown => HUnk
  end.

(* Every fixpoint of the codec over `ty` has a twin over field lists (enc / enc_fields, canon / canon_fields, ..): a fact
   P about the one is proved together with the fact Q about the other.  `leaf` are the types without a type inside. *)
Definition leaf (t : ty) : Prop := match t with TOpt _ | TVec _ | TStruct _ => False | _ => True end.

Lemma ty_fields_ind (P : ty -> Prop) (Q : list field -> Prop) :
  (forall t, leaf t -> P t) -> (forall t, P t -> P (TOpt t)) -> (forall t, P t -> P (TVec t)) ->
  (forall fs, Q fs -> P (TStruct fs)) -> Q [] -> (forall m t fs, P t -> Q fs -> Q ((m, t) :: fs)) ->
  (forall t, P t) /\ (forall fs, Q fs).
Proof.
  intros Hleaf HOpt HVec HStruct Hnil Hcons.
  assert (HQ : forall fs, Forall (fun f => P (snd f)) fs -> Q fs).
  { induction 1 as [|[m t] fs Ht _ IH]; auto. }
  assert (HP : forall t, P t).
  { induction t using ty_ind'; auto; apply Hleaf; exact I. }
  split; [exact HP|]. intros fs. apply HQ, Forall_forall. intros f _. apply HP.
Qed.

(* The Model writes each struct case of these fixpoints as an inline `fix` (the twin of the *_fields Fixpoint), and
   `cbn` shows that `fix`; the equations below name it instead, and give the cons case of each twin. *)
Lemma enc_struct fs vs : enc (TStruct fs) (VStruct vs) = JObj (enc_fields fs vs).
Proof. reflexivity. Qed.

Lemma canon_struct fs vs : canon (TStruct fs) (VStruct vs) = VStruct (canon_fields fs vs).
Proof. reflexivity. Qed.

Lemma wt_struct fs vs : wt (TStruct fs) (VStruct vs) = wt_fields fs vs.
Proof. reflexivity. Qed.

Lemma wf_ty_struct fs : wf_ty (TStruct fs) = nodup_str (all_names fs) && wf_fields fs.
Proof. reflexivity. Qed.

Lemma exact_ok_struct fs vs : exact_ok (TStruct fs) (VStruct vs) = exact_ok_fields fs vs.
Proof. reflexivity. Qed.

Lemma wire_ok_struct fs vs : wire_ok (TStruct fs) (VStruct vs) = wire_ok_fields fs vs.
Proof. reflexivity. Qed.

Lemma txt_ok_struct fs vs : txt_ok (TStruct fs) (VStruct vs) = txt_ok_fields fs vs.
Proof. reflexivity. Qed.

Lemma enc_fields_cons m t fs v vs :
  enc_fields ((m, t) :: fs) (v :: vs) =
  if skipped (fskip m) v then enc_fields fs vs else (fkey m, enc t v) :: enc_fields fs vs.
Proof. reflexivity. Qed.

Lemma canon_fields_cons m t fs v vs : canon_fields ((m, t) :: fs) (v :: vs) = canon t v :: canon_fields fs vs.
Proof. reflexivity. Qed.

Lemma wf_fields_cons m t fs : wf_fields ((m, t) :: fs) = wf_meta m t && wf_ty t && wf_fields fs.
Proof. reflexivity. Qed.

Lemma wt_fields_cons m t fs v vs : wt_fields ((m, t) :: fs) (v :: vs) = wt t v && wt_fields fs vs.
Proof. reflexivity. Qed.

Lemma wire_ok_fields_cons m t fs v vs :
  wire_ok_fields ((m, t) :: fs) (v :: vs) = negb (skip_some_null m t v) && wire_ok t v && wire_ok_fields fs vs.
Proof. reflexivity. Qed.

Lemma exact_ok_fields_cons m t fs v vs :
  exact_ok_fields ((m, t) :: fs) (v :: vs) = exact_ok t v && exact_ok_fields fs vs.
Proof. reflexivity. Qed.

Lemma txt_ok_fields_cons m t fs v vs : txt_ok_fields ((m, t) :: fs) (v :: vs) = txt_ok t v && txt_ok_fields fs vs.
Proof. reflexivity. Qed.

Lemma all_names_cons m t fs : all_names ((m, t) :: fs) = names_of m ++ all_names fs.
Proof. reflexivity. Qed.

Lemma map_opt_cons {A B} (f : A -> option B) x r :
  map_opt f (x :: r) = match f x, map_opt f r with Some y, Some ys => Some (y :: ys) | _, _ => None end.
Proof. reflexivity. Qed.

Lemma map_opt_map {A B C} (f : B -> option C) (g : A -> B) (h : A -> C) l :
  (forall x, In x l -> f (g x) = Some (h x)) -> map_opt f (map g l) = Some (map h l).
Proof.
  induction l as [|x l IH]; intros H; [reflexivity|].
  cbn [map]. rewrite map_opt_cons, (H x (or_introl eq_refl)), IH; [reflexivity|].
  intros y Hy. apply H. right. exact Hy.
Qed.

Lemma decv_struct_obj fs kvs : decv (TStruct fs) (JObj kvs) = option_map VStruct (dec_fields fs kvs).
Proof.
  change (decv (TStruct fs) (JObj kvs)) with
    (option_map VStruct
       ((fix df (fs : list field) : option (list value) :=
           match fs with
           | [] => Some []
           | (m, t) :: fs' =>
             match (match lookup_all (names_of m) kvs with
                    | [] => missing_value m t
                    | [j] => decv t j
                    | _ => None
                    end), df fs' with
             | Some v, Some vs => Some (v :: vs)
             | _, _ => None
             end
           end) fs)).
  f_equal. unfold dec_fields. induction fs as [|[m t] fs IH]; [reflexivity|].
  rewrite map_opt_cons, <- IH. reflexivity.
Qed.

Lemma lookup_all_app names a b : lookup_all names (a ++ b) = lookup_all names a ++ lookup_all names b.
Proof.
  induction a as [|[k v] a IH]; cbn [app lookup_all]; [reflexivity|].
  destruct (mem_str k names); cbn [app]; rewrite IH; reflexivity.
Qed.

Lemma remove_keys_app names a b : remove_keys names (a ++ b) = remove_keys names a ++ remove_keys names b.
Proof. apply filter_app. Qed.

Definition free_of (names : list str) (kvs : list (str * json)) : Prop := forall k, In k (map fst kvs) -> ~ In k names.

Lemma free_of_cons names k v kvs : free_of names ((k, v) :: kvs) -> mem_str k names = false /\ free_of names kvs.
Proof. intros H. split; [apply mem_str_false, H; left; reflexivity | intros k' Hk'; apply H; right; exact Hk']. Qed.

Lemma free_of_sub names' names kvs :
  forallb (fun k => mem_str k names') names = true -> free_of names' kvs -> free_of names kvs.
Proof. intros Hs H k Hk Hin. apply (H k Hk). rewrite forallb_forall in Hs. apply mem_str_In, Hs, Hin. Qed.

Lemma lookup_all_free names kvs : free_of names kvs -> lookup_all names kvs = [].
Proof.
  induction kvs as [|[k v] kvs IH]; [reflexivity|]. intros H. apply free_of_cons in H as [E H].
  cbn [lookup_all]. rewrite E. apply IH, H.
Qed.

Lemma remove_keys_free names kvs : free_of names kvs -> remove_keys names kvs = kvs.
Proof.
  unfold remove_keys. induction kvs as [|[k v] kvs IH]; [reflexivity|]. intros H. apply free_of_cons in H as [E H].
  cbn [filter fst]. rewrite E, (IH H). reflexivity.
Qed.

Lemma lookup_all_app_free names a b : free_of names b -> lookup_all names (a ++ b) = lookup_all names a.
Proof. intros H. rewrite lookup_all_app, (lookup_all_free names b H). apply app_nil_r. Qed.

Lemma remove_keys_app_free names a b : free_of names b -> remove_keys names (a ++ b) = remove_keys names a ++ b.
Proof. intros H. rewrite remove_keys_app, (remove_keys_free names b H). reflexivity. Qed.

Lemma enc_fields_keys fs : forall vs k, In k (map fst (enc_fields fs vs)) -> In k (all_names fs).
Proof.
  induction fs as [|[m t] fs IH]; intros [|v vs] k; try (intros []).
  rewrite enc_fields_cons, all_names_cons, in_app_iff. destruct (skipped (fskip m) v).
  - intros H. right. exact (IH vs k H).
  - cbn [map fst]. intros [<- | H]; [left; left; reflexivity | right; exact (IH vs k H)].
Qed.

(* what the writer leaves for the first field: nothing when skipped, else one member under the field's key *)
Lemma enc_fields_first m t fs v vs :
  exists own, enc_fields ((m, t) :: fs) (v :: vs) = own ++ enc_fields fs vs
              /\ lookup_all (names_of m) own = (if skipped (fskip m) v then [] else [enc t v])
              /\ (forall k, In k (map fst own) -> k = fkey m).
Proof.
  rewrite enc_fields_cons. destruct (skipped (fskip m) v).
  - exists []. repeat split. intros k [].
  - exists [(fkey m, enc t v)]. repeat split.
    + cbn [lookup_all names_of mem_str existsb]. rewrite str_eqb_refl. reflexivity.
    + intros k [<- | []]. reflexivity.
Qed.

Lemma skipped_missing m t v :
  wf_meta m t = true -> wt t v = true -> skipped (fskip m) v = true -> missing_value m t = Some (canon t v).
Proof.
  unfold wf_meta, missing_value. intros Hwf Hwt Hsk.
  destruct (fskip m) eqn:Es; cbn [skipped] in Hsk; try discriminate.
  - (* is_none *) destruct v as [| | | | |[o|]|  | |]; try discriminate.
    destruct t; cbn [is_opt andb] in Hwf; try discriminate. destruct (fdflt m); reflexivity.
  - (* is_empty *) destruct v as [| | | | | |[|x l]| |]; try discriminate.
    destruct t; cbn [is_vec andb] in Hwf; try discriminate.
    destruct (fdflt m); [reflexivity | discriminate].
Qed.

Lemma dec_fields_cons m t fs kvs :
  dec_fields ((m, t) :: fs) kvs =
  match match lookup_all (names_of m) kvs with [] => missing_value m t | [j] => decv t j | _ => None end,
        dec_fields fs kvs with
  | Some v, Some vs => Some (v :: vs)
  | _, _ => None
  end.
Proof. reflexivity. Qed.

(* What is written reads back as its canonical form.  For a field list: the fields are read out of an object that holds them behind any members `pre` under other keys
   (the envelope, the fields written before). *)
Theorem decv_enc :
  (forall t, wf_ty t = true -> forall v, wt t v = true -> decv t (enc t v) = Some (canon t v))
  /\ (forall fs, wf_fields fs = true -> NoDup (all_names fs) -> forall vs pre,
        wt_fields fs vs = true -> free_of (all_names fs) pre ->
        dec_fields fs (pre ++ enc_fields fs vs) = Some (canon_fields fs vs)).
Proof.
  apply ty_fields_ind.
  - intros t Hl Hwf v Hwt. destruct t; try contradiction; destruct v; try discriminate; cbn [wt] in Hwt; cbn [enc decv canon].
    1, 6: reflexivity.
    1-3: rewrite parse_unsigned_dec by lia; reflexivity.
    + rewrite parse_signed_decz by lia. reflexivity.
    + apply json_eqb_spec in Hwt. rewrite Hwt. reflexivity.
    + cbn [enum_tag_of]. rewrite Hwt. reflexivity.
  - intros t IH Hwf [| | | | |[v'|]| | |] Hwt; try discriminate; [|reflexivity].
    specialize (IH Hwf v' Hwt). cbn [enc canon].
    destruct (enc t v'); cbn [json_is_null decv]; try (rewrite IH; reflexivity). reflexivity.
  - intros t IH Hwf [| | | | | |l| |] Hwt; try discriminate. cbn [wt] in Hwt. cbn [enc decv canon].
    rewrite (map_opt_map (decv t) (enc t) (canon t)); [reflexivity|].
    intros x Hx. apply IH; [exact Hwf|]. rewrite forallb_forall in Hwt. apply Hwt, Hx.
  - intros fs IH Hwf [| | | | | | | |vs] Hwt; try discriminate.
    rewrite wf_ty_struct in Hwf. apply andb_true_iff in Hwf as [Hnd Hwfs]. apply nodup_str_NoDup in Hnd.
    rewrite enc_struct, canon_struct, decv_struct_obj.
    change (enc_fields fs vs) with ([] ++ enc_fields fs vs). rewrite (IH Hwfs Hnd vs [] Hwt); [reflexivity | intros k []].
  - intros _ _ [|v vs] pre Hwt _; [reflexivity | discriminate].
  - intros m t fs IHt IHfs Hwf Hnd [|v vs] pre Hwt Hpre; [discriminate|].
    rewrite wf_fields_cons, !andb_true_iff in Hwf. destruct Hwf as [[Hmeta Hty] Hwfs].
    rewrite wt_fields_cons in Hwt. apply andb_true_iff in Hwt as [Hv Hvs].
    rewrite all_names_cons in Hnd, Hpre. apply NoDup_app_inv in Hnd as (_ & Hfs & Hdis).
    destruct (enc_fields_first m t fs v vs) as (own & -> & Hown & Hkey).
    rewrite dec_fields_cons, !lookup_all_app, Hown, canon_fields_cons.
    rewrite (lookup_all_free _ pre), (lookup_all_free _ (enc_fields fs vs)), app_nil_r.
    + rewrite app_assoc, IHfs; try assumption.
      * cbn [app]. destruct (skipped (fskip m) v) eqn:Esk; [rewrite (skipped_missing m t v) | rewrite IHt]; auto.
      * intros k Hk Hin. rewrite map_app, in_app_iff in Hk. destruct Hk as [Hk | Hk].
        -- apply (Hpre k Hk), in_or_app. right. exact Hin.
        -- apply Hkey in Hk. subst k. apply (Hdis (fkey m)); [left; reflexivity | exact Hin].
    + intros k Hk Hin. apply enc_fields_keys in Hk. exact (Hdis k Hin Hk).
    + intros k Hk Hin. apply (Hpre k Hk), in_or_app. left. exact Hin.
Qed.

(* what encode_event puts in front of the payload: the members under reserved_keys, in that order *)
Definition env7 (a b c d e f g : json) : list (str * json) :=
  [(k_id, a); (k_session_id, b); (k_stream_kind, c); (k_stream_id, d); (k_timestamp_ms, e); (k_seq, f); (k_type, g)].

(* what the reader's lookups find in a written frame: the envelope members, then the payload F untouched *)
Lemma env7_lookups a b c d e f g F :
  free_of reserved_keys F ->
  let kvs := env7 a b c d e f g ++ F in
  let rest := remove_keys own_keys kvs in
  lookup_all [k_id] kvs = [a] /\ lookup_all [k_session_id] kvs = [b]
  /\ lookup_all [k_timestamp_ms] kvs = [e] /\ lookup_all [k_seq] kvs = [f]
  /\ lookup_all [k_type] rest = [g] /\ remove_keys [k_type] rest = [(k_stream_kind, c); (k_stream_id, d)] ++ F.
Proof.
  intros HF. cbv zeta.
  assert (Hfree : forall names, forallb (fun k => mem_str k reserved_keys) names = true -> free_of names F)
    by (intros names Hs; exact (free_of_sub reserved_keys names F Hs HF)).
  rewrite (remove_keys_app_free own_keys), !lookup_all_app_free, remove_keys_app_free by (apply Hfree; reflexivity).
  repeat apply conj; reflexivity.
Qed.

Lemma encode_event_eq s e v :
  nth_error (s_variants s) (e_var e) = Some v ->
  encode_event s e =
  JObj (env7 (JStr (e_id e)) (JStr (e_sid e)) (JStr (kind_name (variant_kind s v))) (JStr (e_sid e))
             (JNum (dec (e_ts e))) (JNum (dec (e_seq e))) (JStr (vtag v))
        ++ enc_fields (vfields v) (e_fields e)).
Proof. intros H. unfold encode_event. rewrite H. reflexivity. Qed.

Lemma find_variant_nth vs : forall i k v,
  NoDup (all_tags vs) -> nth_error vs i = Some v -> find_variant (vtag v) vs k = Some (k + i)%nat.
Proof.
  induction vs as [|v0 r IH]; intros [|i] k v Hnd Hn; cbn [nth_error] in Hn; try discriminate.
  - inversion Hn; subst. cbn [find_variant]. rewrite str_eqb_refl, Nat.add_0_r. reflexivity.
  - change (all_tags (v0 :: r)) with ((vtag v0 :: valiases v0) ++ all_tags r) in Hnd.
    apply NoDup_app_inv in Hnd as (_ & Hr & Hdis).
    assert (Hin : In (vtag v) (all_tags r)).
    { apply in_flat_map. exists v. split; [eapply nth_error_In; exact Hn | left; reflexivity]. }
    cbn [find_variant].
    replace (str_eqb (vtag v) (vtag v0)) with false
      by (symmetry; apply str_eqb_false; intros E; apply (Hdis (vtag v0)); [left; reflexivity | rewrite <- E; exact Hin]).
    replace (mem_str (vtag v) (valiases v0)) with false
      by (symmetry; apply mem_str_false; intros Hm; apply (Hdis (vtag v)); [right; exact Hm | exact Hin]).
    cbn [orb]. rewrite (IH i (S k) v Hr Hn), Nat.add_succ_r. reflexivity.
Qed.

(* the reader on a written frame: the envelope is taken apart, the payload members F go to the variant's fields *)
Lemma decode_frame s i v id sid kn ts sq F :
  nth_error (s_variants s) i = Some v -> find_variant (vtag v) (s_variants s) 0 = Some i ->
  free_of reserved_keys F -> ts <= U64MAX -> sq <= U64MAX ->
  decode_event s (JObj (env7 (JStr id) (JStr sid) (JStr kn) (JStr sid) (JNum (dec ts)) (JNum (dec sq)) (JStr (vtag v)) ++ F)) =
  match dec_fields (vfields v) ([(k_stream_kind, JStr kn); (k_stream_id, JStr sid)] ++ F) with
  | Some vs => Some {| e_id := id; e_sid := sid; e_ts := ts; e_seq := sq; e_var := i; e_fields := vs |}
  | None => None
  end.
Proof.
  intros Hn Hf HF Hts Hsq. pose proof (env7_lookups (JStr id) (JStr sid) (JStr kn) (JStr sid) (JNum (dec ts)) (JNum (dec sq)) (JStr (vtag v)) F HF) as E.
  cbv zeta in E. destruct E as (E1 & E2 & E3 & E4 & E5 & E6).
  unfold decode_event. rewrite E1, E2, E3, E4. cbn [exactly_one].
  rewrite (parse_unsigned_dec U64MAX ts Hts), (parse_unsigned_dec U64MAX sq Hsq). cbn zeta.
  rewrite E5, E6. cbn [exactly_one]. rewrite Hf, Hn. reflexivity.
Qed.

Lemma wf_schema_parts s :
  wf_schema s = true -> NoDup (all_tags (s_variants s)) /\ forallb wf_variant (s_variants s) = true.
Proof.
  unfold wf_schema. intros H. repeat (apply andb_true_iff in H as [H ?]). split; [apply nodup_str_NoDup|]; assumption.
Qed.

Lemma wf_variant_parts v :
  wf_variant v = true ->
  NoDup (all_names (vfields v)) /\ (forall k, In k (all_names (vfields v)) -> ~ In k reserved_keys)
  /\ wf_fields (vfields v) = true /\ str_ok (vtag v) = true.
Proof.
  unfold wf_variant. rewrite !andb_true_iff, nodup_str_NoDup, disjoint_str_spec. tauto.
Qed.

Lemma wf_schema_variant s i v :
  wf_schema s = true -> nth_error (s_variants s) i = Some v ->
  wf_variant v = true /\ find_variant (vtag v) (s_variants s) 0 = Some i.
Proof.
  intros Hwf Hn. apply wf_schema_parts in Hwf as [Htags Hvs]. split.
  - rewrite forallb_forall in Hvs. eapply Hvs, nth_error_In, Hn.
  - apply (find_variant_nth _ i 0 v Htags Hn).
Qed.

Theorem decode_encode s e :
  wf_schema s = true -> wt_event s e = true -> decode_event s (encode_event s e) = Some (canon_event s e).
Proof.
  intros Hwf Hwt. unfold wt_event in Hwt. unfold canon_event.
  destruct (nth_error (s_variants s) (e_var e)) as [v|] eqn:Hn; [|discriminate].
  rewrite !andb_true_iff in Hwt. destruct Hwt as [[Hts Hsq] Hfs].
  destruct (wf_schema_variant s _ v Hwf Hn) as [Hv Hfind]. apply wf_variant_parts in Hv as (Hnd & Hres & Hwff & _).
  rewrite (encode_event_eq s e v Hn), (decode_frame s (e_var e) v); try assumption; try lia.
  - rewrite (proj2 decv_enc); try assumption; [reflexivity|].
    intros k Hk Hin. apply (Hres k Hin). cbn [map fst In] in Hk. unfold reserved_keys. cbn [In]. tauto.
  - intros k Hk. apply Hres. eapply enc_fields_keys, Hk.
Qed.

Lemma skipped_canon m t v :
  skip_some_null m t v = false -> skipped (fskip m) (canon t v) = skipped (fskip m) v.
Proof.
  unfold skip_some_null. intros H.
  destruct t; try reflexivity; destruct v as [| | | | |[v'|]|[|x l]| |]; try reflexivity.
  cbn [canon]. destruct (json_is_null (enc t v')); [|reflexivity]. destruct (fskip m); try reflexivity. discriminate.
Qed.

Theorem enc_canon :
  (forall t v, wire_ok t v = true -> enc t (canon t v) = enc t v)
  /\ (forall fs vs, wire_ok_fields fs vs = true -> enc_fields fs (canon_fields fs vs) = enc_fields fs vs).
Proof.
  apply ty_fields_ind.
  - intros t Hl v _. destruct t; try contradiction; reflexivity.
  - intros t IH [| | | | |[v'|]| | |] Hw; try reflexivity. cbn [wire_ok] in Hw. cbn [canon].
    destruct (json_is_null (enc t v')) eqn:En; cbn [enc]; [|apply IH, Hw].
    destruct (enc t v'); try discriminate. reflexivity.
  - intros t IH [| | | | | |l| |] Hw; try reflexivity. cbn [wire_ok] in Hw. cbn [canon enc]. f_equal.
    rewrite map_map. apply map_ext_in. intros x Hx. apply IH. rewrite forallb_forall in Hw. apply Hw, Hx.
  - intros fs IH [| | | | | | | |vs] Hw; try reflexivity. rewrite canon_struct, !enc_struct, IH; [reflexivity | exact Hw].
  - reflexivity.
  - intros m t fs IHt IHfs [|v vs] Hw; [reflexivity|].
    rewrite wire_ok_fields_cons, !andb_true_iff, negb_true_iff in Hw. destruct Hw as [[Hsn Hwv] Hwvs].
    rewrite canon_fields_cons, !enc_fields_cons, (skipped_canon m t v Hsn), (IHfs vs Hwvs), (IHt v Hwv). reflexivity.
Qed.

Theorem encode_canon s e : wire_event s e = true -> encode_event s (canon_event s e) = encode_event s e.
Proof.
  unfold wire_event, canon_event. destruct (nth_error (s_variants s) (e_var e)) as [v|] eqn:Hn; [|reflexivity].
  intros Hw. unfold encode_event. cbn [e_var e_id e_sid e_ts e_seq e_fields]. rewrite Hn, (proj2 enc_canon _ _ Hw). reflexivity.
Qed.

Theorem canon_exact :
  (forall t v, wt t v = true -> exact_ok t v = true -> canon t v = v)
  /\ (forall fs vs, wt_fields fs vs = true -> exact_ok_fields fs vs = true -> canon_fields fs vs = vs).
Proof.
  apply ty_fields_ind.
  - intros t Hl v _ _. destruct t; try contradiction; reflexivity.
  - intros t IH [| | | | |[v'|]| | |] Hwt Hx; try reflexivity. cbn [wt] in Hwt. cbn [exact_ok] in Hx.
    apply andb_true_iff in Hx as [Hn Hx]. apply negb_true_iff in Hn. cbn [canon]. rewrite Hn, (IH v' Hwt Hx). reflexivity.
  - intros t IH [| | | | | |l| |] Hwt Hx; try reflexivity. cbn [wt] in Hwt. cbn [exact_ok] in Hx. cbn [canon]. f_equal.
    rewrite <- (map_id l) at 2. apply map_ext_in. intros x Hin. rewrite forallb_forall in Hwt, Hx. apply IH; auto.
  - intros fs IH [| | | | | | | |vs] Hwt Hx; try reflexivity. rewrite canon_struct, IH; auto.
  - intros [|v vs] Hwt _; [reflexivity | discriminate].
  - intros m t fs IHt IHfs [|v vs] Hwt Hx; [discriminate|].
    rewrite wt_fields_cons in Hwt. apply andb_true_iff in Hwt as [Hv Hvs].
    rewrite exact_ok_fields_cons in Hx. apply andb_true_iff in Hx as [Hxv Hxvs].
    rewrite canon_fields_cons, (IHt v Hv Hxv), (IHfs vs Hvs Hxvs). reflexivity.
Qed.

Lemma wt_event_of_frame s e : frame_ok s e = true -> wt_event s e = true.
Proof. unfold frame_ok. intros H. apply andb_true_iff in H. tauto. Qed.

Theorem canon_event_exact s e : wt_event s e = true -> exact_event s e = true -> canon_event s e = e.
Proof.
  unfold wt_event, exact_event, canon_event. destruct (nth_error (s_variants s) (e_var e)) as [v|]; [|discriminate].
  intros Hwt Hx. rewrite !andb_true_iff in Hwt. destruct Hwt as [_ Hfs].
  rewrite (proj2 canon_exact _ _ Hfs Hx). destruct e; reflexivity.
Qed.

(* the reader keeps everything outside the payload fields: variant (so the stream kind), session id, seq *)
Lemma canon_event_kind s e : event_kind s (canon_event s e) = event_kind s e.
Proof. unfold event_kind, canon_event. destruct (nth_error (s_variants s) (e_var e)) eqn:E; [cbn [e_var]|]; rewrite E; reflexivity. Qed.

Lemma canon_event_sid s e : e_sid (canon_event s e) = e_sid e.
Proof. unfold canon_event. destruct (nth_error (s_variants s) (e_var e)); reflexivity. Qed.

Lemma canon_event_var s e : e_var (canon_event s e) = e_var e.
Proof. unfold canon_event. destruct (nth_error (s_variants s) (e_var e)); reflexivity. Qed.

Lemma canon_event_seq s e : e_seq (canon_event s e) = e_seq e.
Proof. unfold canon_event. destruct (nth_error (s_variants s) (e_var e)); reflexivity. Qed.

Lemma stream_key_canon s e : stream_key s (canon_event s e) = stream_key s e.
Proof. unfold stream_key. rewrite canon_event_kind, canon_event_sid. reflexivity. Qed.

Definition kv_ok (kv : str * json) : bool := str_ok (fst kv) && json_ok (snd kv).

Lemma json_ok_obj kvs : json_ok (JObj kvs) = forallb kv_ok kvs.
Proof. reflexivity. Qed.

Lemma wf_meta_key m t : wf_meta m t = true -> str_ok (fkey m) = true.
Proof. unfold wf_meta. rewrite !andb_true_iff. tauto. Qed.

Theorem json_ok_enc :
  (forall t, wf_ty t = true -> forall v, wt t v = true -> txt_ok t v = true -> json_ok (enc t v) = true)
  /\ (forall fs, wf_fields fs = true -> forall vs, wt_fields fs vs = true -> txt_ok_fields fs vs = true ->
        forallb kv_ok (enc_fields fs vs) = true).
Proof.
  apply ty_fields_ind.
  - intros t Hl Hwf v Hwt Htx. destruct t; try contradiction; destruct v; try discriminate;
      try exact Htx; try reflexivity; try apply num_ok_dec.
    + apply num_ok_decz.
    + cbn [wf_ty] in Hwf. apply andb_true_iff in Hwf as [_ Hok]. rewrite forallb_forall in Hok.
      apply Hok, mem_str_In, Hwt.
  - intros t IH Hwf [| | | | |[v'|]| | |] Hwt Htx; try discriminate; [apply IH; assumption | reflexivity].
  - intros t IH Hwf [| | | | | |l| |] Hwt Htx; try discriminate. cbn [wt] in Hwt. cbn [txt_ok] in Htx.
    cbn [enc json_ok]. rewrite forallb_forall in *. intros j Hj. apply in_map_iff in Hj as [x [<- Hx]]. apply IH; auto.
  - intros fs IH Hwf [| | | | | | | |vs] Hwt Htx; try discriminate.
    rewrite wf_ty_struct in Hwf. apply andb_true_iff in Hwf as [_ Hwfs]. rewrite enc_struct, json_ok_obj. apply IH; assumption.
  - intros _ [|v vs]; reflexivity.
  - intros m t fs IHt IHfs Hwf [|v vs] Hwt Htx; [reflexivity|].
    rewrite wf_fields_cons, !andb_true_iff in Hwf. destruct Hwf as [[Hmeta Hty] Hwfs].
    rewrite wt_fields_cons in Hwt. apply andb_true_iff in Hwt as [Hv Hvs].
    rewrite txt_ok_fields_cons in Htx. apply andb_true_iff in Htx as [Hx Hxs].
    rewrite enc_fields_cons. destruct (skipped (fskip m) v); [apply IHfs; assumption|].
    cbn [forallb]. unfold kv_ok at 1. cbn [fst snd].
    rewrite (IHfs Hwfs vs Hvs Hxs), (wf_meta_key m t Hmeta), (IHt Hty v Hv Hx). reflexivity.
Qed.

Lemma kind_name_ok k : str_ok (kind_name k) = true.
Proof. destruct k; vm_compute; reflexivity. Qed.

Lemma env7_ok a b c d e f g :
  json_ok a = true -> json_ok b = true -> json_ok c = true -> json_ok d = true -> json_ok e = true -> json_ok f = true ->
  json_ok g = true -> forallb kv_ok (env7 a b c d e f g) = true.
Proof.
  intros Ha Hb Hc Hd He Hf Hg. unfold env7. cbn [forallb]. unfold kv_ok. cbn [fst snd].
  rewrite Ha, Hb, Hc, Hd, He, Hf, Hg. vm_compute. reflexivity.
Qed.

Theorem json_ok_encode s e :
  wf_schema s = true -> frame_ok s e = true -> json_ok (encode_event s e) = true.
Proof.
  intros Hwf Hok. unfold frame_ok, wt_event, txt_event in Hok.
  destruct (nth_error (s_variants s) (e_var e)) as [v|] eqn:Hn; [|discriminate].
  rewrite !andb_true_iff in Hok. destruct Hok as [[[Hts Hsq] Hfs] [[Hid Hsid] Htx]].
  destruct (wf_schema_variant s _ v Hwf Hn) as [Hv _]. apply wf_variant_parts in Hv as (_ & _ & Hwff & Htag).
  rewrite (encode_event_eq s e v Hn), json_ok_obj, forallb_app, (proj2 json_ok_enc _ Hwff _ Hfs Htx), andb_true_r.
  apply env7_ok; cbn [json_ok]; auto using kind_name_ok, num_ok_dec.
Qed.

Theorem read_write_line s e :
  wf_schema s = true -> frame_ok s e = true -> depth_ok s e = true ->
  read_line s (write_line s e) = Some (canon_event s e).
Proof.
  intros Hwf Hok Hd. unfold read_line, write_line.
  rewrite parse_print; [| apply json_ok_encode; assumption | apply Nat.ltb_lt; exact Hd].
  apply decode_encode; [exact Hwf | apply wt_event_of_frame, Hok].
Qed.

Definition all_ok (s : schema) (es : list event) : Prop :=
  Forall (fun e => frame_ok s e = true /\ snapshot_depth_ok s e = true) es.

Lemma all_ok_forallb s es : forallb (fun e => frame_ok s e && snapshot_depth_ok s e) es = true -> all_ok s es.
Proof. rewrite forallb_forall. intros H. apply Forall_forall. intros e He. apply andb_true_iff, H, He. Qed.

Lemma all_ok_filter s p es : all_ok s es -> all_ok s (filter p es).
Proof. apply incl_Forall, incl_filter. Qed.

(* the part of all_ok that reading a log or sidecar line back needs: no snapshot array stands around the frame *)
Definition lines_ok (s : schema) (es : list event) : Prop :=
  Forall (fun e => frame_ok s e = true /\ depth_ok s e = true) es.

Lemma snapshot_depth_depth s e : snapshot_depth_ok s e = true -> depth_ok s e = true.
Proof. unfold snapshot_depth_ok, depth_ok. rewrite !Nat.ltb_lt. lia. Qed.

Lemma all_ok_lines s es : all_ok s es -> lines_ok s es.
Proof. apply Forall_impl. intros e [Hok Hd]. auto using snapshot_depth_depth. Qed.

Theorem read_write_snapshot s es :
  wf_schema s = true -> all_ok s es -> read_snapshot s (write_snapshot s es) = Some (map (canon_event s) es).
Proof.
  intros Hwf HF. unfold all_ok in HF. rewrite Forall_forall in HF. unfold read_snapshot, write_snapshot. rewrite parse_print_pretty.
  - apply map_opt_map. intros e He. apply decode_encode; [exact Hwf | apply wt_event_of_frame, HF, He].
  - cbn [json_ok]. rewrite forallb_forall. intros j Hj. apply in_map_iff in Hj as [e [<- He]].
    apply json_ok_encode; [exact Hwf | apply HF, He].
  - cbn [json_depth]. apply (proj1 (Nat.succ_lt_mono _ _)), fold_max_lt; [lia|].
    rewrite map_map. apply Forall_forall. intros d Hd. apply in_map_iff in Hd as [e [<- He]]. apply Nat.ltb_lt, HF, He.
Qed.

Lemma of_stream_canon s key es : of_stream s key (map (canon_event s) es) = map (canon_event s) (of_stream s key es).
Proof.
  unfold of_stream. induction es as [|e es IH]; [reflexivity|].
  cbn [map filter]. rewrite stream_key_canon. destruct (key_eqb (stream_key s e) key); cbn [map]; rewrite IH; reflexivity.
Qed.

Definition side_entry (s : schema) (e : event) : N * str * str := (fst (stream_key s e), snd (stream_key s e), write_line s e).

Lemma side_key_entry s e : side_key (side_entry s e) = stream_key s e.
Proof. unfold side_key, side_entry. cbn [fst snd]. destruct (stream_key s e); reflexivity. Qed.

Lemma side_of_entries s key es : side_of key (map (side_entry s) es) = map (write_line s) (of_stream s key es).
Proof.
  unfold side_of, of_stream. induction es as [|e es IH]; [reflexivity|].
  cbn [map filter]. rewrite side_key_entry. destruct (key_eqb (stream_key s e) key); cbn [map snd]; rewrite IH; reflexivity.
Qed.

Lemma run_emits_from s es : forall k,
  fold_left (emit s) es k =
  {| k_log := k_log k ++ map (write_line s) es; k_sidecar := k_sidecar k ++ map (side_entry s) es;
     k_buffer := k_buffer k ++ es; k_live := k_live k ++ es |}.
Proof.
  induction es as [|e es IH]; intros k; cbn [fold_left map].
  - rewrite !app_nil_r. destruct k; reflexivity.
  - rewrite IH. unfold emit. cbn [k_log k_sidecar k_buffer k_live]. rewrite <- !app_assoc. reflexivity.
Qed.

Lemma run_emits_eq s es :
  run_emits s es =
  {| k_log := map (write_line s) es; k_sidecar := map (side_entry s) es; k_buffer := es; k_live := es |}.
Proof. apply run_emits_from. Qed.

Lemma read_lines s es :
  wf_schema s = true -> lines_ok s es -> map_opt (read_line s) (map (write_line s) es) = Some (map (canon_event s) es).
Proof.
  intros Hwf HF. apply map_opt_map. intros e He. unfold lines_ok in HF. rewrite Forall_forall in HF.
  destruct (HF e He) as [Hok Hd]. apply read_write_line; assumption.
Qed.

(* log, sidecar and snapshot of a stream each read back as the canonical form of what the live subscriber received *)
Definition views_agree_at (s : schema) (key : N * str) (k : sinks) : Prop :=
  view_log s key k = Some (map (canon_event s) (view_live s key k))
  /\ view_sidecar s key k = Some (map (canon_event s) (view_live s key k))
  /\ view_snapshot s key k = Some (map (canon_event s) (view_live s key k)).

Theorem views_agree s es key : wf_schema s = true -> all_ok s es -> views_agree_at s key (run_emits s es).
Proof.
  intros Hwf HF. unfold views_agree_at. rewrite run_emits_eq.
  unfold view_log, view_sidecar, view_snapshot, view_live. cbn [k_log k_sidecar k_buffer k_live]. repeat split.
  - rewrite (read_lines s es Hwf (all_ok_lines s es HF)). cbn [option_map]. rewrite of_stream_canon. reflexivity.
  - change (map_opt (read_line s) (side_of key (map (side_entry s) es)) = Some (map (canon_event s) (of_stream s key es))).
    rewrite side_of_entries. apply read_lines, all_ok_lines, all_ok_filter; assumption.
  - apply read_write_snapshot, all_ok_filter; assumption.
Qed.

(* when no Some(x) prints as null, the views are the live frames themselves *)
Lemma map_canon_exact s es :
  all_ok s es -> Forall (fun e => exact_event s e = true) es -> map (canon_event s) es = es.
Proof.
  intros Hok Hx. rewrite <- (map_id es) at 2. apply map_ext_in. intros e He.
  unfold all_ok in Hok. rewrite Forall_forall in Hok, Hx. apply canon_event_exact; [apply wt_event_of_frame, Hok, He | apply Hx, He].
Qed.

Theorem views_exact s es key :
  wf_schema s = true -> all_ok s es -> Forall (fun e => exact_event s e = true) es ->
  let k := run_emits s es in
  view_log s key k = Some (view_live s key k)
  /\ view_sidecar s key k = Some (view_live s key k)
  /\ view_snapshot s key k = Some (view_live s key k).
Proof.
  intros Hwf HF Hx k. pose proof (views_agree s es key Hwf HF) as H. unfold views_agree_at in H. fold k in H.
  replace (map (canon_event s) (view_live s key k)) with (view_live s key k) in H; [exact H|].
  symmetry. subst k. rewrite run_emits_eq. unfold view_live, of_stream. cbn [k_live].
  apply map_canon_exact; [apply all_ok_filter, HF | apply (incl_Forall (incl_filter _ es)), Hx].
Qed.

Theorem roundtrip_wire s e :
  wf_schema s = true -> frame_ok s e = true -> depth_ok s e = true -> wire_event s e = true ->
  exists e', read_line s (write_line s e) = Some e' /\ write_line s e' = write_line s e
             /\ event_kind s e' = event_kind s e /\ e_sid e' = e_sid e /\ e_var e' = e_var e.
Proof.
  intros Hwf Hok Hd Hw. exists (canon_event s e). split; [apply read_write_line; assumption|].
  split; [unfold write_line; rewrite encode_canon by exact Hw; reflexivity|].
  split; [apply canon_event_kind|]. split; [apply canon_event_sid | apply canon_event_var].
Qed.

Theorem roundtrip_exact s e :
  wf_schema s = true -> frame_ok s e = true -> depth_ok s e = true -> exact_event s e = true ->
  read_line s (write_line s e) = Some e.
Proof.
  intros Hwf Hok Hd Hx. rewrite read_write_line, canon_event_exact by auto using wt_event_of_frame. reflexivity.
Qed.

Theorem stream_preserved s e :
  wf_schema s = true -> frame_ok s e = true -> depth_ok s e = true ->
  exists e', read_line s (write_line s e) = Some e' /\ stream_key s e' = stream_key s e.
Proof.
  intros Hwf Hok Hd. exists (canon_event s e). split; [apply read_write_line; assumption | apply stream_key_canon].
Qed.

Theorem kind_of_variant_only s e e' : e_var e = e_var e' -> event_kind s e = event_kind s e'.
Proof. unfold event_kind. intros ->. reflexivity. Qed.

Theorem snapshot_exact s es :
  wf_schema s = true -> all_ok s es -> Forall (fun e => exact_event s e = true) es ->
  read_snapshot s (write_snapshot s es) = Some es.
Proof. intros Hwf HF Hx. rewrite read_write_snapshot, map_canon_exact by assumption. reflexivity. Qed.

Definition demo_variant : variant :=
  {| vname := [86]; vtag := [118]; valiases := [[119]];
     vfields := [ (mkF [97] false [] SkipNever, TVal);                       (* a: Value *)
                  (mkF [114] true [] SkipIsNone, TOpt TVal);                 (* r: Option<Value>, default, skipped if None *)
                  (mkF [111] false [[112]] SkipNever, TOpt TVal);            (* o: Option<Value>, alias p *)
                  (mkF [108] true [] SkipIsEmpty, TVec TStr);                (* l: Vec<String>, default, skipped if empty *)
                  (mkF [110] false [] SkipNever, TI32) ] |}.                 (* n: i32 *)

Definition schema_with (vs : list variant) : schema :=
  {| s_variants := vs; s_arms := []; s_default_kind := KSession; s_default_guard := false;
     s_wire := expected_wire; s_wire_flatten := (k_kind, x_self_kind);
     s_event := expected_event; s_event_flatten := (k_kind, t_EventKind);
     s_stream_id_body := x_self_session_id; s_tag_key := k_type; s_supported := true |}.

Definition demo_schema : schema := schema_with [demo_variant].

Definition demo_event (fields : list value) : event :=
  {| e_id := [105]; e_sid := [115; 233; 128512]; e_ts := 1758000000000; e_seq := 7; e_var := 0; e_fields := fields |}.

Definition ev_plain : event :=
  demo_event [VVal (JObj [([107], JArr [JNum [49; 46; 53]; JNull])]); VOpt None; VOpt (Some (VVal (JStr [120]))); VVec []; VInt (-15)%Z].
Definition ev_some_null_skipped : event :=
  demo_event [VVal JNull; VOpt (Some (VVal JNull)); VOpt None; VVec [VStr [104; 105]]; VInt 0%Z].
Definition ev_some_null_kept : event :=
  demo_event [VVal JNull; VOpt None; VOpt (Some (VVal JNull)); VVec []; VInt 2147483647%Z].
Definition ev_deep : event :=
  demo_event [VVal (nested_arrays 126); VOpt None; VOpt None; VVec []; VInt 0%Z].

Lemma demo_schema_wf : wf_schema demo_schema = true.
Proof. vm_compute. reflexivity. Qed.

Lemma ev_plain_ok :
  frame_ok demo_schema ev_plain = true /\ depth_ok demo_schema ev_plain = true /\ snapshot_depth_ok demo_schema ev_plain = true
  /\ wire_event demo_schema ev_plain = true /\ exact_event demo_schema ev_plain = true.
Proof. vm_compute. repeat split; reflexivity. Qed.

Lemma ev_plain_all_ok : all_ok demo_schema [ev_plain; ev_some_null_kept].
Proof. apply all_ok_forallb. vm_compute. reflexivity. Qed.

(* Some(null) in a skipped-when-None field: written as "r":null, read back as None, written again without
   the key — the wire guard of roundtrip_wire is necessary *)
Theorem some_null_skipped_refuted :
  exists s e, wf_schema s = true /\ frame_ok s e = true /\ depth_ok s e = true
              /\ exists e', read_line s (write_line s e) = Some e' /\ write_line s e' <> write_line s e.
Proof.
  exists demo_schema, ev_some_null_skipped. do 3 (split; [vm_compute; reflexivity|]).
  exists (canon_event demo_schema ev_some_null_skipped). split; [vm_compute; reflexivity | vm_compute; discriminate].
Qed.

(* Some(null) in an always-written Option field: the wire form is unchanged, the value is not *)
Theorem exact_needs_guard_refuted :
  exists s e, wf_schema s = true /\ frame_ok s e = true /\ depth_ok s e = true /\ wire_event s e = true
              /\ exists e', read_line s (write_line s e) = Some e' /\ e' <> e /\ write_line s e' = write_line s e.
Proof.
  exists demo_schema, ev_some_null_kept. do 4 (split; [vm_compute; reflexivity|]).
  exists (canon_event demo_schema ev_some_null_kept).
  split; [vm_compute; reflexivity|]. split; [vm_compute; discriminate | vm_compute; reflexivity].
Qed.

(* serde_json's recursion limit: a payload nested 127 deep sits 128 deep inside its frame; the writer writes
   it, the reader refuses it — the depth guard is necessary *)
Theorem depth_limit_refuted :
  exists s e, wf_schema s = true /\ frame_ok s e = true /\ wire_event s e = true /\ exact_event s e = true
              /\ read_line s (write_line s e) = None.
Proof. exists demo_schema, ev_deep. repeat split; vm_compute; reflexivity. Qed.

(* the schema conditions are needed: `skip_serializing_if` on a field that is neither `default` nor Option *)
Definition bad_variant : variant :=
  {| vname := [86]; vtag := [118]; valiases := [];
     vfields := [ (mkF [108] false [] SkipIsEmpty, TVec TStr) ] |}.
Definition bad_schema : schema := schema_with [bad_variant].
Definition ev_empty_vec : event := demo_event [VVec []].

Theorem skip_without_default_refuted :
  exists s e, wf_schema s = false /\ frame_ok s e = true /\ depth_ok s e = true /\ exact_event s e = true
              /\ read_line s (write_line s e) = None.
Proof. exists bad_schema, ev_empty_vec. repeat split; vm_compute; reflexivity. Qed.

(* a renamed field whose old key is not kept as an alias: old lines no longer read (what `alias` is for) *)
Definition old_variant : variant :=
  {| vname := [86]; vtag := [118]; valiases := []; vfields := [ (mkF [97] false [] SkipNever, TStr) ] |}.
Definition new_variant_no_alias : variant :=
  {| vname := [86]; vtag := [118]; valiases := []; vfields := [ (mkF [98] false [] SkipNever, TStr) ] |}.
Definition new_variant_alias : variant :=
  {| vname := [86]; vtag := [118]; valiases := []; vfields := [ (mkF [98] false [[97]] SkipNever, TStr) ] |}.
Definition ev_str : event := demo_event [VStr [120]].

Lemma rename_witness :
  read_line (schema_with [new_variant_no_alias]) (write_line (schema_with [old_variant]) ev_str) = None
  /\ read_line (schema_with [new_variant_alias]) (write_line (schema_with [old_variant]) ev_str) = Some ev_str.
Proof. split; vm_compute; reflexivity. Qed.

Lemma key_eqb_spec a b : key_eqb a b = true <-> a = b.
Proof.
  unfold key_eqb. rewrite andb_true_iff, N.eqb_eq, str_eqb_spec. destruct a as [a1 a2], b as [b1 b2]. cbn [fst snd].
  split; [intros [-> ->]; reflexivity | intros H; inversion H; auto].
Qed.

Lemma key_eqb_refl a : key_eqb a a = true.
Proof. apply key_eqb_spec. reflexivity. Qed.

Lemma key_eqb_sym a b : key_eqb a b = key_eqb b a.
Proof. unfold key_eqb. rewrite N.eqb_sym. f_equal. apply Bool.eq_true_iff_eq. rewrite !str_eqb_spec. split; auto. Qed.

Lemma side_of_app key a b : side_of key (a ++ b) = side_of key a ++ side_of key b.
Proof. unfold side_of. rewrite filter_app, map_app. reflexivity. Qed.

Lemma side_of_drop_same key sd : side_of key (drop_key key sd) = [].
Proof.
  unfold side_of, drop_key. induction sd as [|x sd IH]; [reflexivity|]. cbn [filter].
  destruct (key_eqb (side_key x) key) eqn:E; cbn [negb filter]; [exact IH | rewrite E; exact IH].
Qed.

Lemma side_of_drop_other key key0 sd : key_eqb key key0 = false -> side_of key (drop_key key0 sd) = side_of key sd.
Proof.
  intros Hne. unfold side_of, drop_key. induction sd as [|x sd IH]; [reflexivity|]. cbn [filter].
  destruct (key_eqb (side_key x) key0) eqn:E0; cbn [negb filter].
  - destruct (key_eqb (side_key x) key) eqn:E1; [|exact IH].
    apply key_eqb_spec in E0, E1. rewrite <- E1, E0, key_eqb_refl in Hne. discriminate.
  - destruct (key_eqb (side_key x) key) eqn:E1; cbn [map]; rewrite IH; reflexivity.
Qed.

Lemma side_of_rebuilt (f : event -> str) key key0 es :
  side_of key (map (fun e => (fst key0, snd key0, f e)) es) = if key_eqb key0 key then map f es else [].
Proof.
  unfold side_of, side_key. destruct key0 as [a b]. cbn [fst snd].
  induction es as [|e es IH]; [destruct (key_eqb (a, b) key); reflexivity|].
  cbn [map filter fst snd]. destruct (key_eqb (a, b) key) eqn:E; cbn [map snd]; rewrite IH; reflexivity.
Qed.

Lemma of_stream_app s key a b : of_stream s key (a ++ b) = of_stream s key a ++ of_stream s key b.
Proof. apply filter_app. Qed.

(* the sidecar holds, for every stream, the lines of a suffix of the stream's frames *)
Definition side_inv (s : schema) (es : list event) (sd : list (N * str * str)) : Prop :=
  forall key, exists pre suf, of_stream s key es = pre ++ suf /\ side_of key sd = map (write_line s) suf.

Definition hist_inv (s : schema) (es : list event) (k : sinks) : Prop :=
  k_log k = map (write_line s) es /\ k_live k = es /\ side_inv s es (k_sidecar k).

Lemma hist_inv0 s : hist_inv s [] sinks0.
Proof. repeat split. intros key. exists [], []. split; reflexivity. Qed.

Lemma hist_inv_emit s es k e : hist_inv s es k -> hist_inv s (es ++ [e]) (emit s k e).
Proof.
  intros [Hl [Hv Hs]]. unfold emit. repeat split; cbn [k_log k_live k_sidecar].
  - rewrite Hl, map_app. reflexivity.
  - rewrite Hv. reflexivity.
  - intros key. destruct (Hs key) as (pre & suf & E & Hk). exists pre, (suf ++ of_stream s key [e]).
    rewrite of_stream_app, E, app_assoc, side_of_app, Hk, map_app, <- (side_of_entries s key [e]). split; reflexivity.
Qed.

(* the sidecar of some streams disappears *)
Lemma hist_inv_sidecar s es k sd :
  hist_inv s es k -> (forall key, side_of key sd = [] \/ side_of key sd = side_of key (k_sidecar k)) ->
  hist_inv s es (with_sidecar k sd).
Proof.
  intros [Hl [Hv Hs]] Hsd. repeat split; cbn [with_sidecar k_log k_live k_sidecar]; try assumption.
  intros key. destruct (Hsd key) as [E | E]; rewrite E; [|apply Hs].
  exists (of_stream s key es), []. split; [symmetry; apply app_nil_r | reflexivity].
Qed.

Lemma hist_inv_lose s es k key0 : hist_inv s es k -> hist_inv s es (with_sidecar k (drop_key key0 (k_sidecar k))).
Proof.
  intros H. apply hist_inv_sidecar; [exact H|]. intros key. destruct (key_eqb key key0) eqn:E.
  - apply key_eqb_spec in E. subst key0. left. apply side_of_drop_same.
  - right. apply side_of_drop_other, E.
Qed.

Lemma hist_inv_lose_all s es k : hist_inv s es k -> hist_inv s es (with_sidecar k []).
Proof. intros H. apply hist_inv_sidecar; [exact H|]. intros key. left. reflexivity. Qed.

(* The list-level notion: every frame passes Wire.wire_event.  From here on (and in Props/C03.v) `wire_ok` is this one,
   not the value-level Wire.wire_ok of enc_canon. *)
Definition wire_ok (s : schema) (es : list event) : Prop := Forall (fun e => wire_event s e = true) es.

Lemma view_log_inv s es k key :
  wf_schema s = true -> lines_ok s es -> hist_inv s es k ->
  view_log s key k = Some (map (canon_event s) (of_stream s key es)).
Proof.
  intros Hwf Hok [Hl _]. unfold view_log. rewrite Hl, (read_lines s es Hwf Hok). cbn [option_map].
  rewrite of_stream_canon. reflexivity.
Qed.

Lemma map_write_canon s es : wire_ok s es -> map (write_line s) (map (canon_event s) es) = map (write_line s) es.
Proof.
  intros H. rewrite map_map. apply map_ext_in. intros e He. unfold wire_ok in H. rewrite Forall_forall in H.
  unfold write_line. rewrite encode_canon by apply H, He. reflexivity.
Qed.

(* a replay that falls back to the log rebuilds the stream's sidecar from the frames it read *)
Lemma hist_inv_replay rc s es k key0 :
  wf_schema s = true -> lines_ok s es -> wire_ok s es -> hist_inv s es k ->
  hist_inv s es (snd (replay_events rc s key0 k)).
Proof.
  intros Hwf Hok Hw Hinv. unfold replay_events.
  destruct (try_replay rc s key0 (k_sidecar k)); [exact Hinv|].
  destruct (rc_fallback_log rc); [|exact Hinv].
  rewrite (view_log_inv s es k key0 Hwf Hok Hinv). cbn [snd].
  destruct (map (canon_event s) (of_stream s key0 es)) as [|c cs] eqn:Ec; [exact Hinv|]. rewrite <- Ec. clear c cs Ec.
  destruct Hinv as [Hl [Hv Hs]]. repeat split; cbn [with_sidecar k_log k_live k_sidecar]; try assumption.
  intros key. rewrite side_of_app, side_of_rebuilt, (key_eqb_sym key0 key). destruct (key_eqb key key0) eqn:E.
  - apply key_eqb_spec in E. subst key0. rewrite side_of_drop_same. exists [], (of_stream s key es). split; [reflexivity|].
    apply map_write_canon, (incl_Forall (incl_filter _ es)), Hw.
  - rewrite app_nil_r, side_of_drop_other by exact E. apply Hs.
Qed.

Lemma run_hist_inv rc s hs :
  wf_schema s = true -> lines_ok s (emitted hs) -> wire_ok s (emitted hs) ->
  hist_inv s (emitted hs) (run_hist rc s hs).
Proof.
  intros Hwf. unfold run_hist.
  assert (G : forall hs es k, hist_inv s es k -> lines_ok s (es ++ emitted hs) -> wire_ok s (es ++ emitted hs) ->
                              hist_inv s (es ++ emitted hs) (fold_left (hstep_run rc s) hs k)).
  { clear hs. induction hs as [|h hs IH]; intros es k Hinv Hok Hw.
    - cbn [emitted flat_map fold_left]. rewrite app_nil_r. exact Hinv.
    - change (emitted (h :: hs)) with (match h with HEmit e => [e] | _ => [] end ++ emitted hs) in *.
      cbn [fold_left]. destruct h as [e | key0 | | key0]; cbn [hstep_run]; [rewrite app_assoc in * | ..]; apply IH; try assumption.
      + apply hist_inv_emit, Hinv.
      + apply hist_inv_lose, Hinv.
      + apply hist_inv_lose_all, Hinv.
      + apply Forall_app in Hok, Hw. apply hist_inv_replay; tauto. }
  intros Hok Hw. apply (G hs [] sinks0 (hist_inv0 s)); assumption.
Qed.

Lemma seqs_from_after pre : forall m e r, seqs_from m (pre ++ e :: r) = true -> e_seq e = (m + N.of_nat (length pre))%N.
Proof.
  induction pre as [|x pre IH]; intros m e r Hs; cbn [app seqs_from] in Hs; apply andb_true_iff in Hs as [H0 Hs].
  - cbn [length]. lia.
  - rewrite (IH _ _ _ Hs). cbn [length]. lia.
Qed.

(* the central statement: on an invariant state the store's replay of a stream is the log's view of it.  A sidecar
   that is accepted starts at seq 0, so it is the whole stream and not a proper suffix.  The successor check
   (rc_successor) plays no part: a suffix of a stream numbered 0,1,2,.. passes it anyway. *)
Lemma replay_events_inv rc s es k key :
  wf_schema s = true -> rc_first_zero rc = true -> rc_empty_refused rc = true -> rc_fallback_log rc = true ->
  lines_ok s es -> hist_inv s es k -> seqs_from 0 (of_stream s key es) = true ->
  fst (replay_events rc s key k) = Some (map (canon_event s) (of_stream s key es)).
Proof.
  intros Hwf Hz Hem Hfb Hok Hinv Hseq.
  unfold replay_events. rewrite Hfb, (view_log_inv s es k key Hwf Hok Hinv).
  destruct (try_replay rc s key (k_sidecar k)) as [v|] eqn:Hv; cbn [fst]; [f_equal | reflexivity].
  destruct Hinv as (_ & _ & Hs). destruct (Hs key) as (pre & suf & E & Hk).
  unfold try_replay in Hv. rewrite Hk, Hz, Hem in Hv. cbn [negb orb] in Hv.
  destruct suf as [|e r]; cbn [map] in Hv; [discriminate|].
  change (write_line s e :: map (write_line s) r) with (map (write_line s) (e :: r)) in Hv.
  assert (Hok' : lines_ok s (e :: r)).
  { apply (incl_Forall (l1 := of_stream s key es)); [rewrite E; apply incl_appr, incl_refl|].
    apply (incl_Forall (incl_filter _ es)), Hok. }
  rewrite (read_lines s (e :: r) Hwf Hok') in Hv.
  destruct (first_zero (map (canon_event s) (e :: r)) && (negb (rc_successor rc) || follows (map (canon_event s) (e :: r)))) eqn:Echk;
    [|discriminate].
  inversion Hv; subst v. apply andb_true_iff in Echk as [Hfz _].
  cbn [map first_zero] in Hfz. rewrite canon_event_seq in Hfz.
  rewrite E in Hseq. apply seqs_from_after in Hseq. destruct pre; [rewrite E; reflexivity | cbn [length] in Hseq; lia].
Qed.

(* After ANY history of emits, sidecar losses (one stream / the directory) and replays, replay_events of a stream
   returns the frames of the log for that stream = the frames the live subscriber received (canonical form),
   provided the replay check has the shape read from the source (wf_replay_check) and the store numbers every
   stream 0,1,2,...  Without "first line seq 0" it fails: replay_needs_first_zero_refuted. *)
Theorem replay_after_loss rc s hs key :
  wf_schema s = true -> wf_replay_check rc = true ->
  all_ok s (emitted hs) -> wire_ok s (emitted hs) ->
  seqs_from 0 (of_stream s key (emitted hs)) = true ->
  let k := run_hist rc s hs in
  fst (replay_events rc s key k) = Some (map (canon_event s) (view_live s key k))
  /\ view_log s key k = Some (map (canon_event s) (view_live s key k))
  /\ k_live k = emitted hs.
Proof.
  intros Hwf Hrc Hok Hw Hseq k. apply all_ok_lines in Hok. unfold wf_replay_check in Hrc. rewrite !andb_true_iff in Hrc.
  pose proof (run_hist_inv rc s hs Hwf Hok Hw) as Hinv. fold k in Hinv.
  assert (Hlive : k_live k = emitted hs) by apply Hinv.
  unfold view_live. rewrite Hlive. split; [|split; [|reflexivity]].
  - apply replay_events_inv; tauto.
  - apply view_log_inv; assumption.
Qed.

(* a replay check without "first line seq 0": only "each frame follows the frame before it" *)
Definition rc_no_first_zero : replay_check :=
  {| rc_first_zero := false; rc_successor := true; rc_empty_refused := true; rc_fallback_log := true |}.
Definition demo_seq (n : N) : event :=
  {| e_id := [105; n + 48]; e_sid := [116]; e_ts := 1758000000000; e_seq := n; e_var := 0;
     e_fields := [VVal JNull; VOpt None; VOpt None; VVec []; VInt 0%Z] |}.
Definition demo_key : N * str := stream_key demo_schema (demo_seq 0).
Definition demo_loss_history : list hstep :=
  [HEmit (demo_seq 0); HEmit (demo_seq 1); HLoseAll; HEmit (demo_seq 2); HEmit (demo_seq 3); HReplay demo_key].

Lemma demo_loss_history_ok :
  wf_schema demo_schema = true /\ all_ok demo_schema (emitted demo_loss_history) /\ wire_ok demo_schema (emitted demo_loss_history)
  /\ seqs_from 0 (of_stream demo_schema demo_key (emitted demo_loss_history)) = true
  /\ length (of_stream demo_schema demo_key (emitted demo_loss_history)) = 4%nat.
Proof.
  split; [exact demo_schema_wf|]. split; [apply all_ok_forallb; vm_compute; reflexivity|].
  split; [repeat constructor; vm_compute; reflexivity|]. split; vm_compute; reflexivity.
Qed.

(* after the loss the re-created sidecar holds seqs 2,3: they follow each other, and it is served as the stream *)
Theorem replay_needs_first_zero_refuted :
  exists rc s hs key,
    rc_successor rc = true /\ rc_empty_refused rc = true /\ rc_fallback_log rc = true
    /\ wf_schema s = true /\ all_ok s (emitted hs) /\ wire_ok s (emitted hs)
    /\ seqs_from 0 (of_stream s key (emitted hs)) = true
    /\ fst (replay_events rc s key (run_hist rc s hs)) <> Some (map (canon_event s) (view_live s key (run_hist rc s hs))).
Proof.
  exists rc_no_first_zero, demo_schema, demo_loss_history, demo_key.
  destruct demo_loss_history_ok as [H1 [H2 [H3 [H4 _]]]].
  repeat split; try assumption. vm_compute. discriminate.
Qed.

Lemma rc_code_wf : wf_replay_check rc_code = true.
Proof. reflexivity. Qed.
