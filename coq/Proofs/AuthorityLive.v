(* C18 — recovery (liveness) facts:
   * a server loop of Model/Authority.v that runs without interference from an all-dead leftover state serves with its own
     lock and meta after at most 15 of its own steps, taking nothing of a live pid (for ANY list of other, idle processes);
   * the wedge of finding S23: with the corrupt cleanup that refuses next to any meta.json (micro_unfixed, below) a
     half-written lock together with a meta.json is never cleaned by anybody, under any schedule;
   * finding S24: the client loop next to a dead meta.json without a lock reaches its spawn branch. *)
From RipV Require Import Base.Prelude Model.Authority Proofs.AuthorityInv.

Section Ext.
  Variables (ps1 ps2 : list proc).
  Hypothesis H : forall p, pid_alive ps1 p = pid_alive ps2 p.

  Lemma grace_ext ag o c : grace_fires ag ps1 o c = grace_fires ag ps2 o c.
  Proof. unfold grace_fires. rewrite H. reflexivity. Qed.
  Lemma takes_ext me w : takes ps1 me w = takes ps2 me w.
  Proof. unfold takes. destruct w; [rewrite H|]; reflexivity. Qed.
  Lemma server_next_ext ag o r : server_next ag ps1 o r = server_next ag ps2 o r.
  Proof. destruct r as [| | | | |l| | | | | |]; cbn; try reflexivity. destruct l; try reflexivity. rewrite grace_ext. reflexivity. Qed.
  Lemma client_next_ext ag o r : client_next ag ps1 o r = client_next ag ps2 o r.
  Proof. destruct r as [| | | | |l| | | | | |]; cbn; try reflexivity. destruct l; try reflexivity. rewrite grace_ext. reflexivity. Qed.
  Lemma ret_ext ag o q g r : ret ag ps1 o q g r = ret ag ps2 o q g r.
  Proof. unfold ret. destruct (p_drv q); try reflexivity; [rewrite server_next_ext|rewrite client_next_ext]; reflexivity. Qed.
End Ext.

Lemma micro_ext ag s ps o q : (forall p, pid_alive ps p = pid_alive (s_procs s) p) ->
  micro ag (with_procs s ps) o q = (with_procs (fst (micro ag s o q)) ps, snd (micro ag s o q)).
Proof.
  intros H. destruct s as [l m t ps0 tl tm]. unfold micro, with_procs, set_files.
  cbn [s_lock s_meta s_tmp s_procs s_took_lock s_took_meta] in *.
  destruct (p_pc q); rewrite ?(ret_ext _ _ H), ?(takes_ext _ _ H), ?H; break; reflexivity.
Qed.

Fixpoint solo (n : nat) (o : N) (s : state) (q : proc) : state * proc :=
  match n with O => (s, q) | S n' => let '(s', q') := micro true s o q in solo n' o s' q' end.

Lemma upd_upd {A} (l : list A) i x y : upd (upd l i x) i y = upd l i y.
Proof. revert i. induction l as [|z l IH]; intros [|i]; cbn; try reflexivity. rewrite IH. reflexivity. Qed.
Lemma upd_same {A} (l : list A) i x : nth_error l i = Some x -> upd l i x = l.
Proof. revert i. induction l as [|z l IH]; intros [|i] E; cbn in *; try discriminate; [congruence|]. rewrite IH; auto. Qed.
Lemma upd_nth_same {A} (l : list A) i x y : nth_error l i = Some y -> nth_error (upd l i x) i = Some x.
Proof. intros E. rewrite upd_nth, Nat.eqb_refl, E. reflexivity. Qed.

Lemma pid_alive_upd_eq ps i q x p :
  nth_error ps i = Some q -> p_pid x = p_pid q -> p_alive x = p_alive q ->
  pid_alive (upd ps i x) p = pid_alive ps p.
Proof.
  intros Hn Hp Ha. destruct (pid_alive ps p) eqn:E.
  - eapply pid_alive_upd_ge; eassumption.
  - destruct (pid_alive (upd ps i x) p) eqn:E2; [|reflexivity].
    eapply pid_alive_upd_le in E2; try eassumption; congruence.
Qed.

(* the schedule that steps only process i is the solo run of process i, put back at its place; stated for any process
   list with the same live pids, since the solo run keeps the list it started with *)
Lemma run_solo_ext n : forall o s ps q i,
  (forall p, pid_alive ps p = pid_alive (s_procs s) p) -> nth_error ps i = Some q -> p_alive q = true ->
  run true (with_procs s ps) (repeat (Step i o) n)
  = with_procs (fst (solo n o s q)) (upd ps i (snd (solo n o s q))).
Proof.
  induction n as [|n IH]; intros o s ps q i Hps Hq Ha.
  - cbn. rewrite (upd_same _ _ _ Hq). reflexivity.
  - cbn [repeat run fold_left solo step with_procs s_procs]. rewrite Hq, Ha, (micro_ext _ _ _ _ _ Hps).
    destruct (micro true s o q) as [s1 q1] eqn:Hm. cbn [fst snd].
    destruct (micro_basic _ _ _ _ _ _ Hm) as [Epid [Eal Eps]].
    rewrite <- (upd_upd ps i q1 (snd (solo n o s1 q1))). apply (IH o s1 (upd ps i q1) q1 i).
    + intros p. rewrite (pid_alive_upd_eq _ _ _ _ _ Hq Epid Eal), Eps. apply Hps.
    + eapply upd_nth_same; eassumption.
    + congruence.
Qed.

Lemma run_solo n o s q i : nth_error (s_procs s) i = Some q -> p_alive q = true ->
  run true s (repeat (Step i o) n) = with_procs (fst (solo n o s q)) (upd (s_procs s) i (snd (solo n o s q))).
Proof.
  intros Hq Ha. rewrite <- (run_solo_ext n o s (s_procs s) q i (fun _ => eq_refl) Hq Ha). destruct s; reflexivity.
Qed.

Definition mkst l m t ps :=
  {| s_lock := l; s_meta := m; s_tmp := t; s_procs := ps; s_took_lock := false; s_took_meta := false |}.
Definition srv me g k last :=
  {| p_pid := me; p_alive := true; p_guard := g; p_drv := DServer; p_pc := k; p_last := last |}.

Lemma solo_S n o s q : solo (S n) o s q = let '(s', q') := micro true s o q in solo n o s' q'.
Proof. reflexivity. Qed.

(* one step of a solo run on a state and a process given by their fields, with a numeral for the environment answers:
   the step is evaluated with solo folded (under a step that is blocked on a liveness answer its unfolding would be
   normalised, 26 cases deep), then the liveness answers and pid comparisons known in the context are put in *)
Ltac solo_step :=
  rewrite solo_S;
  lazy beta iota zeta delta [micro ret server_next client_next goto set_files p_pc p_pid p_guard p_drv p_alive p_last
       s_lock s_meta s_tmp s_procs s_took_lock s_took_meta lock_pid meta_pid res_code lock_code meta_code b2n
       takes grace_fires o_reach o_grace o_deadline N.testbit Pos.testbit Pos.pred_N Pos.pred_double];
  repeat match goal with
  | H : pid_alive _ _ = _ |- _ => rewrite H
  | H : (_ =? _) = _ |- _ => rewrite H
  end;
  rewrite ?N.eqb_refl, ?andb_false_r, ?andb_true_r, ?orb_false_r;
  cbn [negb andb orb].

(* the recoverable dead leftovers *)
(* every pid named by the leftover files is dead *)
Definition dead_leftover (ps : list proc) (l : lockf) (m : metaf) : Prop :=
  (forall p, lock_pid l = Some p -> pid_alive ps p = false) /\ (forall p, meta_pid m = Some p -> pid_alive ps p = false).

(* environment answers 2 = endpoint unreachable, 1 s timer expired, deadline not passed.  Every run ends with the five steps
   T = create, write the record, write meta.tmp, remove meta.json, rename meta.tmp; before them:
   stale record d:   failed create, read meta [, ping], read lock, liveness of d, exists, re-read, rename, read meta
                     [, rename the meta of d];
   half-written d:   failed create, read meta [, ping], read lock, exists, meta exists [, read meta, liveness of its pid],
                     rename *)
Lemma solo_recovers ps me l m : dead_leftover ps l m ->
  exists n, (n <= 15)%nat /\
    solo n 2 (mkst l m MAbsent ps) (srv me false AcqCreate 0) = (mkst (LRec me) (MRec me) MAbsent ps, srv me true Serving 1).
Proof.
  intros [Hl Hm]. unfold mkst, srv.
  destruct l as [|d|d]; [|pose proof (Hl d eq_refl) as Hd..]; (destruct m as [|d']; [|pose proof (Hm d' eq_refl) as Hd']).
  - exists 5%nat. split; [lia|]. do 5 solo_step. reflexivity.
  - exists 5%nat. split; [lia|]. do 5 solo_step. reflexivity.
  - exists 11%nat. split; [lia|]. do 11 solo_step. reflexivity.
  - exists 14%nat. split; [lia|]. do 14 solo_step. reflexivity.
  - exists 13%nat. split; [lia|]. do 13 solo_step. reflexivity.
  - destruct (d' =? d) eqn:E.
    + apply N.eqb_eq in E. subst d'. exists 15%nat. split; [lia|]. do 15 solo_step. reflexivity.
    + exists 14%nat. split; [lia|]. do 14 solo_step. reflexivity.
Qed.

Lemma filter_upd_single {A} (f : A -> bool) (l : list A) i x y :
  (forall z, In z l -> f z = false) -> nth_error l i = Some x -> f y = true -> filter f (upd l i y) = [y].
Proof.
  revert i. induction l as [|z l IH]; intros [|i] Hall Hn Hy; cbn in *; try discriminate.
  - rewrite Hy. rewrite (filter_none f l); [reflexivity|]. intros w Hw. apply Hall. right. exact Hw.
  - rewrite (Hall z) by (left; reflexivity). apply (IH i); auto.
Qed.

Lemma contender_no_guard q : contender q -> is_holder q = false.
Proof. intros [E|E]; rewrite E; reflexivity. Qed.

(* a store whose previous authority crashed becomes usable again: from every recoverable dead leftover state a server
   loop that is scheduled alone (any number of other contenders idle) serves after at most 15 steps with its own record
   in lock.json and meta.json, and nothing of a live pid was renamed or removed *)
Theorem recovers_solo l m ps i me :
  (forall q, In q ps -> contender q) -> nth_error ps i = Some (fresh me DServer) -> dead_leftover ps l m ->
  exists n, (n <= 15)%nat
    /\ holders (run true (init l m ps) (repeat (Step i 2) n)) = [me]
    /\ s_lock (run true (init l m ps) (repeat (Step i 2) n)) = LRec me
    /\ s_meta (run true (init l m ps) (repeat (Step i 2) n)) = MRec me
    /\ s_took_lock (run true (init l m ps) (repeat (Step i 2) n)) = false
    /\ s_took_meta (run true (init l m ps) (repeat (Step i 2) n)) = false.
Proof.
  intros Hc Hi Hr. destruct (solo_recovers ps me l m Hr) as [n [Hn Hs]].
  exists n. split; [exact Hn|].
  change (init l m ps) with (mkst l m MAbsent ps).
  rewrite (run_solo n 2 (mkst l m MAbsent ps) (srv me false AcqCreate 0) i Hi eq_refl), Hs.
  unfold holders. cbn [fst snd with_procs mkst s_procs s_lock s_meta s_took_lock s_took_meta].
  rewrite (filter_upd_single is_holder ps i (fresh me DServer) (srv me true Serving 1)); auto.
  intros z Hz. apply contender_no_guard. auto.
Qed.

(* try_cleanup_corrupt_lock_file of finding S23: ANY meta.json makes it refuse *)
Definition micro_unfixed (ag : bool) (s : state) (o : N) (q : proc) : state * proc :=
  match p_pc q, s_meta s with
  | CoMetaExists, MRec _ => (s, ret ag (s_procs s) o q (p_guard q) (RCorrupt false))
  | _, _ => micro ag s o q
  end.
Definition step_unfixed (ag : bool) (s : state) (e : event) : state :=
  match e with
  | Step i o =>
      match nth_error (s_procs s) i with
      | Some q => if p_alive q
                  then let '(s', q') := micro_unfixed ag s o q in with_procs s' (upd (s_procs s) i q')
                  else s
      | None => s
      end
  | Crash i =>
      match nth_error (s_procs s) i with
      | Some q => with_procs s (upd (s_procs s) i (kill q))
      | None => s
      end
  end.
Definition run_unfixed (ag : bool) (s : state) (es : list event) : state := fold_left (step_unfixed ag) es s.

Definition wedge_pc (k : pc) : bool :=
  match k with
  | AcqCreate | RdMeta | RdLock | LockExists | Live _ | Ping _ | LiveM _ | LockExistsM _ | StExists _ | StReread _ | CoExists | CoMetaExists | Done => true
  | _ => false
  end.
Record wlocal (q : proc) : Prop := mkW {
  W_guard : p_guard q = false;
  W_pc : wedge_pc (p_pc q) = true;
  W_drv : drv_ok (p_drv q) = true
}.

Lemma micro_wedge ag s o q s' q' d d' :
  s_lock s = LHalf d -> s_meta s = MRec d' -> wlocal q -> micro_unfixed ag s o q = (s', q') ->
  s_lock s' = LHalf d /\ s_meta s' = MRec d' /\ wlocal q'.
Proof.
  destruct s as [l m t ps tl tm], q as [me al g dr k last]. cbn [s_lock s_meta]. intros -> -> [Wg Wp Wd].
  unfold micro_unfixed, micro. cbn [s_lock s_meta s_tmp s_procs p_pc p_pid p_guard p_drv] in *. subst g.
  apply drv_cases in Wd.
  destruct k; cbn in Wp; try discriminate; destruct Wd as [-> | [-> | ->]]; unfold ret, goto; cbn.
  all: break; intros [= <- <-]; repeat split.
Qed.

Record Wedge (d d' : pid) (s : state) : Prop := mkWedge {
  Wd_lock : s_lock s = LHalf d;
  Wd_meta : s_meta s = MRec d';
  Wd_all : forall q, In q (s_procs s) -> wlocal q
}.

Lemma step_wedge ag d d' s e : Wedge d d' s -> Wedge d d' (step_unfixed ag s e).
Proof.
  intros [Hl Hm Ha]. destruct e as [i o|i]; cbn [step_unfixed].
  - destruct (nth_error (s_procs s) i) as [q|] eqn:Hq; [|constructor; assumption].
    destruct (p_alive q); [|constructor; assumption].
    destruct (micro_unfixed ag s o q) as [s' q'] eqn:HM.
    destruct (micro_wedge _ _ _ _ _ _ _ _ Hl Hm (Ha q (nth_error_In _ _ Hq)) HM) as [A [B C]].
    constructor; cbn; try assumption.
    intros x Hx. apply in_upd in Hx. destruct Hx as [[-> _]|[j [_ Hj]]]; [assumption|].
    apply Ha. eapply nth_error_In; eassumption.
  - destruct (nth_error (s_procs s) i) as [q|] eqn:Hq; [|constructor; assumption].
    constructor; cbn; try assumption.
    intros x Hx. apply in_upd in Hx. destruct Hx as [[-> _]|[j [_ Hj]]].
    + destruct (Ha q (nth_error_In _ _ Hq)) as [A B C]. constructor; assumption.
    + apply Ha. eapply nth_error_In; eassumption.
Qed.

(* with that cleanup a half-written lock next to ANY meta.json is never removed: corrupt cleanup refuses because meta.json
   exists, stale cleanup refuses because the lock has no record — whoever the contenders, whatever the schedule, crashes
   or not, timer or no timer: nobody ever becomes the authority of that store again *)
Theorem unfixed_wedged_half_lock_with_meta ag d d' ps es :
  (forall q, In q ps -> contender q) ->
  holders (run_unfixed ag (init (LHalf d) (MRec d') ps) es) = []
  /\ s_lock (run_unfixed ag (init (LHalf d) (MRec d') ps) es) = LHalf d
  /\ s_meta (run_unfixed ag (init (LHalf d) (MRec d') ps) es) = MRec d'.
Proof.
  intros Hc.
  assert (W0 : Wedge d d' (init (LHalf d) (MRec d') ps)).
  { constructor; cbn; try reflexivity. intros q Hq. destruct (Hc q Hq) as [E|E]; rewrite E; constructor; reflexivity. }
  destruct (fold_left_inv (step_unfixed ag) _ (step_wedge ag d d') es _ W0) as [A B C].
  split; [|split; assumption].
  unfold holders. rewrite filter_none; [reflexivity|].
  intros x Hx. unfold is_holder. rewrite (W_guard _ (C x Hx)). apply andb_false_r.
Qed.

Definition cli me k last :=
  {| p_pid := me; p_alive := true; p_guard := false; p_drv := DClient; p_pc := k; p_last := last |}.

Lemma solo_client_reaches_spawn ps me d' : pid_alive ps d' = false ->
  solo 3 0 (mkst LAbsent (MRec d') MAbsent ps) (cli me RdMeta 0)
  = (mkst LAbsent (MRec d') MAbsent ps, cli me (LockExistsM d') 0)
  /\ solo 4 0 (mkst LAbsent (MRec d') MAbsent ps) (cli me RdMeta 0)
  = (mkst LAbsent (MRec d') MAbsent ps, cli me RdMeta 0).
Proof.
  intros Hd. unfold mkst, cli. split.
  - do 3 solo_step. reflexivity.
  - do 4 solo_step. reflexivity.
Qed.

(* a meta.json of a dead pid without a lock.json: the client loop, scheduled alone among any idle processes, is after 3
   steps (environment answers 0: endpoint silent) at the "lock.json exists?" test of its meta branch with the lock absent —
   the point from which the code spawns an authority — and nothing was changed *)
Theorem client_reaches_spawn d' ps i me :
  nth_error ps i = Some (fresh me DClient) -> pid_alive ps d' = false ->
  nth_error (s_procs (run true (init LAbsent (MRec d') ps) (repeat (Step i 0) 3))) i = Some (cli me (LockExistsM d') 0)
  /\ s_lock (run true (init LAbsent (MRec d') ps) (repeat (Step i 0) 3)) = LAbsent
  /\ s_meta (run true (init LAbsent (MRec d') ps) (repeat (Step i 0) 3)) = MRec d'.
Proof.
  intros Hi Hd. destruct (solo_client_reaches_spawn ps me d' Hd) as [S3 _].
  change (init LAbsent (MRec d') ps) with (mkst LAbsent (MRec d') MAbsent ps).
  rewrite (run_solo 3 0 (mkst LAbsent (MRec d') MAbsent ps) (cli me RdMeta 0) i Hi eq_refl), S3.
  cbn [fst snd with_procs mkst s_procs s_lock s_meta].
  split; [eapply upd_nth_same; eassumption | split; reflexivity].
Qed.
