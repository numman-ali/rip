(* C03 — the order of the sinks at an emit site, a log write that can fail, and the buffer a snapshot is written
   from (Model/Wire.v: emit_ops / emit_at / run_faulty / emit_capped).  Proofs only. *)
From RipV Require Import Base.Prelude Base.Json Base.JsonParse Model.Wire Proofs.JsonProofs Proofs.WireProofs.

(* a site in the order read from continuities.rs: a step whose log write succeeds is `emit` *)
Lemma emit_ops_ok_cont s k e ch : emit_ops s ch true [SLog; SStore; SSend] k e = emit s k e.
Proof. reflexivity. Qed.
Lemma emit_ops_ok_cont' s k e ch : emit_ops s ch true [SLog; SSend; SStore] k e = emit s k e.
Proof. reflexivity. Qed.

Lemma wf_order_cases eo :
  wf_order eo = true ->
  eo_log_checked eo = true /\ (eo_ops eo = [SLog; SStore; SSend] \/ eo_ops eo = [SLog; SSend; SStore]).
Proof.
  unfold wf_order. destruct (eo_ops eo) as [|[| |] [|[| |] [|[| |] [|? ?]]]]; try discriminate; auto.
Qed.

Lemma wf_order_log_first eo : wf_order eo = true -> log_first eo = true.
Proof.
  intros H. destruct (wf_order_cases eo H) as [Hc [E | E]]; unfold log_first; rewrite E, Hc; reflexivity.
Qed.

Theorem emit_at_ok eo s k e : wf_order eo = true -> emit_at eo s k e true = emit s k e.
Proof.
  intros H. destruct (wf_order_cases eo H) as [_ [E | E]]; unfold emit_at; rewrite E; reflexivity.
Qed.

(* the checked log append comes first: when it fails nothing else has happened and nothing else happens *)
Theorem emit_at_failed eo s k e : log_first eo = true -> emit_at eo s k e false = k.
Proof.
  unfold log_first, emit_at. destruct (eo_ops eo) as [|o r]; [discriminate|]. destruct o; try discriminate.
  intros H. apply andb_true_iff in H. destruct H as [Hc _]. cbn [emit_ops]. rewrite Hc. reflexivity.
Qed.

Lemma run_faulty_from eo s steps : wf_order eo = true -> forall k,
  fold_left (fun k x => emit_at eo s k (fst x) (snd x)) steps k = fold_left (emit s) (logged steps) k.
Proof.
  intros H. induction steps as [|[e ok] steps IH]; intros k; [reflexivity|].
  cbn [fold_left fst snd]. unfold logged. cbn [filter snd]. destruct ok; cbn [map fst fold_left].
  - rewrite (emit_at_ok eo s k e H). apply IH.
  - rewrite (emit_at_failed eo s k e (wf_order_log_first eo H)). apply IH.
Qed.

(* after ANY history of appends, each with the fate of its log write: the sinks are those of the appends whose
   log write succeeded *)
Theorem run_faulty_eq eo s steps : wf_order eo = true -> run_faulty eo s steps = run_emits s (logged steps).
Proof. intros H. apply run_faulty_from, H. Qed.

Theorem views_agree_faulty eo s steps key :
  wf_order eo = true -> wf_schema s = true -> all_ok s (logged steps) -> views_agree_at s key (run_faulty eo s steps).
Proof. intros Ho Hwf HF. rewrite (run_faulty_eq eo s steps Ho). apply views_agree; assumption. Qed.

Theorem live_is_logged eo s steps : wf_order eo = true -> k_live (run_faulty eo s steps) = logged steps.
Proof. intros Ho. rewrite (run_faulty_eq eo s steps Ho), run_emits_eq. reflexivity. Qed.

(* inclusion in the log: the log holds the lines of es, and buffer, channel and sidecar hold only frames of es *)
Definition within (s : schema) (es : list event) (k : sinks) : Prop :=
  k_log k = map (write_line s) es /\ incl (k_buffer k) es /\ incl (k_live k) es /\ incl (k_sidecar k) (map (side_entry s) es).

Lemma map_opt_out {A B} (f : A -> option B) (l : list A) : forall (v : list B) (y : B),
  map_opt f l = Some v -> In y v -> exists x, In x l /\ f x = Some y.
Proof.
  induction l as [|a l IH]; intros v y Hv Hy.
  - inversion Hv. subst v. destruct Hy.
  - rewrite map_opt_cons in Hv. destruct (f a) as [b|] eqn:Ea; [|discriminate].
    destruct (map_opt f l) as [bs|] eqn:El; [|discriminate]. inversion Hv. subst v.
    destruct Hy as [<- | Hy]; [exists a; auto using in_eq|].
    destruct (IH bs y eq_refl Hy) as [x [Hx Hfx]]. exists x. auto using in_cons.
Qed.

(* nothing appears in a sidecar, a snapshot or a live stream that is not in the log: frame e, if one of these three
   views of stream `key` holds it, is among the frames the log reads back as *)
Definition only_logged (s : schema) (key : N * str) (k : sinks) (e : event) : Prop :=
  forall v, (view_sidecar s key k = Some v \/ view_snapshot s key k = Some v \/ v = map (canon_event s) (view_live s key k)) ->
            In e v -> exists all, map_opt (read_line s) (k_log k) = Some all /\ In e all.

Lemma within_views s es k key e : wf_schema s = true -> all_ok s es -> within s es k -> only_logged s key k e.
Proof.
  intros Hwf HF (H1 & H2 & H3 & H4) v Hv Hin.
  exists (map (canon_event s) es). split; [rewrite H1; apply read_lines, all_ok_lines; assumption|].
  destruct Hv as [Hv | [Hv | Hv]].
  - (* sidecar: every line is the written line of a frame of es *)
    unfold view_sidecar in Hv.
    destruct (map_opt_out (read_line s) _ v e Hv Hin) as [ln [Hln Hrd]].
    apply in_map_iff in Hln as [x [<- Hx]]. apply filter_In, proj1, H4, in_map_iff in Hx as [e0 [<- He0]].
    unfold all_ok in HF. rewrite Forall_forall in HF. destruct (HF e0 He0) as [Hok Hd].
    cbn [side_entry snd] in Hrd. rewrite read_write_line in Hrd by auto using snapshot_depth_depth.
    inversion Hrd. apply in_map, He0.
  - (* snapshot: written from frames of the buffer *)
    unfold view_snapshot in Hv.
    assert (Hsub : incl (of_stream s key (k_buffer k)) es) by (intros x Hx; apply H2, (incl_filter _ _ x Hx)).
    rewrite (read_write_snapshot s _ Hwf (incl_Forall Hsub HF)) in Hv. inversion Hv. subst v.
    apply in_map_iff in Hin as [x [<- Hx]]. apply in_map, Hsub, Hx.
  - subst v. apply in_map_iff in Hin as [x [<- Hx]]. apply in_map, H3, (incl_filter _ _ x Hx).
Qed.

Lemma within_emits s es : within s es (run_emits s es).
Proof. rewrite run_emits_eq. repeat split; apply incl_refl. Qed.

Theorem views_within_log s es key e : wf_schema s = true -> all_ok s es -> only_logged s key (run_emits s es) e.
Proof. intros Hwf HF. apply (within_views s es); auto using within_emits. Qed.

Lemma within_more s es e k : within s es k -> within s (es ++ [e]) (add_log s k e).
Proof.
  intros (H1 & H2 & H3 & H4). unfold within, add_log. cbn [k_log k_sidecar k_buffer k_live]. rewrite !map_app, H1.
  auto using incl_appl.
Qed.

Lemma within_rest s es e : forall ops k ch,
  existsb is_log ops = false -> within s (es ++ [e]) k -> within s (es ++ [e]) (emit_ops s ch true ops k e).
Proof.
  induction ops as [|o r IH]; intros k ch Hn Hw; [exact Hw|].
  cbn [existsb] in Hn. apply orb_false_iff in Hn as [Ho Hr].
  destruct Hw as (H1 & H2 & H3 & H4). destruct o; [discriminate| |]; cbn [emit_ops]; apply IH; try exact Hr.
  - unfold within, add_store. cbn [k_log k_sidecar k_buffer k_live].
    repeat split; try assumption; apply incl_app; try assumption; intros x [<- | []].
    + apply in_elt.
    + apply (in_map (side_entry s)), in_elt.
  - unfold within, add_live. cbn [k_log k_sidecar k_buffer k_live].
    repeat split; try assumption. apply incl_app; [assumption|]. intros x [<- | []]. apply in_elt.
Qed.

Lemma within_run eo s : log_first eo = true -> forall steps es k,
  within s es k -> within s (es ++ logged steps) (fold_left (fun k x => emit_at eo s k (fst x) (snd x)) steps k).
Proof.
  intros Hlf. induction steps as [|[e ok] steps IH]; intros es k Hw.
  - unfold logged. cbn [filter map fold_left]. rewrite app_nil_r. exact Hw.
  - cbn [fold_left fst snd]. unfold logged. cbn [filter snd]. destruct ok; cbn [map fst].
    + change (es ++ e :: map fst (filter snd steps)) with (es ++ [e] ++ logged steps). rewrite app_assoc.
      apply IH. unfold emit_at. unfold log_first in Hlf. destruct (eo_ops eo) as [|[| |] r]; try discriminate.
      apply andb_true_iff in Hlf as [_ Hr]. apply negb_true_iff in Hr. cbn [emit_ops].
      apply within_rest, within_more, Hw. exact Hr.
    + rewrite (emit_at_failed eo s k e Hlf). apply IH, Hw.
Qed.

(* for EVERY emit order that starts with the checked log append, whatever follows it, and every history of successful
   and failed log writes *)
Theorem views_within_log_any_order eo s steps key e :
  log_first eo = true -> wf_schema s = true -> all_ok s (logged steps) -> only_logged s key (run_faulty eo s steps) e.
Proof.
  intros Hlf Hwf HF. apply (within_views s (logged steps)); try assumption.
  apply (within_run eo s Hlf steps [] sinks0 (within_emits s [])).
Qed.

Theorem views_within_log_faulty eo s steps key e :
  wf_order eo = true -> wf_schema s = true -> all_ok s (logged steps) ->
  let k := run_faulty eo s steps in
  forall v, (view_sidecar s key k = Some v \/ view_snapshot s key k = Some v \/ v = map (canon_event s) (view_live s key k)) ->
            In e v -> exists all, map_opt (read_line s) (k_log k) = Some all /\ In e all.
Proof. intros Ho Hwf HF. apply (views_within_log_any_order eo s steps key e); auto using wf_order_log_first. Qed.

Definition demo_failed_step : list (event * bool) := [(ev_plain, false)].
Definition demo_fault_history : list (event * bool) := [(demo_seq 0, true); (demo_seq 1, false); (demo_seq 1, true); (demo_seq 2, false)].

Lemma eo_cont_wf : wf_order eo_cont = true /\ log_first eo_cont = true /\ order_complete eo_cont = true.
Proof. repeat split; reflexivity. Qed.

Lemma demo_fault_history_ok :
  wf_schema demo_schema = true /\ all_ok demo_schema (logged demo_fault_history)
  /\ length (logged demo_fault_history) = 2%nat /\ length demo_fault_history = 4%nat.
Proof. split; [exact demo_schema_wf|]. split; [apply all_ok_forallb; vm_compute; reflexivity|]. split; reflexivity. Qed.

Lemma demo_failed_step_ok : all_ok demo_schema (map fst demo_failed_step).
Proof. apply all_ok_forallb. vm_compute. reflexivity. Qed.

(* the sidecar append in front of the checked log append (eo_sidecar_first) *)
Theorem sidecar_first_refuted :
  exists eo s steps key e,
    eo_log_checked eo = true /\ order_complete eo = true /\ wf_schema s = true /\ all_ok s (map fst steps)
    /\ (exists v, view_sidecar s key (run_faulty eo s steps) = Some v /\ In e v)
    /\ k_log (run_faulty eo s steps) = [].
Proof.
  exists eo_sidecar_first, demo_schema, demo_failed_step, (stream_key demo_schema ev_plain), ev_plain.
  split; [reflexivity|]. split; [reflexivity|]. split; [exact demo_schema_wf|]. split; [exact demo_failed_step_ok|].
  split; [exists [ev_plain]; split; [vm_compute; reflexivity | left; reflexivity] | reflexivity].
Qed.

(* session.rs emit_event / TaskEmitter::emit as written: buffer, channel, then a log append whose error is dropped *)
Theorem unchecked_log_last_refuted :
  exists eo s steps key e,
    order_complete eo = true /\ wf_schema s = true /\ all_ok s (map fst steps)
    /\ In e (view_live s key (run_faulty eo s steps))
    /\ (exists v, view_snapshot s key (run_faulty eo s steps) = Some v /\ In e v)
    /\ k_log (run_faulty eo s steps) = [].
Proof.
  exists eo_sess, demo_schema, demo_failed_step, (stream_key demo_schema ev_plain), ev_plain.
  split; [reflexivity|]. split; [exact demo_schema_wf|]. split; [exact demo_failed_step_ok|].
  split; [vm_compute; left; reflexivity|].
  split; [exists [ev_plain]; split; [vm_compute; reflexivity | left; reflexivity] | reflexivity].
Qed.

Theorem emit_capped_below s k e cap : (length (k_buffer k) < cap)%nat -> emit_capped cap s k e = emit s k e.
Proof.
  intros H. unfold emit_capped. cbn zeta. destruct (Nat.leb cap (length (k_buffer k))) eqn:E.
  - apply Nat.leb_le in E. lia.
  - unfold emit. cbn [k_log k_sidecar k_buffer k_live]. reflexivity.
Qed.

Definition demo_two : list event := [demo_seq 0; demo_seq 1].

(* a history buffer capped at `cap` frames, oldest dropped (emit_capped): the snapshot loses the head of the session *)
Theorem capped_buffer_refuted :
  exists cap s es key,
    wf_schema s = true /\ all_ok s es
    /\ view_log s key (fold_left (emit_capped cap s) es sinks0) = Some (map (canon_event s) (view_live s key (fold_left (emit_capped cap s) es sinks0)))
    /\ view_snapshot s key (fold_left (emit_capped cap s) es sinks0) <> Some (map (canon_event s) (view_live s key (fold_left (emit_capped cap s) es sinks0))).
Proof.
  exists 1%nat, demo_schema, demo_two, demo_key.
  split; [exact demo_schema_wf|]. split; [apply all_ok_forallb; vm_compute; reflexivity|].
  split; [vm_compute; reflexivity | vm_compute; discriminate].
Qed.

Theorem log_file_is_model_log eo s steps : wf_order eo = true ->
  k_log (run_faulty eo s steps) = log_file (map (fun x => (write_line s (fst x), snd x)) steps).
Proof.
  intros Ho. rewrite (run_faulty_eq eo s steps Ho), run_emits_eq. cbn [k_log]. unfold log_file, logged.
  induction steps as [|[e ok] steps IH]; [reflexivity|]. cbn [map filter fst snd]. destruct ok; cbn [map fst]; rewrite IH; reflexivity.
Qed.

(* as long as no write fails the two writers leave the same file *)
Lemma log_file_unfixed_no_fault steps : forallb snd steps = true -> log_file_unfixed [] steps = log_file steps.
Proof.
  unfold log_file. induction steps as [|[l ok] steps IH]; [reflexivity|]. cbn [forallb snd]. intros H.
  apply andb_true_iff in H. destruct H as [-> H]. cbn [log_file_unfixed filter snd map fst app]. rewrite (IH H). reflexivity.
Qed.

(* the writer that keeps a failed line (log_file_unfixed): one refused append, then a successful one that reuses its
   seq, and the refused line is in the file *)
Definition demo_stale_steps : list (str * bool) := [([49], true); ([50], false); ([51], true)].
Theorem log_writer_keeps_failed_line_refuted :
  exists steps, log_file_unfixed [] steps <> log_file steps /\ exists l, In (l, false) steps /\ In l (log_file_unfixed [] steps).
Proof.
  exists demo_stale_steps. split; [vm_compute; discriminate|]. exists [50]. split; vm_compute; tauto.
Qed.
