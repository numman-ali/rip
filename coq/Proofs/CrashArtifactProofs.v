(* C05 — artifacts: the blob is on disk (temp + rename complete) BEFORE the frame that names it reaches the log, so at
   EVERY instruction boundary of EVERY history, after restart and ANY further operations, every artifact a frame of
   the log (or of the log writer's buffer) references is in the artifact store.  For every code version `v`, no
   environment hypothesis.  At the end of the file, the other file written outside the store's operations: the
   snapshot file of rip_log::write_snapshot across a crash (snap_cases). *)
From RipV Require Import Base.Prelude Model.Crash Proofs.CrashProofs.

(* every frame written so far (on disk or still in the EventLog's BufWriter) names only artifacts that are complete *)
Definition AR (s : st) : Prop :=
  forall f a, In f (frames_of (truth s ++ bw_buf (tw s))) -> f_art f = Some a -> In a (arts s).

Definition wframes (i : instr) : list frame := match i with ITruthWrite cs => frames_of cs | _ => [] end.
Definition renames (i : instr) : list N := match i with IArtRename a => [a] | _ => [] end.

(* a program is artifact-safe from the set `have`: every frame it writes names an artifact in `have` or one whose
   rename precedes the write in the program *)
Fixpoint art_ok (have : list N) (is : list instr) : Prop :=
  match is with
  | [] => True
  | i :: r => (forall f a, In f (wframes i) -> f_art f = Some a -> In a have) /\ art_ok (renames i ++ have) r
  end.
(* the artifacts complete after the program `is`, given those in `have` before it *)
Definition gain (have : list N) (is : list instr) : list N := fold_left (fun h i => renames i ++ h) is have.

Lemma art_ok_mono is : forall have have', incl have have' -> art_ok have is -> art_ok have' is.
Proof.
  induction is as [|i is IH]; intros have have' Hi H; [exact I|]. cbn [art_ok] in *. destruct H as [H1 H2]. split.
  - intros f a Hf Ha. apply Hi. exact (H1 f a Hf Ha).
  - apply (IH (renames i ++ have)); [|exact H2]. apply incl_app; [apply incl_appl, incl_refl | apply incl_appr; exact Hi].
Qed.
Lemma art_ok_app a : forall have b, art_ok have a -> art_ok (gain have a) b -> art_ok have (a ++ b).
Proof.
  induction a as [|i a IH]; intros have b Ha Hb; [exact Hb|].
  cbn [app art_ok] in *. destruct Ha as [H1 H2]. split; [exact H1|]. apply IH; [exact H2 | exact Hb].
Qed.

(* quietb: the instructions that neither hand a frame to the log writer nor complete an artifact: they leave AR and the
   set of complete artifacts alone (classifiers: see `relevant` in CrashProofs) *)
Definition quietb (i : instr) : bool := match i with ITruthWrite _ | IArtRename _ => false | _ => true end.
Definition quiet (is : list instr) : bool := forallb quietb is.
Lemma quiet_app a b : quiet (a ++ b) = quiet a && quiet b.
Proof. apply forallb_app. Qed.
Lemma quiet_gain is : quiet is = true -> forall have, gain have is = have.
Proof.
  unfold gain. induction is as [|i is IH]; intros Hq have; [reflexivity|].
  cbn [quiet forallb] in Hq. apply andb_true_iff in Hq. destruct Hq as [Hi Hq]. cbn [fold_left].
  rewrite (IH Hq). destruct i; try discriminate Hi; reflexivity.
Qed.
Lemma quiet_ok is : quiet is = true -> forall have, art_ok have is.
Proof.
  induction is as [|i is IH]; intros Hq have; [exact I|].
  cbn [quiet forallb] in Hq. apply andb_true_iff in Hq. destruct Hq as [Hi Hq]. cbn [art_ok]. split.
  - intros f a Hf. destruct i; try discriminate Hi; contradiction Hf.
  - apply IH. exact Hq.
Qed.
Lemma ok_quiet_app a b have : quiet a = true -> art_ok have b -> art_ok have (a ++ b).
Proof. intros Hq Hb. apply art_ok_app; [apply quiet_ok; exact Hq | rewrite (quiet_gain a Hq); exact Hb]. Qed.

Lemma q_side_append c f : quiet (side_append c f) = true.
Proof. reflexivity. Qed.
Lemma q_save_index : quiet save_index = true.
Proof. reflexivity. Qed.
Lemma cache_only_quiet i : cache_only i = true -> quietb i = true.
Proof. destruct i; intros H; (reflexivity || discriminate H). Qed.
Lemma q_replay_events s c : quiet (fst (replay_events s c)) = true.
Proof. exact (forallb_imp _ _ _ cache_only_quiet (replay_events_cache_only s c)). Qed.
Lemma q_resolve v s c : quiet (fst (resolve v s c)) = true.
Proof. exact (forallb_imp _ _ _ cache_only_quiet (resolve_cache_only v s c)). Qed.

(* one frame through the log writer: safe when its artifact (if any) is already complete *)
Lemma ok_truth_append_gen a b f have rest : (forall x, f_art f = Some x -> In x have) -> art_ok have rest ->
  art_ok have (truth_append_gen a b f ++ rest).
Proof.
  intros Hf Hr. unfold truth_append_gen.
  assert (Hone : forall g x, In g (frames_of [Body f; NL]) -> f_art g = Some x -> In x have)
    by (intros g x [<-|[]] Hx; exact (Hf x Hx)).
  assert (Hb : forall g x, In g (frames_of [Body f]) -> f_art g = Some x -> In x have)
    by (intros g x [<-|[]] Hx; exact (Hf x Hx)).
  destruct a, b; cbn [app art_ok wframes renames]; repeat split; try exact Hone; try exact Hb; try exact Hr;
    try (intros g x []).
Qed.
Lemma ok_write_blob a have rest : art_ok (a :: have) rest -> art_ok have (write_blob a ++ rest).
Proof. intros Hr. cbn [write_blob app art_ok wframes renames]. repeat split; try (intros g x []). exact Hr. Qed.
Lemma ok_cons i have rest : quietb i = true -> art_ok have rest -> art_ok have (i :: rest).
Proof. intros Hq Hr. exact (ok_quiet_app [i] rest have (proj2 (andb_true_iff _ _) (conj Hq eq_refl)) Hr). Qed.

Lemma ok_frame_tail v c f have tail : (forall x, f_art f = Some x -> In x have) -> quiet tail = true ->
  art_ok have (truth_append v f ++ [IPt 13] ++ side_append c f ++ tail).
Proof.
  intros Hf Ht. apply ok_truth_append_gen; [exact Hf|]. apply quiet_ok.
  rewrite !quiet_app, q_side_append, Ht. reflexivity.
Qed.

Lemma ok_locked_append v s c fid len art have : (forall x, art = Some x -> In x have) ->
  art_ok have (locked_append v s c fid len art).
Proof.
  intros Ha. unfold locked_append. apply (ok_quiet_app [IPt 11; IPt 12]); [reflexivity|].
  apply ok_quiet_app; [apply q_resolve|]. destruct (snd (resolve v s c)) as [q|]; [|exact I].
  apply ok_frame_tail; [exact Ha | reflexivity].
Qed.
Lemma ok_create v c fid len d have rest : art_ok have rest -> art_ok have (create v c fid len d ++ rest).
Proof.
  intros Hr. unfold create. rewrite <- !app_assoc. apply (ok_quiet_app [IPt 11; IPt 12]); [reflexivity|].
  apply ok_truth_append_gen; [intros x Hx; discriminate Hx|].
  apply (ok_quiet_app [IPt 13]); [reflexivity|]. apply ok_quiet_app; [apply q_side_append|].
  apply (ok_quiet_app [IPt 14; IPt 15]); [reflexivity|].
  apply (ok_quiet_app [IIdxMem (if d then Some c else None) (Some c)]); [reflexivity|].
  apply ok_quiet_app; [apply q_save_index|]. apply (ok_quiet_app [IPt 19; IPt 17; ISetNext (2 * c) 1; IPt 18]); [reflexivity|].
  exact Hr.
Qed.
Lemma ok_child v c i len0 len1 art have : (forall x, art = Some x -> In x have) ->
  art_ok have (child v c i len0 len1 [] art).
Proof.
  intros Ha. unfold child. apply ok_create. cbn [app].
  apply ok_frame_tail; [exact Ha | reflexivity].
Qed.

Lemma ok_compile v s i o : art_ok [] (compile v s i o).
Proof.
  destruct o as [c len | c len | x len | c a has_msg len | p c len0 len1 | p c a len0 len1 | c]; cbn [compile].
  - destruct (ix_default (midx s)); [apply quiet_ok; reflexivity|].
    destruct (replay_validated s) as [fs|]; [|exact I].
    destruct (latest_created fs); [apply quiet_ok; reflexivity|].
    apply ok_create. apply quiet_ok. reflexivity.
  - apply ok_locked_append. intros x Hx. discriminate Hx.
  - unfold sess_append. apply ok_truth_append_gen; [intros y Hy; discriminate Hy | apply quiet_ok; reflexivity].
  - apply ok_quiet_app; [apply q_replay_events|].
    destruct (snd (replay_events s c)) as [[|e evs]|]; try exact I. destruct has_msg; [|exact I].
    apply ok_write_blob. apply ok_locked_append. intros x Hx. injection Hx as <-. left. reflexivity.
  - apply ok_quiet_app; [apply q_replay_events|].
    destruct (snd (replay_events s p)) as [[|e evs]|]; try exact I.
    apply ok_child. intros x Hx. discriminate Hx.
  - apply ok_quiet_app; [apply q_replay_events|].
    destruct (snd (replay_events s p)) as [[|e evs]|]; try exact I.
    apply ok_write_blob. apply ok_child. intros x Hx. injection Hx as <-. left. reflexivity.
  - apply ok_cons; [reflexivity|]. apply quiet_ok. apply q_replay_events.
Qed.

Lemma exec_AR s i have : incl have (arts s) -> AR s ->
  (forall f a, In f (wframes i) -> f_art f = Some a -> In a have) ->
  AR (exec s i) /\ incl (renames i ++ have) (arts (exec s i)).
Proof.
  intros Hi H Hw.
  assert (Hsame : forall s', truth s' ++ bw_buf (tw s') = truth s ++ bw_buf (tw s) -> arts s' = arts s -> renames i = [] ->
            AR s' /\ incl (renames i ++ have) (arts s')).
  { intros s' Et Ea Er. split; [intros f a Hf Hfa; rewrite Et in Hf; rewrite Ea; exact (H f a Hf Hfa)|].
    rewrite Er, Ea. exact Hi. }
  destruct i; cbn [exec]; try (apply Hsame; reflexivity).
  - (* ITruthWrite *)
    destruct (bw_write_inv (truth s) (tw s) cs (clen cs)) as [Hinv _]. split; [|exact Hi].
    intros f a Hf Hfa. cbn [upd_truth truth tw arts] in *. rewrite Hinv, app_assoc, frames_of_app in Hf.
    apply in_app_or in Hf. destruct Hf as [Hf|Hf]; [exact (H f a Hf Hfa) | apply Hi; exact (Hw f a Hf Hfa)].
  - (* ITruthFlush *)
    apply Hsame; [|reflexivity|reflexivity]. cbn [upd_truth truth tw bw_flush fst snd bw_empty bw_buf]. apply app_nil_r.
  - (* IIdxRename *)
    destruct (idx_tmp s); apply Hsame; reflexivity.
  - (* IArtRename *)
    cbn [upd_arts arts renames app]. split.
    + intros f x Hf Hfx. right. exact (H f x Hf Hfx).
    + intros x [<-|Hx]; [left; reflexivity | right; apply Hi; exact Hx].
Qed.

Lemma art_sem is : forall s have, incl have (arts s) -> AR s -> art_ok have is ->
  AllPre AR s is /\ AR (run_instrs s is).
Proof.
  induction is as [|i is IH]; intros s have Hi H Hok; [split; [apply AllPre_nil|]; exact H|].
  cbn [art_ok] in Hok. destruct Hok as [Hw Hr].
  destruct (exec_AR s i have Hi H Hw) as [H1 Hi1]. destruct (IH (exec s i) _ Hi1 H1 Hr) as [A B].
  split; [apply AllPre_cons; [exact H | exact A] | exact B].
Qed.

Lemma op_AR v s i o : AR s -> AllPre AR s (compile v s i o) /\ AR (run_instrs s (compile v s i o)).
Proof. intros H. apply (art_sem _ s []); [intros x [] | exact H | apply ok_compile]. Qed.

Lemma AR_init : AR init.
Proof. intros f a []. Qed.
Lemma AR_recover s : AR s -> AR (recover s).
Proof.
  intros H f a Hf Hfa. cbn [recover truth tw arts bw_empty bw_buf] in *. rewrite app_nil_r in Hf.
  apply (H f a); [|exact Hfa]. rewrite frames_of_app. apply in_or_app. left. exact Hf.
Qed.
Lemma run_AR v ops s i : AR s -> AR (run_ops v s i ops) /\ forall k, AR (run_k v k s i ops).
Proof. exact (run_invariant v AR (op_AR v) ops s i). Qed.

(* artifact before frame, at every crash point, after restart and any further operations *)
Theorem artifact_before_frame v hist k base more f a :
  In f (frames_of (truth (run_ops v (crash v k hist) base more))) -> f_art f = Some a ->
  In a (arts (run_ops v (crash v k hist) base more)).
Proof.
  intros Hf Ha.
  assert (H : AR (run_ops v (crash v k hist) base more)).
  { apply run_AR, AR_recover, run_AR, AR_init. }
  apply (H f a); [|exact Ha]. rewrite frames_of_app. apply in_or_app. left. exact Hf.
Qed.

(* the store a crash inside the checkpoint's locked append leaves (artifact 7 complete, its frame in the log), and a
   crash between the blob's temp write and its rename (no frame names artifact 7 yet; the .tmp file is an orphan) *)
Definition art_hist : list op := [OEnsure 0 300; OAppend 0 10; OCheckpoint 0 7 true 100].
Lemma art_example :
  map f_art (frames_of (truth (crash fixed 1000 art_hist))) = [None; None; Some 7]
  /\ arts (crash fixed 1000 art_hist) = [7]
  /\ map f_art (frames_of (truth (crash fixed 57 art_hist))) = [None; None]
  /\ arts (crash fixed 57 art_hist) = [] /\ art_tmps (crash fixed 57 art_hist) = [7].
Proof. vm_compute. repeat split. Qed.

(* create + ONE write + flush: whatever the payload length, a crash at ANY instruction of write_snapshot leaves the file
   as it was (only before the create), EMPTY, or COMPLETE - never a proper part of the payload; the complete run leaves
   the payload *)
Lemma snap_cases old payload k :
  match k with
  | O => snap_crash old payload k = old
  | S (S (S (S (S _)))) => snap_crash old payload k = Some payload
  | _ => snap_crash old payload k = Some [] \/ snap_crash old payload k = Some payload
  end.
Proof.
  destruct (bw_write_once [] payload (clen payload)) as [Hr Hfl]. unfold snap_crash, snap_prog.
  destruct k as [|[|[|[|[|[|k]]]]]]; cbn [firstn fold_left sexec fst snd bw_flush]; rewrite ?firstn_nil;
    cbn [fold_left fst]; try rewrite Hfl; try (destruct Hr as [->| ->]); auto.
Qed.
Theorem snapshot_views old payload k :
  snap_crash old payload k = old \/ snap_crash old payload k = Some [] \/ snap_crash old payload k = Some payload.
Proof. pose proof (snap_cases old payload k) as H. destruct k as [|[|[|[|[|k]]]]]; tauto. Qed.
(* 5: SFlush is the fifth instruction of snap_prog *)
Theorem snapshot_complete old payload k : (5 <= k)%nat -> snap_crash old payload k = Some payload.
Proof. intros Hk. pose proof (snap_cases old payload k) as H. do 5 (destruct k as [|k]; [lia|]). exact H. Qed.
(* an EMPTY file is what the create leaves until the one write reaches the disk: at the write_all for a payload of
   BufWriter capacity or more, only at the flush for a smaller one *)
Lemma snapshot_example :
  snap_crash None [Body (mkf 1 0 0 100 None)] 4 = Some []
  /\ snap_crash None [Body (mkf 1 0 0 9000 None)] 3 = Some [Body (mkf 1 0 0 9000 None)]
  /\ snap_crash (Some [NL]) [Body (mkf 1 0 0 100 None)] 0 = Some [NL].
Proof. vm_compute. repeat split. Qed.
