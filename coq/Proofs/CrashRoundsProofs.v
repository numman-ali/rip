(* C05 — any number of crash / restart rounds (a crash may hit the recovery work of the previous restart): all the
   invariants are every-instruction invariants re-established by `recover`, so they compose over rounds. *)
From RipV Require Import Base.Prelude Model.Crash Proofs.CrashProofs Proofs.CrashCacheProofs Proofs.CrashIndexProofs
  Proofs.CrashArtifactProofs.

(* the environment's part (env_runb) for the operations of every round, each from the restarted state of the one before *)
Fixpoint env_rounds (v : ver) (s : st) (i : N) (rs : list (list op * nat)) : bool :=
  match rs with
  | [] => true
  | (ops, k) :: r => env_runb v s i ops && env_rounds v (recover (run_k v k s i ops)) (i + nlen ops) r
  end.

Lemma rounds_J_SOK rs : forall s i fs, J (4 * i) s fs -> SOK s -> env_rounds fixed s i rs = true ->
  exists fs', J (4 * snd (run_rounds fixed s i rs)) (fst (run_rounds fixed s i rs)) fs'
              /\ SOK (fst (run_rounds fixed s i rs)).
Proof.
  induction rs as [|[ops k] rs IH]; intros s i fs HJ HS He; [exists fs; split; [exact HJ | exact HS]|].
  cbn [env_rounds] in He. apply andb_true_iff in He. destruct He as [He1 He2]. cbn [run_rounds].
  pose proof (run_k_D ops k s i fs HJ He1) as HD. destruct (D_recover _ _ HD) as [fs1 HJ1].
  apply (IH _ _ fs1 HJ1); [|exact He2]. exact (run_k_SOK ops k s i fs HJ He1 HS).
Qed.

(* the log and the full sidecars after ANY number of crash / restart rounds and ANY further operations *)
Theorem rounds_recover_valid rs more :
  env_rounds fixed init 0 rs = true ->
  env_runb fixed (fst (run_rounds fixed init 0 rs)) (snd (run_rounds fixed init 0 rs)) more = true ->
  let fin := run_ops fixed (fst (run_rounds fixed init 0 rs)) (snd (run_rounds fixed init 0 rs)) more in
  exists fs, replay_validated fin = Some fs /\ Numbered fs /\ truth fin = enc fs
             /\ (forall fid, In fid (acks fin) -> cfid fid fs = 1)
             /\ (forall c evs, try_replay fin c = Some evs -> exists rest, stream (2 * c) fs = evs ++ rest).
Proof.
  intros Hr Hm fin. destruct (rounds_J_SOK rs init 0 [] J_init SOK_init Hr) as (fs0 & HJ0 & HS0).
  destruct (run_ops_J more _ _ fs0 HJ0 Hm) as [fs HJ].
  pose proof (run_ops_SOK more _ _ fs0 HJ0 Hm HS0) as HS. fold fin in HJ, HS.
  exists fs. exact (boundary_facts _ _ _ HJ HS).
Qed.

(* what one round (any prefix of any operations, then restart) preserves, all rounds preserve *)
Lemma rounds_inv v (Q : st -> Prop) : (forall ops k s i, Q s -> Q (recover (run_k v k s i ops))) ->
  forall rs s i, Q s -> Q (fst (run_rounds v s i rs)).
Proof.
  intros Hr. induction rs as [|[ops k] rs IH]; intros s i H; [exact H|]. cbn [run_rounds]. apply IH, Hr, H.
Qed.

(* acknowledgements survive every round (they are never withdrawn) *)
Lemma acks_rounds v rs s i : incl (acks s) (acks (fst (run_rounds v s i rs))).
Proof.
  apply (rounds_inv v (fun x => incl (acks s) (acks x))); [|apply incl_refl].
  intros ops k x j H. exact (incl_tran H (proj2 (acks_run v ops x j) k)).
Qed.

(* the thread index and the artifact store over rounds: every version, every history, no hypothesis *)
Lemma run_k_index v ops k s i : K s -> idx_ext (idx s) (idx (run_k v k s i ops)).
Proof.
  intros HK. destruct (atomic_views v ops k s i) as [E|E]; rewrite E; apply run_ops_boundary; exact HK.
Qed.
Theorem rounds_index v rs s i : K s ->
  K (fst (run_rounds v s i rs)) /\ idx_ext (idx s) (idx (fst (run_rounds v s i rs))).
Proof.
  intros HK. apply (rounds_inv v (fun x => K x /\ idx_ext (idx s) (idx x))); [|split; [exact HK | apply idx_ext_refl]].
  intros ops k x j [HKx He]. split; [apply K_recover|].
  exact (idx_ext_trans _ _ _ He (run_k_index v ops k x j HKx)).
Qed.
Theorem rounds_artifacts v rs s i : AR s -> AR (fst (run_rounds v s i rs)).
Proof. apply (rounds_inv v AR). intros ops k x j H. apply AR_recover, run_AR, H. Qed.

(* what index.json held when the store restarted after the rounds rs is still there after any later rounds rs' and any
   further operations; every artifact a frame names is complete *)
Theorem rounds_index_never_loses v rs rs' more :
  let s1 := run_rounds v init 0 rs in
  let s2 := run_rounds v (fst s1) (snd s1) rs' in
  idx_ext (idx (fst s1)) (idx (run_ops v (fst s2) (snd s2) more)).
Proof.
  cbn zeta. destruct (rounds_index v rs init 0 K_init) as [HK1 _].
  destruct (rounds_index v rs' _ (snd (run_rounds v init 0 rs)) HK1) as [HK2 He].
  eapply idx_ext_trans; [exact He|]. apply run_ops_boundary. exact HK2.
Qed.
Theorem rounds_artifact_before_frame v rs more f a :
  let s1 := run_rounds v init 0 rs in
  In f (frames_of (truth (run_ops v (fst s1) (snd s1) more))) -> f_art f = Some a ->
  In a (arts (run_ops v (fst s1) (snd s1) more)).
Proof.
  cbn zeta. intros Hf Ha.
  assert (H : AR (run_ops v (fst (run_rounds v init 0 rs)) (snd (run_rounds v init 0 rs)) more))
    by (apply run_AR, rounds_artifacts, AR_init).
  apply (H f a); [|exact Ha]. rewrite frames_of_app. apply in_or_app. left. exact Hf.
Qed.

(* three rounds, then more operations.  43 = 31 + 12: inside the message append, log line flushed, sidecar opened and
   still stale.  6: inside the recovery work of the next append, the sidecar rebuild (IPt 11, IPt 12, temp file created,
   first body written to it).  24: inside a branch, IIdxRename of its index save being the last instruction executed *)
Definition rd_rounds : list (list op * nat) :=
  [([OEnsure 0 300; OAppend 0 10], 43%nat); ([OAppend 0 10], 6%nat); ([OBranch 0 1 300 300], 24%nat)].
Definition rd_more : list op := [OAppend 0 10; OEnsure 9 300; OAppend 1 10].
Lemma rd_example :
  env_rounds fixed init 0 rd_rounds = true
  /\ env_runb fixed (fst (run_rounds fixed init 0 rd_rounds)) (snd (run_rounds fixed init 0 rd_rounds)) rd_more = true
  /\ snd (run_rounds fixed init 0 rd_rounds) = 4
  /\ option_map (map (fun f => (f_sid f, f_seq f)))
       (replay_validated (run_ops fixed (fst (run_rounds fixed init 0 rd_rounds)) 4 rd_more))
     = Some [(0, 0); (0, 1); (2, 0); (0, 2); (2, 1)].
Proof. vm_compute. repeat split. Qed.
