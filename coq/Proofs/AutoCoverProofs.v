(* C14, second half of the property: "an automatic checkpoint is taken before every file-editing tool runs and
   covers every file that tool can change, so an edit can always be undone".
   Everything here turns on CheckpointProofs.Good f K g: g differs from f at most in the files at the paths K
   (directories may have been added, none at a path of K).
   - An edit that is Good for the covered paths can be undone: rewind SUCCEEDS and gives back every file
     (good_edit_undone).
   - The write tool (Model/Checkpoint.v write_tool) is Good for the one path its argument names, provided the name of
     its temporary file is not taken (write_tool_good).
   - The automatic checkpoint of `write` covers exactly that path (write_covered); the three together for every
     step-list pair / temporary-name scheme that passes cover_wf (tie T1: Gen/AutoCover.v), and what goes wrong
     when the two step lists disagree or the temporary name is a fixed one. *)
From RipV Require Import Base.Prelude Base.Fs Model.Paths Model.Checkpoint Proofs.FsProofs Proofs.PathsProofs Proofs.CheckpointProofs.

(* The workspace predicates of C12 and C14.  `sane` (CheckpointProofs): every FILE is reachable - its proper ancestors
   are directories and the names on the way have at most 255 bytes.  `reachable_tree` (Checkpoint.tree_b): the same of
   every node, directories included, so that create sees a directory as one.  `nonul` (Checkpoint.nonul_b): no name
   holds a NUL byte, which create_dir_all would refuse in a parent.  FsProofs.fs_wf (Patch.wf_fsb), the hypothesis of
   C12's theorems, has another shape: distinct keys, no entry for the root, prefix closed (FsProofs.tree).  It says
   nothing of name lengths and reachable_tree nothing of distinct keys: a theorem that uses results of both assumes both. *)
Definition nonul (f : fs) : Prop := forall p n, lookup f p = Some n -> comps_nul p = false.

Lemma nonul_b_sound f : nonul_b f = true -> nonul f.
Proof.
  unfold nonul_b, nonul. intros H p n L. rewrite forallb_forall in H.
  destruct p as [|c p]; [reflexivity|]. unfold lookup in L. apply assoc_in in L.
  specialize (H _ L). cbn [fst] in H. apply negb_true_iff in H. exact H.
Qed.

Definition reachable_tree (f : fs) : Prop := forall p n, lookup f p = Some n -> dirs_ok f [] p = None.

Lemma tree_b_sound f : tree_b f = true -> reachable_tree f.
Proof.
  unfold tree_b, reachable_tree. intros H p n L. rewrite forallb_forall in H.
  destruct p as [|c p]; [reflexivity|]. unfold lookup in L. apply assoc_in in L.
  specialize (H _ L). unfold reachable_node in H. cbn [fst] in H.
  destruct (dirs_ok f [] (c :: p)); [discriminate|reflexivity].
Qed.
Lemma tree_sane f : reachable_tree f -> sane f.
Proof. intros H p b L. exact (H _ _ L). Qed.

(* create_dir_all on a chain that exists creates nothing *)
Lemma mkdir_all_of_dirs_ok g cs x : dirs_ok g [] (cs ++ [x]) = None -> mkdir_all g [] cs = (g, None).
Proof.
  intros H. apply dirs_ok_iff in H. destruct H as [Hn Hp]. apply (mkdir_all_noop cs g [] x); [|exact Hp].
  intros c Hc. apply Hn. apply in_or_app. left; exact Hc.
Qed.

(* save_one fails exactly at a directory *)
Lemma save_one_err_dir f rel e : save_one f rel = Err e -> lookup f (key rel) = Some Dir.
Proof.
  unfold save_one, os_exists, os_read. destruct (pre_err f (tgt_of rel)); [discriminate|].
  cbn [tgt_of t_path t_base t_comps t_trail app]. change (real_segs rel) with (key rel).
  destruct (lookup f (key rel)) as [[b|]|]; [discriminate|reflexivity|discriminate].
Qed.

Lemma save_one_dir_err f rel : reachable_tree f -> lookup f (key rel) = Some Dir -> save_one f rel = Err EISDIR.
Proof.
  intros Ht L. destruct (os_at_rel f rel (Ht _ _ L)) as (Ex & Er & _). unfold save_one. rewrite Ex, Er, L. reflexivity.
Qed.

Section Undo.
  Variable f : fs.
  Variable ck : list entry.
  Hypothesis reach0 : reachable_tree f.
  Hypothesis nonul0 : nonul f.
  (* what create recorded *)
  Hypothesis recorded : forall e, In e ck -> save_one f (fst e) = Ok e.

  Lemma covered_not_dir g e : Good f (covered ck) g -> In e ck -> lookup g (key (fst e)) <> Some Dir.
  Proof.
    intros G Hin Hd. assert (Hd0 : lookup f (key (fst e)) = Some Dir).
    { apply (g_nodir _ _ _ G); [exists e; split; [exact Hin|reflexivity]|exact Hd]. }
    pose proof (recorded e Hin) as S. rewrite (save_one_dir_err _ _ reach0 Hd0) in S. discriminate.
  Qed.

  (* one restore step succeeds and changes only a covered file *)
  Lemma restore_one g e : Good f (covered ck) g -> In e ck -> exists g', apply_one g e = (g', None) /\ Good f (covered ck) g'.
  Proof.
    intros G Hin. pose proof (covered_not_dir g e G Hin) as Hnd. pose proof (tree_sane _ reach0) as Hs.
    pose proof (save_one_file_at _ _ _ Hs (recorded e Hin)) as F0. destruct e as [rel saved]. cbn [fst snd] in *.
    destruct (apply_one g (rel, saved)) as [g' er] eqn:Ea. exists g'. split.
    2:{ apply (good_apply_one f (covered ck) g (rel, saved) g' er G); [exists (rel, saved); split; [exact Hin|reflexivity]| |exact Ea].
        (* a recorded file stood below directories of f *)
        intros b Eb r Hsp _. cbn [snd] in Eb. rewrite Eb in F0. exact (file_parents_dirs f _ b r Hs (file_at_some _ _ _ F0) Hsp). }
    f_equal. unfold apply_one in Ea. cbn [fst snd] in Ea. destruct saved as [b|].
    - (* the ancestors are still directories: nothing is created, and the write goes through *)
      apply file_at_some in F0. pose proof (dirs_ok_mono f g [] _ (g_mono _ _ _ G) (reach0 _ _ F0)) as Dg.
      assert (Em : mk_parent_dirs g (tgt_of rel) = (g, None)).
      { unfold mk_parent_dirs. cbn [tgt_of t_nul t_base t_comps]. change (real_segs rel) with (key rel).
        rewrite (existsb_removelast _ _ (nonul0 _ _ F0) : comps_nul (removelast (key rel)) = false).
        apply (mkdir_all_of_dirs_ok g (removelast (key rel)) (last (key rel) [])).
        rewrite <- app_removelast_last by (eapply not_dir_ne_nil; exact Hnd). exact Dg. }
      destruct (os_at_rel g rel Dg) as (_ & _ & Ew & _). rewrite Em, (Ew b Hnd) in Ea. inversion Ea; reflexivity.
    - unfold os_exists, os_remove_file in Ea. destruct (pre_err g (tgt_of rel)); [inversion Ea; reflexivity|].
      change (t_path (tgt_of rel)) with (key rel) in Ea. cbn [tgt_of t_trail] in Ea.
      destruct (lookup g (key rel)) as [[b0|]|]; [|destruct (Hnd eq_refl)|]; inversion Ea; reflexivity.
  Qed.

  Lemma restore_all : forall l g, Good f (covered ck) g -> incl l ck -> exists g', apply_all g l = (g', None).
  Proof.
    induction l as [|e l IH]; intros g G Hsub; [exists g; reflexivity|].
    destruct (restore_one g e G (Hsub e (or_introl eq_refl))) as (g1 & E1 & G1).
    destruct (IH g1 G1 (fun x Hx => Hsub x (or_intror Hx))) as (g' & E').
    exists g'. cbn [apply_all]. rewrite E1. exact E'.
  Qed.
End Undo.

(* Any edit that changes only covered files (and may create directories, none at a covered path) can be undone: the
   rewind SUCCEEDS and every file of the workspace, covered or not, has again the bytes / the absence it had when the
   checkpoint was taken. *)
Theorem good_edit_undone f root raws ck K f' :
  create f root raws = Ok ck -> reachable_tree f -> nonul f -> Good f K f' -> (forall q, K q <-> covered ck q) ->
  exists f2, rewind f' ck = (f2, None) /\ forall q, file_at f2 q = file_at f q.
Proof.
  intros Hc Ht Hnul G HK. apply (fun G => good_ext f K (covered ck) f' G HK) in G.
  assert (Hrec : forall e, In e ck -> save_one f (fst e) = Ok e) by (intros e Hin; apply (create_entries _ _ _ _ Hc e Hin)).
  destruct (restore_all f ck Ht Hnul Hrec ck f' G (fun e H => H)) as (f2 & Ea).
  assert (Esnap : exists snap, map_res (save_one f') (map fst ck) = Ok snap).
  { apply map_res_ok. intros rel Hrel. apply in_map_iff in Hrel. destruct Hrel as (e & <- & Hin).
    destruct (save_one f' (fst e)) as [y|x] eqn:Es; [exists y; reflexivity|].
    destruct (covered_not_dir f ck Ht Hrec f' e G Hin (save_one_err_dir _ _ _ Es)). }
  destruct Esnap as [snap Esnap].
  assert (Er : rewind f' ck = (f2, None)) by (unfold rewind; rewrite Esnap, Ea; reflexivity).
  exists f2. split; [exact Er|].
  destruct (rewind_ok _ _ _ Er (g_sane _ _ _ G) (create_consistent _ _ _ _ Hc)) as (_ & Hin & Hun).
  intros q. destruct (covered_dec ck q) as [(e0 & Hin0 & <-)|Hk].
  - rewrite (Hin e0 Hin0). symmetry. exact (save_one_file_at _ _ _ (tree_sane _ Ht) (Hrec e0 Hin0)).
  - rewrite Hun; [exact (g_out _ _ _ G q Hk)|]. intros e He E. apply Hk. exists e. split; assumption.
Qed.

(* the same with the hypotheses in the decidable form the correspondence evaluates, Good spelled out *)
Theorem covered_edit_undone f root raws ck f' :
  create f root raws = Ok ck -> tree_b f = true -> nonul_b f = true -> sane_b f' = true ->
  (forall r, lookup f r = Some Dir -> lookup f' r = Some Dir) ->
  (forall rel saved, In (rel, saved) ck -> lookup f' (key rel) <> Some Dir) ->
  (forall q, (forall rel saved, In (rel, saved) ck -> key rel <> q) -> file_at f' q = file_at f q) ->
  exists f2, rewind f' ck = (f2, None) /\ forall q, file_at f2 q = file_at f q.
Proof.
  intros Hc Ht Hn Hs Hm Hd Ho.
  apply (good_edit_undone f root raws ck (covered ck) f' Hc (tree_b_sound _ Ht) (nonul_b_sound _ Hn)); [|reflexivity].
  constructor; [exact (sane_b_sound _ Hs)|exact Hm| |].
  - intros k ([rel saved] & Hin & <-) Hk. destruct (Hd rel saved Hin Hk).
  - intros q Hq. apply Ho. intros rel saved Hin E. apply Hq. exists (rel, saved). split; assumption.
Qed.

Lemma strict_prefix_irrefl k : ~ strict_prefix k k.
Proof. intros (suf & E & _ & Hs). apply Hs. eapply app_self_nil. exact E. Qed.

(* The operations the tools are made of, on targets `root.join(raw)`, keep Good when they act at a path of K. *)
Section ToolGood.
  Variable f : fs.
  Variable K : path -> Prop.

  Lemma good_write g raw d g' : Good f K g -> K (comps raw) -> os_write g (mk_tgt [] raw) d = Ok g' -> Good f K g'.
  Proof.
    intros G Hk H. destruct (os_write_ok _ _ _ _ H) as ((_ & _ & Hn & _) & Hp & Hd & ->).
    apply good_set; [exact G|exact Hk|apply dirs_ok_iff; split; assumption|exact Hd].
  Qed.

  Lemma good_append g raw c d g' : Good f K g -> K (comps raw) -> os_append g (mk_tgt [] raw) c d = Ok g' -> Good f K g'.
  Proof.
    intros G Hk. unfold os_append. destruct (pre_err g (mk_tgt [] raw)) eqn:P; [discriminate|].
    apply pre_err_none in P. destruct P as (_ & Hn & Hp). change (t_path (mk_tgt [] raw)) with (comps raw).
    assert (Hset : lookup g (comps raw) <> Some Dir -> forall d', Good f K (set g (comps raw) (File d'))).
    { intros Hnd d'. apply good_set; [exact G|exact Hk|apply dirs_ok_iff; split; assumption|exact Hnd]. }
    destruct (lookup g (comps raw)) as [[b|]|]; [|discriminate|destruct c; [|discriminate]];
      (destruct (t_trail (mk_tgt [] raw)); try discriminate); intros H; inversion H; apply Hset; discriminate.
  Qed.

  Lemma good_remove g raw g' : Good f K g -> K (comps raw) -> os_remove_file g (mk_tgt [] raw) = Ok g' -> Good f K g'.
  Proof.
    intros G Hk H. destruct (os_remove_ok _ _ _ H) as (_ & _ & (b0 & L) & ->). exact (good_unset f K g _ b0 G Hk L).
  Qed.

  Lemma good_rm_ignore g raw : Good f K g -> K (comps raw) -> Good f K (rm_ignore g (mk_tgt [] raw)).
  Proof.
    intros G Hk. unfold rm_ignore. destruct (os_remove_file g (mk_tgt [] raw)) as [g'|e] eqn:E; [|exact G].
    exact (good_remove g raw g' G Hk E).
  Qed.

  Lemma good_rename g rs rd g' : Good f K g -> K (comps rs) -> K (comps rd) ->
    os_rename_file g (mk_tgt [] rs) (mk_tgt [] rd) = Ok g' -> Good f K g'.
  Proof.
    intros G Hs Hd H.
    destruct (os_rename_ok _ _ _ _ H) as ((_ & _ & _ & Hne) & _ & (_ & _ & Nd & _) & Pd & Ld & b & Ls & ->).
    apply good_set; [exact (good_unset f K g _ b G Hs Ls)|exact Hd| |].
    - apply dirs_ok_iff. split; [exact Nd|exact (pdirs_mono _ _ _ _ (dirs_le_unset_file g _ b Hne Ls) Pd)].
    - rewrite lookup_unset by exact Hne. destruct (path_eqb (comps rs) (comps rd)); [discriminate|exact Ld].
  Qed.
End ToolGood.

(* removing the temporary file succeeds while it stands below its directories *)
Lemma rm_tmp g rt d : clean rt -> pdirs g [] (comps rt) -> lookup g (comps rt) = Some (File d) ->
  rm_ignore g (mk_tgt [] rt) = unset g (comps rt).
Proof.
  intros (Hn & Ht & Hm & _) P L. unfold rm_ignore, os_remove_file. rewrite (proj2 (pre_err_none g rt) (conj Hn (conj Hm P))).
  cbn [mk_tgt t_path t_base t_comps t_trail app]. rewrite L, Ht. reflexivity.
Qed.

Lemma arg_interp_tool raw x : arg_interp expected_tool_steps raw = Ok x -> x = raw /\ is_absolute raw = false /\ has_parent raw = false.
Proof.
  cbn [arg_interp expected_tool_steps]. destruct (is_absolute raw); [discriminate|]. destruct (has_parent raw); [discriminate|].
  intros H; inversion H. repeat split.
Qed.

(* the path the write tool addresses for `raw` (= comps raw) and that of its temporary file (= comps (with_extension raw
   ext)), under the names the statements of C14 and C11 use *)
Definition wk (raw : str) : path := t_path (mk_tgt [] raw).
Definition wkt (raw ext : str) : path := t_path (tmp_tgt raw ext).

(* the atomic branch after the parents exist: write the temporary file rt, remove the target, rename; whichever of
   these fails, the temporary file is gone afterwards.  The match is the text of Model/Checkpoint.v write_tool from
   `os_write f1 tt data` on: write_tool_good hands its hypothesis over as it stands. *)
Lemma atomic_good f1 raw rt data f' er : sane f1 ->
  (let t := mk_tgt [] raw in let tt := mk_tgt [] rt in
   match os_write f1 tt data with
   | Err e => (f1, Some e)
   | Ok f2 =>
     if os_exists f2 t then
       match os_remove_file f2 t with
       | Err e => (rm_ignore f2 tt, Some e)
       | Ok f3 => match os_rename_file f3 tt t with Ok f4 => (f4, None) | Err e => (rm_ignore f3 tt, Some e) end
       end
     else match os_rename_file f2 tt t with Ok f4 => (f4, None) | Err e => (rm_ignore f2 tt, Some e) end
   end) = (f', er) ->
  Good f1 (fun q => comps raw = q \/ comps rt = q) f'
  /\ (comps rt <> comps raw -> file_at f1 (comps rt) = None -> file_at f' (comps rt) = None).
Proof.
  intros Hs. cbv zeta. set (K := fun q => comps raw = q \/ comps rt = q).
  assert (Kt : K (comps raw)) by (left; reflexivity). assert (Ktt : K (comps rt)) by (right; reflexivity).
  destruct (os_write f1 (mk_tgt [] rt) data) as [f2|e] eqn:Ew.
  2:{ intros H; inversion H; subst f'. split; [exact (good_init f1 K Hs)|intros _ L; exact L]. }
  pose proof (good_write f1 K f1 rt data f2 (good_init f1 K Hs) Ktt Ew) as G2.
  destruct (os_write_ok _ _ _ _ Ew) as (Cl & Hp & Hnd & ->). pose proof Cl as (_ & _ & _ & Hne).
  pose proof (dirs_le_set_file f1 _ data Hne Hnd) as D2. set (f2 := set f1 (comps rt) (File data)) in *.
  assert (L2 : lookup f2 (comps rt) = Some (File data)) by (apply lookup_set_same; exact Hne).
  assert (Gone : forall g, dirs_le f1 g -> lookup g (comps rt) = Some (File data) ->
            file_at (rm_ignore g (mk_tgt [] rt)) (comps rt) = None).
  { intros g D L. rewrite (rm_tmp g rt data Cl (pdirs_mono _ _ _ _ D Hp) L). apply file_at_unset_same; exact Hne. }
  (* the last step from g, where the temporary file still stands unless it is the target itself *)
  assert (Last : forall g, Good f1 K g -> dirs_le f1 g -> (comps rt <> comps raw -> lookup g (comps rt) = Some (File data)) ->
            match os_rename_file g (mk_tgt [] rt) (mk_tgt [] raw) with Ok f4 => (f4, None) | Err e => (rm_ignore g (mk_tgt [] rt), Some e) end = (f', er) ->
            Good f1 K f' /\ (comps rt <> comps raw -> file_at f1 (comps rt) = None -> file_at f' (comps rt) = None)).
  { intros g G D P. destruct (os_rename_file g (mk_tgt [] rt) (mk_tgt [] raw)) as [f4|e] eqn:En; intros H; inversion H; subst f'.
    - split; [exact (good_rename f1 K g rt raw f4 G Ktt Kt En)|]. intros Hneq _.
      destruct (os_rename_ok _ _ _ _ En) as (_ & _ & _ & _ & _ & b & _ & ->).
      rewrite file_at_set_other by (intros E; exact (Hneq (eq_sym E))). apply file_at_unset_same; exact Hne.
    - split; [exact (good_rm_ignore f1 K g rt G Ktt)|]. intros Hneq _. exact (Gone g D (P Hneq)). }
  destruct (os_exists f2 (mk_tgt [] raw)); [|exact (Last f2 G2 D2 (fun _ => L2))].
  destruct (os_remove_file f2 (mk_tgt [] raw)) as [f3|e] eqn:Er.
  - destruct (os_remove_ok _ _ _ Er) as ((_ & _ & _ & Hner) & _ & (b0 & Lk) & ->).
    apply Last; [exact (good_remove f1 K f2 raw _ G2 Kt Er)|exact (dirs_le_trans _ _ _ D2 (dirs_le_unset_file f2 _ b0 Hner Lk))|].
    intros Hneq. rewrite lookup_unset_diff by (intros E; exact (Hneq (eq_sym E))). exact L2.
  - intros H; inversion H; subst f'. split; [exact (good_rm_ignore f1 K f2 rt G2 Ktt)|]. intros _ _. exact (Gone f2 D2 L2).
Qed.

(* The write tool changes no file but the one its argument names - provided (atomic mode) the name of its temporary
   file is not taken; directories are only added, the named path does not become a directory. *)
Theorem write_tool_good f raw ext mode data f' er :
  write_tool expected_tool_steps f raw ext mode data = (f', er) -> sane f ->
  (mode = 0 -> lookup f (comps (with_extension raw ext)) = None) -> Good f (eq (comps raw)) f'.
Proof.
  intros H Hs Hfresh. pose proof (good_init f (eq (comps raw)) Hs) as G0. unfold write_tool in H.
  destruct (arg_interp expected_tool_steps raw) as [x|e] eqn:Ea; [|inversion H; subst f'; exact G0].
  destruct (arg_interp_tool _ _ Ea) as (-> & _).
  destruct (file_name raw); [|inversion H; subst f'; exact G0].
  destruct (mk_parent_dirs f (mk_tgt [] raw)) as [f1 e1] eqn:Em.
  assert (G1 : Good f (eq (comps raw)) f1).
  { apply (good_parents f _ f raw f1 e1 G0); [|exact Em]. intros r Hsp <-. destruct (strict_prefix_irrefl _ Hsp). }
  destruct e1 as [e|]; [inversion H; subst f'; exact G1|].
  destruct ((mode =? 2) || (mode =? 3)).
  { destruct (os_append f1 (mk_tgt [] raw) (mode =? 2) data) as [f2|e] eqn:Eap; inversion H; subst f'; [|exact G1].
    exact (good_append f _ f1 raw _ data f2 G1 eq_refl Eap). }
  destruct (mode =? 0) eqn:E0.
  2:{ destruct (os_write f1 (mk_tgt [] raw) data) as [f2|e] eqn:Ew; inversion H; subst f'; [|exact G1].
      exact (good_write f _ f1 raw data f2 G1 eq_refl Ew). }
  apply N.eqb_eq in E0. specialize (Hfresh E0).
  destruct (tmp_is_parent raw ext); [inversion H; subst f'; exact G1|].
  destruct (atomic_good f1 raw (with_extension raw ext) data f' er (g_sane _ _ _ G1) H) as [G Ltmp].
  apply (good_trans f _ f1 _ f' G1 G); [intros q <-; left; reflexivity|].
  (* outside comps raw the only file the atomic branch touches is the temporary one, absent before and after *)
  intros q Hq. destruct (path_dec (comps (with_extension raw ext)) q) as [<-|Hq']; [|apply (g_out _ _ _ G); intros [E|E]; contradiction].
  assert (F1 : file_at f1 (comps (with_extension raw ext)) = None) by (rewrite (g_out _ _ _ G1 _ Hq); unfold file_at; rewrite Hfresh; reflexivity).
  rewrite F1. exact (Ltmp (fun E => Hq (eq_sym E)) F1).
Qed.

(* write_tool_good with Good spelled out, the step list as the literal it is *)
Theorem write_tool_effect f raw ext mode data f' er :
  write_tool [1; 2; 3] f raw ext mode data = (f', er) -> sane f ->
  (mode = 0 -> lookup f (wkt raw ext) = None) ->
  sane f' /\ dirmono f f'
  /\ (lookup f' (wk raw) = Some Dir -> lookup f (wk raw) = Some Dir)
  /\ (forall q, q <> wk raw -> file_at f' q = file_at f q).
Proof.
  intros H Hs Hfresh. destruct (write_tool_good f raw ext mode data f' er H Hs Hfresh) as [A B C D].
  repeat split; [exact A|exact B|exact (C _ eq_refl)|]. intros q Hq. apply D. intros E. exact (Hq (eq_sym E)).
Qed.

Lemma cover_wf_spec found ts as_ tk prog : cover_wf found ts as_ tk prog = true ->
  ts = expected_tool_steps /\ as_ = expected_auto_steps /\ tk = expected_tmp_kind.
Proof.
  unfold cover_wf. rewrite !andb_true_iff. intros ((((_ & A) & B) & C) & _).
  split; [apply lN_eqb_spec; exact A|]. split; [apply lN_eqb_spec; exact B|apply N.eqb_eq; exact C].
Qed.

(* a path string that is ok for a tool: what the guards of both step lists, and parse_rel_path, leave - relative, no `..` *)
Definition okp (p : str) : Prop := is_absolute p = false /\ has_parent p = false.

(* such a string is recorded, under an absolute root, at the components the tools address for it *)
Lemma rel_key root raw : is_absolute root = true -> okp raw -> exists rel, to_relative root raw = Ok rel /\ key rel = comps raw.
Proof.
  intros Hr [Ha Hp]. destruct (proj2 (to_relative_relative root raw Hr Ha) Hp) as (rel & Et & Er).
  exists rel. split; [exact Et|]. unfold key. rewrite Er. reflexivity.
Qed.

(* the paths a checkpoint covers are those of the strings it was asked for *)
Lemma create_keys f root raws ck : is_absolute root = true -> (forall p, In p raws -> okp p) -> create f root raws = Ok ck ->
  forall q, covered ck q <-> exists p, In p raws /\ comps p = q.
Proof.
  intros Hr Hok Hc q. split.
  - intros (e & Hin & <-). destruct (create_entries _ _ _ _ Hc e Hin) as [(raw & Hraw & Et) _].
    destruct (rel_key root raw Hr (Hok raw Hraw)) as (rel & Et' & Ek). rewrite Et in Et'. injection Et' as <-.
    exists raw. split; [exact Hraw|symmetry; exact Ek].
  - intros (p & Hp & <-). destruct (create_covers _ _ _ _ Hc p Hp) as (rel & saved & Et & Hin).
    destruct (rel_key root p Hr (Hok p Hp)) as (rel' & Et' & Ek). rewrite Et in Et'. inversion Et'; subst rel'.
    exists (rel, saved). split; [exact Hin|exact Ek].
Qed.

(* create can only fail, for such strings, because one of them names a directory *)
Lemma create_err_dir f root raws e : is_absolute root = true -> (forall p, In p raws -> okp p) ->
  create f root raws = Err e -> exists p, In p raws /\ lookup f (comps p) = Some Dir.
Proof.
  intros Hr Hok H. unfold create in H.
  destruct (map_res (to_relative root) raws) as [rels|e0] eqn:Er.
  - destruct (map_res_err _ _ _ H) as (rel & e' & Hin & Hs).
    destruct (map_res_in _ _ _ Er rel Hin) as (raw & Hraw & Et).
    destruct (rel_key root raw Hr (Hok raw Hraw)) as (rel' & Et' & Ek). rewrite Et in Et'. inversion Et'; subst rel'.
    exists raw. split; [exact Hraw|]. rewrite <- Ek. exact (save_one_err_dir _ _ _ Hs).
  - destruct (map_res_err _ _ _ Er) as (raw & e' & Hin & Ht).
    destruct (rel_key root raw Hr (Hok raw Hin)) as (rel & Et & _). rewrite Et in Ht. discriminate.
Qed.

(* ToolRunner's automatic checkpoint of a `write` call and the call: either the checkpoint was taken, and then it is
   that of the argument, covers the one path the tool addresses, and the tool changed no other file; or none could be
   taken (the argument is refused, or names a directory), and then the call has not changed any file.  The temporary
   name matters only for an argument the tool accepts. *)
Theorem write_covered root f raw ext mode data f' er :
  is_absolute root = true -> sane f ->
  (mode = 0 -> arg_interp expected_tool_steps raw = Ok raw -> lookup f (comps (with_extension raw ext)) = None) ->
  write_tool expected_tool_steps f raw ext mode data = (f', er) ->
  match auto_checkpoint expected_auto_steps f root raw with
  | Some ck => create f root [raw] = Ok ck /\ (forall q, comps raw = q <-> covered ck q) /\ Good f (eq (comps raw)) f'
  | None => forall q, file_at f' q = file_at f q
  end.
Proof.
  intros Hroot Hs Hfresh Hw. unfold auto_checkpoint.
  change (arg_interp expected_auto_steps raw) with (arg_interp expected_tool_steps raw).
  destruct (arg_interp expected_tool_steps raw) as [a|e] eqn:Ea.
  2:{ unfold write_tool in Hw. rewrite Ea in Hw. inversion Hw. reflexivity. }
  destruct (arg_interp_tool _ _ Ea) as (-> & Hok).
  pose proof (write_tool_good f raw ext mode data f' er Hw Hs (fun Hm => Hfresh Hm eq_refl)) as G.
  assert (Hoks : forall p, In p [raw] -> okp p) by (intros p [<-|[]]; exact Hok).
  destruct (create f root [raw]) as [ck|e] eqn:Ec.
  - split; [reflexivity|]. split; [|exact G]. intros q. rewrite (create_keys f root [raw] ck Hroot Hoks Ec q).
    split; [intros E; exists raw; split; [left; reflexivity|exact E]|intros (p & [<-|[]] & E); exact E].
  - destruct (create_err_dir f root [raw] e Hroot Hoks Ec) as (p & [<-|[]] & L).
    intros q. destruct (path_dec (comps raw) q) as [<-|Hq]; [|exact (g_out _ _ _ G q Hq)].
    unfold file_at. rewrite L, (g_mono _ _ _ G _ L). reflexivity.
Qed.

(* For every extraction that passes cover_wf (Gen/AutoCover.v holds what the extractor read from /repo): whatever the write tool is asked
   (any string, any mode, success or failure), when the tool returns
     - either ToolRunner took an automatic checkpoint before the call, and then rewinding to it SUCCEEDS and every
       file of the workspace - named by the call or not - has the bytes / the absence it had before the call,
     - or no checkpoint could be taken (the argument is refused, or names a directory), and then the call has not
       changed any file.
   The one hypothesis: in atomic mode the name of the temporary file (<stem>.<ext>, ext = "tmp-<uuid>") is not the
   name of an existing entry - tmp_kind = 1 says the extension carries a fresh uuid. *)
Theorem auto_write_undone found ts as_ tk prog :
  cover_wf found ts as_ tk prog = true ->
  forall f root raw ext mode data f' er,
  is_absolute root = true -> reachable_tree f -> nonul f ->
  (mode = 0 -> forall x, arg_interp ts raw = Ok x -> lookup f (t_path (tmp_tgt x ext)) = None) ->
  write_tool ts f raw ext mode data = (f', er) ->
  match auto_checkpoint as_ f root raw with
  | Some ck => exists f2, rewind f' ck = (f2, None) /\ forall q, file_at f2 q = file_at f q
  | None => forall q, file_at f' q = file_at f q
  end.
Proof.
  intros Hwf f root raw ext mode data f' er Hroot Ht Hnul Hfresh Hw.
  destruct (cover_wf_spec _ _ _ _ _ Hwf) as (-> & -> & _).
  pose proof (write_covered root f raw ext mode data f' er Hroot (tree_sane _ Ht) (fun Hm => Hfresh Hm raw) Hw) as C.
  destruct (auto_checkpoint expected_auto_steps f root raw) as [ck|]; [|exact C]. destruct C as (Hc & Hk & G).
  exact (good_edit_undone f root [raw] ck _ f' Hc Ht Hnul G Hk).
Qed.

Require Import Coq.Strings.String.
Definition x_root : str := bs "/r/ws"%string.
Definition x_notes : str := bs "notes.txt"%string.
Definition x_notes_sp : str := bs "notes.txt "%string.
Definition x_ws : fs := [([x_notes], File (bs "one"%string))].
Definition x_data : bytes := bs "two"%string.
(* trial change C14-4: builtins::resolve_path trims its argument ([4; 1; 2; 3]) while files_for_invocation does not
   ([1; 2; 6]) - the checkpoint is of "notes.txt ", the edit goes to "notes.txt" *)
Definition x_trim_steps : list N := [4; 1; 2; 3].
Definition x_trim_ck : list entry := [(x_notes_sp, None)].
Definition x_trim_after : fs := [([x_notes], File x_data)].
Lemma auto_cover_trim_refuted :
  exists ts f root raw ext mode data ck f' f2 q,
    ts <> expected_tool_steps
    /\ tree_b f = true /\ nonul_b f = true
    /\ auto_checkpoint expected_auto_steps f root raw = Some ck
    /\ write_tool ts f raw ext mode data = (f', None)
    /\ rewind f' ck = (f2, None) /\ file_at f2 q <> file_at f q.
Proof.
  exists x_trim_steps, x_ws, x_root, x_notes_sp, corr_ext, 1, x_data, x_trim_ck, x_trim_after, x_trim_after, [x_notes].
  split; [discriminate|]. repeat apply conj; try (vm_compute; reflexivity). vm_compute. discriminate.
Qed.

(* trial change C14-6: the temporary file is `path.with_extension("tmp")` - a sibling may own that name, and loses it *)
Definition x_report : str := bs "report.txt"%string.
Definition x_report_tmp : str := bs "report.tmp"%string.
Definition x_tmp_ext : str := bs "tmp"%string.
Definition x_ws6 : fs := [([x_report], File (bs "r1"%string)); ([x_report_tmp], File (bs "precious"%string))].
Definition x_ck6 : list entry := [(x_report, Some (bs "r1"%string))].
Definition x_after6 : fs := [([x_report], File x_data)].
Definition x_rewound6 : fs := [([x_report], File (bs "r1"%string))].
Lemma fixed_tmp_refuted :
  exists f root raw data ck f' f2 q,
    tree_b f = true /\ nonul_b f = true
    /\ auto_checkpoint expected_auto_steps f root raw = Some ck
    /\ write_tool expected_tool_steps f raw x_tmp_ext 0 data = (f', None)
    /\ rewind f' ck = (f2, None) /\ file_at f2 q <> file_at f q.
Proof.
  exists x_ws6, x_root, x_report, x_data, x_ck6, x_after6, x_rewound6, [x_report_tmp].
  repeat apply conj; try (vm_compute; reflexivity). vm_compute. discriminate.
Qed.

(* non-vacuity of auto_write_undone: the same call with the uuid-suffixed name *)
Lemma ex_auto_write_undone :
  tree_b x_ws6 = true /\ nonul_b x_ws6 = true
  /\ lookup x_ws6 (t_path (tmp_tgt x_report corr_ext)) = None
  /\ auto_checkpoint expected_auto_steps x_ws6 x_root x_report = Some x_ck6
  /\ exists f', write_tool expected_tool_steps x_ws6 x_report corr_ext 0 x_data = (f', None)
                /\ file_at f' [x_report] = Some x_data /\ rewind f' x_ck6 = (x_ws6, None).
Proof. do 4 (split; [vm_compute; reflexivity|]). eexists. repeat apply conj; vm_compute; reflexivity. Qed.

