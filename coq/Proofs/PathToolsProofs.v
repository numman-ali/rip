(* C13 — what the tools do with a resolved path (Model/Paths.v, "tool programs"): every path a
   path-taking tool hands to the operating system is derived from the resolver's result and lands at
   or below the workspace root, whatever the process working directory is. *)
From RipV Require Import Base.Prelude Base.Fs Model.Paths Proofs.PathsProofs.

Local Notation abs q := (is_absolute q = true).
Local Notation nopar q := (has_parent q = false).

(* absolute strings without `..`: the operating system lands at their real segments *)
Lemma abs_loc cwd q : abs q -> nopar q -> kresolve cwd q = real_segs q.
Proof. intros Ha Hp. unfold kresolve. rewrite Ha. apply (walk_noparent _ [] Hp). Qed.

Lemma abs_cons q : abs q -> exists rest, q = 47 :: rest.
Proof. intros H. destruct q as [|x r]; [discriminate|]. apply starts_slash_inv in H. subst x. exists r. reflexivity. Qed.

Lemma nopar_of_real q : existsb seg_dotdot (real_segs q) = false -> nopar q.
Proof. intros H. rewrite has_parent_real. exact H. Qed.

Lemma parent_spec q q' : abs q -> parent q = Some q' ->
  abs q' /\ real_segs q' = removelast (real_segs q).
Proof.
  intros Ha Hp. destruct (abs_cons q Ha) as (rest & ->). unfold parent, body_segs in Hp.
  change (47 :: rest) with ([] ++ 47 :: rest) in Hp. rewrite segs_app_sep in Hp. cbn [app segs split_on split_aux rev] in Hp.
  pose proof (segs_noslash rest) as HB. fold (segs rest) in Hp. set (B := segs rest) in *.
  (* B = C ++ T2 ++ [s] ++ T with T, T2 trivial and s the file name: the parent is "/" ++ join_segs C *)
  destruct (drop_trail_split B) as (T & EB & HT).
  destruct (drop_trivial (rev B)) as [|s br] eqn:Ed; [discriminate|]. inversion Hp; subst q'; clear Hp.
  pose proof (drop_trivial_head (rev B)) as Hs. rewrite Ed in Hs.
  destruct (drop_trail_split (rev br)) as (T2 & EB2 & HT2). rewrite rev_involutive in EB2.
  cbn [rev] in EB. rewrite EB2 in EB. set (C := rev (drop_trivial br)) in *. split; [reflexivity|].
  rewrite !real_segs_cons_sep, real_segs_join_segs.
  - rewrite real_segs_eq. fold B. rewrite EB, !filter_app, (filter_nt_trivial T HT), (filter_nt_trivial T2 HT2), !app_nil_r.
    cbn [filter]. unfold nt at 3. rewrite Hs. symmetry. apply removelast_last.
  - rewrite EB in HB. repeat (apply Forall_app in HB; destruct HB as [HB _]). exact HB.
Qed.

Lemma parent_nopar q q' : abs q -> nopar q -> parent q = Some q' -> nopar q'.
Proof.
  intros Ha Hn Hp. destruct (parent_spec q q' Ha Hp) as [_ E]. apply nopar_of_real. rewrite E.
  apply existsb_removelast. rewrite <- has_parent_real. exact Hn.
Qed.

Lemma join_props root raw : abs root -> nopar root -> is_absolute raw = false -> has_parent raw = false ->
  abs (join root raw) /\ nopar (join root raw) /\ real_segs (join root raw) = real_segs root ++ real_segs raw.
Proof.
  intros Ha Hn Hr Hp. pose proof (real_segs_join root raw Hr) as ER.
  split; [rewrite join_absolute; assumption|]. split; [|exact ER].
  apply nopar_of_real. rewrite ER, existsb_app, <- !has_parent_real, Hn, Hp. reflexivity.
Qed.

(* a directory-entry name, and conversely (proper_of) *)
Lemma proper_noslash n : proper_name n = true -> ~ In 47 n /\ seg_trivial n = false /\ seg_dotdot n = false.
Proof.
  unfold proper_name. intros H. apply andb_true_iff in H. destruct H as [H H3]. apply andb_true_iff in H.
  destruct H as [H1 H2]. apply negb_true_iff in H1, H2, H3. repeat split; try assumption.
  intros Hin. assert (existsb (N.eqb 47) n = true) as E; [|congruence].
  apply existsb_exists. exists 47. split; [exact Hin|apply N.eqb_refl].
Qed.

Lemma proper_of n : ~ In 47 n -> seg_trivial n = false -> seg_dotdot n = false -> proper_name n = true.
Proof.
  intros H47 Ht Hd. unfold proper_name. rewrite Ht, Hd, !andb_true_r. apply negb_true_iff.
  destruct (existsb (N.eqb 47) n) eqn:E; [|reflexivity]. apply existsb_exists in E. destruct E as (x & Hx & Ex).
  apply N.eqb_eq in Ex. subst x. contradiction.
Qed.

Lemma join_name q n : abs q -> nopar q -> proper_name n = true ->
  abs (join q n) /\ nopar (join q n) /\ real_segs (join q n) = real_segs q ++ [n].
Proof.
  intros Ha Hn Hp. destruct (proper_noslash n Hp) as (H47 & Ht & Hd).
  assert (Hsg : segs n = [n]) by (apply segs_single; exact H47).
  assert (Hpn : has_parent n = false) by (unfold has_parent; rewrite Hsg; cbn [existsb]; rewrite Hd; reflexivity).
  destruct (join_props q n Ha Hn (noslash_not_abs n H47) Hpn) as (A & B & C). split; [exact A|]. split; [exact B|].
  rewrite C. unfold real_segs at 2. rewrite Hsg. cbn [filter]. rewrite Ht. reflexivity.
Qed.

Lemma descend_props names : forall q, abs q -> nopar q -> forallb proper_name names = true ->
  abs (descend q names) /\ nopar (descend q names) /\ real_segs (descend q names) = real_segs q ++ names.
Proof.
  induction names as [|n names IH]; intros q Ha Hn Hp.
  - cbn [descend fold_left]. rewrite app_nil_r. auto.
  - cbn [forallb] in Hp. apply andb_true_iff in Hp. destruct Hp as [Hp1 Hp2].
    destruct (join_name q n Ha Hn Hp1) as (A & B & C).
    unfold descend. cbn [fold_left]. fold (descend (join q n) names).
    destruct (IH (join q n) A B Hp2) as (A' & B' & C'). split; [exact A'|]. split; [exact B'|].
    rewrite C', C, <- app_assoc. reflexivity.
Qed.

(* x is absolute, free of `..`, and its real segments extend R: with R the real segments of the root, x lands at or
   below the root whatever the working directory is (inside_under) *)
Definition inside (R : list str) (x : str) : Prop := abs x /\ nopar x /\ exists l, real_segs x = R ++ l.

Lemma inside_under cwd root q : abs root -> nopar root -> inside (real_segs root) q -> under cwd root q.
Proof.
  intros Ha Hn (Ha' & Hn' & l & E). exists l. rewrite (abs_loc cwd q Ha' Hn'), (abs_loc cwd root Ha Hn). exact E.
Qed.

(* the parent of a path strictly inside R is inside R *)
Lemma parent_inside R q q' l : abs q -> nopar q -> real_segs q = R ++ l -> l <> [] -> parent q = Some q' -> inside R q'.
Proof.
  intros Ha Hn El Hl Ep. destruct (parent_spec q q' Ha Ep) as [Ha' Er].
  split; [exact Ha'|]. split; [exact (parent_nopar q q' Ha Hn Ep)|].
  exists (removelast l). rewrite Er, El. apply removelast_app. exact Hl.
Qed.

(* fs::create_dir_all: the chain of ancestors stops at the root, which exists *)
Lemma chain_inside ex R :
  (forall s, abs s -> nopar s -> real_segs s = R -> ex s = true) ->
  forall fuel q, inside R q -> Forall (inside R) (mkdir_chain ex fuel q).
Proof.
  intros Hex. induction fuel as [|f IH]; intros q Hq; cbn [mkdir_chain].
  - constructor; [exact Hq|constructor].
  - constructor; [exact Hq|]. destruct (ex q) eqn:Eq; [constructor|].
    destruct (parent q) as [q'|] eqn:Ep; [|constructor]. apply IH.
    destruct Hq as (Ha & Hn & l & El). apply (parent_inside R q q' l Ha Hn El); [|exact Ep].
    intros ->. rewrite app_nil_r in El. rewrite (Hex q Ha Hn El) in Eq. discriminate.
Qed.

Lemma parent_chain_inside ex root p l :
  (forall s, abs s -> nopar s -> real_segs s = real_segs root -> ex s = true) ->
  abs p -> nopar p -> real_segs p = real_segs root ++ l -> l <> [] ->
  Forall (inside (real_segs root)) (parent_chain ex p).
Proof.
  intros Hex Ha Hn El Hl. unfold parent_chain. destruct (parent p) as [q|] eqn:Ep; [|constructor].
  apply chain_inside; [exact Hex|]. exact (parent_inside _ p q l Ha Hn El Hl Ep).
Qed.

(* the write tool's `file_name().is_none()` refusal: an argument with a file name has a real segment, so the resolved
   path is not the root *)
Lemma file_name_some_real raw : file_name raw <> None -> real_segs raw <> [].
Proof.
  intros H E. apply H. unfold file_name. rewrite real_segs_eq in E.
  apply filter_nt_nil_all in E. rewrite drop_trivial_all; [reflexivity|]. rewrite forallb_rev. exact E.
Qed.

Lemma nonroot_spec root p l : real_segs p = real_segs root ++ l -> nonroot root p = true -> l <> [].
Proof.
  intros E H -> . rewrite app_nil_r in E. unfold nonroot in H. apply negb_true_iff in H.
  assert (list_eqb lN_eqb (real_segs p) (real_segs root) = true) as T; [|congruence].
  apply list_eqb_spec; [intros; apply lN_eqb_spec|exact E].
Qed.

(* the derivations a tool program may use: 12 and 13 (no file-system check that p is not the root) only in the write
   tool, which refuses a path without a file name instead *)
Definition dok (w : bool) (d : N) : bool :=
  (d =? 0) || (d =? 1) || (d =? 2) || (d =? 3) || (d =? 4) || (w && ((d =? 12) || (d =? 13))).

Lemma deriv_inside ex root p ext names w d l :
  abs root -> nopar root ->
  (forall s, abs s -> nopar s -> real_segs s = real_segs root -> ex s = true) ->
  abs p -> nopar p -> real_segs p = real_segs root ++ l ->
  forallb proper_name names = true ->
  (w = true -> l <> []) ->
  (l <> [] -> inside (real_segs root) (with_extension p ext)) ->
  dok w d = true ->
  Forall (inside (real_segs root)) (deriv_paths ex root p ext names d).
Proof.
  intros Ha Hn Hex Hpa Hpn El Hnames Hw Htmp Hd.
  assert (Hp : inside (real_segs root) p) by (split; [exact Hpa|split; [exact Hpn|exists l; exact El]]).
  unfold dok in Hd. repeat rewrite orb_true_iff in Hd. rewrite andb_true_iff, orb_true_iff in Hd.
  destruct Hd as [[[[[Hd|Hd]|Hd]|Hd]|Hd]|[Hw' [Hd|Hd]]]; apply N.eqb_eq in Hd; subst d; cbn [deriv_paths].
  - constructor; [|constructor]. split; [exact Ha|]. split; [exact Hn|]. exists []. rewrite app_nil_r. reflexivity.
  - constructor; [exact Hp|constructor].
  - destruct (nonroot root p) eqn:Enr; [|constructor].
    eapply parent_chain_inside; try eassumption. eapply nonroot_spec; eassumption.
  - destruct (nonroot root p) eqn:Enr; [|constructor]. constructor; [|constructor].
    apply Htmp. eapply nonroot_spec; eassumption.
  - destruct (descend_props names p Hpa Hpn Hnames) as (A & B & C). constructor; [|constructor].
    split; [exact A|]. split; [exact B|]. exists (l ++ names). rewrite C, El, app_assoc. reflexivity.
  - eapply parent_chain_inside; try eassumption. apply Hw; exact Hw'.
  - constructor; [|constructor]. apply Htmp. apply Hw; exact Hw'.
Qed.

Definition is_write (t : tool) : bool := match t with TWrite => true | _ => false end.

(* it is the root itself, or what the file-tool resolver makes of some string - for the write tool, of the argument *)
Lemma tool_path_shape t root raw p : tool_path t root raw = Ok p ->
  (p = root /\ is_write t = false) \/ exists x, resolve_tool root x = Ok p /\ (is_write t = true -> x = raw).
Proof.
  destruct t; cbn [tool_path is_write]; intros H;
    try (right; exists raw; split; [exact H|reflexivity]);
    try (unfold patch_target in H; destruct (parse_rel_path raw) as [x|]; [|discriminate];
         right; exists x; split; [exact H|discriminate]).
  - inversion H. left. split; reflexivity.
  - destruct (to_relative root raw) as [rel|e] eqn:Er; [|discriminate]. inversion H.
    destruct (to_relative_ok _ _ _ Er) as [Hr Hp]. right. exists rel. split; [|discriminate].
    apply resolver_accepts; assumption.
Qed.

Lemma tool_path_inside t root raw p : abs root -> nopar root -> tool_path t root raw = Ok p ->
  abs p /\ nopar p /\ exists l, real_segs p = real_segs root ++ l
    /\ (is_write t = true -> tool_refuses_dir t raw = false -> l <> []).
Proof.
  intros Ha Hn H. destruct (tool_path_shape _ _ _ _ H) as [[-> Hw]|(x & Hx & Hw)].
  - split; [exact Ha|]. split; [exact Hn|]. exists []. split; [symmetry; apply app_nil_r|congruence].
  - destruct (resolve_tool_ok _ _ _ Hx) as (Hr & Hp & ->). destruct (join_props root x Ha Hn Hr Hp) as (A & B & C).
    split; [exact A|]. split; [exact B|]. exists (real_segs x). split; [exact C|].
    intros Hwt Hf. rewrite (Hw Hwt). apply file_name_some_real. intros E.
    destruct t; try discriminate. cbn [tool_refuses_dir] in Hf. rewrite E in Hf. discriminate.
Qed.

Lemma op_eqb_spec a b : op_eqb a b = true <-> a = b.
Proof.
  destruct a, b. unfold op_eqb. cbn [fst snd]. rewrite andb_true_iff, !N.eqb_eq.
  split; [intros [-> ->]; reflexivity|intros E; inversion E; auto].
Qed.

Lemma prog_eqb_spec a b : prog_eqb a b = true <-> a = b.
Proof.
  destruct a as [i s], b as [j t]. unfold prog_eqb. cbn [fst snd].
  rewrite andb_true_iff, N.eqb_eq, (list_eqb_spec op_eqb op_eqb_spec).
  split; [intros [-> ->]; reflexivity|intros E; inversion E; auto].
Qed.

Lemma tools_wf_progs found progs : tools_wf found progs = true -> progs = expected_progs.
Proof.
  unfold tools_wf. intros H. apply andb_true_iff in H. destruct H as [_ H].
  exact (proj1 (list_eqb_spec prog_eqb prog_eqb_spec _ _) H).
Qed.

(* evaluation of the 13 programs: each uses only the derivations `dok` allows for its tool - with `deriv_inside` this is
   the whole confinement argument *)
Lemma expected_progs_ok t : forallb (fun od => dok (is_write t) (snd od)) (prog_of expected_progs (tool_id t)) = true.
Proof. destruct t; reflexivity. Qed.

(* Every access of every tool lands at or below the root, and a refused call makes none.  The hypothesis about `ex`
   (the root exists) is used only for the parent chains (derivations 2 / 12), the one about `with_extension` only for
   the temporary file of the write tool (derivations 3 / 13 occur in program 21 alone); `write_tmp_inside` discharges
   the latter for every argument that ends with a file name satisfying `tmp_safe`. *)
Theorem tools_confined (t : tool) (ex : str -> bool) (root raw ext : str) (names : list str) (cwd : list str)
    (found : bool) (progs : list (N * list (N * N))) (v : N) (accs : list (N * str)) :
  tools_wf found progs = true ->
  abs root -> nopar root ->
  (forall s, abs s -> nopar s -> real_segs s = real_segs root -> ex s = true) ->
  forallb proper_name names = true ->
  (forall p, tool_path t root raw = Ok p -> real_segs p <> real_segs root ->
     inside (real_segs root) (with_extension p ext)) ->
  tool_run progs t ex root raw ext names = (v, accs) ->
  (v <> 0 -> accs = []) /\ (forall o q, In (o, q) accs -> under cwd root q).
Proof.
  intros Hwf Ha Hn Hex Hnames Htmp Hrun. rewrite (tools_wf_progs _ _ Hwf) in Hrun. unfold tool_run in Hrun.
  destruct (tool_path t root raw) as [p|e] eqn:Ep.
  2:{ inversion Hrun; subst. split; [reflexivity|]. intros o q []. }
  destruct (tool_path_inside t root raw p Ha Hn Ep) as (Hpa & Hpn & l & El & Hw).
  destruct (tool_refuses_dir t raw) eqn:Er.
  { inversion Hrun; subst. split; [reflexivity|]. intros o q []. }
  inversion Hrun; subst v accs; clear Hrun. split; [congruence|].
  intros o q Hin. apply in_flat_map in Hin. destruct Hin as ([o' d] & Hod & Hin). cbn [fst snd] in Hin.
  apply in_map_iff in Hin. destruct Hin as (q' & E & Hq'). inversion E; subst o q'; clear E.
  pose proof (expected_progs_ok t) as Hok. rewrite forallb_forall in Hok. specialize (Hok _ Hod). cbn [snd] in Hok.
  assert (HF : Forall (inside (real_segs root)) (deriv_paths ex root p ext names d)).
  { eapply deriv_inside with (w := is_write t) (l := l); try eassumption.
    - intros Hwt. apply Hw; [exact Hwt|reflexivity].
    - intros Hl. apply Htmp; [reflexivity|]. rewrite El. intros E. apply Hl.
      rewrite <- (app_nil_r (real_segs root)) in E at 2. apply app_inv_head in E. exact E. }
  rewrite Forall_forall in HF. apply inside_under; [exact Ha|exact Hn|]. apply HF. exact Hq'.
Qed.

(* Path::with_extension for a path that ends with its file name; `tmp_safe` excludes the names `..x` *)
Definition tmp_safe (name : str) : bool :=
  match split_first 46 [] (rev name) with
  | Some (_, before_rev) => negb (lN_eqb before_rev [46])
  | None => true
  end.

Lemma split_first_spec c s : forall acc a b, split_first c acc s = Some (a, b) ->
  exists pre, s = pre ++ c :: b /\ a = rev pre ++ acc.
Proof.
  induction s as [|x s IH]; intros acc a b H; cbn [split_first] in H; [discriminate|].
  destruct (x =? c) eqn:E.
  - apply N.eqb_eq in E. subst x. inversion H; subst. exists []. split; reflexivity.
  - destruct (IH _ _ _ H) as (pre & E1 & E2). exists (x :: pre). split; [rewrite E1; reflexivity|].
    rewrite E2. cbn [rev]. rewrite <- app_assoc. reflexivity.
Qed.

Lemma last_dot name after before :
  split_first 46 [] (rev name) = Some (after, before) -> name = rev before ++ 46 :: after.
Proof.
  intros H. destruct (split_first_spec _ _ _ _ _ H) as (pre & E1 & ->).
  rewrite app_nil_r, <- (rev_involutive name), E1, rev_app_distr. cbn [rev]. rewrite <- app_assoc. reflexivity.
Qed.

(* '' and '.' have fewer than two characters, '..' fewer than three *)
Lemma len2_not_trivial (n : str) : (2 <= length n)%nat -> seg_trivial n = false.
Proof.
  intros H. destruct n as [|a [|b r]]; cbn [length] in H; try lia. cbn [seg_trivial]. unfold seg_dot.
  destruct (lN_eqb (a :: b :: r) [46]) eqn:E; [|reflexivity]. apply lN_eqb_spec in E. discriminate.
Qed.

Lemma long_not_trivial (n : str) : (3 <= length n)%nat -> seg_trivial n = false /\ seg_dotdot n = false.
Proof.
  intros H. split; [apply len2_not_trivial; lia|]. unfold seg_dotdot.
  destruct (lN_eqb n [46; 46]) eqn:E; [|reflexivity]. apply lN_eqb_spec in E. subst n. cbn [length] in H. lia.
Qed.

(* PathBuf::set_extension touches the last segment only *)
Lemma set_ext_last P1 s ext : ~ In 47 s -> seg_trivial s = false -> seg_dotdot s = false ->
  set_ext (P1 ++ 47 :: s) ext = join_segs (segs P1 ++ [stem s ++ 46 :: ext]).
Proof.
  intros H47 Ht Hd. unfold set_ext. rewrite segs_app_sep, (segs_single s H47), rev_app_distr. cbn [rev app drop_trivial].
  rewrite Ht, Hd, rev_involutive. reflexivity.
Qed.

Lemma tmp_result P1 name ext : ~ In 47 name -> seg_trivial name = false -> seg_dotdot name = false ->
  tmp_safe name = true -> ext <> [] -> ~ In 47 ext ->
  exists n', with_extension (P1 ++ 47 :: name) ext = join_segs (segs P1 ++ [n'])
             /\ ~ In 47 n' /\ (3 <= length n')%nat.
Proof.
  intros H47 Ht Hd Hsafe Hext He47. set (p := P1 ++ 47 :: name).
  assert (Hfn : file_name p = Some name).
  { unfold file_name, p. rewrite segs_app_sep, (segs_single name H47), rev_app_distr. cbn [rev app drop_trivial].
    rewrite Ht, Hd. reflexivity. }
  (* whatever last segment s2 the cut leaves, the result ends in its stem followed by the new extension *)
  assert (Hclose : forall s2 st, cut_ext p = P1 ++ 47 :: s2 -> ~ In 47 s2 -> seg_trivial s2 = false ->
            seg_dotdot s2 = false -> stem s2 = st -> st <> [] -> ~ In 47 st ->
            exists n', with_extension p ext = join_segs (segs P1 ++ [n']) /\ ~ In 47 n' /\ (3 <= length n')%nat).
  { intros s2 st Ec Hs Hst Hsd Est Hne Hst47. exists (st ++ 46 :: ext). unfold with_extension.
    rewrite Ec, set_ext_last, Est by assumption. split; [reflexivity|]. split.
    - intros Hin. apply in_app_or in Hin. destruct Hin as [Hin|[Hin|Hin]]; [exact (Hst47 Hin)|discriminate|exact (He47 Hin)].
    - rewrite app_length. cbn [length]. destruct st; [congruence|]. destruct ext; [congruence|]. cbn [length]. lia. }
  assert (Hname : name <> []) by (intros ->; discriminate).
  unfold tmp_safe in Hsafe. destruct (split_first 46 [] (rev name)) as [[after [|b br]]|] eqn:Esf.
  1, 3: apply (Hclose name name); try assumption; [unfold cut_ext, extension|unfold stem]; rewrite ?Hfn, ?Hd, Esf; reflexivity.
  (* a real extension: name = st ++ "." ++ after, and the cut leaves st ++ "." *)
  pose proof (last_dot _ _ _ Esf) as En. set (st := rev (b :: br)) in *.
  assert (Hne : st <> []) by (unfold st; cbn [rev]; destruct (rev br); discriminate).
  assert (Hsd : seg_dotdot (st ++ [46]) = false).
  { unfold seg_dotdot. destruct (lN_eqb (st ++ [46]) [46; 46]) eqn:E; [|reflexivity]. apply lN_eqb_spec in E.
    apply (app_inj_tail st [46]) in E. destruct E as [E _]. apply (f_equal (@rev N)) in E. unfold st in E.
    rewrite rev_involutive in E. rewrite E in Hsafe. discriminate. }
  apply (Hclose (st ++ [46]) st); try assumption.
  - unfold cut_ext, extension. rewrite Hfn, Esf. unfold p. rewrite En.
    replace (P1 ++ 47 :: st ++ 46 :: after) with ((P1 ++ 47 :: st ++ [46]) ++ after)
      by (rewrite <- !app_assoc; cbn [app]; rewrite <- app_assoc; reflexivity).
    rewrite app_length, Nat.add_sub, firstn_app, Nat.sub_diag, firstn_all. cbn [firstn]. apply app_nil_r.
  - intros Hin. apply H47. rewrite En. apply in_app_or in Hin. apply in_or_app.
    destruct Hin as [Hin|[Hin|[]]]; [left; exact Hin|discriminate].
  - apply len2_not_trivial. rewrite app_length. cbn [length]. destruct st; [congruence|cbn [length]; lia].
  - unfold stem. rewrite Hsd, rev_app_distr. cbn [rev app split_first]. rewrite N.eqb_refl.
    replace (rev st) with (b :: br) by (symmetry; apply rev_involutive). reflexivity.
  - intros Hin. apply H47. rewrite En. apply in_or_app. left; exact Hin.
Qed.

Lemma no_sep_snoc a : no_sep (a ++ [47]) = true.
Proof. induction a as [|x a IH]; [reflexivity|]. cbn [app]. destruct (a ++ [47]) eqn:E; [destruct a; discriminate|exact IH]. Qed.

Lemma tmp_clean P1 name ext R l0 :
  abs (P1 ++ [47]) -> nopar (P1 ++ [47]) -> real_segs (P1 ++ [47]) = R ++ l0 ->
  proper_name name = true -> tmp_safe name = true -> ext <> [] -> ~ In 47 ext ->
  inside R (with_extension (P1 ++ 47 :: name) ext).
Proof.
  intros Ha Hn El Hp Hsafe Hext He47. destruct (proper_noslash name Hp) as (H47 & Ht & Hd).
  destruct (tmp_result P1 name ext H47 Ht Hd Hsafe Hext He47) as (n' & E & Hn47 & Hlen).
  destruct (long_not_trivial n' Hlen) as [Hnt Hnd].
  (* the temporary path is the directory text joined with a directory-entry name *)
  assert (Ej : with_extension (P1 ++ 47 :: name) ext = join (P1 ++ [47]) n').
  { rewrite E. replace [n'] with (segs n') by (apply segs_single; exact Hn47). rewrite <- segs_app_sep, join_segs_segs. unfold join.
    rewrite (noslash_not_abs n' Hn47), no_sep_snoc, <- app_assoc. reflexivity. }
  rewrite Ej. destruct (join_name _ n' Ha Hn (proper_of n' Hn47 Hnt Hnd)) as (A & B & C).
  split; [exact A|]. split; [exact B|]. exists (l0 ++ [n']). rewrite C, El, app_assoc. reflexivity.
Qed.

(* the write tool's temporary file for a string `d ++ name` (d empty or a directory text ending in '/') *)
Lemma write_tmp_inside root d name ext :
  abs root -> nopar root ->
  is_absolute d = false -> has_parent d = false -> (d = [] \/ exists dir, d = dir ++ [47]) ->
  proper_name name = true -> tmp_safe name = true -> ext <> [] -> ~ In 47 ext ->
  inside (real_segs root) (with_extension (join root (d ++ name)) ext).
Proof.
  intros Ha Hn Hd Hp Hshape Hname Hsafe Hext He47.
  destruct (proper_noslash name Hname) as (H47 & _ & _).
  assert (Hrel : is_absolute (d ++ name) = false).
  { destruct d as [|x r]; [apply noslash_not_abs; exact H47|]. unfold is_absolute in *.
    rewrite starts_slash_app by discriminate. exact Hd. }
  (* root.join(d) is a directory text P1 ++ "/" and root.join(d ++ name) is P1 ++ "/" ++ name *)
  assert (exists P1, join root d = P1 ++ [47] /\ join root (d ++ name) = P1 ++ 47 :: name) as (P1 & E1 & E2).
  { unfold join. rewrite Hrel, Hd. destruct (no_sep root) eqn:Hs.
    - destruct (no_sep_cases root Hs) as [->|[r ->]]; [discriminate Ha|].
      destruct Hshape as [->|[dir ->]]; [exists r|exists ((r ++ [47]) ++ dir)]; split; rewrite <- ?app_assoc; reflexivity.
    - destruct Hshape as [->|[dir ->]]; [exists root|exists (root ++ 47 :: dir)]; split; rewrite <- ?app_assoc; reflexivity. }
  rewrite E2. destruct (join_props root d Ha Hn Hd Hp) as (A & B & C). rewrite E1 in A, B, C.
  eapply tmp_clean; eassumption.
Qed.
