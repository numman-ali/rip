(* C01 - proofs about the started-guard of SessionEngine::spawn_session (Model/SessGuard.v) and its
   composition with the store's transition system: with an atomic read-modify-write guard at most one
   of any number of concurrent inputs to a session is accepted, under every schedule, so the session
   stream has one writer and c01_valid_all_schedules applies; with check-then-set two are accepted and
   the stream reads 0,0,1,1,2,2. *)
From RipV Require Import Base.Prelude Model.Frames Model.Log Model.ContStore Model.ContInv Model.SessGuard
  Proofs.LogProofs Proofs.ContStoreProofs Proofs.ContOrderProofs.

Lemma gset_accepted l : forall a v, nth_error l a = Some GInit ->
  accepted_n (gset l a v) = (accepted_n l + (if gpc_accepted v then 1 else 0))%nat.
Proof.
  unfold accepted_n.
  induction l as [|x r IH]; intros [|a] v H; cbn [nth_error] in H; try discriminate.
  - inversion H; subst x. cbn [gset filter gpc_accepted]. destruct (gpc_accepted v); cbn [length]; lia.
  - cbn [gset filter]. destruct (gpc_accepted x); cbn [length]; rewrite (IH a v H); lia.
Qed.

Lemma gset_nopassed l : forall a v, existsb gpc_passed l = false -> gpc_passed v = false ->
  existsb gpc_passed (gset l a v) = false.
Proof.
  induction l as [|x r IH]; intros [|a] v H Hv; cbn [gset existsb] in *; try reflexivity.
  - apply orb_false_iff in H. destruct H as [_ H]. rewrite Hv, H. reflexivity.
  - apply orb_false_iff in H. destruct H as [Hx H]. rewrite Hx, (IH a v H Hv). reflexivity.
Qed.

Lemma nth_passed l : forall a, nth_error l a = Some GPassed -> existsb gpc_passed l = true.
Proof.
  induction l as [|x r IH]; intros [|a] H; cbn [nth_error] in H; try discriminate.
  - inversion H; subst x. reflexivity.
  - cbn [existsb]. rewrite (IH a H). apply orb_true_r.
Qed.

Lemma accepted_repeat_init n : accepted_n (repeat GInit n) = 0%nat.
Proof. unfold accepted_n. induction n as [|n IH]; cbn [repeat filter gpc_accepted]; [reflexivity|exact IH]. Qed.

Lemma nopassed_repeat_init n : existsb gpc_passed (repeat GInit n) = false.
Proof. induction n as [|n IH]; cbn [repeat existsb gpc_passed]; [reflexivity|exact IH]. Qed.

(* invariant of the atomic guard: the flag says whether an input has been accepted, nobody stands
   between test and set, and as long as the flag is down nobody has moved *)
Definition GInvA (n : nat) (st : bool * list gpc) : Prop :=
  accepted_n (snd st) = (if fst st then 1 else 0)%nat
  /\ existsb gpc_passed (snd st) = false
  /\ (fst st = false -> snd st = repeat GInit n).

Lemma ginva_init n : GInvA n (false, repeat GInit n).
Proof.
  unfold GInvA. cbn [fst snd]. split; [apply accepted_repeat_init|]. split; [apply nopassed_repeat_init|reflexivity].
Qed.

Lemma ginva_step gk n st a : sg_atomic gk = true -> GInvA n st -> GInvA n (gstep gk st a).
Proof.
  intros Hk [Hacc [Hnp Hdown]]. destruct gk; [|discriminate Hk]. unfold gstep.
  destruct (nth_error (snd st) a) as [pc|] eqn:En; [|repeat split; assumption].
  destruct pc; try (repeat split; assumption).
  - (* GInit *) destruct (fst st) eqn:Ef; unfold GInvA; cbn [fst snd];
      (split; [rewrite (gset_accepted _ _ _ En); cbn [gpc_accepted]; lia|]);
      (split; [apply gset_nopassed; [exact Hnp|reflexivity]|discriminate]).
  - (* GPassed: excluded *) rewrite (nth_passed _ _ En) in Hnp. discriminate.
Qed.

Lemma ginva_run gk n : sg_atomic gk = true -> forall sched st, GInvA n st -> GInvA n (fold_left (gstep gk) sched st).
Proof. intros Hk. apply fold_left_inv. intros st a. apply ginva_step, Hk. Qed.

(* at most one of the concurrent inputs is accepted: any number of callers, any schedule *)
Theorem atomic_at_most_one gk n sched : sg_atomic gk = true -> (accepted_n (snd (grun gk n sched)) <= 1)%nat.
Proof.
  intros Hk. destruct (ginva_run gk n Hk sched _ (ginva_init n)) as [Hacc _]. unfold grun.
  rewrite Hacc. destruct (fst _); lia.
Qed.

Lemma flag_stays gk st a : fst st = true -> fst (gstep gk st a) = true.
Proof.
  intros Hf. unfold gstep. destruct (nth_error (snd st) a) as [pc|]; [|exact Hf].
  destruct pc; try exact Hf; try reflexivity. destruct gk; rewrite Hf; reflexivity.
Qed.

Lemma flag_stays_run gk : forall sched st, fst st = true -> fst (fold_left (gstep gk) sched st) = true.
Proof. apply (fold_left_inv _ (fun st => fst st = true)), flag_stays. Qed.

Lemma atomic_flag_up gk n a : sg_atomic gk = true -> (a < n)%nat ->
  forall sched st, GInvA n st -> In a sched -> fst (fold_left (gstep gk) sched st) = true.
Proof.
  intros Hk Ha sched. induction sched as [|b r IH]; intros st Hi Hin; [destruct Hin|].
  cbn [fold_left]. destruct Hin as [->|Hin].
  - apply flag_stays_run. destruct (fst st) eqn:Ef; [apply flag_stays; exact Ef|].
    destruct Hi as [_ [_ Hdown]]. destruct gk; [|discriminate Hk]. unfold gstep.
    rewrite (Hdown Ef), (nth_error_repeat GInit Ha), Ef. reflexivity.
  - apply IH; [apply ginva_step; assumption|exact Hin].
Qed.

(* ... and exactly one as soon as one caller takes a step *)
Theorem atomic_exactly_one gk n sched a : sg_atomic gk = true -> (a < n)%nat -> In a sched ->
  accepted_n (snd (grun gk n sched)) = 1%nat.
Proof.
  intros Hk Ha Hin. destruct (ginva_run gk n Hk sched _ (ginva_init n)) as [Hacc _]. unfold grun. rewrite Hacc.
  rewrite (atomic_flag_up gk n a Hk Ha sched _ (ginva_init n) Hin). reflexivity.
Qed.

(* witnesses (w_..).  Check-then-set: two callers, load / load / spawn+store / spawn+store *)
Definition w_cts_gsched : list nat := [0; 1; 0; 1]%nat.
Definition w_cts_run : list etype := [ESessionStarted; EOutputTextDelta; ESessionEnded].
Definition w_cts_actors : list (list mstep * N) := session_actors SgCheckThenSet 2 w_cts_gsched 7 w_cts_run.
Definition w_cts_sched : list N := [0; 1; 0; 1; 0; 1].
Definition w_cts_log : log := s_log (run w_cts_sched (spawn w_cts_actors empty_state)).

Lemma w_cts_accepts_two : accepted_n (snd (grun SgCheckThenSet 2 w_cts_gsched)) = 2%nat.
Proof. vm_compute. reflexivity. Qed.
Lemma w_cts_invalid : validate w_cts_log = false.
Proof. vm_compute. reflexivity. Qed.
Lemma w_cts_seqs : map seq w_cts_log = [0; 0; 1; 1; 2; 2].
Proof. vm_compute. reflexivity. Qed.
(* every other hypothesis of session_single_writer holds of the witness *)
Lemma w_cts_hyps : SInv empty_state /\ forallb is_sess w_cts_run = true
  /\ sess_fresh empty_state [(session_prog w_cts_run, 7)] /\ sess_distinct [(session_prog w_cts_run, 7)].
Proof.
  split; [apply empty_sinv|]. split; [reflexivity|]. split.
  - unfold sess_fresh. constructor; [|constructor]. intros _. reflexivity.
  - cbn [sess_distinct]. split; [intros _; constructor|exact I].
Qed.
(* the same two callers, the same schedule, the atomic guard: one run, the stream validates *)
Lemma w_cts_atomic_valid :
  accepted_n (snd (grun SgAtomicRmw 2 w_cts_gsched)) = 1%nat
  /\ validate (s_log (run w_cts_sched (spawn (session_actors SgAtomicRmw 2 w_cts_gsched 7 w_cts_run) empty_state))) = true.
Proof. split; vm_compute; reflexivity. Qed.

(* non-vacuity of session_single_writer: four clients, a thread being created and a task pump next to them *)
Definition w_sg_others : list (list mstep * N) :=
  [(create_prog [], 0); (session_prog [ESessionStarted; ESessionEnded], 9); (task_emit EToolTaskOutputDelta, 5)].
Lemma w_sg_hyps : SInv empty_state /\ forallb is_sess w_cts_run = true /\ progs_wf w_sg_others
  /\ sess_fresh empty_state ((session_prog w_cts_run, 7) :: w_sg_others)
  /\ sess_distinct ((session_prog w_cts_run, 7) :: w_sg_others).
Proof.
  split; [apply empty_sinv|]. split; [reflexivity|]. split.
  - unfold progs_wf, w_sg_others. repeat constructor.
  - split.
    + unfold sess_fresh, w_sg_others. repeat constructor.
    + cbn [sess_distinct w_sg_others]. repeat split; try (intros _); repeat constructor; try (intros _; discriminate);
        try (intros H; discriminate H).
Qed.
Lemma w_sg_log :
  canon_log (s_log (run [0; 1; 1; 2; 0; 3; 3; 3; 3; 3; 0; 2; 1; 1; 1; 1; 1; 1]
                        (spawn (session_actors SESS_GUARD 4 [2; 0; 3; 1; 2]%nat 7 w_cts_run ++ w_sg_others) empty_state)))
  = [0; 0; 0;  1; 0; 0;  0; 1; 1;  2; 0; 34;  0; 2; 2;  1; 1; 2;  3; 0; 3].
Proof. vm_compute. reflexivity. Qed.

Lemma run_frames_valid_from sid : forall sites l cnt,
  forallb is_sess (map fst sites) = true -> Forall (fun s => snd s = 1) sites ->
  Valid l -> cnt = next_of KSession sid l -> Valid (l ++ run_frames sid cnt sites).
Proof.
  induction sites as [|[t k] r IH]; intros l cnt Hs Hk Hv Hc; cbn [run_frames].
  - rewrite app_nil_r. exact Hv.
  - cbn [map fst forallb] in Hs. apply andb_true_iff in Hs. destruct Hs as [Ht Hs].
    inversion Hk as [|x y Hk1 Hk2]; subst x y. cbn [snd] in Hk1. subst k.
    set (f := {| fid := 0; sid := sid; seq := cnt; ety := t; args := [] |}).
    assert (Hfk : fkind f = KSession) by (apply is_sess_kind; exact Ht).
    replace (l ++ f :: run_frames sid (cnt + 1) r) with ((l ++ [f]) ++ run_frames sid (cnt + 1) r)
      by (rewrite <- app_assoc; reflexivity).
    apply IH; [exact Hs|exact Hk2| |].
    + apply Valid_snoc. split; [exact Hv|]. rewrite Hfk. exact Hc.
    + rewrite (next_of_snoc_same KSession sid f l Hfk eq_refl), Hc. reflexivity.
Qed.

(* every site increments exactly once => the run's stream is 0,1,2,.. (on a fresh stream, and appended
   to any valid log in which the stream has `cnt` frames) *)
Theorem run_counter_valid sid sites :
  forallb is_sess (map fst sites) = true -> Forall (fun s => snd s = 1) sites ->
  Valid (run_frames sid 0 sites).
Proof.
  intros Hs Hk. apply (run_frames_valid_from sid sites [] 0 Hs Hk Valid_nil). reflexivity.
Qed.

(* ... in particular when every dynamic emission happens at one of the static sites the extractor
   found and all of those increment once *)
Theorem run_counter_valid_static (static : list (N * N)) sid (run : list (etype * N)) :
  sites_ok static = true ->
  forallb is_sess (map fst run) = true ->
  Forall (fun s => In (snd s) (map snd static)) run ->
  Valid (run_frames sid 0 run).
Proof.
  intros Hok Hs Hin. apply run_counter_valid; [exact Hs|].
  unfold sites_ok in Hok. apply andb_true_iff in Hok. destruct Hok as [_ Hall].
  rewrite forallb_forall in Hall. rewrite Forall_forall in *. intros x Hx.
  specialize (Hin x Hx). apply in_map_iff in Hin. destruct Hin as [s [Hs1 Hs2]].
  specialize (Hall s Hs2). apply N.eqb_eq in Hall. congruence.
Qed.

(* a run all of whose sites add one carries cnt, cnt+1, .. *)
Lemma run_frames_seqs sid : forall ts cnt,
  map seq (run_frames sid cnt (map (fun t => (t, 1)) ts)) = nseq cnt (length ts).
Proof.
  induction ts as [|t r IH]; intros cnt; cbn [map run_frames nseq length]; [reflexivity|].
  rewrite IH. reflexivity.
Qed.

(* a site without its increment (seeded change C01-3: the provider_event frame of a request that fails
   local validation, then the run's closing frame) *)
Definition w_noinc_run : list (etype * N) := [(ESessionStarted, 1); (EProviderEvent, 0); (ESessionEnded, 1)].
Lemma w_noinc_invalid : validate (run_frames 7 0 w_noinc_run) = false /\ map seq (run_frames 7 0 w_noinc_run) = [0; 1; 1].
Proof. split; vm_compute; reflexivity. Qed.
Lemma w_noinc_fixed_valid : validate (run_frames 7 0 [(ESessionStarted, 1); (EProviderEvent, 1); (ESessionEnded, 1)]) = true.
Proof. vm_compute. reflexivity. Qed.

(* the actors of every mixed correspondence case meet the hypotheses of the theorem *)
Lemma wf_prog_of_mop l o : mop_ok cop_ok o = true -> wf_prog (prog_of_mop l o) = true.
Proof.
  destruct o as [c|ts [th|]|th ts]; cbn [mop_ok prog_of_mop]; intros H.
  - apply wf_prog_of_cop. exact H.
  - apply wf_prog_app; [apply wf_session; exact H|apply wf_locked_call; reflexivity].
  - apply wf_session. exact H.
  - apply (wf_prog_concat_map _ is_cont); [|exact H]. intros t. apply wf_locked_call.
Qed.

Lemma mix_from_wf l : forall acts i,
  forallb (forallb (mop_ok cop_ok)) acts = true -> progs_wf (mix_from i l acts).
Proof.
  unfold progs_wf. induction acts as [|ops r IH]; intros i H; cbn [mix_from]; constructor.
  - cbn [forallb] in H. apply andb_true_iff in H. cbn [fst].
    apply (wf_prog_concat_map _ (mop_ok cop_ok)); [apply wf_prog_of_mop|tauto].
  - apply IH. cbn [forallb] in H. apply andb_true_iff in H. tauto.
Qed.

Lemma mix_from_ge l : forall acts i y, In y (mix_from i l acts) -> MIX_SESS_BASE + i <= snd y.
Proof.
  induction acts as [|ops r IH]; intros i y H; cbn [mix_from] in H; [destruct H|].
  destruct H as [<-|H]; [cbn [snd]; lia|]. apply IH in H. lia.
Qed.

Lemma mix_from_distinct l : forall acts i, sess_distinct (mix_from i l acts).
Proof.
  induction acts as [|ops r IH]; intros i; cbn [mix_from sess_distinct]; [exact I|].
  split; [|apply IH]. intros _. apply Forall_forall. intros y Hy _. apply mix_from_ge in Hy. lia.
Qed.

Theorem mix_actors_ok l acts :
  forallb (forallb (mop_ok cop_ok)) acts = true ->
  progs_wf (mix_actors l acts) /\ sess_distinct (mix_actors l acts).
Proof. intros H. split; [apply mix_from_wf; exact H|apply mix_from_distinct]. Qed.

(* `Sub a b`: a is b with some elements left out, the order kept *)
Inductive Sub {A} : list A -> list A -> Prop :=
| sub_nil : Sub [] []
| sub_skip a b x : Sub a b -> Sub a (x :: b)
| sub_keep a b x : Sub a b -> Sub (x :: a) (x :: b).

Lemma sub_refl {A} (l : list A) : Sub l l.
Proof. induction l as [|x r IH]; [constructor|apply sub_keep; exact IH]. Qed.

Lemma sub_app {A} (a b c d : list A) : Sub a b -> Sub c d -> Sub (a ++ c) (b ++ d).
Proof.
  intros H1 H2. induction H1 as [|a b x H IH|a b x H IH]; cbn [app];
    [exact H2|apply sub_skip; exact IH|apply sub_keep; exact IH].
Qed.

Lemma sub_forall {A} (P : A -> Prop) (a b : list A) : Sub a b -> Forall P b -> Forall P a.
Proof.
  intros H. induction H as [|a b x H IH|a b x H IH]; intros Hb; [constructor| |].
  - apply IH. apply (Forall_inv_tail Hb).
  - constructor; [apply (Forall_inv Hb)|apply IH; apply (Forall_inv_tail Hb)].
Qed.

Lemma sub_distinct (a b : list (list mstep * N)) : Sub a b -> sess_distinct b -> sess_distinct a.
Proof.
  intros H. induction H as [|a b x H IH|a b x H IH]; intros Hb; [exact I| |].
  - destruct x as [prog s]. cbn [sess_distinct] in Hb. apply IH. apply (proj2 Hb).
  - destruct x as [prog s]. cbn [sess_distinct] in *. destruct Hb as [H1 H2]. split; [|apply IH; exact H2].
    intros Hu. apply (sub_forall _ _ _ H). apply H1. exact Hu.
Qed.

Lemma sessions_sub gk qs : sg_atomic gk = true -> Sub (sessions_actors gk qs) (one_run_each qs).
Proof.
  intros Hk. unfold sessions_actors, one_run_each. induction qs as [|q r IH]; cbn [map concat]; [constructor|].
  unfold session_actors at 1.
  pose proof (atomic_at_most_one gk (sq_n q) (sq_gsched q) Hk) as Hle.
  destruct (accepted_n (snd (grun gk (sq_n q) (sq_gsched q)))) as [|[|k]]; [| |lia]; cbn [runs_of repeat app].
  - apply sub_skip. exact IH.
  - apply sub_keep. exact IH.
Qed.

(* any number of sessions, any number of clients posting input to each of them at the same time, any schedule
   of all guard steps (per session - the flags are independent), next to any other well-formed actors: as
   long as ONE run per session would be fine (fresh, pairwise distinct session streams), whatever is accepted
   keeps every stream in order *)
Theorem sessions_single_writer gk qs others sched st :
  sg_atomic gk = true ->
  SInv st -> Forall (fun q => forallb is_sess (sq_ts q) = true) qs -> progs_wf others ->
  sess_fresh st (one_run_each qs ++ others) -> sess_distinct (one_run_each qs ++ others) ->
  Valid (s_log (run sched (spawn (sessions_actors gk qs ++ others) st))).
Proof.
  intros Hk S Hts Hwf Hsf Hsd.
  assert (Hsub : Sub (sessions_actors gk qs ++ others) (one_run_each qs ++ others))
    by (apply sub_app; [apply sessions_sub; exact Hk|apply sub_refl]).
  apply valid_all_schedules; [exact S| | |].
  - unfold progs_wf. apply (sub_forall _ _ _ Hsub). apply Forall_app. split; [|exact Hwf].
    unfold one_run_each. apply Forall_map. apply (Forall_impl _ (fun q Hq => wf_session (sq_ts q) Hq) Hts).
  - unfold sess_fresh in *. apply (sub_forall _ _ _ Hsub). exact Hsf.
  - apply (sub_distinct _ _ Hsub Hsd).
Qed.

(* ... with ONE session: any number of clients post input to session `sid` at the same time (any schedule of
   their guard steps), next to any other well-formed actors (appends, branches, other runs, task pumps)
   on any store satisfying the store invariant; whatever the accepted runs and the others do, under any
   schedule, every stream stays 0,1,2,.. - provided the guard is an atomic read-modify-write. *)
Theorem session_single_writer gk n gsched sid ts others sched st :
  sg_atomic gk = true ->
  SInv st -> forallb is_sess ts = true -> progs_wf others ->
  sess_fresh st ((session_prog ts, sid) :: others) -> sess_distinct ((session_prog ts, sid) :: others) ->
  Valid (s_log (run sched (spawn (session_actors gk n gsched sid ts ++ others) st))).
Proof.
  intros Hk S Hts Hwf Hsf Hsd.
  set (q := {| sq_sid := sid; sq_ts := ts; sq_n := n; sq_gsched := gsched |}).
  assert (Hq : Forall (fun q => forallb is_sess (sq_ts q) = true) [q]) by (constructor; [exact Hts|constructor]).
  pose proof (sessions_single_writer gk [q] others sched st Hk S Hq Hwf Hsf Hsd) as H.
  unfold sessions_actors in H. cbn [map concat q sq_sid sq_ts sq_n sq_gsched] in H. rewrite app_nil_r in H. exact H.
Qed.

Theorem session_single_writer_validates gk n gsched sid ts others sched st :
  sg_atomic gk = true ->
  SInv st -> forallb is_sess ts = true -> progs_wf others ->
  sess_fresh st ((session_prog ts, sid) :: others) -> sess_distinct ((session_prog ts, sid) :: others) ->
  validate (s_log (run sched (spawn (session_actors gk n gsched sid ts ++ others) st))) = true.
Proof. intros. apply validate_spec. apply session_single_writer; assumption. Qed.

(* non-vacuity: two sessions (3 and 2 clients) next to a thread creation *)
Definition w_qs : list sess_req :=
  [{| sq_sid := 7; sq_ts := w_cts_run; sq_n := 3; sq_gsched := [2; 0; 1; 2]%nat |};
   {| sq_sid := 8; sq_ts := [ESessionStarted; ESessionEnded]; sq_n := 2; sq_gsched := [1; 0]%nat |}].
Lemma w_qs_hyps : SInv empty_state /\ Forall (fun q => forallb is_sess (sq_ts q) = true) w_qs
  /\ progs_wf [(create_prog [], 0)]
  /\ sess_fresh empty_state (one_run_each w_qs ++ [(create_prog [], 0)])
  /\ sess_distinct (one_run_each w_qs ++ [(create_prog [], 0)]).
Proof.
  split; [apply empty_sinv|]. split; [repeat constructor|]. split; [repeat constructor|]. split.
  - unfold sess_fresh. repeat constructor.
  - cbn [sess_distinct one_run_each w_qs map app sq_ts sq_sid]. repeat split; try (intros _); repeat constructor;
      try (intros _; discriminate); try (intros H; discriminate H).
Qed.
Lemma w_qs_log :
  canon_log (s_log (run [0; 1; 0; 1; 0] (spawn (sessions_actors SESS_GUARD w_qs ++ [(create_prog [], 0)]) empty_state)))
  = [0; 0; 0;  1; 0; 0;  0; 1; 1;  1; 1; 2;  0; 2; 2].
Proof. vm_compute. reflexivity. Qed.
