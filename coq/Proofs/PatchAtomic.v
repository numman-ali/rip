(* C12 — atomicity of Workspace::apply_patch (the code after fix 6739939): whatever operation fails
   at whatever point, reverting the first-seen undo list restores every file.
   `expect u f` is what reverting u on f will leave at each path, provided the invariant C f u holds
   (revert_spec).  exec is made of two blocks, touching an existing path and creating a free one (exec_eq);
   each block ends, on success and at every point of failure, in a state whose revert is that of a list
   satisfying C with `expect` unchanged (settles).  Runs inherit this; run_inv, atomicity and the
   directories that survive a failed apply are read off it. *)
From RipV Require Import Base.Prelude Base.Fs Model.Patch Proofs.FsProofs Proofs.PatchProofs.
Open Scope N_scope.
Open Scope list_scope.

Notation entry := (list N * option bytes)%type.
Definition ekey (e : entry) : path := comps (fst e).
Definition keys (u : list entry) : list path := map ekey u.
(* q lies strictly below k *)
Definition sunder (k q : path) : Prop := exists s, q = k ++ s /\ s <> [].

(* the content recorded first for p, or what f holds there *)
Fixpoint expect (u : list entry) (f : fs) (p : path) : option bytes :=
  match u with
  | [] => file_at f p
  | e :: r => if path_eqb (ekey e) p then snd e else expect r f p
  end.

(* The invariant between operations, for the state f and the undo list u in push order:
   f is a well-formed tree; no path is recorded twice;
   every recorded path is clean and its ancestors are directories of f;
   for every entry that recorded a file at k: no earlier entry lies strictly below k, the later entries below k
   recorded "absent", and every file f now holds below k is a recorded path.  So when the revert reaches that
   entry, the later ones are undone, nothing but empty directories is left below k, and pruning them clears
   the way for the file to come back. *)
Definition C (f : fs) (u : list entry) : Prop :=
  fs_wf f /\ NoDup (keys u) /\
  (forall e, In e u -> clean (fst e) /\ pdirs f [] (ekey e)) /\
  (forall u1 raw b u2, u = u1 ++ (raw, Some b) :: u2 ->
     (forall e, In e u1 -> ~ sunder (comps raw) (ekey e)) /\
     (forall e, In e u2 -> sunder (comps raw) (ekey e) -> snd e = None) /\
     (forall q, sunder (comps raw) q -> file_at f q <> None -> In q (keys u))).

Lemma keys_app u v : keys (u ++ v) = keys u ++ keys v.
Proof. apply map_app. Qed.

Lemma seen_iff u k : seen u k = true <-> In k (keys u).
Proof.
  unfold seen, keys. rewrite existsb_exists, in_map_iff. split.
  - intros [e [I H]]. apply path_eqb_eq in H. exists e. split; [exact H|exact I].
  - intros [e [H I]]. exists e. split; [exact I|]. apply path_eqb_eq. exact H.
Qed.
Lemma seen_false u k : seen u k = false <-> ~ In k (keys u).
Proof. rewrite <- seen_iff. destruct (seen u k); split; congruence. Qed.

Lemma sunder_irrefl k : ~ sunder k k.
Proof. intros [s [E Hs]]. symmetry in E. revert E. apply app_nonnil_r. exact Hs. Qed.

Lemma expect_cong u f g p : (~ In p (keys u) -> file_at g p = file_at f p) -> expect u g p = expect u f p.
Proof.
  induction u as [|e u IH]; cbn [expect keys map In]; intros H; [apply H; tauto|].
  destruct (path_eqb (ekey e) p) eqn:E; [reflexivity|]. peq. apply IH. intros N. apply H. intros [A|A]; [congruence|contradiction].
Qed.

Lemma expect_notin u f p : ~ In p (keys u) -> expect u f p = file_at f p.
Proof.
  induction u as [|e u IH]; cbn [expect keys map In]; intros NI; [reflexivity|].
  destruct (path_eqb (ekey e) p) eqn:E; peq; [exfalso; apply NI; left; exact E|]. apply IH. tauto.
Qed.

Lemma expect_snoc u e f g p :
  file_at g p = (if path_eqb (ekey e) p then snd e else file_at f p) ->
  expect (u ++ [e]) f p = expect u g p.
Proof.
  intros H. induction u as [|a u IH]; cbn [expect app].
  - rewrite H. reflexivity.
  - destruct (path_eqb (ekey a) p); [reflexivity|exact IH].
Qed.

Lemma in_keys_dec q u : In q (keys u) \/ ~ In q (keys u).
Proof. rewrite <- seen_iff. destruct (seen u q); [left; reflexivity|right; discriminate]. Qed.

Lemma C_mono f u g : C f u -> edits (keys u) f g -> C g u.
Proof.
  intros [W [ND [CL C3]]] [W' [D F]]. split; [exact W'|]. split; [exact ND|]. split.
  - intros e I. destruct (CL e I) as [A B]. split; [exact A|]. eapply pdirs_mono; eassumption.
  - intros u1 raw b u2 E. destruct (C3 u1 raw b u2 E) as [O [B A]]. split; [exact O|]. split; [exact B|].
    intros q S N. destruct (in_keys_dec q u) as [I|I]; [exact I|]. apply A; [exact S|]. rewrite <- (F q I). exact N.
Qed.

Lemma nodup_snoc {A} (l : list A) a : NoDup l -> ~ In a l -> NoDup (l ++ [a]).
Proof.
  induction l as [|x l IH]; cbn [app]; intros ND NI; [constructor; [intros []|constructor]|].
  inversion ND as [|? ? N1 N2]; subst. constructor.
  - intros I. apply in_app_or in I. destruct I as [I|[I|[]]]; [contradiction|]. apply NI. left. symmetry. exact I.
  - apply IH; [exact N2|]. intros I. apply NI. right. exact I.
Qed.

Lemma snoc_split {A} (u : list A) x u1 y u2 : u ++ [x] = u1 ++ y :: u2 ->
  (u2 = [] /\ u = u1 /\ x = y) \/ (exists u2', u2 = u2' ++ [x] /\ u = u1 ++ y :: u2').
Proof.
  intros E. destruct u2 as [|a r].
  - left. apply app_inj_tail in E. destruct E; auto.
  - right. assert (NE : a :: r <> []) by discriminate. destruct (exists_last NE) as [l' [z Ez]]. rewrite Ez in *.
    change (u1 ++ y :: l' ++ [z]) with (u1 ++ (y :: l') ++ [z]) in E. rewrite app_assoc in E.
    apply app_inj_tail in E. destruct E as [E1 E2]. subst. exists l'. split; reflexivity.
Qed.

Lemma C_record f u e : C f u -> ~ In (ekey e) (keys u) -> clean (fst e) -> pdirs f [] (ekey e) ->
  snd e = file_at f (ekey e) ->
  C f (u ++ [e]) /\ forall p, expect (u ++ [e]) f p = expect u f p.
Proof.
  intros HC NI CLN PD V. split.
  2:{ intros p. apply expect_snoc. destruct (path_eqb (ekey e) p) eqn:E; [|reflexivity]. peq. subst p. symmetry. exact V. }
  destruct HC as [W [ND [CL C3]]]. split; [exact W|]. split; [rewrite keys_app; apply nodup_snoc; assumption|]. split.
  - intros e' I. apply in_app_or in I. destruct I as [I|[<-|[]]]; [apply CL; exact I|split; assumption].
  - intros u1 r b u2 E. apply snoc_split in E. destruct E as [[-> [<- ->]]|[u2' [-> E]]].
    + (* the new entry recorded a file: in a tree nothing lies below a file, and the earlier paths, whose
         ancestors are directories, are not below it *)
      unfold ekey in *. cbn [fst snd] in *. pose proof CLN as [_ [_ [_ KN]]].
      assert (LK : lookup f (comps r) = Some (File b)).
      { unfold file_at in V. destruct (lookup f (comps r)) as [[x|]|]; congruence. }
      split; [|split].
      * intros e' I [s [Es Hs]]. destruct (CL e' I) as [_ PE]. specialize (PE (comps r) s Es KN Hs). cbn [app] in PE. congruence.
      * intros e' [].
      * intros q [s [-> Hs]] N. exfalso. destruct W as [_ [_ T]]. unfold file_at in N.
        destruct (lookup f (comps r ++ s)) as [n|] eqn:L; [|congruence]. pose proof (T _ _ _ L Hs). congruence.
    + destruct (C3 u1 r b u2' E) as [O [B A]]. split; [exact O|]. split.
      * (* the new entry lies below an older file entry: a file there would already be a recorded path *)
        intros e' I S. apply in_app_or in I. destruct I as [I|[<-|[]]]; [apply B; assumption|].
        rewrite V. destruct (file_at f (ekey e)) eqn:FA; [|reflexivity]. exfalso. apply NI. apply A; [exact S|congruence].
      * intros q S N. rewrite keys_app. apply in_or_app. left. apply A; assumption.
Qed.

Lemma C_snoc_parts f u e : C f (u ++ [e]) ->
  fs_wf f /\ NoDup (keys u) /\ ~ In (ekey e) (keys u) /\ clean (fst e) /\ pdirs f [] (ekey e).
Proof.
  intros [W [ND [CL _]]]. rewrite keys_app in ND. cbn [keys map] in ND.
  split; [exact W|]. split; [apply NoDup_remove_1 in ND; rewrite app_nil_r in ND; exact ND|].
  split; [apply NoDup_remove_2 in ND; rewrite app_nil_r in ND; exact ND|].
  apply CL. apply in_or_app. right. left. reflexivity.
Qed.

Lemma os_prune_is_prune f raw : pre_err f (mk_tgt [] raw) = None ->
  os_prune_dirs f (mk_tgt [] raw) = prune_dirs f (comps raw).
Proof.
  intros PE. unfold os_prune_dirs, os_is_dir. rewrite PE. cbn [mk_tgt t_path t_base t_comps app].
  destruct (is_dir f (comps raw)) eqn:ID; [reflexivity|].
  unfold prune_dirs. destruct (comps raw); [reflexivity|]. rewrite ID. reflexivity.
Qed.

Lemma prefix_not_under (k x s' w : path) : k = x ++ s' -> s' <> [] -> x <> k ++ w.
Proof.
  intros E Hs X. rewrite X in E. rewrite <- app_assoc in E. symmetry in E. revert E. apply app_nonnil_r.
  intros Z. apply app_eq_nil in Z. destruct Z; contradiction.
Qed.

(* g is f with the entry e reverted: the recorded content is at its path, no other file has changed, and
   directories have gone only at and below a restored file *)
Definition undone (f : fs) (e : entry) (g : fs) : Prop :=
  fs_wf g /\ (forall p, file_at g p = if path_eqb (ekey e) p then snd e else file_at f p) /\
  (forall q, lookup f q = Some Dir -> (snd e <> None -> forall s, q <> ekey e ++ s) -> lookup g q = Some Dir).

Lemma C_undone f u e g : C f (u ++ [e]) -> undone f e g -> C g u.
Proof.
  intros HC [W' [FA DK]]. pose proof (C_snoc_parts _ _ _ HC) as [_ [ND _]]. destruct HC as [_ [_ [CL C3]]].
  split; [exact W'|]. split; [exact ND|]. split.
  - (* the ancestors of an earlier path survive: that path is not strictly below a restored file *)
    intros e' I. destruct (CL e') as [CE PE]; [apply in_or_app; left; exact I|]. split; [exact CE|].
    intros x s E Hx Hs. cbn [app]. apply DK; [apply (PE x s E Hx Hs)|]. intros SM w X.
    destruct e as [raw [b|]]; [|contradiction]. destruct (C3 u raw b [] eq_refl) as [O _]. apply (O e' I).
    exists (w ++ s). split; [rewrite E, X; symmetry; apply app_assoc|].
    intros Z. apply app_eq_nil in Z. destruct Z; contradiction.
  - intros u1 r b u2 E.
    destruct (C3 u1 r b (u2 ++ [e])) as [O [B A]]; [rewrite E, <- app_assoc; reflexivity|].
    split; [exact O|]. split; [intros e' I; apply B; apply in_or_app; left; exact I|].
    intros q S N. rewrite FA in N. destruct (path_eqb (ekey e) q) eqn:EQ; peq.
    + exfalso. subst q. apply N. apply B; [apply in_or_app; right; left; reflexivity|exact S].
    + specialize (A q S N). rewrite keys_app in A. apply in_app_or in A. destruct A as [A|[A|[]]]; [exact A|congruence].
Qed.

Lemma revert_one_undone f u e : C f (u ++ [e]) -> undone f e (revert_one true [] f e).
Proof.
  intros HC. pose proof (C_snoc_parts _ _ _ HC) as [W [_ [_ [CLN PD]]]]. destruct HC as [_ [_ [_ C3]]].
  destruct e as [raw v]. unfold undone, ekey, revert_one, tg in *. cbn [fst snd] in *.
  pose proof CLN as [NU [TR [NM KN]]]. destruct v as [b|].
  - (* a file comes back: nothing is below its path any more, so the pruning leaves no directory there *)
    destruct (C3 u raw b [] eq_refl) as [O [_ A]].
    rewrite os_prune_is_prune by (apply pre_err_none; auto).
    pose proof (wf_prune_dirs f (comps raw) W) as W1.
    destruct (prune_dirs_keeps f (comps raw) W KN) as [FE [DK NF]].
    set (f1 := prune_dirs f (comps raw)) in *.
    assert (L1 : lookup f1 (comps raw) <> Some Dir).
    { apply NF. intros q S. destruct (file_at f q) eqn:FA; [exfalso|reflexivity].
      assert (I : In q (keys (u ++ [(raw, Some b)]))) by (apply A; [exact S|congruence]).
      rewrite keys_app in I. apply in_app_or in I. destruct I as [I|[<-|[]]].
      - apply in_map_iff in I. destruct I as [e' [<- I]]. exact (O e' I S).
      - exact (sunder_irrefl _ S). }
    assert (PD1 : pdirs f1 [] (comps raw)).
    { intros x s E Hx Hs. cbn [app]. apply DK; [apply (PD x s E Hx Hs)|].
      intros w. eapply prefix_not_under; eassumption. }
    rewrite mk_parent_dirs_noop by assumption. cbn [fst].
    rewrite os_write_at; [|exact CLN|exact PD1|exact L1]. cbn [ign].
    split; [apply wf_set; assumption|]. split.
    + intros p. rewrite file_at_set by exact KN. rewrite (FE p). reflexivity.
    + intros q L NB. specialize (NB ltac:(discriminate)). rewrite lookup_set_other; [apply DK; assumption|exact KN|].
      intros X. apply (NB []). rewrite app_nil_r. symmetry. exact X.
  - (* an added file goes away, if it is there *)
    rewrite os_remove_at by assumption. destruct (lookup f (comps raw)) as [[b0|]|] eqn:L0; cbn [ign].
    1:{ destruct (edits_unset_file f _ b0 W KN L0) as [W' [D' _]].
        split; [exact W'|]. split; [intros p; apply file_at_unset; exact KN|intros q L _; apply D'; exact L]. }
    all: split; [exact W|]; split; [|intros q L _; exact L]; intros p.
    all: destruct (path_eqb (comps raw) p) eqn:E; [|reflexivity]; peq; subst p; unfold file_at; rewrite L0; reflexivity.
Qed.

Lemma revert_snoc fx root f u e : revert fx root f (u ++ [e]) = revert fx root (revert_one fx root f e) u.
Proof. unfold revert. rewrite rev_app_distr. reflexivity. Qed.

Theorem revert_spec : forall u f, C f u -> forall p, file_at (revert true [] f u) p = expect u f p.
Proof.
  induction u as [|e u IH] using rev_ind; intros f HC p.
  - reflexivity.
  - rewrite revert_snoc. pose proof (revert_one_undone f u e HC) as U.
    rewrite (IH _ (C_undone _ _ _ _ HC U) p). symmetry. apply expect_snoc. apply U.
Qed.

(* when the recorded contents are those of a tree f0 whose directories are all present, the revert keeps them:
   f0 has no directory at or below a path where it has a file *)
Theorem revert_dirs f0 : tree f0 -> forall u f, C f u -> (forall p, expect u f p = file_at f0 p) -> dirs_le f0 f ->
  dirs_le f0 (revert true [] f u).
Proof.
  intros T0. induction u as [|e u IH] using rev_ind; intros f HC EX D; [exact D|].
  rewrite revert_snoc. pose proof (revert_one_undone f u e HC) as U.
  pose proof (C_undone _ _ _ _ HC U) as HC'. destruct U as [_ [FA DK]].
  pose proof (C_snoc_parts _ _ _ HC) as [_ [_ [NI _]]].
  assert (EX' : forall p, expect u (revert_one true [] f e) p = file_at f0 p).
  { intros p. rewrite <- EX. symmetry. apply expect_snoc, FA. }
  apply IH; [exact HC'|exact EX'|].
  intros q L. apply DK; [apply D; exact L|]. intros SM s ->.
  specialize (EX' (ekey e)). rewrite expect_notin, FA, path_eqb_refl in EX' by exact NI.
  assert (LK : exists b, lookup f0 (ekey e) = Some (File b)).
  { unfold file_at in EX'. destruct (snd e) as [b|]; [|congruence]. exists b.
    destruct (lookup f0 (ekey e)) as [[x|]|]; congruence. }
  destruct LK as [b LK]. destruct s as [|s0 s]; [rewrite app_nil_r in L; congruence|].
  assert (lookup f0 (ekey e) = Some Dir) by (eapply T0; [exact L|discriminate]). congruence.
Qed.

(* what record_undo returns for raw: u itself when the path was seen, else u with the file's content or "absent" *)
Inductive recorded (f : fs) (u : list entry) (raw : list N) : list entry -> Prop :=
| rec_seen : In (comps raw) (keys u) -> recorded f u raw u
| rec_file b : ~ In (comps raw) (keys u) -> os_read f (mk_tgt [] raw) = Ok b -> recorded f u raw (u ++ [(raw, Some b)])
| rec_absent : ~ In (comps raw) (keys u) -> os_exists f (mk_tgt [] raw) = false -> recorded f u raw (u ++ [(raw, None)]).

Lemma record_undo_cases f u raw s1 : record_undo [] {| s_fs := f; s_undo := u |} raw = Ok s1 ->
  exists u1, s1 = {| s_fs := f; s_undo := u1 |} /\ recorded f u raw u1.
Proof.
  unfold record_undo, tg. cbn [s_fs s_undo]. destruct (seen u (comps raw)) eqn:S.
  - intros H; inversion H; subst. eexists. split; [reflexivity|]. apply rec_seen, seen_iff, S.
  - apply seen_false in S. destruct (os_exists f (mk_tgt [] raw)) eqn:X.
    + destruct (os_read f (mk_tgt [] raw)) as [b|e] eqn:RD; [|discriminate].
      intros H; inversion H; subst. eexists. split; [reflexivity|]. apply rec_file; assumption.
    + intros H; inversion H; subst. eexists. split; [reflexivity|]. apply rec_absent; assumption.
Qed.

Lemma recorded_absent f u raw u1 : os_exists f (mk_tgt [] raw) = false -> recorded f u raw u1 ->
  u1 = u \/ u1 = u ++ [(raw, None)].
Proof. intros X [I|b _ RD|_ _]; [left; reflexivity|apply os_read_exists in RD; congruence|right; reflexivity]. Qed.

Lemma C_recorded_file f u raw u1 : C f u -> os_exists f (mk_tgt [] raw) = true -> recorded f u raw u1 ->
  C f u1 /\ (forall p, expect u1 f p = expect u f p) /\ In (comps raw) (keys u1).
Proof.
  intros HC X [I|b NI RD|_ X']; [auto| |congruence].
  apply os_read_ok in RD. destruct RD as [CLN [PD L]].
  destruct (C_record f u (raw, Some b) HC NI CLN PD) as [HC1 EQ1].
  { unfold ekey, file_at. cbn [fst snd]. rewrite L. reflexivity. }
  split; [exact HC1|]. split; [exact EQ1|]. rewrite keys_app. apply in_or_app. right. left. reflexivity.
Qed.

Lemma revert_one_absent f f2 raw : fs_wf f -> ext f f2 -> os_exists f (mk_tgt [] raw) = false ->
  revert_one true [] f2 (raw, None) = f2.
Proof.
  intros W E X. unfold revert_one, tg. cbn [fst snd].
  destruct (os_remove_file f2 (mk_tgt [] raw)) as [g|err] eqn:RM; [exfalso|reflexivity].
  apply os_remove_ok in RM. destruct RM as [[NU [TR [NM KN]]] [_ [[b L] _]]].
  pose proof (os_exists_false_nofile f raw W X NU NM TR) as NF.
  rewrite <- (ext_files _ _ E) in NF. unfold file_at in NF. rewrite L in NF. discriminate.
Qed.

Definition commit (s : st) (r : res fs) : st * option N :=
  match r with Ok f => (with_fs s f, None) | Err e => (s, Some e) end.

(* an existing path: record it, then go on *)
Definition touching (s : st) (p : list N) (k : st -> st * option N) : st * option N :=
  if os_exists (s_fs s) (mk_tgt [] p) then
    match record_undo [] s p with Ok s1 => k s1 | Err e => (s, Some e) end
  else (s, Some ENOENT).

(* a free path: record it, create its parent directories, then put a file there by m *)
Definition creating (s : st) (q : list N) (m : fs -> res fs) : st * option N :=
  if os_exists (s_fs s) (mk_tgt [] q) then (s, Some EEXIST) else
  match record_undo [] s q with
  | Err e => (s, Some e)
  | Ok s1 =>
    match mk_parent_dirs (s_fs s1) (mk_tgt [] q) with
    | (f2, Some e) => (with_fs s1 f2, Some e)
    | (f2, None) => commit (with_fs s1 f2) (m f2)
    end
  end.

(* the file at p with the hunks applied: read, check UTF-8, apply, write *)
Definition rewritten (f : fs) (p : list N) (hs : list hunk) : res fs :=
  match os_read f (mk_tgt [] p) with
  | Err e => Err e
  | Ok b =>
    if negb (utf8_ok b) then Err EINVALDATA else
    match apply_hunks_to_text b hs with
    | None => Err EINVALDATA
    | Some b' => os_write f (mk_tgt [] p) b'
    end
  end.

Lemma exec_eq s o : exec [] s o =
  match o with
  | Add p c => creating s p (fun f => os_write f (mk_tgt [] p) c)
  | Del p => touching s p (fun s1 => commit s1 (os_remove_file (s_fs s1) (mk_tgt [] p)))
  | Upd p mv hs =>
    touching s p (fun s1 =>
      match commit s1 (rewritten (s_fs s1) p hs), mv with
      | (s2, None), Some q => creating s2 q (fun f => os_rename_file f (mk_tgt [] p) (mk_tgt [] q))
      | r, _ => r
      end)
  end.
Proof.
  destruct o as [p c|p|p mv hs]; cbn [exec]; unfold touching, creating, rewritten, tg.
  - reflexivity.
  - destruct (os_exists _ _); [|reflexivity]. destruct (record_undo _ _ _); reflexivity.
  - destruct (os_exists _ _); [|reflexivity]. cbn [negb]. destruct (record_undo _ _ _) as [s1|e]; [|reflexivity].
    destruct (os_read _ _) as [b|e]; [|destruct mv; reflexivity].
    destruct (negb (utf8_ok b)); [destruct mv; reflexivity|].
    destruct (apply_hunks_to_text b hs) as [b'|]; [|destruct mv; reflexivity].
    destruct (os_write _ _ b') as [f2|e]; [|destruct mv; reflexivity].
    destruct mv; reflexivity.
Qed.

Lemma rewritten_edits f p hs f' : fs_wf f -> rewritten f p hs = Ok f' -> edits [comps p] f f'.
Proof.
  intros W. unfold rewritten. destruct (os_read _ _) as [b|e]; [|discriminate].
  destruct (negb (utf8_ok b)); [discriminate|]. destruct (apply_hunks_to_text b hs); [|discriminate].
  apply write_edits. exact W.
Qed.

(* Started in (f, u), a run has ended in x: reverting its undo list amounts to reverting a list u0 for which the
   invariant holds and which promises what u promised in f; after a success u0 is the whole list. *)
Definition settles (f : fs) (u : list entry) (x : st * option N) : Prop :=
  exists u0, revert true [] (s_fs (fst x)) (s_undo (fst x)) = revert true [] (s_fs (fst x)) u0 /\
    C (s_fs (fst x)) u0 /\ (forall p, expect u0 (s_fs (fst x)) p = expect u f p) /\ dirs_le f (s_fs (fst x)) /\
    (snd x = None -> u0 = s_undo (fst x)).

Lemma settles_edit f u g r : C f u -> edits (keys u) f g -> settles f u ({| s_fs := g; s_undo := u |}, r).
Proof.
  intros HC E. exists u. cbn [fst snd s_fs s_undo]. split; [reflexivity|]. split; [eapply C_mono; eassumption|].
  split; [intros p; apply expect_cong, E|]. split; [apply E|reflexivity].
Qed.

Lemma settles_refl f u r : C f u -> settles f u ({| s_fs := f; s_undo := u |}, r).
Proof. intros HC. apply settles_edit; [exact HC|apply edits_refl, HC]. Qed.

Lemma settles_from f u f1 u1 x : (forall p, expect u1 f1 p = expect u f p) -> dirs_le f f1 ->
  settles f1 u1 x -> settles f u x.
Proof.
  intros EQ D [u0 [RV [HC [EQ0 [D0 U]]]]]. exists u0. split; [exact RV|]. split; [exact HC|].
  split; [intros p; rewrite EQ0; apply EQ|]. split; [eapply dirs_le_trans; eassumption|exact U].
Qed.

Lemma commit_settles f u r : C f u -> (forall g, r = Ok g -> edits (keys u) f g) ->
  settles f u (commit {| s_fs := f; s_undo := u |} r).
Proof.
  intros HC E. destruct r as [g|e]; cbv [commit with_fs s_undo]; [|apply settles_refl; exact HC].
  apply settles_edit; [exact HC|apply E; reflexivity].
Qed.

Lemma touching_settles f u p k : C f u ->
  (forall u1, C f u1 -> In (comps p) (keys u1) -> settles f u1 (k {| s_fs := f; s_undo := u1 |})) ->
  settles f u (touching {| s_fs := f; s_undo := u |} p k).
Proof.
  intros HC K. unfold touching. cbn [s_fs].
  destruct (os_exists f (mk_tgt [] p)) eqn:X; [|apply settles_refl; exact HC].
  destruct (record_undo [] _ p) as [s1|e] eqn:RU; [|apply settles_refl; exact HC].
  apply record_undo_cases in RU. destruct RU as [u1 [-> RC]].
  destruct (C_recorded_file _ _ _ _ HC X RC) as [HC1 [EQ1 I1]].
  eapply settles_from; [exact EQ1|apply dirs_le_refl|]. apply K; assumption.
Qed.

(* m may fail for an unclean path q: then reverting the entry (q, None), if there is one, changes nothing (revert_one_absent) *)
Lemma creating_settles f u q m : C f u ->
  (forall f2 f3, fs_wf f2 -> m f2 = Ok f3 -> clean q /\ pdirs f2 [] (comps q) /\ edits (comps q :: keys u) f2 f3) ->
  settles f u (creating {| s_fs := f; s_undo := u |} q m).
Proof.
  intros HC M. pose proof HC as [W _]. unfold creating. cbn [s_fs].
  destruct (os_exists f (mk_tgt [] q)) eqn:X; [apply settles_refl; exact HC|].
  destruct (record_undo [] _ q) as [s1|e] eqn:RU; [|apply settles_refl; exact HC].
  apply record_undo_cases in RU. destruct RU as [u1 [-> RC]]. cbv [s_fs with_fs s_undo].
  destruct (mk_parent_dirs f (mk_tgt [] q)) as [f2 r] eqn:MK.
  apply mk_parent_dirs_spec in MK; [|exact W]. destruct MK as [W2 E2].
  assert (E : edits (keys u) f f2) by (eapply edits_incl; [|apply ext_edits; eassumption]; intros ? []).
  pose proof (C_mono _ _ _ HC E) as HC2.
  assert (STUCK : forall e, settles f u ({| s_fs := f2; s_undo := u1 |}, Some e)).
  { intros e. exists u. cbn [fst snd s_fs s_undo]. split.
    - destruct (recorded_absent _ _ _ _ X RC) as [-> | ->]; [reflexivity|].
      rewrite revert_snoc, (revert_one_absent f f2 q W E2 X). reflexivity.
    - split; [exact HC2|]. split; [intros p; apply expect_cong, E|]. split; [apply E|discriminate]. }
  destruct r as [e|]; [apply STUCK|]. destruct (m f2) as [f3|e] eqn:MF; cbv [commit with_fs s_undo]; [|apply STUCK].
  destruct (M f2 f3 W2 MF) as [CLN [PD E3]].
  eapply settles_from; [intros p; apply expect_cong, E|apply E|].
  destruct RC as [I|b _ RD|NI _]; [|apply os_read_exists in RD; congruence|].
  - apply settles_edit; [exact HC2|]. eapply edits_incl; [|exact E3]. intros x [<-|J]; assumption.
  - destruct (C_record f2 u (q, None) HC2 NI CLN PD) as [HC3 EQ3].
    { unfold ekey. cbn [fst snd]. rewrite (ext_files _ _ E2). symmetry. destruct CLN as [NU [TR [NM _]]].
      apply os_exists_false_nofile; assumption. }
    eapply settles_from; [exact EQ3|apply dirs_le_refl|].
    apply settles_edit; [exact HC3|]. eapply edits_incl; [|exact E3].
    intros x J. rewrite keys_app. apply in_or_app. destruct J as [<-|J]; [right; left; reflexivity|left; exact J].
Qed.

Lemma exec_settles f u o : C f u -> settles f u (exec [] {| s_fs := f; s_undo := u |} o).
Proof.
  intros HC. pose proof HC as [W _]. rewrite exec_eq. destruct o as [p c|p|p mv hs].
  - apply creating_settles; [exact HC|]. intros f2 f3 W2 WR.
    pose proof (write_edits _ _ _ _ W2 WR) as E. apply os_write_ok in WR. destruct WR as [CLN [PD _]].
    split; [exact CLN|]. split; [exact PD|]. eapply edits_incl; [|exact E]. intros x [<-|[]]. left. reflexivity.
  - apply touching_settles; [exact HC|]. intros u1 HC1 I1. apply commit_settles; [exact HC1|].
    cbn [s_fs]. intros g RM. eapply edits_incl; [|eapply remove_edits; eassumption]. intros x [<-|[]]. exact I1.
  - apply touching_settles; [exact HC|]. intros u1 HC1 I1. cbn [s_fs].
    destruct (rewritten f p hs) as [f2|e] eqn:ED; cbv [commit with_fs s_undo]; [|destruct mv; apply settles_refl; exact HC1].
    assert (E2 : edits (keys u1) f f2).
    { eapply edits_incl; [|eapply rewritten_edits; eassumption]. intros x [<-|[]]. exact I1. }
    destruct mv as [q|]; [|apply settles_edit; assumption].
    eapply settles_from; [intros x; apply expect_cong, E2|apply E2|].
    apply creating_settles; [eapply C_mono; eassumption|]. intros f4 f5 W4 RN.
    pose proof (rename_edits _ _ _ _ W4 RN) as E5. apply os_rename_ok in RN. destruct RN as [_ [_ [CLQ [PDQ _]]]].
    split; [exact CLQ|]. split; [exact PDQ|]. eapply edits_incl; [|exact E5].
    intros x [<-|[<-|[]]]; [right; exact I1|left; reflexivity].
Qed.

Lemma run_settles : forall ops f u, C f u -> settles f u (run [] {| s_fs := f; s_undo := u |} ops).
Proof.
  induction ops as [|o ops IH]; intros f u HC; cbn [run]; [apply settles_refl; exact HC|].
  pose proof (exec_settles f u o HC) as E. destruct (exec [] _ o) as [[f1 u1] [e|]]; [exact E|].
  destruct E as [u0 [_ [HC1 [EQ1 [D1 U]]]]]. cbn [fst snd s_fs s_undo] in *. rewrite (U eq_refl) in *.
  eapply settles_from; [exact EQ1|exact D1|]. apply IH. exact HC1.
Qed.

(* after a run from (f, u): on success the invariant, with the same promise; on failure the revert keeps the promise *)
Definition post (f : fs) (u : list entry) (s' : st) (r : option N) : Prop :=
  match r with
  | None => C (s_fs s') (s_undo s') /\ forall p, expect (s_undo s') (s_fs s') p = expect u f p
  | Some _ => forall p, file_at (revert true [] (s_fs s') (s_undo s')) p = expect u f p
  end.

Lemma run_inv : forall ops f u s' r, C f u -> run [] {| s_fs := f; s_undo := u |} ops = (s', r) -> post f u s' r.
Proof.
  intros ops f u s' r HC H. destruct (run_settles ops f u HC) as [u0 [RV [HC' [EQ [_ U]]]]].
  rewrite H in *. cbn [fst snd] in *. destruct r as [e|]; cbn [post].
  - intros p. rewrite RV, <- EQ. apply revert_spec. exact HC'.
  - rewrite <- (U eq_refl). split; assumption.
Qed.

Lemma C_init f : fs_wf f -> C f [].
Proof.
  intros W. split; [exact W|]. split; [constructor|]. split; [intros e []|].
  intros u1 raw b u2 E. destruct u1; discriminate.
Qed.

(* a single operation that succeeds keeps the tree well-formed and loses no directory *)
Lemma spec_op_keeps f o f' : fs_wf f -> spec_op [] f o = Ok f' -> fs_wf f' /\ dirs_le f f'.
Proof.
  intros W S. pose proof (exec_fs [] {| s_fs := f; s_undo := [] |} o) as E.
  destruct (exec_settles f [] o (C_init f W)) as [u0 [_ [HC [_ [D _]]]]].
  destruct (exec [] _ o) as [s' [e|]]; cbn [fst s_fs] in *; [destruct E; congruence|].
  rewrite S in E. inversion E; subst. split; [apply HC|exact D].
Qed.

Theorem apply_ops_failed_ext f ops g e : fs_wf f -> apply_ops true [] f ops = Failed g e -> ext f g.
Proof.
  intros W. unfold apply_ops. destruct (run_settles ops f [] (C_init f W)) as [u0 [RV [HC [EQ [D _]]]]].
  destruct (run [] _ ops) as [s [err|]]; [|discriminate]. cbn [fst] in *. intros H; inversion H; subst.
  rewrite RV. apply ext_of.
  - apply revert_dirs; [apply W|exact HC|exact EQ|exact D].
  - intros p. rewrite (revert_spec _ _ HC). apply EQ.
Qed.

Theorem apply_patch_failed_ext f input g e : fs_wf f -> apply_patch true [] f input = Failed g e -> ext f g.
Proof.
  intros W. unfold apply_patch. destruct (parse_patch input) as [ops|].
  - apply apply_ops_failed_ext. exact W.
  - intros H; inversion H; subst. apply ext_refl.
Qed.

Theorem apply_ops_atomic f ops g e : fs_wf f ->
  apply_ops true [] f ops = Failed g e -> forall p, file_at g p = file_at f p.
Proof. intros W H. apply ext_files. eapply apply_ops_failed_ext; eassumption. Qed.

Theorem apply_patch_atomic f input g e : fs_wf f ->
  apply_patch true [] f input = Failed g e -> forall p, file_at g p = file_at f p.
Proof. intros W H. apply ext_files. eapply apply_patch_failed_ext; eassumption. Qed.

Theorem apply_ops_wf f ops g c : fs_wf f -> apply_ops true [] f ops = Applied g c -> fs_wf g.
Proof.
  intros W. unfold apply_ops. destruct (run [] _ ops) as [s [err|]] eqn:RN; [discriminate|].
  intros H; inversion H; subst. apply run_inv in RN; [|apply C_init; exact W]. destruct RN as [[A _] _]. exact A.
Qed.

Lemma wf_empty : fs_wf [].
Proof.
  split; [constructor|]. split; [intros []|]. intros x s n L Hs.
  destruct x as [|x0 x]; [reflexivity|]. cbn in L. discriminate.
Qed.

(* the revert restores files only: directories created on the way stay (they hold no file) *)
Require Import Coq.Strings.String.
Definition dirwit_patch : list N :=
  intercalate [10] [bs "*** Begin Patch"%string; bs "*** Add File: d/x"%string; bs "+1"%string;
                    bs "*** Delete File: nope"%string; bs "*** End Patch"%string].
Definition dirwit_after : fs := [([bs "d"%string], Dir)].
Lemma dirwit_run : apply_patch true [] [] dirwit_patch = Failed dirwit_after ENOENT.
Proof. vm_compute. reflexivity. Qed.
Theorem failed_keeps_dirs_refuted :
  exists f input g e p, fs_wf f /\ apply_patch true [] f input = Failed g e /\ lookup f p = None /\ lookup g p = Some Dir.
Proof.
  exists [], dirwit_patch, dirwit_after, ENOENT, [bs "d"%string].
  split; [exact wf_empty|]. split; [exact dirwit_run|]. split; vm_compute; reflexivity.
Qed.

(* a one-file workspace is well-formed *)
Lemma wf_single a b : fs_wf [([a], File b)].
Proof.
  split; [constructor; [intros []|constructor]|]. split; [intros [H|[]]; discriminate|].
  intros x s n L Hs. destruct x as [|x0 x]; [reflexivity|]. exfalso.
  cbn [lookup app assoc] in L. destruct (path_eqb [a] (x0 :: x ++ s)) eqn:E; [|discriminate].
  peq. inversion E as [[E1 E2]]. symmetry in E2. apply app_eq_nil in E2. destruct E2. contradiction.
Qed.

Lemma nodupb_sound l : nodupb l = true -> NoDup l.
Proof.
  induction l as [|x r IH]; cbn [nodupb]; intros H; [constructor|].
  apply andb_true_iff in H. destruct H as [H1 H2]. constructor; [|apply IH; exact H2].
  intros I. apply negb_true_iff in H1. pose proof (existsb_false _ _ _ H1 I) as E. rewrite path_eqb_refl in E. discriminate.
Qed.

Lemma prefixes_aux_in : forall x cur s, x <> [] -> s <> [] -> In (cur ++ x) (prefixes_aux cur (x ++ s)).
Proof.
  induction x as [|c x IH]; intros cur s Hx Hs; [congruence|].
  cbn [app prefixes_aux]. destruct (x ++ s) as [|y r] eqn:E.
  - apply app_eq_nil in E. destruct E; contradiction.
  - rewrite <- E. destruct x as [|c2 x'].
    + left. reflexivity.
    + right. replace (cur ++ c :: c2 :: x') with ((cur ++ [c]) ++ c2 :: x') by (rewrite <- app_assoc; reflexivity).
      apply IH; [discriminate|exact Hs].
Qed.

Theorem wf_fsb_sound f : wf_fsb f = true -> fs_wf f.
Proof.
  unfold wf_fsb. rewrite !andb_true_iff. intros [[ND NN] TR]. split; [apply nodupb_sound; exact ND|]. split.
  - intros I. apply negb_true_iff in NN. discriminate (existsb_false _ _ _ NN I).
  - intros x s n L Hs. destruct x as [|x0 x']; [reflexivity|].
    assert (I : In ((x0 :: x') ++ s, n) f) by (apply assoc_in; exact L).
    rewrite forallb_forall in TR. specialize (TR _ I). cbn [fst] in TR. rewrite forallb_forall in TR.
    specialize (TR (x0 :: x') (prefixes_aux_in (x0 :: x') [] s ltac:(discriminate) Hs)).
    unfold is_dir in TR. destruct (lookup f (x0 :: x')) as [[b|]|]; try discriminate. reflexivity.
Qed.