(* C05 — the theorems over the code version read from the source (Gen/CrashEffects.v, tie T1). *)
From RipV Require Import Base.Prelude Model.CrashCold Model.Crash Proofs.CrashProofs Proofs.CrashCacheProofs Proofs.CrashColdProofs Gen.CrashEffects.

Lemma ver_eqb_eq a b : ver_eqb a b = true -> a = b.
Proof.
  destruct a as [a1 a2 a3], b as [b1 b2 b3]. unfold ver_eqb. cbn [fw fr ff]. intros H.
  apply andb_true_iff in H. destruct H as [H H3]. apply andb_true_iff in H. destruct H as [H1 H2].
  apply Bool.eqb_prop in H1, H2, H3. subst. reflexivity.
Qed.

(* the theorems hold for EVERY code version that passes the generated check, in particular for the one read
   from the source in this run *)
Theorem recover_valid_ver v hist k base more : ver_eqb v fixed = true ->
  env_runb v init 0 hist = true -> nlen hist <= base ->
  env_runb v (crash v k hist) base more = true ->
  exists fs, replay_validated (run_ops v (crash v k hist) base more) = Some fs
             /\ Numbered fs
             /\ truth (run_ops v (crash v k hist) base more) = enc fs
             /\ (forall fid, In fid (acks (crash v k hist)) \/ In fid (acks (run_ops v (crash v k hist) base more)) ->
                             cfid fid fs = 1)
             /\ (forall c evs, try_replay (run_ops v (crash v k hist) base more) c = Some evs ->
                               exists rest, stream (2 * c) fs = evs ++ rest).
Proof.
  intros Hv. apply ver_eqb_eq in Hv. subst v. intros Hh Hb Hm.
  destruct (crash_recover_J_SOK hist k base more Hh Hb Hm) as (fs & HJ & HS).
  destruct (boundary_facts _ _ _ HJ HS) as (R & Hn & Ht & Ha & Hc).
  exists fs. repeat split; auto.
  intros fid [Hi|Hi]; apply Ha; [exact (proj1 (acks_run fixed more _ base) fid Hi) | exact Hi].
Qed.

(* the cold-start theorem over the per-writer sources read from the code (gen_cold_start: one entry per locked append) *)
Lemma cold_start_generated : forall es : list ev,
  (forall w, In w (writers es) -> (w < 11)%nat) ->
  numbered_b (c_log (CrashCold.run (srcs_of gen_cold_start) created es)) = true.
Proof.
  intros es Hw. pose proof gen_cold_start_ok as H. apply andb_true_iff in H. destruct H as [Hl Ha].
  apply Nat.eqb_eq in Hl. apply cold_start_numbered_gen; [exact Ha|]. rewrite Hl. exact Hw.
Qed.
