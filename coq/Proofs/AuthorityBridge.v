(* C18 — the two models of the client attach loop agree on one iteration: Model/Authority.v (DClient: program counters, one
   file-system operation per step, the timer an environment bit) and Model/AuthorityGrace.v (client_poll: one iteration as a
   function of what it sees, the timer a state machine).  The interleaving theorems speak about the first, the grace-timer
   theorems about the second; the real loop is compared with both. *)
From RipV Require Import Base.Prelude Model.Authority Model.AuthorityGrace Proofs.AuthorityInv Proofs.AuthorityLive Proofs.AuthorityGraceProofs.

Definition lockf_of (l : option lfile) : lockf :=
  match l with None => LAbsent | Some f => if lf_written f then LRec (lf_owner f) else LHalf (lf_owner f) end.
Definition obits (reach fire : bool) : N :=
  match reach, fire with true, true => 3 | true, false => 1 | false, true => 2 | false, false => 0 end.

(* the numbers below: steps of the client loop from the top of one iteration to the top of the next (read meta [, ping, liveness
   of the meta pid, lock exists] or lock exists, read lock [, liveness], then the 5 steps of a stale or the 3 to 5 of a corrupt
   cleanup) *)
Ltac try_n k := (exists k; eexists; split; [lia | unfold mkst, cli, obits; repeat solo_step; reflexivity]).

Lemma client_models_agree g ps me last st p :
  pi_vanish p = false ->
  (snd (timer g (cs_since st) (pi_now p) (poll_seen p)) = true ->
     forall f, pi_lock p = Some f -> pid_alive ps (lf_owner f) = false) ->
  exists n last', (n <= 12)%nat /\
    solo n (obits (pi_reach p) (snd (timer g (cs_since st) (pi_now p) (poll_seen p))))
         (mkst (lockf_of (pi_lock p)) (pi_meta p) MAbsent ps) (cli me RdMeta last)
    = (mkst (lockf_of (po_lock (client_poll g (pid_alive ps) st p))) (po_meta (client_poll g (pid_alive ps) st p)) MAbsent ps,
       cli me (match po_act (client_poll g (pid_alive ps) st p) with AOk => Done | _ => RdMeta end) last').
Proof.
  intros Hv Hag. unfold client_poll.
  destruct (timer g (cs_since st) (pi_now p) (poll_seen p)) as [s1 fire] eqn:Et. cbn [snd] in *.
  assert (Hnf : poll_seen p <> SInvalid -> fire = false).
  { intros Hn. destruct (poll_seen p); cbn [timer] in Et; inversion Et; try reflexivity. congruence. }
  unfold poll_seen in *. unfold may_spawn. rewrite Hv in *.
  destruct p as [now l m reach van]. cbn [pi_now pi_lock pi_meta pi_reach pi_vanish] in *.
  destruct m as [|mp].
  - destruct l as [[inst owner written]|].
    + destruct written; cbn [lf_written lf_owner lockf_of] in *.
      * rewrite (Hnf ltac:(congruence)). destruct (pid_alive ps owner) eqn:Eo.
        -- destruct reach; cbn [po_lock po_meta po_act lockf_of lf_written lf_owner]; try_n 4%nat.
        -- unfold stale_effect. cbn [lf_written lf_owner andb]. rewrite N.eqb_refl. cbn [andb].
           destruct reach; cbn [po_lock po_meta po_act lockf_of]; try_n 8%nat.
      * destruct fire.
        -- pose proof (Hag eq_refl _ eq_refl) as Eo. cbn [lf_owner] in Eo.
           unfold corrupt_effect. destruct reach; cbn [po_lock po_meta po_act lockf_of]; try_n 6%nat.
        -- destruct reach; cbn [po_lock po_meta po_act lockf_of lf_written lf_owner]; try_n 3%nat.
    + rewrite (Hnf ltac:(congruence)).
      destruct (cs_spawned st) as [t|]; [destruct (cooldown_ms <? now - t)|];
        destruct reach; cbn [po_lock po_meta po_act lockf_of]; try_n 2%nat.
  - rewrite (Hnf ltac:(congruence)).
    destruct reach; [cbn [po_lock po_meta po_act]; try_n 2%nat|].
    destruct (pid_alive ps mp) eqn:Em; [cbn [po_lock po_meta po_act]; try_n 3%nat|].
    destruct l as [[inst owner written]|].
    + unfold stale_effect. cbn [lf_written lf_owner lockf_of].
      destruct written; cbn [andb].
      * destruct (owner =? mp) eqn:Eom; cbn [po_lock po_meta po_act lockf_of].
        -- apply N.eqb_eq in Eom. subst owner. rewrite N.eqb_refl. cbn [lockf_of]. try_n 9%nat.
        -- try_n 6%nat.
      * cbn [po_lock po_meta po_act lockf_of lf_written lf_owner]. try_n 6%nat.
    + destruct (cs_spawned st) as [t|]; [destruct (cooldown_ms <? now - t)|];
        cbn [po_lock po_meta po_act lockf_of]; try_n 4%nat.
Qed.
