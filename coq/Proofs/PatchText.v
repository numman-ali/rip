(* C12 — text-level theorems about apply_hunks_to_text: on canonical texts it edits the line list and keeps the
   line-ending style and the trailing newline; what it does to texts that are not canonical (three witnesses);
   and the hunk search: the first occurrence at or after the cursor. *)
From RipV Require Import Base.Prelude Base.Fs Model.Patch Proofs.FsProofs.
Open Scope N_scope.
Open Scope list_scope.

Definition LF : list N := [10].
Definition CRLF : list N := [13; 10].
Definition clean_line (l : line) : Prop := ~ In 10 l /\ ~ In 13 l.

Lemma split_aux_line c : forall l cur rest, ~ In c l ->
  split_aux c cur (l ++ c :: rest) = (rev cur ++ l) :: split_aux c [] rest.
Proof.
  induction l as [|x l IH]; intros cur rest NI; cbn [app split_aux].
  - rewrite N.eqb_refl, app_nil_r. reflexivity.
  - destruct (x =? c) eqn:E; [exfalso; apply NI; left; lia|].
    rewrite IH by (intros I; apply NI; right; exact I). cbn [rev]. rewrite <- app_assoc. reflexivity.
Qed.

Lemma split_aux_end c : forall l cur, ~ In c l -> split_aux c cur l = [rev cur ++ l].
Proof.
  induction l as [|x l IH]; intros cur NI; cbn [split_aux].
  - rewrite app_nil_r. reflexivity.
  - destruct (x =? c) eqn:E; [exfalso; apply NI; left; lia|].
    rewrite IH by (intros I; apply NI; right; exact I). cbn [rev]. rewrite <- app_assoc. reflexivity.
Qed.

(* a text made of lines that each end in sfx and a newline, followed by rest *)
Lemma split_on_lines sfx : ~ In 10 sfx -> forall ls rest, (forall l, In l ls -> ~ In 10 l) ->
  split_on 10 (concat (map (fun l => l ++ sfx ++ [10]) ls) ++ rest) = map (fun l => l ++ sfx) ls ++ split_on 10 rest.
Proof.
  intros NS. unfold split_on. induction ls as [|l ls IH]; intros rest CL; [reflexivity|].
  cbn [map concat]. rewrite <- !app_assoc. cbn [app]. rewrite app_assoc, split_aux_line.
  - cbn [rev app]. f_equal. apply IH. intros x I. apply CL. right. exact I.
  - intros I. apply in_app_or in I. destruct I as [I|I]; [apply (CL l); [left; reflexivity|exact I]|contradiction].
Qed.

Lemma intercalate_snoc sep (init : list line) lst :
  intercalate sep (init ++ [lst]) = concat (map (fun l => l ++ sep) init) ++ lst.
Proof.
  induction init as [|l init IH]; [reflexivity|]. cbn [app map concat]. rewrite <- app_assoc, <- IH, <- app_assoc.
  destruct (init ++ [lst]) eqn:E; [destruct init; discriminate|reflexivity].
Qed.

Lemma strip_cr_eq l : strip_cr l = match rev l with x :: r => if x =? 13 then rev r else l | [] => l end.
Proof.
  (* the model matches on the literal 13, a nested match on the bits of a positive; so here and for 10 below *)
  unfold strip_cr. destruct (rev l) as [|[|p] r]; try reflexivity.
  repeat (destruct p as [p|p|]; try reflexivity).
Qed.

Lemma strip_cr_snoc l : strip_cr (l ++ [13]) = l.
Proof. rewrite strip_cr_eq, rev_app_distr. apply rev_involutive. Qed.

Lemma strip_cr_id l : last l 0 <> 13 -> strip_cr l = l.
Proof.
  intros H. rewrite strip_cr_eq. destruct (rev l) as [|x r] eqn:E; [reflexivity|].
  destruct (x =? 13) eqn:X; [exfalso|reflexivity]. apply H.
  rewrite <- (rev_involutive l), E. cbn [rev]. rewrite last_last. lia.
Qed.

Lemma last_in {A} (l : list A) d : l <> [] -> In (last l d) l.
Proof.
  induction l as [|x l IH]; [congruence|]. intros _. destruct l as [|y r]; [left; reflexivity|].
  right. apply IH. discriminate.
Qed.
Lemma strip_cr_clean l : ~ In 13 l -> strip_cr l = l.
Proof.
  intros NI. apply strip_cr_id. destruct l as [|x r]; [discriminate|].
  intros E. apply NI. rewrite <- E. apply last_in. discriminate.
Qed.

Lemma contains_crlf_cons x s :
  contains_crlf (x :: s) = (x =? 13) && match s with y :: _ => y =? 10 | [] => false end || contains_crlf s.
Proof.
  cbn [contains_crlf]. destruct x as [|p]; [reflexivity|]. repeat (destruct p as [p|p|]; try reflexivity).
  destruct s as [|[|q] s']; try reflexivity. repeat (destruct q as [q|q|]; try reflexivity).
Qed.

Lemma contains_crlf_none s : ~ In 13 s -> contains_crlf s = false.
Proof.
  induction s as [|x s IH]; intros NI; [reflexivity|]. rewrite contains_crlf_cons, IH by (intros I; apply NI; right; exact I).
  destruct (x =? 13) eqn:E; [exfalso; apply NI; left; lia|reflexivity].
Qed.

Lemma contains_crlf_mid a b : contains_crlf (a ++ 13 :: 10 :: b) = true.
Proof. induction a as [|x a IH]; [reflexivity|]. cbn [app]. rewrite contains_crlf_cons, IH. apply orb_true_r. Qed.

Lemma ends_nl_eq s : ends_nl s = match rev s with x :: _ => x =? 10 | [] => false end.
Proof.
  unfold ends_nl. destruct (rev s) as [|[|p] r]; reflexivity.
Qed.

Lemma ends_nl_snoc s : ends_nl (s ++ [10]) = true.
Proof. rewrite ends_nl_eq, rev_app_distr. reflexivity. Qed.
Lemma ends_nl_app_no s t : t <> [] -> ~ In 10 t -> ends_nl (s ++ t) = false.
Proof.
  intros NE NI. rewrite ends_nl_eq, rev_app_distr. destruct (rev t) as [|x r] eqn:E.
  - exfalso. apply NE. rewrite <- (rev_involutive t), E. reflexivity.
  - cbn [app]. destruct (x =? 10) eqn:X; [exfalso|reflexivity]. apply NI, in_rev. rewrite E. left. lia.
Qed.

(* lines that can be rendered and read back: at least one, free of CR and LF, and, when no separator follows the
   last line, that line is not empty (it would read back as a trailing newline) unless it is the only one *)
Definition canon (ls : list line) (tr : bool) : Prop :=
  ls <> [] /\ (forall l, In l ls -> clean_line l) /\ (tr = true \/ last ls [] <> [] \/ ls = [[]]).

(* the separator is one line_ending would detect: CRLF only if the rendered text shows one *)
Definition style_ok (le : list N) (ls : list line) (tr : bool) : Prop :=
  le = LF \/ (le = CRLF /\ (tr = true \/ (2 <= length ls)%nat)).

Lemma join_lines_ne ls tr le : ls <> [] -> join_lines ls tr le = intercalate le ls ++ (if tr then le else []).
Proof. destruct ls; [congruence|reflexivity]. Qed.

Lemma split_lines_join ls tr le : canon ls tr -> le = LF \/ le = CRLF ->
  split_lines (join_lines ls tr le) = (ls, tr).
Proof.
  intros [NE [CL LAST]] LE.
  assert (exists sfx, le = sfx ++ [10] /\ ~ In 10 sfx /\ (sfx = [] \/ sfx = [13])) as [sfx [-> [NS SF]]].
  { destruct LE as [-> | ->]; [exists []|exists [13]]; (split; [reflexivity|]); (split; [|auto]).
    - intros [].
    - intros [H|[]]; discriminate. }
  assert (STRIP : forall l, In l ls -> strip_cr (l ++ sfx) = l /\ strip_cr l = l).
  { intros l I. destruct (CL l I) as [_ N13]. split; [|apply strip_cr_clean; exact N13].
    destruct SF as [-> | ->]; [rewrite app_nil_r; apply strip_cr_clean; exact N13|apply strip_cr_snoc]. }
  rewrite (join_lines_ne ls tr (sfx ++ [10]) NE).
  destruct (exists_last NE) as [init [lst ->]]. rewrite last_last in LAST. rewrite intercalate_snoc, <- app_assoc.
  assert (IL : In lst (init ++ [lst])) by (apply in_or_app; right; left; reflexivity).
  assert (N10 : ~ In 10 lst) by apply (CL lst IL).
  set (tail := lst ++ (if tr then sfx ++ [10] else [])).
  assert (PIECES : map strip_cr (split_on 10 (concat (map (fun l => l ++ sfx ++ [10]) init) ++ tail))
                   = (init ++ [lst]) ++ (if tr then [[]] else [])).
  { rewrite split_on_lines by (exact NS || (intros l I; apply (CL l); apply in_or_app; left; exact I)).
    rewrite map_app, map_map, (map_ext_in _ (fun l => l) init), map_id, <- app_assoc.
    2:{ intros l I. apply STRIP. apply in_or_app. left. exact I. }
    f_equal. subst tail. unfold split_on. destruct tr.
    - rewrite app_assoc, split_aux_line by (intros I; apply in_app_or in I; destruct I; contradiction).
      cbn [rev app split_aux map]. rewrite (proj1 (STRIP lst IL)). reflexivity.
    - rewrite app_nil_r, split_aux_end by exact N10. cbn [rev app map]. rewrite (proj2 (STRIP lst IL)). reflexivity. }
  assert (EN : ends_nl (concat (map (fun l => l ++ sfx ++ [10]) init) ++ tail) = tr).
  { subst tail. destruct tr.
    - rewrite !app_assoc. apply ends_nl_snoc.
    - rewrite app_nil_r. destruct LAST as [H|[H|H]]; [discriminate|apply ends_nl_app_no; assumption|].
      destruct init as [|? [|? ?]]; inversion H; subst. reflexivity. }
  unfold split_lines. rewrite PIECES, EN. destruct tr; [rewrite removelast_last|rewrite app_nil_r]; reflexivity.
Qed.

Lemma intercalate_in sep (ls : list line) x : In x (intercalate sep ls) -> In x sep \/ exists l, In l ls /\ In x l.
Proof.
  induction ls as [|a ls IH]; [intros []|]. destruct ls as [|b r].
  - intros I. right. exists a. split; [left; reflexivity|exact I].
  - change (intercalate sep (a :: b :: r)) with (a ++ sep ++ intercalate sep (b :: r)). intros I.
    apply in_app_or in I. destruct I as [I|I]; [right; exists a; split; [left; reflexivity|exact I]|].
    apply in_app_or in I. destruct I as [I|I]; [left; exact I|].
    destruct (IH I) as [J|[l [J1 J2]]]; [left; exact J|right; exists l; split; [right; exact J1|exact J2]].
Qed.

Lemma join_lines_in ls tr le x : In x (join_lines ls tr le) -> In x le \/ exists l, In l ls /\ In x l.
Proof.
  unfold join_lines. destruct ls as [|l0 ls0] eqn:LS; [intros []|]. rewrite <- LS. intros I.
  apply in_app_or in I. destruct I as [I|I]; [apply intercalate_in; exact I|].
  destruct tr; [left; exact I|destruct I].
Qed.

Lemma line_ending_join ls tr le : canon ls tr -> style_ok le ls tr -> line_ending (join_lines ls tr le) = le.
Proof.
  intros [NE [CL LAST]] [-> | [-> MANY]]; unfold line_ending.
  - rewrite contains_crlf_none; [reflexivity|]. intros I. apply join_lines_in in I.
    destruct I as [[I|[]]|[l [I1 I2]]]; [discriminate|]. exact (proj2 (CL l I1) I2).
  - assert (contains_crlf (join_lines ls tr CRLF) = true) as ->; [|reflexivity].
    rewrite join_lines_ne by exact NE. destruct tr.
    + apply contains_crlf_mid with (b := []).
    + destruct MANY as [H|H]; [discriminate|]. rewrite app_nil_r.
      destruct ls as [|l0 [|l1 r]]; [congruence|cbn in H; lia|].
      change (intercalate CRLF (l0 :: l1 :: r)) with (l0 ++ 13 :: 10 :: intercalate CRLF (l1 :: r)).
      apply contains_crlf_mid.
Qed.

Theorem hunks_on_canonical ls tr le hs : canon ls tr -> style_ok le ls tr ->
  apply_hunks_to_text (join_lines ls tr le) hs =
  match apply_hunks_lines ls 0 hs with Some ls' => Some (join_lines ls' tr le) | None => None end.
Proof.
  intros CN ST. unfold apply_hunks_to_text.
  rewrite (line_ending_join _ _ _ CN ST).
  rewrite (split_lines_join ls tr le CN); [reflexivity|].
  destruct ST as [-> | [-> _]]; [left|right]; reflexivity.
Qed.

Lemma Forall_firstn {A} (P : A -> Prop) n : forall l, Forall P l -> Forall P (firstn n l).
Proof. induction n as [|n IH]; intros [|x l] H; cbn [firstn]; try constructor; inversion H; subst; auto. Qed.
Lemma Forall_skipn {A} (P : A -> Prop) n : forall l, Forall P l -> Forall P (skipn n l).
Proof. induction n as [|n IH]; intros [|x l] H; cbn [skipn]; auto. inversion H; subst; auto. Qed.

Lemma apply_hunks_lines_forall (P : line -> Prop) : forall hs ls cur ls',
  Forall P ls -> (forall h, In h hs -> Forall P (h_after h)) ->
  apply_hunks_lines ls cur hs = Some ls' -> Forall P ls'.
Proof.
  induction hs as [|h hs IH]; intros ls cur ls' FL FH; cbn [apply_hunks_lines].
  - intros E; inversion E; subst; exact FL.
  - assert (FA : Forall P (h_after h)) by (apply FH; left; reflexivity).
    assert (FH' : forall h', In h' hs -> Forall P (h_after h')) by (intros h' I; apply FH; right; exact I).
    destruct (h_before h) as [|b0 bs].
    + apply IH; [apply Forall_app; split; assumption|exact FH'].
    + destruct (find_from ls (b0 :: bs) cur) as [pos|]; [|discriminate].
      apply IH; [|exact FH']. apply Forall_app. split; [apply Forall_firstn; exact FL|].
      apply Forall_app. split; [exact FA|apply Forall_skipn; exact FL].
Qed.

Theorem trailing_newline_kept text hs out :
  apply_hunks_to_text text hs = Some out -> ends_nl text = true -> out <> [] -> ends_nl out = true.
Proof.
  unfold apply_hunks_to_text, split_lines. intros H EN NE. rewrite EN in H.
  destruct (apply_hunks_lines _ 0 hs) as [ls'|]; [|discriminate]. inversion H; subst out.
  unfold join_lines in *. destruct ls' as [|a r]; [congruence|].
  unfold line_ending. destruct (contains_crlf text).
  - change [13; 10] with ([13] ++ [10]). rewrite !app_assoc. apply ends_nl_snoc.
  - apply ends_nl_snoc.
Qed.

Theorem lf_file_stays_lf text hs out :
  ~ In 13 text -> (forall h, In h hs -> Forall (fun l => ~ In 13 l) (h_after h)) ->
  apply_hunks_to_text text hs = Some out -> ~ In 13 out.
Proof.
  intros NT NH. unfold apply_hunks_to_text. unfold line_ending. rewrite (contains_crlf_none _ NT).
  destruct (split_lines text) as [ls tr] eqn:SL.
  assert (FL : Forall (fun l => ~ In 13 l) ls).
  { unfold split_lines in SL. apply Forall_forall. intros l I.
    assert (IP : In l (map strip_cr (split_on 10 text))).
    { destruct (ends_nl text); inversion SL; subst; [apply removelast_incl; exact I|exact I]. }
    apply in_map_iff in IP. destruct IP as [piece [<- IP]].
    assert (NP : ~ In 13 piece).
    { intros J. destruct (split_aux_in 10 text [] piece 13 IP J) as [[]|K]. contradiction. }
    rewrite strip_cr_clean; exact NP. }
  destruct (apply_hunks_lines ls 0 hs) as [ls'|] eqn:AH; [|discriminate].
  intros H; inversion H; subst out.
  pose proof (apply_hunks_lines_forall _ hs ls 0%nat ls' FL NH AH) as FL'.
  intros I. apply join_lines_in in I. destruct I as [[I|[]]|[l [I1 I2]]]; [discriminate|].
  rewrite Forall_forall in FL'. exact (FL' l I1 I2).
Qed.

(* a mixed LF/CRLF file: the identity hunk rewrites the untouched LF line to CRLF *)
Definition mixed_text : list N := [97; 13; 10; 98; 10; 99; 10].          (* "a\r\nb\nc\n" *)
Definition id_hunk : hunk := {| h_before := [[99]]; h_after := [[99]] |}.   (* " c" *)
Definition mixed_out : list N := [97; 13; 10; 98; 13; 10; 99; 13; 10].
Lemma mixed_run : apply_hunks_to_text mixed_text [id_hunk] = Some mixed_out.
Proof. vm_compute. reflexivity. Qed.
(* a lone CR at the end of a last line without newline is dropped *)
Definition lonecr_text : list N := [120; 10; 121; 13].                    (* "x\ny\r" *)
Definition lonecr_hunk : hunk := {| h_before := [[120]]; h_after := [[120]] |}.
Definition lonecr_out : list N := [120; 10; 121].
Lemma lonecr_run : apply_hunks_to_text lonecr_text [lonecr_hunk] = Some lonecr_out.
Proof. vm_compute. reflexivity. Qed.
(* no trailing newline + the remaining last line is empty: the result reads as "has a trailing newline" *)
Definition emptylast_text : list N := [97; 10; 10; 98].                   (* "a\n\nb" *)
Definition emptylast_hunk : hunk := {| h_before := [[98]]; h_after := [] |}.
Definition emptylast_out : list N := [97; 10].
Lemma emptylast_run : apply_hunks_to_text emptylast_text [emptylast_hunk] = Some emptylast_out.
Proof. vm_compute. reflexivity. Qed.

Theorem identity_hunk_not_identity_refuted :
  exists text h out, h_before h = h_after h /\ apply_hunks_to_text text [h] = Some out /\ out <> text.
Proof. exists mixed_text, id_hunk, mixed_out. split; [reflexivity|]. split; [exact mixed_run|discriminate]. Qed.

Theorem lone_cr_dropped_refuted :
  exists text h out, h_before h = h_after h /\ apply_hunks_to_text text [h] = Some out /\ In 13 text /\ ~ In 13 out.
Proof.
  exists lonecr_text, lonecr_hunk, lonecr_out. split; [reflexivity|]. split; [exact lonecr_run|].
  split; [cbn; auto|]. cbn. intros [H|[H|[H|[]]]]; discriminate.
Qed.

Theorem no_trailing_newline_not_always_kept_refuted :
  exists text hs out, apply_hunks_to_text text hs = Some out /\ ends_nl text = false /\ ends_nl out = true.
Proof. exists emptylast_text, [emptylast_hunk], emptylast_out. split; [exact emptylast_run|]. split; reflexivity. Qed.

Lemma canonical_demo :
  canon [[97]; [98]] true /\ style_ok CRLF [[97]; [98]] true /\
  apply_hunks_to_text (join_lines [[97]; [98]] true CRLF) [{| h_before := [[98]]; h_after := [[99]; [100]] |}]
  = Some (join_lines [[97]; [99]; [100]] true CRLF).
Proof.
  split; [|split; [right; split; [reflexivity|left; reflexivity]|vm_compute; reflexivity]].
  split; [discriminate|]. split; [|left; reflexivity].
  intros l [<-|[<-|[]]]; split; cbn; intros [H|[]]; discriminate.
Qed.

(* needle occurs in hay at line index i *)
Definition occurs_at (hay needle : list line) (i : nat) : Prop := exists t, skipn i hay = needle ++ t.

Lemma prefix_eqb_iff needle : forall hay, prefix_eqb needle hay = true <-> exists t, hay = needle ++ t.
Proof.
  induction needle as [|x n IH]; intros hay; cbn [prefix_eqb].
  - split; [intros _; exists hay; reflexivity|reflexivity].
  - destruct hay as [|y h].
    + split; [discriminate|intros [t E]; discriminate].
    + rewrite andb_true_iff, lN_eqb_spec, IH. split.
      * intros [-> [t ->]]. exists t. reflexivity.
      * intros [t E]. cbn [app] in E. inversion E; subst. split; [reflexivity|exists t; reflexivity].
Qed.

Lemma find_sub_spec needle : forall hay idx pos, find_sub hay needle idx = Some pos ->
  exists k, pos = (idx + k)%nat /\ occurs_at hay needle k /\ forall j, (j < k)%nat -> ~ occurs_at hay needle j.
Proof.
  induction hay as [|x r IH]; intros idx pos; cbn [find_sub].
  - destruct (prefix_eqb needle []) eqn:P; [|discriminate]. intros E; inversion E; subst.
    exists 0%nat. split; [lia|]. split; [apply prefix_eqb_iff in P; exact P|intros j Hj; lia].
  - destruct (prefix_eqb needle (x :: r)) eqn:P.
    + intros E; inversion E; subst. exists 0%nat. split; [lia|]. split; [apply prefix_eqb_iff in P; exact P|intros j Hj; lia].
    + intros E. destruct (IH _ _ E) as [k [-> [O F]]]. exists (S k). split; [lia|]. split; [exact O|].
      intros j Hj. destruct j as [|j].
      * intros O0. apply prefix_eqb_iff in O0. cbn [skipn] in O0. congruence.
      * apply F. lia.
Qed.

Lemma find_sub_none needle : forall hay idx, find_sub hay needle idx = None -> forall j, ~ occurs_at hay needle j.
Proof.
  induction hay as [|x r IH]; intros idx; cbn [find_sub].
  - destruct (prefix_eqb needle []) eqn:P; [discriminate|]. intros _ j [t E].
    assert (skipn j (@nil line) = []) by (destruct j; reflexivity).
    assert (prefix_eqb needle [] = true) by (apply prefix_eqb_iff; exists t; congruence). congruence.
  - destruct (prefix_eqb needle (x :: r)) eqn:P; [discriminate|]. intros E j. destruct j as [|j].
    + intros O0. apply prefix_eqb_iff in O0. cbn [skipn] in O0. congruence.
    + apply (IH _ E).
Qed.

Lemma occurs_skip hay needle s k : occurs_at (skipn s hay) needle k <-> occurs_at hay needle (s + k).
Proof. unfold occurs_at. rewrite skipn_skipn_add. reflexivity. Qed.

Theorem find_from_first hay needle cur pos : find_from hay needle cur = Some pos ->
  (cur <= pos)%nat /\ occurs_at hay needle pos /\ forall i, (cur <= i < pos)%nat -> ~ occurs_at hay needle i.
Proof.
  unfold find_from. destruct (Nat.leb cur (List.length hay)); [|discriminate]. intros E.
  apply find_sub_spec in E. destruct E as [k [-> [O F]]]. split; [lia|]. split; [apply occurs_skip; exact O|].
  intros i Hi. replace i with (cur + (i - cur))%nat by lia. rewrite <- occurs_skip. apply F. lia.
Qed.

Theorem find_from_none hay needle cur : (cur <= List.length hay)%nat -> find_from hay needle cur = None ->
  forall i, (cur <= i)%nat -> ~ occurs_at hay needle i.
Proof.
  unfold find_from. intros LE. apply Nat.leb_le in LE. rewrite LE. intros E i Hi.
  replace i with (cur + (i - cur))%nat by lia. rewrite <- occurs_skip. eapply find_sub_none. exact E.
Qed.

(* one hunk with context replaces exactly the first occurrence of its `before` lines at or after the
   cursor, and moves the cursor behind the inserted lines; a hunk without context appends *)
Theorem hunk_step h r ls cur : h_before h <> [] ->
  forall res, apply_hunks_lines ls cur (h :: r) = Some res ->
  exists pre post, ls = pre ++ h_before h ++ post /\ (cur <= List.length pre)%nat /\
    (forall i, (cur <= i < List.length pre)%nat -> ~ occurs_at ls (h_before h) i) /\
    apply_hunks_lines (pre ++ h_after h ++ post) (List.length pre + List.length (h_after h)) r = Some res.
Proof.
  intros NE res. cbn [apply_hunks_lines]. destruct (h_before h) as [|b0 bs] eqn:B; [congruence|].
  destruct (find_from ls (b0 :: bs) cur) as [pos|] eqn:FF; [|discriminate].
  destruct (find_from_first _ _ _ _ FF) as [LE [[t OC] FIRST]].
  intros H. exists (firstn pos ls), t.
  assert (LP : (pos <= List.length ls)%nat).
  { destruct (Nat.le_gt_cases pos (List.length ls)) as [A|A]; [exact A|]. rewrite skipn_all2 in OC by lia. discriminate. }
  assert (LEN : List.length (firstn pos ls) = pos) by (rewrite firstn_length; lia).
  assert (DEC : ls = firstn pos ls ++ (b0 :: bs) ++ t) by (rewrite <- OC; symmetry; apply firstn_skipn).
  split; [exact DEC|]. rewrite LEN. split; [exact LE|]. split; [exact FIRST|].
  assert (SK : skipn (pos + List.length (b0 :: bs)) ls = t).
  { rewrite <- skipn_skipn_add, OC. rewrite skipn_app, skipn_all, Nat.sub_diag. reflexivity. }
  rewrite SK in H. exact H.
Qed.

Theorem hunk_append h r ls cur : h_before h = [] ->
  apply_hunks_lines ls cur (h :: r) = apply_hunks_lines (ls ++ h_after h) (List.length (ls ++ h_after h)) r.
Proof. intros B. cbn [apply_hunks_lines]. rewrite B. reflexivity. Qed.

(* without an occurrence of its context at or after the cursor a hunk fails, and with it the update *)
Theorem hunk_missing_context_fails h r ls cur : h_before h <> [] -> (cur <= List.length ls)%nat ->
  (forall i, (cur <= i)%nat -> ~ occurs_at ls (h_before h) i) -> apply_hunks_lines ls cur (h :: r) = None.
Proof.
  intros NE LE NO. cbn [apply_hunks_lines]. destruct (h_before h) as [|b0 bs] eqn:B; [congruence|].
  destruct (find_from ls (b0 :: bs) cur) as [pos|] eqn:FF; [|reflexivity].
  destruct (find_from_first _ _ _ _ FF) as [L [OC _]]. exfalso. exact (NO pos L OC).
Qed.
