(* C05 — the thread index (continuities/index.json) across a crash: temp + rename leaves the OLD or the NEW index,
   never none; what a completed operation left in the index is never lost; refuted for "unlink, then rename".
   Everything here holds for EVERY code version `v` and EVERY history (no environment hypothesis): the index part
   of the state does not depend on the log. *)
From RipV Require Import Base.Prelude Model.Crash Proofs.CrashProofs.

(* icore: the index part of the state (index.json, its temp file, the in-memory index); irel: the instructions that
   can change it (classifiers: see `relevant` in CrashProofs) *)
Definition icore (s : st) : option idxv * option idxv * idxv := (idx s, idx_tmp s, midx s).
Definition irel (i : instr) : bool :=
  match i with IIdxMem _ _ | IIdxTmp | IIdxRename | IIdxRemove => true | _ => false end.

Lemma exec_icore_congr s s' i : icore s = icore s' -> icore (exec s i) = icore (exec s' i).
Proof.
  unfold icore. intros E. destruct s as [? ? ? ? ? ? it ? ? ? ?], s' as [? ? ? ? ? ? it' ? ? ? ?].
  cbn in E. injection E as -> -> ->. destruct i; try reflexivity. destruct it'; reflexivity.
Qed.
Lemma exec_icore_neutral s i : irel i = false -> icore (exec s i) = icore s.
Proof.
  unfold icore. destruct i; cbn [irel]; intros H; try discriminate H;
    cbn [exec upd_truth upd_sides upd_nexts upd_idx upd_arts upd_acks idx idx_tmp midx]; reflexivity.
Qed.
Lemma run_icore_filter is s : icore (run_instrs s is) = icore (run_instrs s (filter irel is)).
Proof. exact (run_filter icore irel exec_icore_congr exec_icore_neutral is s). Qed.
Lemma idx_filter s p : idx (run_instrs s p) = idx (run_instrs s (filter irel p)).
Proof. pose proof (run_icore_filter p s) as E. unfold icore in E. injection E as Ei _ _. exact Ei. Qed.
Lemma midx_filter s p : midx (run_instrs s p) = midx (run_instrs s (filter irel p)).
Proof. pose proof (run_icore_filter p s) as E. unfold icore in E. injection E as _ _ Em. exact Em. Qed.

Lemma cache_only_irel i : cache_only i = true -> irel i = false.
Proof. destruct i; intros H; (reflexivity || discriminate H). Qed.
Lemma fi_replay_events s c : filter irel (fst (replay_events s c)) = [].
Proof. exact (filter_excluded _ _ _ cache_only_irel (replay_events_cache_only s c)). Qed.
Lemma fi_locked_append v s c fid len art : filter irel (locked_append v s c fid len art) = [].
Proof.
  unfold locked_append, truth_append. cbn [app filter irel].
  rewrite filter_app, (filter_excluded _ _ _ cache_only_irel (resolve_cache_only v s c)).
  destruct (snd (resolve v s c)); [destruct (fw v)|]; reflexivity.
Qed.
Lemma fi_create v c fid len d :
  filter irel (create v c fid len d) = [IIdxMem (if d then Some c else None) (Some c); IIdxTmp; IIdxRename].
Proof. unfold create, truth_append. destruct (fw v); reflexivity. Qed.
Lemma fi_child v c i len0 len1 art :
  filter irel (child v c i len0 len1 [] art) = [IIdxMem None (Some c); IIdxTmp; IIdxRename].
Proof. unfold child, create, truth_append. destruct (fw v); reflexivity. Qed.

(* the index instructions of an operation, as a function of the state it starts in.  The lemmas named fi_* say what
   `filter irel` leaves of a piece of a compiled program; fi_compile: of a whole operation it leaves idx_prog *)
Definition parent_ok (s : st) (p : N) : bool :=
  match snd (replay_events s p) with Some (_ :: _) => true | _ => false end.
Definition idx_prog (s : st) (o : op) : list instr :=
  match o with
  | OEnsure c _ =>
    match ix_default (midx s) with
    | Some _ => []
    | None =>
      match replay_validated s with
      | None => []
      | Some fs =>
        match latest_created fs with
        | Some d => [IIdxMem (Some d) None; IIdxTmp; IIdxRename]
        | None => [IIdxMem (Some c) (Some c); IIdxTmp; IIdxRename]
        end
      end
    end
  | OBranch p c _ _ | OHandoff p c _ _ _ => if parent_ok s p then [IIdxMem None (Some c); IIdxTmp; IIdxRename] else []
  | _ => []
  end.

Lemma fi_compile v s i o : filter irel (compile v s i o) = idx_prog s o.
Proof.
  destruct o as [c len | c len | x len | c a has_msg len | p c len0 len1 | p c a len0 len1 | c]; cbn [compile idx_prog].
  - destruct (ix_default (midx s)); [reflexivity|].
    destruct (replay_validated s) as [fs|]; [|reflexivity].
    destruct (latest_created fs); [reflexivity|]. rewrite filter_app, fi_create. reflexivity.
  - apply fi_locked_append.
  - unfold sess_append. destruct (fw v), (ff v); reflexivity.
  - rewrite filter_app, fi_replay_events.
    destruct (snd (replay_events s c)) as [[|e evs]|]; [reflexivity | | reflexivity].
    destruct has_msg; [|reflexivity]. rewrite filter_app, fi_locked_append. reflexivity.
  - rewrite filter_app, fi_replay_events. unfold parent_ok.
    destruct (snd (replay_events s p)) as [[|e evs]|]; [reflexivity | | reflexivity].
    apply fi_child.
  - rewrite filter_app, fi_replay_events. unfold parent_ok.
    destruct (snd (replay_events s p)) as [[|e evs]|]; [reflexivity | | reflexivity].
    rewrite filter_app. apply fi_child.
  - apply fi_replay_events.
Qed.

(* for the index, an operation is its idx_prog *)
Lemma idx_compile v s i o :
  idx (run_instrs s (compile v s i o)) = idx (run_instrs s (idx_prog s o))
  /\ midx (run_instrs s (compile v s i o)) = midx (run_instrs s (idx_prog s o)).
Proof. rewrite idx_filter, midx_filter, fi_compile. split; reflexivity. Qed.

(* the in-memory index after IIdxMem d a *)
Definition upd_mem (m : idxv) (d a : option N) : idxv :=
  {| ix_default := match d with Some x => Some x | None => ix_default m end;
     ix_known := match a with Some x => ix_known m ++ [x] | None => ix_known m end |}.
(* every operation has no index instruction, or exactly one save: update in memory, write the temp file, rename *)
Lemma idx_prog_shape s o : idx_prog s o = [] \/ exists d a, idx_prog s o = [IIdxMem d a; IIdxTmp; IIdxRename].
Proof.
  destruct o; cbn [idx_prog]; try (left; reflexivity).
  - destruct (ix_default (midx s)); [left; reflexivity|]. destruct (replay_validated s) as [fs|]; [|left; reflexivity].
    destruct (latest_created fs); right; eauto.
  - destruct (parent_ok s p); [right; eauto | left; reflexivity].
  - destruct (parent_ok s p); [right; eauto | left; reflexivity].
Qed.

Lemma save_result s d a :
  idx (run_instrs s [IIdxMem d a; IIdxTmp; IIdxRename]) = Some (upd_mem (midx s) d a)
  /\ midx (run_instrs s [IIdxMem d a; IIdxTmp; IIdxRename]) = upd_mem (midx s) d a.
Proof. split; reflexivity. Qed.

(* the index on disk after ANY prefix of an operation's program is the index the operation found (OLD) or the index
   the complete operation leaves (NEW) *)
Theorem op_views v s i o p r : compile v s i o = p ++ r ->
  idx (run_instrs s p) = idx s \/ idx (run_instrs s p) = idx (run_instrs s (compile v s i o)).
Proof.
  intros E. rewrite (idx_filter s p), (idx_filter s (compile v s i o)).
  pose proof (fi_compile v s i o) as F. rewrite E, filter_app in F. rewrite E, filter_app, F.
  destruct (idx_prog_shape s o) as [H | (d & a & H)]; rewrite H in F |- *.
  - apply app_eq_nil in F. destruct F as [-> _]. left. reflexivity.
  - (* p holds a beginning of [mem; tmp; rename]; only the whole of it changes the index on disk *)
    destruct (filter irel p) as [|x [|y [|z [|w l]]]]; cbn [app] in F.
    + left. reflexivity.
    + injection F as -> _. left. reflexivity.
    + injection F as -> -> _. left. reflexivity.
    + injection F as -> -> -> _. right. reflexivity.
    + exfalso. injection F as _ _ _ F. discriminate F.
Qed.

Lemma run_ops_one v s i o : run_ops v s i [o] = run_instrs s (compile v s i o).
Proof. reflexivity. Qed.

(* c05_rename_atomic_views: with n = the number of operations complete after the first k instructions, the index on
   disk is the one the clean run of the first n operations leaves (OLD) or the one the first n+1 leave (NEW) *)
Theorem atomic_views v ops : forall k s i,
  idx (run_k v k s i ops) = idx (run_ops v s i (firstn (done_ops v k s i ops) ops))
  \/ idx (run_k v k s i ops) = idx (run_ops v s i (firstn (S (done_ops v k s i ops)) ops)).
Proof.
  induction ops as [|o ops IH]; intros k s i.
  - left. reflexivity.
  - cbn [run_k done_ops]. destruct (Nat.leb k (length (compile v s i o))).
    + cbn [firstn run_ops].
      destruct (op_views v s i o (firstn k (compile v s i o)) (skipn k (compile v s i o))) as [H|H];
        [symmetry; apply firstn_skipn | left; exact H | right; exact H].
    + cbn [firstn run_ops]. apply IH.
Qed.

(* K s: the memory index equals the disk index (what a restarted store loads is what the running store had) *)
Definition K (s : st) : Prop := midx s = match idx s with Some x => x | None => idx_empty end.
Lemma K_init : K init.
Proof. reflexivity. Qed.
Lemma K_recover s : K (recover s).
Proof. reflexivity. Qed.

(* b extends a: no thread leaves the index, a default once set is kept *)
Definition idx_ext (a b : option idxv) : Prop :=
  match a with
  | None => True
  | Some x => exists y, b = Some y
                        /\ (ix_default x = None \/ ix_default y = ix_default x)
                        /\ exists l, ix_known y = ix_known x ++ l
  end.
Lemma idx_ext_refl a : idx_ext a a.
Proof. destruct a as [x|]; [|exact I]. exists x. split; [reflexivity|]. split; [right; reflexivity|]. exists []. symmetry. apply app_nil_r. Qed.
Lemma idx_ext_trans a b c : idx_ext a b -> idx_ext b c -> idx_ext a c.
Proof.
  destruct a as [x|]; [|intros _ _; exact I]. intros (y & -> & Hd & l & Hl). cbn [idx_ext].
  intros (z & -> & Hd' & l' & Hl'). exists z. split; [reflexivity|]. split.
  - destruct Hd as [Hd|Hd]; [left; exact Hd|]. destruct Hd' as [Hd'|Hd'].
    + rewrite Hd' in Hd. left. symmetry. exact Hd.
    + right. rewrite Hd'. exact Hd.
  - exists (l ++ l'). rewrite Hl', Hl. symmetry. apply app_assoc.
Qed.

Lemma op_boundary v s i o : K s ->
  K (run_instrs s (compile v s i o)) /\ idx_ext (idx s) (idx (run_instrs s (compile v s i o))).
Proof.
  intros HK. unfold K. destruct (idx_compile v s i o) as [-> ->].
  assert (Hnil : K (run_instrs s []) /\ idx_ext (idx s) (idx (run_instrs s [])))
    by (split; [exact HK | apply idx_ext_refl]).
  assert (Hsave : forall d a, (d <> None -> ix_default (midx s) = None) ->
            K (run_instrs s [IIdxMem d a; IIdxTmp; IIdxRename])
            /\ idx_ext (idx s) (idx (run_instrs s [IIdxMem d a; IIdxTmp; IIdxRename]))).
  { intros d a Hd. destruct (save_result s d a) as [E1 E2]. unfold K. rewrite E1, E2. split; [reflexivity|].
    unfold K in HK. destruct (idx s) as [x|] eqn:Ex; [|exact I]. cbn [idx_ext].
    exists (upd_mem (midx s) d a). split; [reflexivity|]. rewrite HK. unfold upd_mem. cbn [ix_default ix_known]. split.
    - destruct d as [d|]; [left; rewrite <- HK; apply Hd; discriminate | right; reflexivity].
    - destruct a as [a|]; [exists [a]; reflexivity | exists []; symmetry; apply app_nil_r]. }
  unfold K in Hnil.
  destruct o as [c len | c len | x len | c a has_msg len | p c len0 len1 | p c a len0 len1 | c]; cbn [idx_prog]; try exact Hnil.
  - destruct (ix_default (midx s)) eqn:Ed; [exact Hnil|].
    destruct (replay_validated s) as [fs|]; [|exact Hnil].
    destruct (latest_created fs); apply Hsave; intros _; reflexivity.
  - destruct (parent_ok s p); [|exact Hnil]. apply Hsave. intros H. contradiction H. reflexivity.
  - destruct (parent_ok s p); [|exact Hnil]. apply Hsave. intros H. contradiction H. reflexivity.
Qed.

Lemma run_ops_boundary v ops : forall s i, K s -> K (run_ops v s i ops) /\ idx_ext (idx s) (idx (run_ops v s i ops)).
Proof.
  induction ops as [|o ops IH]; intros s i HK; [split; [exact HK | apply idx_ext_refl]|].
  cbn [run_ops]. destruct (op_boundary v s i o HK) as [HK1 He1]. destruct (IH _ (i + 1) HK1) as [HK2 He2].
  split; [exact HK2 | exact (idx_ext_trans _ _ _ He1 He2)].
Qed.

Lemma boundaries_ext v ops s i j n : K s -> (j <= n)%nat ->
  idx_ext (idx (run_ops v s i (firstn j ops))) (idx (run_ops v s i (firstn n ops))).
Proof.
  intros HK Hle. rewrite <- (firstn_skipn j (firstn n ops)), firstn_firstn, (Nat.min_l j n Hle), run_ops_app.
  apply run_ops_boundary. apply run_ops_boundary. exact HK.
Qed.

(* what ANY completed operation left in the index is still there after a crash at ANY later instruction, restart and
   ANY further operations: no listed thread is lost, the default thread is kept *)
Theorem index_never_loses v hist k j base more : (j <= done_ops v k init 0 hist)%nat ->
  idx_ext (idx (run_ops v init 0 (firstn j hist))) (idx (run_ops v (crash v k hist) base more)).
Proof.
  intros Hj. apply (idx_ext_trans _ (idx (crash v k hist))).
  - unfold crash. cbn [recover idx].
    destruct (atomic_views v hist k init 0) as [E|E]; rewrite E; apply boundaries_ext; try exact K_init; lia.
  - apply run_ops_boundary. apply K_recover.
Qed.

(* the restarted store's in-memory index is the disk index: a default thread that a completed operation had on disk
   is the default the restarted store answers ensure_default with (no log scan, no new thread) *)
Theorem default_survives v hist k j x d c len : (j <= done_ops v k init 0 hist)%nat ->
  idx (run_ops v init 0 (firstn j hist)) = Some x -> ix_default x = Some d ->
  ix_default (midx (crash v k hist)) = Some d /\ compile v (crash v k hist) (nlen hist) (OEnsure c len) = [IOk].
Proof.
  intros Hj Ex Ed. pose proof (index_never_loses v hist k j 0 [] Hj) as H. rewrite Ex in H. cbn [run_ops idx_ext] in H.
  destruct H as (y & Ey & Hd & _). destruct Hd as [Hd|Hd]; [rewrite Hd in Ed; discriminate Ed|].
  assert (Hm : ix_default (midx (crash v k hist)) = Some d).
  { pose proof (K_recover (run_k v k init 0 hist)) as HK. fold (crash v k hist) in HK. unfold K in HK.
    rewrite HK, Ey, Hd. exact Ed. }
  split; [exact Hm|]. cbn [compile]. rewrite Hm. reflexivity.
Qed.

Lemma has_ok_app a b : has_ok (a ++ b) = has_ok a || has_ok b.
Proof. unfold has_ok. apply existsb_app. Qed.
Lemma has_ok_replay_events s c : has_ok (fst (replay_events s c)) = false.
Proof.
  destruct (has_ok (fst (replay_events s c))) eqn:E; [|reflexivity].
  apply existsb_exists in E. destruct E as (i & Hi & Hok).
  pose proof (proj1 (forallb_forall _ _) (replay_events_cache_only s c) i Hi) as Hc.
  destruct i; discriminate.
Qed.

(* a branch / handoff that returns Ok has its child in the index on disk; an ensure_default that returns Ok has the
   default on disk (the index is saved BEFORE the call returns) *)
Theorem created_listed v s i o p c : K s ->
  (exists l0 l1, o = OBranch p c l0 l1) \/ (exists a l0 l1, o = OHandoff p c a l0 l1) ->
  has_ok (compile v s i o) = true ->
  exists x, idx (run_instrs s (compile v s i o)) = Some x /\ In c (ix_known x).
Proof.
  intros HK Ho Hok.
  assert (Hp : parent_ok s p = true).
  { destruct Ho as [(l0 & l1 & ->) | (a & l0 & l1 & ->)]; cbn [compile] in Hok; rewrite has_ok_app, has_ok_replay_events in Hok;
      cbn [orb] in Hok; unfold parent_ok; destruct (snd (replay_events s p)) as [[|e evs]|]; try reflexivity; discriminate Hok. }
  rewrite (proj1 (idx_compile v s i o)).
  assert (E : idx_prog s o = [IIdxMem None (Some c); IIdxTmp; IIdxRename])
    by (destruct Ho as [(l0 & l1 & ->) | (a & l0 & l1 & ->)]; cbn [idx_prog]; rewrite Hp; reflexivity).
  rewrite E. destruct (save_result s None (Some c)) as [E1 _]. rewrite E1.
  eexists. split; [reflexivity|]. unfold upd_mem. cbn [ix_known]. apply in_or_app. right. left. reflexivity.
Qed.

Theorem ensured_default_on_disk v s i c len : K s -> has_ok (compile v s i (OEnsure c len)) = true ->
  exists x d, idx (run_instrs s (compile v s i (OEnsure c len))) = Some x /\ ix_default x = Some d
              /\ ix_default (midx (run_instrs s (compile v s i (OEnsure c len)))) = Some d.
Proof.
  intros HK Hok. unfold K in HK.
  destruct (idx_compile v s i (OEnsure c len)) as [-> ->].
  cbn [compile idx_prog] in *. destruct (ix_default (midx s)) as [d|] eqn:Ed.
  - destruct (idx s) as [x|] eqn:Ex; [|rewrite HK in Ed; discriminate Ed].
    exists x, d. cbn. rewrite Ex. split; [reflexivity|]. rewrite <- HK. split; exact Ed.
  - destruct (replay_validated s) as [fs|]; [|discriminate Hok].
    destruct (latest_created fs) as [d|].
    + destruct (save_result s (Some d) None) as [E1 E2]. rewrite E1, E2. eexists. exists d. repeat split.
    + destruct (save_result s (Some c) (Some c)) as [E1 E2]. rewrite E1, E2. eexists. exists c. repeat split.
Qed.

(* default thread 0 + a message (both acknowledged), then a branch; the process dies inside the branch's index save,
   between fs::remove_file(index.json) and fs::rename(tmp, index.json) *)
Definition ul_hist : list op := [OEnsure 0 300; OAppend 0 10; OBranch 0 1 300 300].
(* 32 + 23 instructions of the two completed operations (32, not 31: unlink_first lengthens ensure_default's own index
   save by one), 24 of the branch: the last one executed is IIdxRemove *)
Definition ul_k : nat := 79.
(* the same boundary in rip's program (no IIdxRemove), 31 + 23 + 23: temp file written, rename not yet issued *)
Definition ul_k_fixed : nat := 77.
Lemma ul_witness :
  (* the two completed operations left thread 0 listed and default; their frames (ids 0 and 4) are acknowledged *)
  idx (run_ops fixed init 0 (firstn 2 ul_hist)) = Some {| ix_default := Some 0; ix_known := [0] |}
  /\ In 0 (acks (crashx unlink_first fixed ul_k ul_hist)) /\ In 4 (acks (crashx unlink_first fixed ul_k ul_hist))
  (* the log is intact (so nothing that only replays the log notices) and holds the half-created child 1 *)
  /\ option_map (map (fun f => (f_sid f, f_seq f))) (replay_validated (crashx unlink_first fixed ul_k ul_hist))
     = Some [(0, 0); (0, 1); (2, 0)]
  (* but there is NO index: the restarted store lists nothing *)
  /\ idx (crashx unlink_first fixed ul_k ul_hist) = None
  /\ ix_known (midx (crashx unlink_first fixed ul_k ul_hist)) = []
  (* and ensure_default adopts the half-created child as the workspace's default thread *)
  /\ compile fixed (crashx unlink_first fixed ul_k ul_hist) 3 (OEnsure 9 300) = [IIdxMem (Some 1) None] ++ save_index ++ [IOk]
  (* with rip's save_index the same crash point leaves the old index *)
  /\ idx (crash fixed ul_k_fixed ul_hist) = Some {| ix_default := Some 0; ix_known := [0] |}
  /\ idx_tmp (crash fixed ul_k_fixed ul_hist) = Some {| ix_default := Some 0; ix_known := [0; 1] |}.
Proof. vm_compute. repeat split; auto. Qed.

(* non-vacuity of index_never_loses / default_survives: crashes in the third operation of ul_hist (31 + 23 + 52
   instructions): 70 is inside the branch before its index save, at 200 the whole history has run *)
Lemma ul_example :
  (2 <= done_ops fixed 70 init 0 ul_hist)%nat
  /\ idx (run_ops fixed init 0 (firstn 2 ul_hist)) = Some {| ix_default := Some 0; ix_known := [0] |}
  /\ idx (crash fixed 70 ul_hist) = Some {| ix_default := Some 0; ix_known := [0] |}
  /\ idx (crash fixed 200 ul_hist) = Some {| ix_default := Some 0; ix_known := [0; 1] |}.
Proof. vm_compute. repeat split; auto. Qed.
