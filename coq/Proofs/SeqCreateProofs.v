(* C01 — proofs for Model/SeqCreate.v.
   Whatever the log, a second frame that carries a number its stream has already written makes the log invalid (the general
   fact behind the seeded change C01-10, a retry that creates the same id again; Valid_snoc both ways).  A creation whose index
   save failed leaves ONE frame (seq 0, a stream nobody has written) in the log: the log stays valid, and the retry as built -
   ensure_default, in the same process, after a restart, with ANY index file - appends nothing and answers that thread
   (Model/C02Decide.v `ensure`, Proofs/C02DecideProofs.v).  Then the same on the model's own creation: the micro-step program
   cut at the failing save, on every store that satisfies the store invariant; the cut programs are well-formed, so the
   schedule theorems cover them. *)
From RipV Require Import Base.Prelude Model.Frames Model.Log Model.ContStore Model.C02Decide Model.SeqCreate
  Model.ContInv Proofs.LogProofs Proofs.ContStoreProofs Proofs.ContOrderProofs Proofs.C02DecideProofs.

Theorem second_frame_same_number_invalid (l : log) (f f' : frame) :
  fkind f' = fkind f -> sid f' = sid f -> seq f' = seq f -> ~ Valid ((l ++ [f]) ++ [f']).
Proof.
  intros Hk Hs Hq H. apply Valid_snoc in H. destruct H as [H1 H2]. apply Valid_snoc in H1. destruct H1 as [_ H1].
  rewrite Hk, Hs in H2. unfold next_of in *. rewrite stream_snoc_same in H2. unfold nlen in *.
  rewrite app_length in H2. cbn [length] in H2. lia.
Qed.

Corollary second_frame_same_number_rejected (l : log) (f f' : frame) :
  fkind f' = fkind f -> sid f' = sid f -> seq f' = seq f -> validate ((l ++ [f]) ++ [f']) = false.
Proof.
  intros Hk Hs Hq. destruct (validate ((l ++ [f]) ++ [f'])) eqn:E; [|reflexivity].
  apply validate_spec in E. exfalso. exact (second_frame_same_number_invalid l f f' Hk Hs Hq E).
Qed.

Lemma created_kind f ws : created_in ws f = true -> fkind f = KContinuity.
Proof.
  unfold created_in, is_etype. intro H. apply andb_true_iff in H. destruct H as [H _].
  unfold fkind. destruct (ety f); try discriminate H; reflexivity.
Qed.

Lemma log_has_ws_snoc ws l f : created_in ws f = true -> log_has_ws ws (l ++ [f]) = true.
Proof. intro H. unfold log_has_ws. rewrite existsb_app. cbn [existsb]. rewrite H. rewrite orb_true_r. reflexivity. Qed.

(* the state a failed index save leaves, at the level of the log: one more frame, a `continuity_created` of the store's
   workspace with seq 0 on a stream that had no frame *)
Definition FailedSaveCreation (d d1 : dstate) (f : frame) : Prop :=
  d_ws d1 = d_ws d /\ s_log (d_st d1) = s_log (d_st d) ++ [f]
  /\ created_in (d_ws d) f = true /\ seq f = 0 /\ cstream (sid f) (s_log (d_st d)) = [].

Theorem failed_save_then_retry_as_built d d1 f :
  Valid (s_log (d_st d)) -> FailedSaveCreation d d1 f ->
  Valid (s_log (d_st d1))
  /\ s_log (d_st (fst (ensure false d1))) = s_log (d_st d1)
  /\ (forall file mem, s_log (d_st (fst (ensure false (reopen {| d_st := d_st d1; d_ws := d_ws d1; d_file := file; d_mem := mem |} (d_ws d1))))) = s_log (d_st d1))
  /\ (MemSound d1 -> answer_code (d_ws d1) (s_log (d_st (fst (ensure false d1)))) (snd (ensure false d1)) = 1).
Proof.
  intros Hv (Hws & Hl & Hc & Hq & Hfresh).
  assert (Hk : fkind f = KContinuity) by exact (created_kind f _ Hc).
  assert (V1 : Valid (s_log (d_st d1))).
  { rewrite Hl. apply Valid_snoc. split; [exact Hv|]. rewrite Hq, Hk. unfold next_of. unfold cstream in Hfresh. rewrite Hfresh. reflexivity. }
  assert (Hh : log_has_ws (d_ws d1) (s_log (d_st d1)) = true) by (rewrite Hl, Hws; apply log_has_ws_snoc; exact Hc).
  split; [exact V1|]. split; [apply ensure_thread_in_the_log_adds_nothing; exact Hh|].
  split.
  - intros file mem. apply (ensure_after_restart_any_index_file {| d_st := d_st d1; d_ws := d_ws d1; d_file := file; d_mem := mem |} file (d_ws d1)). exact Hh.
  - intro HM. apply ensure_answers_from_the_log; [exact HM | exact Hh | apply validate_spec; exact V1].
Qed.

(* the retry with the same id after the frame was logged: for EVERY store the log is invalid from then on *)
Theorem failed_save_then_retry_same_id d d1 f :
  FailedSaveCreation d d1 f ->
  validate (s_log (retry_same_id (d_st d1) (sid f) (d_ws d))) = false.
Proof.
  intros (_ & Hl & Hc & Hq & _). unfold retry_same_id. cbn [s_log set_store]. rewrite Hl.
  apply second_frame_same_number_rejected; cbn [mk_frame fkind sid seq ety]; [|reflexivity|symmetry; exact Hq].
  rewrite (created_kind f _ Hc). reflexivity.
Qed.

(* witnesses (w_..) on the model's own creation *)
Definition w_d1 : dstate := fst (ensure_sf dstate0).
Definition w_f : frame := {| fid := 1; sid := 0; seq := 0; ety := EContinuityCreated; args := [0] |}.

Lemma w_failed_save : FailedSaveCreation dstate0 w_d1 w_f /\ snd (ensure_sf dstate0) = None /\ Valid (s_log (d_st dstate0))
  /\ d_file w_d1 = IAbsent /\ s_next (d_st w_d1) 0 = None /\ ws_lookup (ix_ws (d_mem w_d1)) 0 = Some 0.
Proof.
  split; [repeat split; vm_compute; reflexivity|]. split; [vm_compute; reflexivity|]. split; [apply Valid_nil|].
  repeat split; vm_compute; reflexivity.
Qed.

(* a longer history: a default thread with a message, a branch whose child's save fails, the retry, messages everywhere,
   restart with index.json lost and unwritable, ensure_default, the save works again *)
Definition w_calls : list swcall :=
  [SwEnsure false; SwEnsure false; SwEnsure true; SwMsg 0; SwLineage EContinuityBranched 0 2; SwLineage EContinuityBranched 0 1;
   SwMsg 0; SwMsg 1; SwMsg 2; SwDropIndex; SwRestart; SwEnsure false; SwEnsure true; SwMsg 0; SwMsg 1].
Lemma w_history :
  validate (s_log (d_st (snd (run_sw dstate0 w_calls)))) = true
  /\ fst (run_sw dstate0 w_calls) = [1; 2; 1; 1; 1; 1; 2; 9; 3; 2; 5; 1; 6; 9; 7; 9; 8; 9; 8; 9; 8; 9; 8; 1; 8; 1; 9; 9; 10; 9].
Proof. split; vm_compute; reflexivity. Qed.

Theorem retry_same_id_refuted :
  exists d d1 f,
    Valid (s_log (d_st d)) /\ FailedSaveCreation d d1 f /\ d1 = fst (ensure_sf d) /\ snd (ensure_sf d) = None
    /\ validate (s_log (retry_same_id (d_st d1) (sid f) (d_ws d))) = false
    /\ map seq (cstream (sid f) (s_log (retry_same_id (d_st d1) (sid f) (d_ws d)))) = [0; 0]
    /\ s_log (d_st (fst (ensure false d1))) = s_log (d_st d1) /\ snd (ensure false d1) = Some (sid f)
    /\ validate (s_log (d_st (fst (ensure false d1)))) = true.
Proof.
  exists dstate0, w_d1, w_f. destruct w_failed_save as (H1 & H2 & H3 & _).
  split; [exact H3|]. split; [exact H1|]. split; [reflexivity|]. split; [exact H2|].
  split; [exact (failed_save_then_retry_same_id dstate0 w_d1 w_f H1)|].
  repeat split; vm_compute; reflexivity.
Qed.

(* The frame `create_continuity` cut at the failing save leaves, on every store.  (Model/Lineage.v has a `created_frame`
   of its own, over a child id and an event id: C10's creation frame; this one is built from the store.) *)
Definition created_frame (st : state) (ar : list N) : frame :=
  {| fid := s_fresh st + 1; sid := s_fresh st; seq := 0; ety := EContinuityCreated; args := ar |}.

(* what a cut creation does to the store: one `continuity_created` frame more, the child's counter never set, the
   seq mutex free again; the sidecars and the in-memory index are not constrained *)
Definition OneCreatedFrame (st st' : state) (ar : list N) : Prop :=
  s_log st' = s_log st ++ [created_frame st ar] /\ s_next st' = s_next st /\ s_mu st' = None
  /\ s_fresh st' = s_fresh st + 1 + 1 /\ s_tcnt st' = s_tcnt st /\ s_tmu st' = s_tmu st.

(* Both programs are straight-line for a lone actor, so each field of the final store is found by evaluation.  The
   store is taken apart first: over an abstract `st` every micro-step would wrap six copies of the previous store. *)
Lemma exec_create_save_failed st ar : s_mu st = None -> OneCreatedFrame st (exec (create_save_failed ar) st) ar.
Proof. destruct st. cbn. intros ->. repeat split; reflexivity. Qed.

Lemma exec_lineage_save_failed_full st c ar : s_mu st = None ->
  OneCreatedFrame st (exec ([MTarget c; MRead] ++ create_save_failed ar) st) ar.
Proof. destruct st. cbn. intros ->. repeat split; reflexivity. Qed.

Lemma exec_lineage_save_failed st c ar : s_mu st = None ->
  s_log (exec ([MTarget c; MRead] ++ create_save_failed ar) st) = s_log st ++ [created_frame st ar].
Proof. intro H. exact (proj1 (exec_lineage_save_failed_full st c ar H)). Qed.

Lemma skipn_length_app {A} (l x : list A) : skipn (length l) (l ++ x) = x.
Proof. induction l as [|a l IH]; [reflexivity|]. cbn [length app skipn]. exact IH. Qed.

Lemma nlen_zero_nil {A} (l : list A) : nlen l = 0 -> l = [].
Proof. unfold nlen. destruct l; [reflexivity|]. cbn [length]. lia. Qed.

Lemma created_frame_created st ws : created_in ws (created_frame st [ws]) = true.
Proof. unfold created_in, is_etype, created_frame. cbn. rewrite N.eqb_refl. reflexivity. Qed.

(* the store invariant holds again after the failed call: every theorem about what runs afterwards (c01_valid_all_schedules,
   c01_restart, ..) applies to the store a failed index save leaves *)
Lemma sinv_after_one_created_frame st st' ar : SInv st -> OneCreatedFrame st st' ar -> SInv st'.
Proof.
  intros [Hv Hn Hf Ht] (El & En & _ & Ef & Etc & Etm).
  assert (Hk : fkind (created_frame st ar) = KContinuity) by reflexivity.
  destruct (Hf (s_fresh st) ltac:(lia)) as [Hc0 Hn0].
  assert (Hother : forall k s, (k, s) <> (KContinuity, s_fresh st) -> next_of k s (s_log st ++ [created_frame st ar]) = next_of k s (s_log st)).
  { intros k s Hne. unfold next_of. rewrite stream_snoc_other; [reflexivity|]. rewrite Hk. cbn [sid created_frame]. congruence. }
  constructor.
  - rewrite El. apply Valid_snoc. split; [exact Hv|]. rewrite Hk. cbn [seq sid created_frame]. unfold cnext in Hc0. rewrite Hc0. reflexivity.
  - intros c n Hs. rewrite En in Hs. unfold cnext. rewrite El.
    destruct (N.eq_dec c (s_fresh st)) as [->|Hne]; [congruence|].
    rewrite Hother by congruence. apply Hn. exact Hs.
  - intros c Hc. rewrite Ef in Hc. unfold cnext. rewrite El, En. rewrite Hother by (intro E; inversion E; lia).
    apply Hf. lia.
  - intros t Htm. rewrite Etm in Htm. rewrite Etc. unfold tnext. rewrite El, Hother by discriminate. apply Ht. exact Htm.
Qed.

Theorem sinv_after_create_save_failed st ar :
  SInv st -> s_mu st = None -> SInv (exec (create_save_failed ar) st).
Proof.
  intros HS Hmu. exact (sinv_after_one_created_frame st _ ar HS (exec_create_save_failed st ar Hmu)).
Qed.

(* branch / handoff of ANY thread c (known or not, sidecar in any condition) whose child's creation cannot save the index *)
Theorem sinv_after_lineage_save_failed st c ar :
  SInv st -> s_mu st = None ->
  SInv (exec ([MTarget c; MRead] ++ create_save_failed ar) st)
  /\ s_log (exec ([MTarget c; MRead] ++ create_save_failed ar) st) = s_log st ++ [created_frame st ar]
  /\ s_mu (exec ([MTarget c; MRead] ++ create_save_failed ar) st) = None.
Proof.
  intros HS Hmu. pose proof (exec_lineage_save_failed_full st c ar Hmu) as H.
  split; [exact (sinv_after_one_created_frame st _ ar HS H)|]. destruct H as (El & _ & Em & _). split; assumption.
Qed.

(* ensure_default on a store that knows no thread of its workspace (not in memory, not in the log), index.json unwritable:
   the cut creation runs, Err is answered, the new id is known to the in-memory index only *)
Lemma ensure_sf_eq d :
  SInv (d_st d) -> s_mu (d_st d) = None ->
  ws_lookup (ix_ws (d_mem d)) (d_ws d) = None -> find_default (d_ws d) (s_log (d_st d)) = None ->
  ensure_sf d = (mem_only d (exec (create_save_failed [d_ws d]) (d_st d))
                   {| ix_ws := (d_ws d, s_fresh (d_st d)) :: ix_ws (d_mem d);
                      ix_ids := s_fresh (d_st d) :: ix_ids (d_mem d) |}, None).
Proof.
  intros HS Hmu Hl Hfd. destruct (exec_create_save_failed (d_st d) [d_ws d] Hmu) as (El & _).
  unfold ensure_sf. rewrite Hl, (proj2 (validate_spec _) (si_valid _ HS)), Hfd. unfold new_frames.
  rewrite El, skipn_length_app. reflexivity.
Qed.

(* .. and the state is a FailedSaveCreation *)
Theorem ensure_sf_creates d :
  SInv (d_st d) -> s_mu (d_st d) = None ->
  ws_lookup (ix_ws (d_mem d)) (d_ws d) = None -> find_default (d_ws d) (s_log (d_st d)) = None ->
  snd (ensure_sf d) = None
  /\ FailedSaveCreation d (fst (ensure_sf d)) (created_frame (d_st d) [d_ws d])
  /\ SInv (d_st (fst (ensure_sf d))).
Proof.
  intros HS Hmu Hl Hfd. pose proof (sinv_after_create_save_failed (d_st d) [d_ws d] HS Hmu) as HS'.
  destruct (exec_create_save_failed (d_st d) [d_ws d] Hmu) as (El & _).
  rewrite (ensure_sf_eq d HS Hmu Hl Hfd). cbn [fst snd mem_only d_st d_ws].
  split; [reflexivity|]. split; [|exact HS'].
  pose proof (created_frame_created (d_st d) (d_ws d)) as Hc.
  repeat split; try assumption; try reflexivity.
  apply nlen_zero_nil. destruct (si_fresh _ HS (s_fresh (d_st d)) ltac:(lia)) as [H0 _]. exact H0.
Qed.

(* .. hence, for EVERY such store: the failed call, then the retry as built (same process / after a restart with any
   index file) appends nothing and the log stays valid; a same-id retry makes it invalid *)
Theorem ensure_default_failed_index_save d :
  SInv (d_st d) -> s_mu (d_st d) = None ->
  ws_lookup (ix_ws (d_mem d)) (d_ws d) = None -> find_default (d_ws d) (s_log (d_st d)) = None ->
  snd (ensure_sf d) = None
  /\ s_log (d_st (fst (ensure_sf d))) = s_log (d_st d) ++ [created_frame (d_st d) [d_ws d]]
  /\ Valid (s_log (d_st (fst (ensure_sf d))))
  /\ SInv (d_st (fst (ensure_sf d)))
  /\ s_log (d_st (fst (ensure false (fst (ensure_sf d))))) = s_log (d_st (fst (ensure_sf d)))
  /\ snd (ensure false (fst (ensure_sf d))) = Some (s_fresh (d_st d))
  /\ (forall file mem, s_log (d_st (fst (ensure false (reopen {| d_st := d_st (fst (ensure_sf d)); d_ws := d_ws d; d_file := file; d_mem := mem |} (d_ws d))))) = s_log (d_st (fst (ensure_sf d))))
  /\ validate (s_log (retry_same_id (d_st (fst (ensure_sf d))) (s_fresh (d_st d)) (d_ws d))) = false.
Proof.
  intros HS Hmu Hl Hfd. destruct (ensure_sf_creates d HS Hmu Hl Hfd) as (Ha & HF & HS').
  pose proof (failed_save_then_retry_as_built d _ _ (si_valid _ HS) HF) as (V1 & R1 & R2 & _).
  pose proof (failed_save_then_retry_same_id d _ _ HF) as X.
  destruct HF as (Hws & Hlog & _).
  split; [exact Ha|]. split; [exact Hlog|]. split; [exact V1|]. split; [exact HS'|]. split; [exact R1|].
  split.
  - (* the in-memory index answers *)
    rewrite (ensure_sf_eq d HS Hmu Hl Hfd). unfold ensure, ws_lookup.
    cbn [mem_only d_mem d_ws ix_ws find fst snd option_map]. rewrite (N.eqb_refl (d_ws d)). reflexivity.
  - split; [|exact X]. intros file mem. rewrite Hws in R2. apply R2.
Qed.

Lemma fail_save_create ar : fail_save (create_prog ar) = create_save_failed ar.
Proof. reflexivity. Qed.
Lemma fail_save_lineage t a1 a2 : fail_save (lineage_prog t a1 a2) = create_save_failed a1.
Proof. reflexivity. Qed.

Theorem failed_save_skeletons_wf ar t a1 a2 c :
  wf_prog (fail_save (create_prog ar)) = true
  /\ wf_prog (MTarget c :: MRead :: fail_save (lineage_prog t a1 a2)) = true.
Proof. split; reflexivity. Qed.

(* two authorities' worth of actors on the empty store: one whose first ensure_default cannot save the index and who then
   posts to the newest listed thread, one creating a thread and posting to it, one posting to the newest listed thread *)
Definition w_sf_actors : list (list mstep * N) :=
  [(create_save_failed [0] ++ MPickNewest :: locked_append EContinuityMessageAppended [], 0);
   (create_prog [0] ++ MPickNewest :: locked_append EContinuityMessageAppended [], 0);
   (MPickNewest :: locked_append EContinuityRunSpawned [], 0)].
(* actor 1 tries to lock inside actor 0's failed creation (blocked); actor 2 looks for the newest listed thread before the index insert (none: its call ends); 4 frames *)
Definition w_sf_sched : list N := [0; 0; 1; 0; 1; 0; 0; 2; 0; 0] ++ repeat 0 10 ++ repeat 1 18 ++ repeat 2 10.

Lemma w_sf_hyps : SInv empty_state /\ progs_wf w_sf_actors /\ sess_fresh empty_state w_sf_actors /\ sess_distinct w_sf_actors.
Proof.
  split; [exact empty_sinv|]. split; [repeat constructor|]. split; [repeat constructor; discriminate|].
  cbn. repeat split; try (intros H; discriminate H); repeat constructor.
Qed.
Lemma w_sf_log :
  validate (s_log (run w_sf_sched (spawn w_sf_actors empty_state))) = true
  /\ nlen (s_log (run w_sf_sched (spawn w_sf_actors empty_state))) = 4.
Proof. split; vm_compute; reflexivity. Qed.
