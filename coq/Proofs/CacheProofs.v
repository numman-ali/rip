(* C04 — transparency of the cached read paths of Model/Cache.v.
   Full sidecar: whenever the window a bounded backward scan accepts is a tail of the truth stream
   (and a scan that reports `complete` has seen the whole stream), every tail-doubling query returns
   the truth answer — for arbitrary loop constants, arbitrary histories, arbitrary sidecar contents
   outside the accepted window (LoopInv .. full_sidecar_transparent, then witnesses on small constants).
   Derived caches: the message ordinal index (ord_count_accepts ..), the checkpoint sidecar (status_ckpt_transparent),
   the cut points through both (cut_points_ord_checked), each outside its undetectable class K3 / K2 with a
   witness inside it; and the default-thread recovery after the loss of index.json (default_recovery_existing_fixed ..). *)
From RipV Require Import Base.Prelude Model.TailLoop Model.Cache Proofs.TailLoopProofs.

Section LoopInv.
  Context {A : Type}.
  Variable c : cfg.
  Variable l : log.
  Variable scan : N -> N -> sres frame.
  Variable acc0 : A.
  Variable pass : A -> list frame -> A.       (* one backward pass, frames given latest first *)
  Variable done : A -> bool.

  (* what a scan may return: a tail of the truth stream; `complete` only for the whole stream.  This is
     all the loop proofs need of a scan; scan_tail_spec discharges it for the full sidecar's scan_tail. *)
  Definition ScanSpec : Prop :=
    forall me mb fs cpl, scan me mb = STail fs cpl ->
      (exists pre, l = pre ++ fs) /\ (cpl = true -> fs = l).

  Hypothesis Hscan : ScanSpec.

  Notation examine := (fun (a : A) (fs : list frame) => pass a (rev fs)).
  Notation step := (loop_step c scan acc0 examine done).
  Notation it := (iter c scan acc0 examine done).

  (* Before the first accepted scan the accumulator is the cleared one; after it, it is the pass from scratch
     over [fs], some tail of the stream — all of the stream when the last scan was complete.  The loop scans
     only while [done] is false, so the first scan shows [done acc0 = false]: kept because the passes'
     properties ([Hstop], and [Happ] of the carried loops) are stated for accumulators that are not done. *)
  Definition Inv (st : lstate A) : Prop :=
    (s_scanned st = false /\ s_acc st = acc0)
    \/ (s_scanned st = true /\ done acc0 = false /\
        exists fs pre, l = pre ++ fs /\ s_acc st = pass acc0 (rev fs) /\ (s_complete st = true -> fs = l)).

  Lemma inv_scanned tb cpl fs pre : done acc0 = false -> l = pre ++ fs -> (cpl = true -> fs = l) ->
    Inv {| s_tb := tb; s_acc := pass acc0 (rev fs); s_scanned := true; s_complete := cpl |}.
  Proof. intros Hd Hl Hc. right. split; [reflexivity|]. split; [exact Hd|]. exists fs, pre. auto. Qed.

  (* what one round has to achieve, cleared or carried: the pass over a new window [evs] leaves the
     pass from scratch over some tail of the stream, all of it when [evs] is all of it *)
  Definition Merges : Prop :=
    forall st evs pre, Inv st -> done (s_acc st) = false -> l = pre ++ evs ->
    exists fs pre', l = pre' ++ fs /\ (evs = l -> fs = l)
      /\ pass (if l_clears c then acc0 else s_acc st) (rev evs) = pass acc0 (rev fs).

  Lemma step_inv st : Merges -> Inv st ->
    match step st with inl st' => Inv st' | inr fin => Inv fin end.
  Proof.
    intros Hm HI. unfold loop_step.
    destruct ((l_max_bytes c <? s_tb st) || done (s_acc st)) eqn:E0; [exact HI|].
    apply orb_false_iff in E0. destruct E0 as [_ Hnd].
    assert (Hd0 : done acc0 = false).
    { destruct HI as [[_ Ha]|[_ [Hd _]]]; [rewrite <- Ha; exact Hnd | exact Hd]. }
    destruct (scan (l_max_events c) (s_tb st)) as [| |evs cpl] eqn:Es; [exact HI | exact HI |].
    destruct (Hscan _ _ _ _ Es) as [[pre Hpre] Hcpl].
    destruct (Hm st evs pre HI Hnd Hpre) as (fs & pre' & Hl & Hfs & Ha).
    cbv beta zeta. rewrite Ha.
    (* left after a complete scan, left by the cap break, or round again: a scanned state each time *)
    destruct cpl; [|destruct (l_cap_break c && _)];
      apply (inv_scanned _ _ fs pre' Hd0 Hl); auto; discriminate.
  Qed.

  Lemma iter_inv n : Merges -> forall st fin, Inv st -> it n st = Some fin -> Inv fin.
  Proof.
    intros Hm. induction n as [|n IH]; intros st fin HI H; [discriminate|].
    cbn [iter] in H. pose proof (step_inv st Hm HI) as Hs.
    destruct (step st) as [st'|f].
    - exact (IH _ _ Hs H).
    - inversion H; subst; exact Hs.
  Qed.

  Lemma run_inv_merges : Merges -> forall fin, run_loop c scan acc0 examine done = Some fin -> Inv fin.
  Proof. intros Hm fin. apply iter_inv; [exact Hm|]. left. split; reflexivity. Qed.

  Lemma loop_fin : l_cap_break c = true -> 0 < l_initial c -> Merges ->
    exists fin, run_loop c scan acc0 examine done = Some fin /\ Inv fin.
  Proof.
    intros Hc Hp Hm. destruct (run_loop_some c scan acc0 examine done Hc Hp) as [fin Hf].
    exists fin. split; [exact Hf | exact (run_inv_merges Hm fin Hf)].
  Qed.

  Lemma inv_unscanned fin : Inv fin -> s_scanned fin = false -> s_acc fin = acc0.
  Proof. intros [[_ Ha]|[Hs _]] H; [exact Ha | congruence]. Qed.

  Lemma inv_tail fin : Inv fin -> s_scanned fin = true ->
    exists fs pre, l = pre ++ fs /\ s_acc fin = pass acc0 (rev fs).
  Proof.
    intros [[Hs _]|[_ [_ [fs [pre [Hl [Ha _]]]]]]] Hsc; [congruence|]. eauto.
  Qed.
  (* loops that clear their accumulator per scan ([Merges] is what the carried ones prove instead) *)
  Hypothesis Hclears : l_clears c = true.

  Lemma clear_merges : Merges.
  Proof. intros st evs pre _ _ Hpre. rewrite Hclears. exists evs, pre. auto. Qed.

  Lemma run_inv fin : run_loop c scan acc0 examine done = Some fin -> Inv fin.
  Proof. exact (run_inv_merges clear_merges fin). Qed.

  (* the pass stops as soon as it has everything: what follows is never looked at *)
  Hypothesis Hstop : forall a, done a = false ->
    forall x y, done (pass a x) = true -> pass a (x ++ y) = pass a x.

  Lemma inv_truth fin : Inv fin -> s_scanned fin = true ->
    s_complete fin = true \/ done (s_acc fin) = true ->
    s_acc fin = pass acc0 (rev l).
  Proof.
    intros [[Hs _]|[_ [Hd0 [fs [pre [Hl [Ha Hc]]]]]]] Hsc Hex; [congruence|].
    destruct Hex as [Hcpl|Hdn].
    - rewrite (Hc Hcpl) in Ha. exact Ha.
    - rewrite Ha in *. rewrite Hl, rev_app_distr. symmetry. apply Hstop; assumption.
  Qed.
End LoopInv.

Section LoopInvCarry.
  Context {A : Type}.
  Variable c : cfg.
  Variable l : log.
  Variable acc0 : A.
  Variable pass : A -> list frame -> A.
  Variable done : A -> bool.

  Hypothesis Hcarry : l_clears c = false.
  (* the pass is sequential with early exit ... *)
  Hypothesis Happ : forall a x y, done a = false ->
    pass a (x ++ y) = if done (pass a x) then pass a x else pass (pass a x) y.
  (* ... and first-hit-wins: reading again frames that were already read changes nothing *)
  Hypothesis Hidem : forall x y, done (pass acc0 (x ++ y)) = false ->
    pass (pass acc0 (x ++ y)) x = pass acc0 (x ++ y).

  Lemma carry_stop a : done a = false ->
    forall x y, done (pass a x) = true -> pass a (x ++ y) = pass a x.
  Proof. intros Ha x y Hd. rewrite (Happ a x y Ha), Hd. reflexivity. Qed.

  Lemma carry_again x : done (pass acc0 x) = false -> pass (pass acc0 x) x = pass acc0 x.
  Proof. intros H. pose proof (Hidem x []) as Hx. rewrite app_nil_r in Hx. exact (Hx H). Qed.

  (* passing over the whole stream fills in what a pass over its latest part left open *)
  Lemma carry_fill x y : done acc0 = false -> done (pass acc0 x) = false ->
    pass (pass acc0 x) (x ++ y) = pass acc0 (x ++ y).
  Proof. intros H0 H. rewrite (Happ _ x y H), (Happ _ x y H0), (carry_again x H). reflexivity. Qed.

  Lemma carry_merges : Merges c l acc0 pass done.
  Proof.
    intros st evs pre' HI Hnd Hpre'. rewrite Hcarry.
    destruct HI as [[_ Ha]|[_ [Hd0 [fs [pre [Hl [Ha _]]]]]]]; rewrite Ha in *.
    { exists evs, pre'. auto. }
    destruct (app_eq_app _ _ _ _ (eq_trans (eq_sym Hl) Hpre')) as [q [[_ Hq]|[_ Hq]]].
    - (* the new window is the longer one *)
      exists evs, pre'. split; [exact Hpre'|]. split; [auto|].
      rewrite Hq, rev_app_distr, (Happ _ _ _ Hnd), (Happ _ _ _ Hd0).
      rewrite (carry_again _ Hnd). reflexivity.
    - (* the old window is the longer one *)
      exists fs, pre. split; [exact Hl|]. split.
      + intros E. rewrite E in Hq. apply (f_equal (@length _)) in Hl. rewrite Hq, !app_length in Hl.
        destruct q; [exact Hq | cbn [length] in Hl; lia].
      + rewrite Hq, rev_app_distr in *. exact (Hidem _ _ Hnd).
  Qed.
End LoopInvCarry.

(* Each pass is sequential with early exit (for the cleared one only its consequence [Hstop] is needed) ... *)
Lemma sel_stop limit a : sel_done limit a = false ->
  forall x y, sel_done limit (sel_pass limit a x) = true ->
  sel_pass limit a (x ++ y) = sel_pass limit a x.
Proof.
  intros Hnd x. revert a Hnd. induction x as [|f x IH]; intros a Hnd y Hd.
  - cbn [sel_pass] in Hd. congruence.
  - cbn [sel_pass app] in *. destruct (is_selection f); [|exact (IH a Hnd y Hd)].
    destruct (limit <=? nlen (a ++ [fseq f])) eqn:E; [reflexivity | exact (IH _ E y Hd)].
Qed.

Lemma cstat_app maxk a x y : cstat_done maxk a = false ->
  cstat_pass maxk a (x ++ y) =
  if cstat_done maxk (cstat_pass maxk a x) then cstat_pass maxk a x else cstat_pass maxk (cstat_pass maxk a x) y.
Proof.
  revert a. induction x as [|f x IH]; intros a Ha; cbn [app cstat_pass].
  - rewrite Ha. reflexivity.
  - destruct (key_of f) as [k|]; [|exact (IH a Ha)].
    set (a' := {| cs_active := _; cs_keys := _ |}). destruct (cstat_done maxk a') eqn:E.
    + rewrite E. reflexivity.
    + exact (IH _ E).
Qed.

Lemma rot_app fp fe fm a x y : is_some a = false ->
  rot_pass fp fe fm a (x ++ y) =
  if is_some (rot_pass fp fe fm a x) then rot_pass fp fe fm a x else rot_pass fp fe fm (rot_pass fp fe fm a x) y.
Proof.
  intros Ha. destruct a as [k|]; [discriminate|]. clear Ha.
  induction x as [|f x IH]; cbn [app rot_pass is_some]; [reflexivity|].
  destruct (key_of f) as [k|]; [|exact IH].
  destruct (key_matches fp fe fm k); [reflexivity | exact IH].
Qed.

Lemma cstatus_app a x y : cstatus_done a = false ->
  cstatus_pass a (x ++ y) =
  if cstatus_done (cstatus_pass a x) then cstatus_pass a x else cstatus_pass (cstatus_pass a x) y.
Proof.
  revert a. induction x as [|f x IH]; intros a Ha; cbn [app cstatus_pass].
  - rewrite Ha. reflexivity.
  - set (a' := {| st_sched := _; st_job := _ |}). destruct (cstatus_done a') eqn:E.
    + rewrite E. reflexivity.
    + exact (IH _ E).
Qed.

(* ... and first hit wins ([Hidem]): a pass over frames that were read before changes nothing.  For the cursor
   map this rests on its keys being sorted: put_if_absent stops at the first greater key. *)
Fixpoint has_key (m : list (N * N)) (k : N) : bool :=
  match m with [] => false | (k', _) :: r => (k' =? k) || has_key r k end.
Fixpoint keys_sorted (m : list (N * N)) : Prop :=
  match m with [] => True | (k, _) :: r => (forall k', has_key r k' = true -> k < k') /\ keys_sorted r end.

Lemma has_key_put k v m k' : has_key (put_if_absent k v m) k' = (k =? k') || has_key m k'.
Proof.
  induction m as [|[k0 v0] r IH]; cbn [put_if_absent has_key]; [rewrite orb_false_r; reflexivity|].
  destruct (k <? k0) eqn:E1; [reflexivity|].
  destruct (k =? k0) eqn:E2.
  - apply N.eqb_eq in E2. subst k0. cbn [has_key]. destruct (k =? k'); reflexivity.
  - cbn [has_key]. rewrite IH. destruct (k0 =? k'), (k =? k'); reflexivity.
Qed.

Lemma put_present k v m : keys_sorted m -> has_key m k = true -> put_if_absent k v m = m.
Proof.
  induction m as [|[k0 v0] r IH]; intros Hs Hk; [discriminate|]. destruct Hs as [Hlt Hs].
  cbn [put_if_absent has_key] in *. destruct (k0 =? k) eqn:E0.
  - apply N.eqb_eq in E0. subst k0. rewrite N.ltb_irrefl, N.eqb_refl. reflexivity.
  - specialize (Hlt k Hk). destruct (k <? k0) eqn:E1; [apply N.ltb_lt in E1; lia|].
    rewrite N.eqb_sym, E0, (IH Hs Hk). reflexivity.
Qed.

Lemma put_sorted k v m : keys_sorted m -> keys_sorted (put_if_absent k v m).
Proof.
  induction m as [|[k0 v0] r IH]; intros Hs; cbn [put_if_absent]; [split; [discriminate | exact I]|].
  destruct (k <? k0) eqn:E1.
  - apply N.ltb_lt in E1. split; [|exact Hs]. destruct Hs as [Hlt _]. intros k' Hk'. cbn [has_key] in Hk'.
    destruct (k0 =? k') eqn:E; [apply N.eqb_eq in E; lia | specialize (Hlt k' Hk'); lia].
  - destruct (k =? k0) eqn:E2; [exact Hs|]. destruct Hs as [Hlt Hs]. split; [|exact (IH Hs)].
    intros k'. rewrite has_key_put. destruct (k =? k') eqn:E; [|exact (Hlt k')].
    apply N.eqb_eq in E. apply N.ltb_ge in E1. apply N.eqb_neq in E2. lia.
Qed.

Definition cstat_wf (a : cstat) : Prop :=
  keys_sorted (cs_keys a) /\ (cs_keys a <> [] -> cs_active a <> None).
Definition covered (a : cstat) (x : list frame) : Prop :=
  forall f k, In f x -> key_of f = Some k -> has_key (cs_keys a) k = true.

Lemma cstat_covered_noop maxk : forall x a, cstat_wf a -> covered a x -> cstat_done maxk a = false ->
  cstat_pass maxk a x = a.
Proof.
  induction x as [|f x IH]; intros a Hwf Hc Hnd; [reflexivity|].
  assert (Hx : covered a x) by (intros g k' Hg; apply Hc; right; exact Hg).
  cbn [cstat_pass]. destruct (key_of f) as [k|] eqn:Ek; [|exact (IH a Hwf Hx Hnd)].
  pose proof (Hc f k (or_introl eq_refl) Ek) as Hk. pose proof Hwf as [Hs Hact].
  rewrite (put_present _ _ _ Hs Hk).
  destruct a as [[act|] keys]; cbn [cs_active cs_keys] in *.
  - rewrite Hnd. exact (IH _ Hwf Hx Hnd).
  - exfalso. apply Hact; [intros E; rewrite E in Hk; discriminate | reflexivity].
Qed.

Lemma cstat_pass_covers maxk : forall x a, cstat_wf a -> cstat_done maxk (cstat_pass maxk a x) = false ->
  cstat_wf (cstat_pass maxk a x)
  /\ (forall k, has_key (cs_keys a) k = true -> has_key (cs_keys (cstat_pass maxk a x)) k = true)
  /\ covered (cstat_pass maxk a x) x.
Proof.
  induction x as [|f x IH]; intros a Hwf Hnd; cbn [cstat_pass] in *.
  { split; [exact Hwf|]. split; [auto|]. intros g k []. }
  destruct (key_of f) as [k|] eqn:Ek.
  - set (a' := {| cs_active := _; cs_keys := _ |}) in *.
    assert (Hwf' : cstat_wf a').
    { split; [apply put_sorted; exact (proj1 Hwf)|]. intros _. cbn. destruct (cs_active a); discriminate. }
    destruct (cstat_done maxk a') eqn:Ed; [congruence|].
    destruct (IH a' Hwf' Hnd) as [Hw [Hmono Hcov]].
    assert (Hput : forall k0, (k =? k0) || has_key (cs_keys a) k0 = true ->
                     has_key (cs_keys (cstat_pass maxk a' x)) k0 = true).
    { intros k0 H. apply Hmono. cbn [a' cs_keys]. rewrite has_key_put. exact H. }
    split; [exact Hw|]. split.
    + intros k0 Hk0. apply Hput. rewrite Hk0. apply orb_true_r.
    + intros g k0 [<-|Hg] Hkg; [|exact (Hcov g k0 Hg Hkg)].
      apply Hput. rewrite Ek in Hkg. inversion Hkg. rewrite N.eqb_refl. reflexivity.
  - destruct (IH a Hwf Hnd) as [Hw [Hmono Hcov]]. split; [exact Hw|]. split; [exact Hmono|].
    intros g k0 [<-|Hg] Hkg; [congruence | exact (Hcov g k0 Hg Hkg)].
Qed.

Lemma cstat_idem maxk x y : cstat_done maxk (cstat_pass maxk cstat0 (x ++ y)) = false ->
  cstat_pass maxk (cstat_pass maxk cstat0 (x ++ y)) x = cstat_pass maxk cstat0 (x ++ y).
Proof.
  intros Hnd. assert (Hwf0 : cstat_wf cstat0) by (split; [exact I | intros H; contradiction]).
  destruct (cstat_pass_covers maxk (x ++ y) cstat0 Hwf0 Hnd) as [Hw [_ Hcov]].
  apply cstat_covered_noop; [exact Hw | | exact Hnd].
  intros f k Hf. apply Hcov. apply in_or_app. left; exact Hf.
Qed.

Lemma rot_idem fp fe fm x y : is_some (rot_pass fp fe fm None (x ++ y)) = false ->
  rot_pass fp fe fm (rot_pass fp fe fm None (x ++ y)) x = rot_pass fp fe fm None (x ++ y).
Proof.
  (* nothing matched in x ++ y, so nothing matches in x *)
  rewrite (rot_app fp fe fm None x y eq_refl).
  destruct (rot_pass fp fe fm None x) as [k|] eqn:Ex; [discriminate|].
  destruct (rot_pass fp fe fm None y); [discriminate | intros _; exact Ex].
Qed.

(* closed form of the status pass: each field is "first hit wins" *)
Definition orelse {B} (a b : option B) : option B := match a with Some _ => a | None => b end.
Fixpoint first_seq (p : frame -> bool) (rl : list frame) : option N :=
  match rl with [] => None | f :: r => if p f then Some (fseq f) else first_seq p r end.

Lemma cstatus_pass_closed rl : forall a,
  cstatus_pass a rl = {| st_sched := orelse (st_sched a) (first_seq is_schedule rl);
                         st_job := orelse (st_job a) (first_seq is_job_outcome rl) |}.
Proof.
  induction rl as [|f r IH]; intros [[s|] [j|]]; try reflexivity;
    cbn [cstatus_pass first_seq st_sched st_job orelse].
  (* a field still open is decided by [f] or left to the rest *)
  - destruct (is_job_outcome f); [reflexivity | exact (IH _)].
  - destruct (is_schedule f); [reflexivity | exact (IH _)].
  - destruct (is_schedule f), (is_job_outcome f); try reflexivity; rewrite IH; reflexivity.
Qed.

Lemma first_seq_app p x y : first_seq p (x ++ y) = orelse (first_seq p x) (first_seq p y).
Proof. induction x as [|f x IH]; cbn [first_seq app orelse]; [reflexivity|]. destruct (p f); [reflexivity | exact IH]. Qed.

Lemma orelse_again {B} (a b : option B) : orelse (orelse a b) a = orelse a b.
Proof. destruct a, b; reflexivity. Qed.

(* holds without its hypothesis; stated in the shape of [Hidem] *)
Lemma cstatus_idem x y : cstatus_done (cstatus_pass cstatus0 (x ++ y)) = false ->
  cstatus_pass (cstatus_pass cstatus0 (x ++ y)) x = cstatus_pass cstatus0 (x ++ y).
Proof.
  intros _. rewrite !cstatus_pass_closed. cbn [st_sched st_job cstatus0 orelse].
  rewrite !first_seq_app, !orelse_again. reflexivity.
Qed.

Section Queries.
  Variable c : cfg.
  Variable l : log.
  Variable s : sfile.
  (* the obligation generated for every loop of the source (Gen/TailLoops.v), assumed whole: each theorem uses
     the cap break and the positive initial window, the cursor status also the truth fallback, the selection
     status also the clearing; the loops that carry their accumulator run with [carry c] whatever l_clears says *)
  Hypothesis Hwf : loop_wf c = true.
  Hypothesis Hscan : ScanSpec l (scan_tail s).
  Hypothesis Hreplay : replay_fast s l = l.

  (* provider_cursor_status_v1: by_key / active are carried across the scans *)
  Theorem cursor_status_transparent maxk :
    cursor_status_fast c maxk s l = Some (cursor_status_truth maxk l).
  Proof.
    destruct (loop_wf_parts c Hwf) as (Hc & _ & Hfb & Hp).
    destruct (loop_fin (carry c) l _ cstat0 _ _ Hscan Hc Hp
                (carry_merges (carry c) _ _ _ _ eq_refl (cstat_app maxk) (cstat_idem maxk))) as (fin & Hf & HI).
    unfold cursor_status_fast, cursor_status_fast_with, cstat_examine. rewrite Hf, Hfb, Hreplay. cbn [andb].
    destruct (s_scanned fin) eqn:Esc; cbn [negb orb]; [|reflexivity].
    destruct (s_complete fin || cstat_done maxk (s_acc fin)) eqn:Eex; cbn [negb]; [|reflexivity].
    f_equal. apply orb_true_iff in Eex.
    exact (inv_truth l cstat0 _ _ (carry_stop _ _ (cstat_app maxk)) fin HI Esc Eex).
  Qed.

  (* provider_cursor_rotate_v1: target is carried (it is None whenever the loop goes round again) *)
  Theorem rotate_transparent fp fe fm :
    rotate_target_fast c fp fe fm s l = Some (rotate_target_truth fp fe fm l).
  Proof.
    destruct (loop_wf_parts c Hwf) as (Hc & _ & _ & Hp).
    destruct (loop_fin (carry c) l _ None _ _ Hscan Hc Hp
                (carry_merges (carry c) _ _ _ _ eq_refl (rot_app fp fe fm) (rot_idem fp fe fm))) as (fin & Hf & HI).
    unfold rotate_target_fast, rot_examine. rewrite Hf, Hreplay.
    destruct (s_acc fin) as [k|] eqn:Ea; [|reflexivity].
    f_equal. rewrite <- Ea. destruct (s_scanned fin) eqn:Esc.
    - apply (inv_truth l None _ _ (carry_stop _ _ (rot_app fp fe fm)) fin HI Esc).
      right. rewrite Ea. reflexivity.
    - pose proof (inv_unscanned l None _ _ fin HI Esc). congruence.
  Qed.

  (* context_selection_status_v1: the Vec of decisions is cleared per scan (l_clears) *)
  Theorem selection_transparent limit :
    selection_fast c limit s l = Some (selection_truth limit l).
  Proof.
    destruct (loop_wf_parts c Hwf) as (Hc & Hcl & _ & Hp).
    destruct (loop_fin c l _ [] _ _ Hscan Hc Hp (clear_merges c l [] (sel_pass limit) (sel_done limit) Hcl))
      as (fin & Hf & HI).
    unfold selection_fast, selection_fast_with, sel_examine. rewrite Hf, Hreplay.
    destruct (s_scanned fin) eqn:Esc; cbn [negb orb]; [|reflexivity].
    pose proof (inv_truth l [] _ _ (sel_stop limit) fin HI Esc) as Ht.
    destruct (s_complete fin); cbn [negb andb]; [f_equal; apply Ht; left; reflexivity|].
    destruct (sel_done limit (s_acc fin)); cbn [negb]; [f_equal; apply Ht; right; reflexivity | reflexivity].
  Qed.

  (* compaction_status_v1: the two status options are carried, the replay fills what is missing *)
  Theorem cstatus_transparent :
    cstatus_fast c s l = Some (cstatus_truth l).
  Proof.
    destruct (loop_wf_parts c Hwf) as (Hc & _ & _ & Hp).
    destruct (loop_fin (carry c) l _ cstatus0 _ _ Hscan Hc Hp
                (carry_merges (carry c) _ _ _ _ eq_refl cstatus_app cstatus_idem)) as (fin & Hf & HI).
    unfold cstatus_fast, cstatus_truth, cstatus_examine. rewrite Hf, Hreplay.
    destruct (s_scanned fin) eqn:Esc.
    - destruct (cstatus_done (s_acc fin)) eqn:Ed; f_equal.
      + apply (inv_truth l cstatus0 _ _ (carry_stop _ _ cstatus_app) fin HI Esc). right; exact Ed.
      + destruct (inv_tail l cstatus0 _ _ fin HI Esc) as [fs [pre [Hl Ha]]].
        rewrite Ha, Hl, rev_app_distr. rewrite Ha in Ed.
        exact (carry_fill cstatus0 _ _ cstatus_app cstatus_idem _ _ eq_refl Ed).
    - rewrite (inv_unscanned l cstatus0 _ _ fin HI Esc). reflexivity.
  Qed.
End Queries.

(* The full sidecar is faithful: the longest well-formed, seq-contiguous run at its end is a tail of
   the truth stream.  (Absent files, unparsable lines, gaps inside a window, and a file reported complete
   that does not begin at seq 0 are detected by the readers: scan_tail_gen, try_replay.)  The negation is
   class K1 of DESIGN §4: a well-formed file whose last lines are not the last frames of the truth
   stream (stale prefix, rolled back, crash between truth append and sidecar append). *)
Definition FullFaithful (l : log) (s : sfile) : Prop :=
  match s with
  | None => True
  | Some ls => exists pre, l = pre ++ good_tail ls
  end.

Lemma all_good_map ls : forall fs, all_good ls = Some fs -> ls = map LGood fs.
Proof.
  induction ls as [|x ls IH]; intros fs H; cbn [all_good] in H.
  - inversion H; reflexivity.
  - destruct x as [f|n]; [|discriminate].
    destruct (all_good ls) as [fs'|]; [|discriminate]. cbn in H. inversion H; subst.
    cbn [map]. f_equal. apply IH; reflexivity.
Qed.

Lemma all_good_of_map fs : all_good (map LGood fs) = Some fs.
Proof. induction fs as [|f fs IH]; cbn [map all_good]; [reflexivity|]. rewrite IH. reflexivity. Qed.

Lemma take_back_prefix w : forall rl b, exists rest, rl = take_back w b rl ++ rest.
Proof.
  induction rl as [|x r IH]; intros b; cbn [take_back]; [exists []; reflexivity|].
  destruct r as [|y r'].
  - destruct (b + line_len x <=? w); [exists []; reflexivity | exists [x]; reflexivity].
  - destruct (b + line_len x + 1 <=? w).
    + destruct (IH (b + line_len x)) as [rest Hr]. exists rest. cbn [app]. f_equal. exact Hr.
    + exists (x :: y :: r'). reflexivity.
Qed.

Lemma firstnN_firstn {B} : forall (l : list B) n, firstnN n l = firstn (N.to_nat n) l.
Proof.
  induction l as [|x r IH]; intros n; cbn [firstnN]; [destruct (N.to_nat n); reflexivity|].
  destruct (N.eqb_spec n 0) as [->|Hn]; [reflexivity|].
  rewrite IH. replace (N.to_nat n) with (S (N.to_nat (n - 1))) by lia. reflexivity.
Qed.

Lemma contiguous_any_tail x : forall y, contiguous_any (x ++ y) = true -> contiguous_any y = true.
Proof.
  induction x as [|f x IH]; intros y H; [exact H|].
  cbn [app contiguous_any] in H. destruct (x ++ y) as [|g r] eqn:E.
  - destruct x; [cbn in E; subst; reflexivity | discriminate].
  - apply andb_true_iff in H. destruct H as [_ H]. apply IH. rewrite E. exact H.
Qed.

(* The good tail between two bounds.  From below: the run only grows its accumulator to the left ... *)
Lemma good_run_rev_ext : forall rl acc, exists pre, good_run_rev rl acc = pre ++ acc.
Proof.
  induction rl as [|x r IH]; intros acc; cbn [good_run_rev]; [exists []; reflexivity|].
  destruct x as [f|n]; [|exists []; reflexivity].
  destruct acc as [|g acc'].
  - destruct (IH [f]) as [pre Hp]. exists (pre ++ [f]). rewrite Hp, <- app_assoc. reflexivity.
  - destruct (fseq g =? fseq f + 1); [|exists []; reflexivity].
    destruct (IH (f :: g :: acc')) as [pre Hp]. exists (pre ++ [f]). rewrite Hp, <- app_assoc. reflexivity.
Qed.

(* ... and takes in whole a parsed, contiguous window at the end of the file. *)
Lemma good_run_rev_takes : forall fr rest acc, contiguous_any (rev fr ++ acc) = true ->
  good_run_rev (map LGood fr ++ rest) acc = good_run_rev rest (rev fr ++ acc).
Proof.
  induction fr as [|f fr IH]; intros rest acc H; [reflexivity|].
  cbn [map app rev good_run_rev] in *. rewrite <- app_assoc in *. cbn [app] in *.
  pose proof (contiguous_any_tail _ _ H) as Hfa.
  destruct acc as [|g acc']; [exact (IH rest [f] H)|].
  cbn [contiguous_any] in Hfa. apply andb_true_iff in Hfa. rewrite (proj1 Hfa).
  exact (IH rest (f :: g :: acc') H).
Qed.

(* From above: over parsed lines only, the run holds no more than the lines it was given: an intact sidecar is faithful. *)
Lemma good_run_rev_suffix : forall fr acc,
  exists p, rev fr ++ acc = p ++ good_run_rev (map LGood fr) acc.
Proof.
  induction fr as [|f fr IH]; intros acc; cbn [rev map good_run_rev app]; [exists []; reflexivity|].
  rewrite <- app_assoc. cbn [app].
  destruct acc as [|g acc'].
  - exact (IH [f]).
  - destruct (fseq g =? fseq f + 1); [exact (IH (f :: g :: acc'))|].
    exists (rev fr ++ [f]). rewrite <- app_assoc. reflexivity.
Qed.

Lemma project_full_faithful l : FullFaithful l (Some (project_full l)).
Proof.
  cbn [FullFaithful]. unfold good_tail, project_full. rewrite <- map_rev.
  destruct (good_run_rev_suffix (rev l) []) as [p Hp]. exists p.
  rewrite rev_involutive, app_nil_r in Hp. exact Hp.
Qed.

Lemma contiguous_from_any : forall fs b, contiguous_from b fs = true -> contiguous_any fs = true.
Proof.
  induction fs as [|f r IH]; intros b H; [reflexivity|].
  cbn [contiguous_from] in H. apply andb_true_iff in H. destruct H as [Hf Hr]. apply N.eqb_eq in Hf.
  cbn [contiguous_any]. destruct r as [|g r']; [reflexivity|].
  pose proof Hr as Hr'. cbn [contiguous_from] in Hr'. apply andb_true_iff in Hr'. destruct Hr' as [Hg _].
  apply N.eqb_eq in Hg. apply andb_true_iff. split; [apply N.eqb_eq; lia | exact (IH _ Hr)].
Qed.

Lemma valid_nth_seq : forall l b p f, contiguous_from b l = true -> nth_error l p = Some f -> fseq f = b + N.of_nat p.
Proof.
  induction l as [|x r IH]; intros b p f H Hn; [destruct p; discriminate|].
  cbn [contiguous_from] in H. apply andb_true_iff in H. destruct H as [Hx Hr]. apply N.eqb_eq in Hx.
  destruct p as [|p]; cbn [nth_error] in Hn.
  - inversion Hn; subst. lia.
  - rewrite (IH _ _ _ Hr Hn). lia.
Qed.

Definition seq_inj (fs : list frame) : Prop := forall a b, In a fs -> In b fs -> fseq a = fseq b -> a = b.

Lemma valid_seq_inj l : valid_log l = true -> seq_inj l.
Proof.
  intros Hv a b Ha Hb E. apply In_nth_error in Ha, Hb. destruct Ha as [i Hi], Hb as [j Hj].
  pose proof (valid_nth_seq _ _ _ _ Hv Hi). pose proof (valid_nth_seq _ _ _ _ Hv Hj).
  assert (i = j) by lia. congruence.
Qed.

Lemma suffix_from_0_whole l pre fs :
  valid_log l = true -> l = pre ++ fs -> starts_at_0 fs = true -> fs = l.
Proof.
  intros Hv Hl H0. destruct fs as [|f r]; [discriminate|]. apply N.eqb_eq in H0.
  assert (Hn : nth_error l (length pre) = Some f).
  { rewrite Hl, nth_error_app2, Nat.sub_diag; [reflexivity | apply le_n]. }
  pose proof (valid_nth_seq l 0 _ _ Hv Hn). destruct pre; [symmetry; exact Hl | cbn [length] in *; lia].
Qed.

(* [rev ls = map LGood (rev fs) ++ rest]: read from its end, as the scanners read it, the file begins with the
   lines of the window [fs] (oldest first), all parsed; [rest] is what lies before the window. *)
Lemma window_is_tail l ls fs rest :
  valid_log l = true -> FullFaithful l (Some ls) ->
  rev ls = map LGood (rev fs) ++ rest -> contiguous_any fs = true ->
  (exists pre, l = pre ++ fs) /\ (starts_at_0 fs = true -> fs = l).
Proof.
  intros Hv [pre0 Hpre0] Hr Hc. unfold good_tail in Hpre0. rewrite Hr in Hpre0.
  rewrite good_run_rev_takes in Hpre0 by (rewrite rev_involutive, app_nil_r; exact Hc).
  destruct (good_run_rev_ext rest (rev (rev fs) ++ [])) as [pre Hp].
  rewrite Hp, rev_involutive, app_nil_r, app_assoc in Hpre0.
  split; [eexists; exact Hpre0 | exact (suffix_from_0_whole l _ _ Hv Hpre0)].
Qed.

(* a scan parses the lines that fit the byte and the event budget, latest first *)
Lemma scan_back_tail me mb ls fs_rev cpl : scan_back me mb ls = STail fs_rev cpl ->
  map LGood fs_rev = firstnN me (take_back (N.min (total_len ls) mb) 0 (rev ls))
  /\ cpl = (total_len ls <=? mb) && (nlen ls <=? me).
Proof.
  destruct ls as [|x ls']; intros H.
  - inversion H. destruct mb, me; split; reflexivity.
  - unfold scan_back in H. destruct (all_good _) as [fr|] eqn:Eg; [|discriminate].
    inversion H; subst. split; [symmetry; exact (all_good_map _ _ Eg) | reflexivity].
Qed.

Lemma scan_back_window me mb ls fs_rev cpl :
  scan_back me mb ls = STail fs_rev cpl -> exists rest, rev ls = map LGood fs_rev ++ rest.
Proof.
  intros H. destruct (scan_back_tail _ _ _ _ _ H) as [Hm _].
  destruct (take_back_prefix (N.min (total_len ls) mb) (rev ls) 0) as [r1 Hr1].
  exists (skipn (N.to_nat me) (take_back (N.min (total_len ls) mb) 0 (rev ls)) ++ r1).
  rewrite Hm, firstnN_firstn, app_assoc, firstn_skipn. exact Hr1.
Qed.

Theorem scan_tail_spec l s :
  valid_log l = true -> FullFaithful l s -> ScanSpec l (scan_tail s).
Proof.
  intros Hv Hff me mb fs cpl H.
  unfold scan_tail, scan_tail_gen in H.
  destruct s as [ls|]; [|discriminate].
  destruct (scan_back me mb ls) as [| |fs_rev cp] eqn:Esb; try discriminate.
  cbn [andb] in H.
  destruct (cp && negb (starts_at_0 (rev fs_rev))) eqn:Est; [discriminate|].
  destruct (contiguous_any (rev fs_rev)) eqn:Ec; [|discriminate].
  inversion H; subst fs cpl. clear H.
  destruct (scan_back_window _ _ _ _ _ Esb) as [rest Hrev]. rewrite <- (rev_involutive fs_rev) in Hrev.
  destruct (window_is_tail l ls _ rest Hv Hff Hrev Ec) as [Hpre H0].
  split; [exact Hpre|]. intros Hcp. rewrite Hcp in Est. apply negb_false_iff in Est. exact (H0 Est).
Qed.

Theorem replay_faithful l s : valid_log l = true -> FullFaithful l s -> replay_fast s l = l.
Proof.
  intros Hv Hff. unfold replay_fast, try_replay.
  destruct s as [ls|]; [|reflexivity].
  destruct (all_good ls) as [fs|] eqn:Eg; [|reflexivity].
  destruct (contiguous_from 0 fs) eqn:Ec; [|reflexivity].
  destruct fs as [|f fs']; [reflexivity|].
  assert (Hrw : rev ls = map LGood (rev (f :: fs')) ++ []).
  { rewrite (all_good_map _ _ Eg), map_rev, app_nil_r. reflexivity. }
  apply (window_is_tail l ls _ [] Hv Hff Hrw (contiguous_from_any _ _ Ec)).
  cbn [contiguous_from] in Ec. apply andb_true_iff in Ec. exact (proj1 Ec).
Qed.

Definition consts_wf (k : consts) : Prop := forallb loop_wf (k_loops k) = true.

Lemma loop_n_wf k i : consts_wf k -> loop_wf (loop_n k i) = true.
Proof.
  intros H. unfold loop_n.
  destruct (nth_in_or_default i (k_loops k) dcfg) as [Hin|Hd]; [|rewrite Hd; reflexivity].
  exact (proj1 (forallb_forall _ _) H _ Hin).
Qed.

(* Every query whose fast path reads the full sidecar only returns the truth answer, for every
   history, every sidecar content that is not in class K1, and all loop constants. *)
Theorem full_sidecar_transparent k l s q a :
  consts_wf k -> valid_log l = true -> FullFaithful l s -> q <> QInflight ->
  q_fast k s l q = Some a -> a = q_truth k l q.
Proof.
  intros Hk Hv Hff Hq H.
  pose proof (scan_tail_spec l s Hv Hff) as Hsc.
  pose proof (replay_faithful l s Hv Hff) as Hrp.
  destruct q; cbn [q_fast q_truth] in *; try discriminate; inversion H; subst a; clear H.
  - rewrite Hrp. reflexivity.
  - rewrite (cursor_status_transparent _ l s (loop_n_wf k 2 Hk) Hsc Hrp). reflexivity.
  - rewrite (rotate_transparent _ l s (loop_n_wf k 3 Hk) Hsc Hrp). reflexivity.
  - rewrite (selection_transparent _ l s (loop_n_wf k 4 Hk) Hsc Hrp). reflexivity.
  - rewrite (cstatus_transparent _ l s (loop_n_wf k 1 Hk) Hsc Hrp). reflexivity.
  - congruence.
  - unfold cut_fast, cut_truth. rewrite Hrp. reflexivity.
Qed.

(* a fast answer is the HANG marker (a loop that does not leave) only where the truth answer is that marker;
   that no truth answer is the marker is not stated here *)
Theorem full_sidecar_no_hang k l s q a :
  consts_wf k -> valid_log l = true -> FullFaithful l s -> q <> QInflight ->
  q_fast k s l q = Some a -> a <> HANG \/ q_truth k l q = HANG.
Proof.
  intros Hk Hv Hff Hq H. rewrite (full_sidecar_transparent k l s q a Hk Hv Hff Hq H).
  destruct (list_eq_dec N.eq_dec (q_truth k l q) HANG); [right; assumption | left; assumption].
Qed.

(* Witnesses.  Windows of 10 .. 40 bytes, 100 events and checkpoint bounds 100 / 1000 are small stand-ins, so that
   a log of a few 8-byte frames makes the loops double; 32 / 512 / 524288 are the source's values. *)
Definition wcfg (cap clears fb : bool) : cfg :=
  {| l_initial := 10; l_max_bytes := 40; l_max_events := 100; l_cap_break := cap; l_clears := clears;
     l_incomplete_fallback := fb |}.
Definition k_small : consts :=
  {| k_loops := [wcfg true true true; wcfg true true true; wcfg true true true; wcfg true true true; wcfg true true true];
     k_max_keys := 32; k_inflight_events := 512; k_inflight_bytes := 524288; k_ckpt_events := 100; k_ckpt_bytes := 1000 |}.
Definition wf0 : frame := {| fseq := 0; flen := 8; fb := BCreated |}.
Definition wf1 : frame := {| fseq := 1; flen := 8; fb := BSelection |}.
Definition wf2 : frame := {| fseq := 2; flen := 8; fb := BMessage |}.
Definition wf3 : frame := {| fseq := 3; flen := 8; fb := BSelection |}.
Definition wlog : log := [wf0; wf1; wf2; wf3].
Definition wside : sfile := Some (project_full wlog).

(* non-vacuity: an intact sidecar satisfies the hypotheses and the loops really run *)
Lemma transparent_example :
  consts_wf k_small /\ valid_log wlog = true /\ FullFaithful wlog wside
  /\ q_fast k_small wside wlog (QSelection 3) = Some [2; 3; 1]
  /\ q_truth k_small wlog (QSelection 3) = [2; 3; 1].
Proof.
  split; [reflexivity|]. split; [reflexivity|]. split; [apply project_full_faithful|].
  split; vm_compute; reflexivity.
Qed.

(* S2: without clearing the accumulator per scan, a decision inside the first window is reported
   once per doubling round *)
Lemma selection_dup_unfixed :
  selection_fast (wcfg true false true) 3 wside wlog = Some [3; 3; 3]
  /\ selection_truth 3 wlog = [3; 1].
Proof. split; vm_compute; reflexivity. Qed.

(* the cap break alone is not enough: without the truth fallback after a non-exhaustive scan the
   answer is the content of the last window *)
Definition wcur (s : N) (k : N) : frame := {| fseq := s; flen := 30; fb := BCursor k |}.
Definition wlog2 : log := [wf0; wcur 1 100; wcur 2 200].
Lemma cursor_no_fallback_unfixed :
  option_map enc_cstat (cursor_status_fast (wcfg true true false) 32 (Some (project_full wlog2)) wlog2) = Some [1; 2; 1; 2]
  /\ enc_cstat (cursor_status_truth 32 wlog2) = [1; 2; 2; 1; 2].
Proof. split; vm_compute; reflexivity. Qed.

(* K1: a well-formed stale prefix is accepted and changes answers *)
Definition wstale : sfile := Some [LGood wf0; LGood wf1; LGood wf2].
Lemma K1_changes_answer :
  valid_log wlog = true /\ ~ FullFaithful wlog wstale
  /\ q_fast k_small wstale wlog QReplay = Some [3; 0; 1; 2] /\ q_truth k_small wlog QReplay = [4; 0; 1; 2; 3]
  /\ q_fast k_small wstale wlog (QSelection 3) = Some [1; 1] /\ q_truth k_small wlog (QSelection 3) = [2; 3; 1].
Proof.
  split; [reflexivity|]. split.
  - intros [pre H]. apply (f_equal (@rev frame)) in H. rewrite rev_app_distr in H.
    vm_compute in H. discriminate.
  - repeat split; vm_compute; reflexivity.
Qed.

(* before the scan_tail fix: a zero-byte sidecar and a sidecar re-created by a later append were
   reported as the complete history *)
Lemma empty_sidecar_unfixed :
  FullFaithful wlog (Some [])
  /\ selection_fast_with (scan_tail_unfixed (Some [])) (wcfg true true true) 3 (Some []) wlog = Some []
  /\ selection_fast (wcfg true true true) 3 (Some []) wlog = Some [3; 1].
Proof. split; [exists wlog; vm_compute; reflexivity|]. split; vm_compute; reflexivity. Qed.

Lemma recreated_suffix_unfixed :
  FullFaithful wlog (Some [LGood wf2; LGood wf3])
  /\ selection_fast_with (scan_tail_unfixed (Some [LGood wf2; LGood wf3])) (wcfg true true true) 3 (Some [LGood wf2; LGood wf3]) wlog = Some [3]
  /\ selection_fast (wcfg true true true) 3 (Some [LGood wf2; LGood wf3]) wlog = Some [3; 1].
Proof. split; [exists [wf0; wf1]; vm_compute; reflexivity|]. split; vm_compute; reflexivity. Qed.

(* before the inflight fix: no sidecar => "no job in flight" *)
Definition wjob : log := [wf0; {| fseq := 1; flen := 8; fb := BJobSpawned 0 true |}].
Lemma inflight_absent_unfixed :
  inflight_fast_unfixed 512 524288 None = None
  /\ inflight_fast 512 524288 None wjob = Some 0
  /\ inflight_truth 512 524288 wjob = Some 0.
Proof. repeat split; vm_compute; reflexivity. Qed.

(* Why QInflight is outside [full_sidecar_transparent]: the inflight scan is ONE bounded scan whose
   answer is the content of its window; an unparsable line of another length just outside the
   window of a faithful sidecar shifts the window relative to the one over the rebuilt sidecar. *)
Definition wjob3 : log := [wf0; {| fseq := 1; flen := 8; fb := BJobSpawned 0 true |}; {| fseq := 2; flen := 8; fb := BOther |}].
Definition wshift : sfile := Some [LBad 1000; LGood {| fseq := 2; flen := 8; fb := BOther |}].
Lemma inflight_window_shift :
  valid_log wjob3 = true /\ FullFaithful wjob3 wshift
  /\ inflight_fast 512 20 wshift wjob3 = None /\ inflight_truth 512 20 wjob3 = Some 0.
Proof.
  split; [reflexivity|]. split; [exists [wf0; {| fseq := 1; flen := 8; fb := BJobSpawned 0 true |}]; vm_compute; reflexivity|].
  split; vm_compute; reflexivity.
Qed.

(* appends extend an aligned index and leave a misaligned one as it is *)
Lemma ord_appends_file seqs : forall recs torn,
  fold_left ord_append seqs (OFile recs torn) = if torn =? 0 then OFile (recs ++ seqs) 0 else OFile recs torn.
Proof.
  induction seqs as [|x r IH]; intros recs torn; cbn [fold_left ord_append].
  - rewrite app_nil_r. destruct (N.eqb_spec torn 0) as [->|_]; reflexivity.
  - destruct (N.eqb_spec torn 0) as [->|Ht].
    + rewrite IH, <- app_assoc. reflexivity.
    + rewrite IH. destruct (N.eqb_spec torn 0); [contradiction | reflexivity].
Qed.

(* a misaligned index stays misaligned under appends, so every later count is refused (readers
   fall back to truth).  A writer that "repairs" the alignment breaks exactly this. *)
Theorem ord_append_never_repairs recs torn seqs mr_last :
  torn <> 0 -> ord_count (fold_left ord_append seqs (OFile recs torn)) mr_last = OErr.
Proof.
  intros Ht. apply N.eqb_neq in Ht. rewrite ord_appends_file, Ht. cbn [ord_count]. rewrite Ht. reflexivity.
Qed.

(* what the count reader accepts: an aligned file whose LAST record is the last message — nothing
   about the records before it (class K3) *)
Theorem ord_count_accepts f mr_last n :
  ord_count f mr_last = OSome n ->
  exists recs last, f = OFile recs 0 /\ mr_last = OSome last /\ n = nlen recs /\ hd_error (rev recs) = Some last.
Proof.
  destruct f as [| | |recs torn]; cbn [ord_count]; try discriminate.
  destruct (torn =? 0) eqn:Et; cbn [negb]; [|discriminate]. apply N.eqb_eq in Et. subst torn.
  destruct mr_last as [| |last]; try discriminate.
  destruct (rev recs) as [|r rr] eqn:Er; [discriminate|].
  destruct (r =? last) eqn:El; [|discriminate]. apply N.eqb_eq in El. subst r.
  intros H; inversion H; subst n. exists recs, last. rewrite Er. repeat split; reflexivity.
Qed.

(* the index written by the appends of an undisturbed thread is the projection ... *)
Lemma ord_appends_projection seqs : seqs <> [] ->
  fold_left ord_append seqs OAbsent = OFile seqs 0.
Proof.
  destruct seqs as [|x r]; [congruence|]. intros _. cbn [fold_left ord_append].
  exact (ord_appends_file r [x] 0).
Qed.

(* ... and on the projection both readers give the truth answers *)
Theorem ord_projection_transparent (msgs : list N) (last : N) :
  hd_error (rev msgs) = Some last ->
  ord_count (OFile msgs 0) (OSome last) = OSome (nlen msgs)
  /\ forall k known, (forall m, In m msgs -> known m = true) -> 0 < k ->
       ord_by_ordinal (OFile msgs 0) known k =
       match nth_error msgs (N.to_nat (k - 1)) with Some m => OSome m | None => ONone end.
Proof.
  intros Hl. split.
  - cbn [ord_count]. rewrite N.eqb_refl. cbn [negb]. destruct (rev msgs) as [|r rr]; [discriminate|].
    cbn in Hl. inversion Hl; subst r. rewrite N.eqb_refl. reflexivity.
  - intros k known Hk Hpos. cbn [ord_by_ordinal].
    destruct (k =? 0) eqn:E; [apply N.eqb_eq in E; lia|].
    destruct (nth_error msgs (N.to_nat (k - 1))) as [m|] eqn:En; [|reflexivity].
    rewrite (Hk m (nth_error_In _ _ En)). reflexivity.
Qed.

(* K3: an aligned index that lost a record in the middle passes the cross-check.  [1; 3; 5] stands for the
   message seqs of a thread (msg_seqs), [1; 5] for its index without the record of message 3; on a log:
   K3_changes_cut_points *)
Lemma K3_changes_answer :
  ord_count (OFile [1; 5] 0) (OSome 5) = OSome 2
  /\ ord_by_ordinal (OFile [1; 5] 0) (fun _ => true) 2 = OSome 5
  /\ nlen [1; 3; 5] = 3 /\ nth_error [1; 3; 5] 1 = Some 3.
Proof. repeat split; vm_compute; reflexivity. Qed.

(* a writer that truncates the torn bytes of a misaligned index and then appends (so that the file is aligned
   again but lacks the records of messages 5 and before) is not the reference step; leaving the file as it is, is *)
Lemma ord_repair_step_rejected :
  ord_step_ok {| os_before := OFile [1; 3] 19; os_seq := 7; os_after := OFile [1; 3; 7] 0; os_msgs := [1; 3; 5; 7] |} = false
  /\ ord_step_ok {| os_before := OFile [1; 3] 19; os_seq := 7; os_after := OFile [1; 3] 19; os_msgs := [1; 3; 5; 7] |} = true.
Proof. split; vm_compute; reflexivity. Qed.

(* every line of a real file has at least its '\n' *)
Definition log_lens_pos (l : log) : bool := forallb (fun f => 1 <=? flen f) l.

Lemma take_back_all w : forall rl b,
  Forall (fun x => 1 <= line_len x) rl -> b + total_len rl <= w -> take_back w b rl = rl.
Proof.
  unfold total_len. induction rl as [|x r IH]; intros b Hp Hw; cbn [take_back map sumN] in *; [reflexivity|].
  inversion Hp as [|? ? _ Hr]; subst. destruct r as [|y r'].
  - cbn [map sumN] in Hw. destruct (N.leb_spec (b + line_len x) w); [reflexivity | lia].
  - (* the line before [x] is not empty, so its '\n' lies inside the window *)
    inversion Hr as [|? ? Hy _]; subst. cbn [map sumN] in Hw.
    destruct (N.leb_spec (b + line_len x + 1) w); [|lia].
    f_equal. apply IH; [exact Hr | cbn [map sumN]; lia].
Qed.

Lemma total_len_rev ls : total_len (rev ls) = total_len ls.
Proof.
  unfold total_len. induction ls as [|x r IH]; [reflexivity|].
  cbn [rev map sumN]. rewrite map_app, sumN_app, IH. cbn [map sumN]. lia.
Qed.

Lemma scan_back_complete me mb fs fs_rev :
  log_lens_pos fs = true -> scan_back me mb (map LGood fs) = STail fs_rev true -> fs_rev = rev fs.
Proof.
  intros Hp H. destruct (scan_back_tail _ _ _ _ _ H) as [Hm Hc].
  symmetry in Hc. apply andb_true_iff in Hc. destruct Hc as [Hb He]. apply N.leb_le in Hb, He.
  assert (Hlp : Forall (fun x => 1 <= line_len x) (rev (map LGood fs))).
  { apply Forall_rev, Forall_map, Forall_forall. intros f Hf. apply N.leb_le.
    exact (proj1 (forallb_forall _ _) Hp f Hf). }
  rewrite (take_back_all _ _ _ Hlp) in Hm by (rewrite total_len_rev; lia).
  rewrite firstnN_firstn, firstn_all2, <- map_rev in Hm by (unfold nlen in He; rewrite rev_length; lia).
  apply (f_equal all_good) in Hm. rewrite !all_good_of_map in Hm. inversion Hm; reflexivity.
Qed.

(* The choice of the latest checkpoint does not depend on the order of the frames: ck_better is a strict total
   order on frames with distinct seqs, so two steps of the fold commute. *)
Definition ck_lt (y x : frame) : Prop :=
  ck_to_seq y < ck_to_seq x \/ (ck_to_seq x = ck_to_seq y /\ fseq y < fseq x).

Lemma ck_better_spec x y : if ck_better x y then ck_lt y x else ~ ck_lt y x.
Proof.
  unfold ck_better, ck_lt.
  destruct (N.ltb_spec (ck_to_seq y) (ck_to_seq x)), (N.eqb_spec (ck_to_seq x) (ck_to_seq y)),
    (N.ltb_spec (fseq y) (fseq x)); cbn [orb andb]; lia.
Qed.

Lemma better_total x y : ck_better x y = false -> ck_better y x = false -> fseq x = fseq y.
Proof.
  intros H1 H2. pose proof (ck_better_spec x y) as S1. pose proof (ck_better_spec y x) as S2.
  rewrite H1 in S1. rewrite H2 in S2. unfold ck_lt in *. lia.
Qed.

Lemma better_asym x y : ck_better x y = true -> ck_better y x = false.
Proof.
  intros H1. pose proof (ck_better_spec x y) as S1. pose proof (ck_better_spec y x) as S2.
  rewrite H1 in S1. destruct (ck_better y x); [unfold ck_lt in *; lia | reflexivity].
Qed.

Lemma better_trans x y z : ck_better x y = true -> ck_better y z = true -> ck_better x z = true.
Proof.
  intros H1 H2. pose proof (ck_better_spec x y) as S1. pose proof (ck_better_spec y z) as S2.
  pose proof (ck_better_spec x z) as S3. rewrite H1 in S1. rewrite H2 in S2.
  destruct (ck_better x z); [reflexivity | unfold ck_lt in *; lia].
Qed.

Lemma ck_swap mt b x y r : (fseq x = fseq y -> x = y) ->
  latest_ckpt mt b (x :: y :: r) = latest_ckpt mt b (y :: x :: r).
Proof.
  intros Hinj. cbn [latest_ckpt].
  destruct (is_checkpoint x && (ck_to_seq x <=? mt)), (is_checkpoint y && (ck_to_seq y <=? mt)); try reflexivity.
  f_equal.
  assert (Hxy : (if ck_better y x then Some y else Some x) = (if ck_better x y then Some x else Some y)).
  { destruct (ck_better y x) eqn:A.
    - rewrite (better_asym _ _ A). reflexivity.
    - destruct (ck_better x y) eqn:B; [reflexivity|]. f_equal. apply Hinj. exact (better_total _ _ B A). }
  destruct b as [c|]; [|exact Hxy].
  destruct (ck_better x c) eqn:Bx, (ck_better y c) eqn:By; try rewrite Bx; try rewrite By.
  - exact Hxy.
  - destruct (ck_better y x) eqn:A; [|reflexivity].
    (* y > x > c but y is not better than c: impossible *)
    pose proof (better_trans y x c A Bx) as H. congruence.
  - destruct (ck_better x y) eqn:A; [|reflexivity].
    pose proof (better_trans x y c A By) as H. congruence.
  - reflexivity.
Qed.

Lemma ck_last mt x : forall r b, (forall y, In y r -> fseq x = fseq y -> x = y) ->
  latest_ckpt mt b (r ++ [x]) = latest_ckpt mt b (x :: r).
Proof.
  induction r as [|y r IH]; intros b H; [reflexivity|].
  rewrite (ck_swap mt b x y r (H y (or_introl eq_refl))). cbn [app latest_ckpt].
  destruct (is_checkpoint y && _); rewrite IH by (intros z Hz; apply H; right; exact Hz); reflexivity.
Qed.

Lemma latest_ckpt_rev mt fs b : seq_inj fs -> latest_ckpt mt b (rev fs) = latest_ckpt mt b fs.
Proof.
  revert b. induction fs as [|x r IH]; intros b Hi; [reflexivity|].
  assert (Hr : seq_inj r) by (intros a c Ha Hc; apply Hi; right; assumption).
  cbn [rev]. rewrite ck_last by (intros y Hy; apply Hi; [left; reflexivity | right; apply in_rev; exact Hy]).
  cbn [latest_ckpt]. destruct (is_checkpoint x && _); apply IH; exact Hr.
Qed.

Lemma latest_ckpt_filter mt : forall fs b, latest_ckpt mt b (filter is_checkpoint fs) = latest_ckpt mt b fs.
Proof.
  induction fs as [|f r IH]; intros b; [reflexivity|].
  cbn [filter latest_ckpt]. destruct (is_checkpoint f) eqn:E.
  - cbn [latest_ckpt]. rewrite E. cbn [andb]. destruct (ck_to_seq f <=? mt); apply IH.
  - cbn [andb]. apply IH.
Qed.

Lemma ckpt_projection_scan me mb mt l fs_rev :
  valid_log l = true -> log_lens_pos l = true ->
  scan_back me mb (comp_projection l) = STail fs_rev true ->
  latest_ckpt mt None fs_rev = latest_ckpt mt None l.
Proof.
  intros Hv Hp H. unfold comp_projection in H.
  assert (Hin : forall f, In f (filter is_checkpoint l) -> In f l) by (intros f Hf; exact (proj1 (proj1 (filter_In _ _ _) Hf))).
  assert (Hp' : log_lens_pos (filter is_checkpoint l) = true).
  { apply forallb_forall. intros f Hf. exact (proj1 (forallb_forall _ _) Hp f (Hin f Hf)). }
  rewrite (scan_back_complete _ _ _ _ Hp' H), latest_ckpt_rev; [apply latest_ckpt_filter|].
  intros a c Ha Hc. exact (valid_seq_inj l Hv a c (Hin a Ha) (Hin c Hc)).
Qed.

(* ¬K2: the checkpoint sidecar, when present and not zero-length, is the projection of the truth stream; when
   absent (or zero-length, which the readers take for absent: comp_seen), a full sidecar without an
   unparsable line is the truth stream (so what is built from it is the projection) *)
Definition CompFaithful (l : log) (comp full : sfile) : Prop :=
  match comp_seen comp with
  | Some ls => ls = comp_projection l
  | None => match full with
            | None => True
            | Some fl => forall fs, all_good fl = Some fs -> fs = l
            end
  end.

(* an intact full sidecar stands in for a checkpoint sidecar that is missing or zero-length *)
Lemma comp_absent_faithful l comp : comp_seen comp = None -> CompFaithful l comp (Some (project_full l)).
Proof.
  intros E. unfold CompFaithful, project_full. rewrite E, all_good_of_map. intros fs H. inversion H; reflexivity.
Qed.

Lemma comp_projection_faithful l : CompFaithful l (Some (comp_projection l)) (Some (project_full l)).
Proof.
  destruct (comp_projection l) eqn:E; [apply comp_absent_faithful; reflexivity|].
  unfold CompFaithful, comp_seen. symmetry. exact E.
Qed.

Lemma latest_none_of_empty_projection mt l : comp_projection l = [] -> latest_ckpt mt None l = None.
Proof.
  intros H. rewrite <- latest_ckpt_filter. unfold comp_projection in H.
  destruct (filter is_checkpoint l); [reflexivity | discriminate].
Qed.

Lemma ckpt_cache_spec me mb mt comp full l :
  valid_log l = true -> log_lens_pos l = true -> CompFaithful l comp full ->
  match latest_ckpt_cache me mb comp full mt with
  | CkSome r => r = latest_ckpt mt None l
  | CkNone => full = None \/ latest_ckpt mt None l = None
  | CkErr => True
  end.
Proof.
  intros Hv Hp Hcf. unfold latest_ckpt_cache.
  assert (Hfile : forall ls, ls = comp_projection l ->
            match (match scan_back me mb ls with
                   | STail fs_rev cpl => if cpl then CkSome (latest_ckpt mt None fs_rev) else CkErr
                   | _ => CkErr
                   end) with
            | CkSome r => r = latest_ckpt mt None l
            | CkNone => full = None \/ latest_ckpt mt None l = None
            | CkErr => True
            end).
  { intros ls ->. destruct (scan_back me mb (comp_projection l)) as [| |fs_rev [|]] eqn:Es; try exact I.
    exact (ckpt_projection_scan me mb mt l fs_rev Hv Hp Es). }
  unfold CompFaithful in Hcf. destruct (comp_seen comp) as [ls|]; [exact (Hfile ls Hcf)|].
  destruct full as [fl|]; [|left; reflexivity].
  unfold header_project. destruct (all_good fl) as [fs|] eqn:Eg; cbn [option_map]; [|exact I].
  rewrite (Hcf fs eq_refl).
  destruct (comp_projection l) as [|x rr] eqn:Ec; [|exact (Hfile _ eq_refl)].
  (* no file is built only when there is no checkpoint to find *)
  right. exact (latest_none_of_empty_projection mt l Ec).
Qed.

Theorem status_ckpt_transparent me mb comp full l :
  valid_log l = true -> log_lens_pos l = true -> FullFaithful l full -> CompFaithful l comp full ->
  status_ckpt_fast me mb comp full l = option_map fseq (latest_ckpt_truth U64MAX l).
Proof.
  intros Hv Hp Hff Hcf. unfold status_ckpt_fast, latest_ckpt_truth.
  rewrite (replay_faithful l full Hv Hff).
  pose proof (ckpt_cache_spec me mb U64MAX comp full l Hv Hp Hcf) as H.
  destruct (latest_ckpt_cache me mb comp full U64MAX) as [| |[f|]]; try reflexivity.
  rewrite <- H. reflexivity.
Qed.

(* K2 is not vacuous: a sidecar re-created by the append of a later checkpoint with a smaller to_seq *)
Definition wck (s t : N) : frame := {| fseq := s; flen := 8; fb := BCheckpoint true t |}.
Definition wlog3 : log := [wf0; {| fseq := 1; flen := 8; fb := BMessage |}; {| fseq := 2; flen := 8; fb := BMessage |}; wck 3 2; wck 4 1].
Lemma K2_changes_answer :
  valid_log wlog3 = true /\ log_lens_pos wlog3 = true /\ FullFaithful wlog3 (Some (project_full wlog3))
  /\ ~ CompFaithful wlog3 (Some [LGood (wck 4 1)]) (Some (project_full wlog3))
  /\ status_ckpt_fast 100 1000 (Some [LGood (wck 4 1)]) (Some (project_full wlog3)) wlog3 = Some 4
  /\ option_map fseq (latest_ckpt_truth U64MAX wlog3) = Some 3.
Proof.
  split; [reflexivity|]. split; [reflexivity|]. split; [apply project_full_faithful|]. split.
  - unfold CompFaithful, comp_seen. vm_compute. discriminate.
  - split; vm_compute; reflexivity.
Qed.

Lemma status_ckpt_example :
  CompFaithful wlog3 (Some (comp_projection wlog3)) (Some (project_full wlog3))
  /\ CompFaithful wlog3 None (Some (project_full wlog3))
  /\ status_ckpt_fast 100 1000 (Some (comp_projection wlog3)) (Some (project_full wlog3)) wlog3 = Some 3
  /\ status_ckpt_fast 100 1000 None (Some (project_full wlog3)) wlog3 = Some 3.
Proof.
  split; [reflexivity|]. split.
  - exact (comp_absent_faithful wlog3 None eq_refl).
  - split; vm_compute; reflexivity.
Qed.

(* the scan after the loss of index.json: what it returns is the best so far or a thread of the workspace, and it
   returns nothing only when there is neither *)
Lemma recover_from_spec ws : forall cs best,
  match recover_default_from ws best cs with
  | Some id => (exists ts, best = Some (ts, id)) \/ (exists c, In c cs /\ cr_id c = id /\ cr_ws c = ws)
  | None => best = None /\ forall c, In c cs -> cr_ws c <> ws
  end.
Proof.
  induction cs as [|c r IH]; intros best; cbn [recover_default_from].
  { destruct best as [[ts i]|]; cbn [option_map snd]; [left; eauto | split; [reflexivity | intros c []]]. }
  destruct (cr_ws c =? ws) eqn:Ew.
  - apply N.eqb_eq in Ew.
    set (best' := match best with Some _ => _ | None => _ end). specialize (IH best').
    destruct (recover_default_from ws best' r) as [id|].
    + destruct IH as [[ts Hb]|(c' & Hin & Hc')]; [|right; exists c'; split; [right; exact Hin | exact Hc']].
      (* the best so far is the old one or [c] itself *)
      subst best'. destruct best as [[ts0 i0]|]; [destruct (cr_ts c <=? ts0)|]; inversion Hb; subst ts id.
      1: left; eauto.
      all: right; exists c; split; [left; reflexivity | split; [reflexivity | exact Ew]].
    + destruct IH as [Hb _]. subst best'. destruct best as [[ts0 i0]|]; [destruct (cr_ts c <=? ts0)|]; discriminate.
  - apply N.eqb_neq in Ew. specialize (IH best). destruct (recover_default_from ws best r) as [id|].
    + destruct IH as [Hb|(c' & Hin & Hc')]; [left; exact Hb | right; exists c'; split; [right; exact Hin | exact Hc']].
    + destruct IH as [Hb Hr]. split; [exact Hb|]. intros c' [<-|Hin]; [exact Ew | exact (Hr c' Hin)].
Qed.

(* after the loss of index.json the recovered default is an existing thread of this workspace (none is created) *)
Theorem default_recovery_existing ws cs id :
  recover_default ws cs = Some id -> exists c, In c cs /\ cr_id c = id /\ cr_ws c = ws.
Proof.
  intros H. pose proof (recover_from_spec ws cs None) as S. unfold recover_default in H. rewrite H in S.
  destruct S as [[ts Hb]|Hc]; [discriminate | exact Hc].
Qed.

(* ... and a thread is created only when the workspace has none *)
Theorem default_recovery_none ws cs :
  recover_default ws cs = None -> forall c, In c cs -> cr_ws c <> ws.
Proof.
  intros H. pose proof (recover_from_spec ws cs None) as S. unfold recover_default in H. rewrite H in S.
  exact (proj2 S).
Qed.

(* with a single thread in the workspace the default is recovered *)
Theorem default_recovery_single ws ts id others :
  (forall c, In c others -> cr_ws c <> ws) ->
  recover_default ws ((ts, id, ws) :: others) = Some id.
Proof.
  intros H. unfold recover_default. cbn [recover_default_from cr_ws cr_ts cr_id fst snd]. rewrite N.eqb_refl.
  pose proof (recover_from_spec ws others (Some (ts, id))) as S.
  destruct (recover_default_from ws (Some (ts, id)) others) as [i|].
  - destruct S as [[t Hb]|(c & Hin & _ & Hw)]; [inversion Hb; reflexivity | elim (H c Hin Hw)].
  - destruct S as [Hb _]. discriminate.
Qed.

(* S15 (fixed in /repo): before the fix the identity of the default was not recovered once the workspace had a branch /
   handoff child; the repaired scan skips children *)
Lemma default_recovery_child :
  recover_default 7 [(100, 1, 7); (105, 2, 7)] = Some 2
  /\ recover_default_fixed 7 [(100, 1, 7); (105, 2, 7)] [2] = Some 1.
Proof. split; vm_compute; reflexivity. Qed.

Theorem default_recovery_existing_fixed ws cs children id :
  recover_default_fixed ws cs children = Some id -> exists c, In c cs /\ cr_id c = id /\ cr_ws c = ws.
Proof.
  unfold recover_default_fixed. destruct (recover_default ws (filter (not_child children) cs)) as [i|] eqn:E.
  - intros H. inversion H; subst i. destruct (default_recovery_existing ws _ id E) as (c & Hc & Hi).
    exists c. split; [exact (proj1 (proj1 (filter_In _ _ _) Hc)) | exact Hi].
  - exact (default_recovery_existing ws cs id).
Qed.

Theorem default_recovery_none_fixed ws cs children :
  recover_default_fixed ws cs children = None -> forall c, In c cs -> cr_ws c <> ws.
Proof.
  unfold recover_default_fixed. destruct (recover_default ws (filter (not_child children) cs)); [discriminate|].
  exact (default_recovery_none ws cs).
Qed.

Lemma not_child_iff children c : not_child children c = true <-> ~ In (cr_id c) children.
Proof.
  unfold not_child. split; intros H.
  - intros Hin. apply negb_true_iff in H. rewrite (proj2 (existsb_exists _ _)) in H; [discriminate|].
    exists (cr_id c). split; [exact Hin | apply N.eqb_refl].
  - apply negb_true_iff, not_true_is_false. intros E. apply existsb_exists in E.
    destruct E as (x & Hx & Ex). apply N.eqb_eq in Ex. subst x. exact (H Hx).
Qed.

(* the default is recovered whenever it is the only thread of the workspace that is not a branch / handoff child *)
Theorem default_recovery_root ws ts id others children :
  ~ In id children ->
  (forall c, In c others -> cr_ws c <> ws \/ In (cr_id c) children) ->
  recover_default_fixed ws ((ts, id, ws) :: others) children = Some id.
Proof.
  intros Hr Ho. unfold recover_default_fixed. cbn [filter].
  rewrite (proj2 (not_child_iff children (ts, id, ws)) Hr), default_recovery_single; [reflexivity|].
  intros c Hc. apply filter_In in Hc. destruct Hc as [Hc Hn]. destruct (Ho c Hc) as [W|C]; [exact W|].
  elim (proj1 (not_child_iff _ _) Hn C).
Qed.

(* S4c (fixed in /repo): the reader before the fix took a zero-length checkpoint sidecar for a complete empty history *)
Lemma zero_length_comp_unfixed :
  latest_ckpt_cache_unfixed 100 1000 (Some []) (Some (project_full wlog3)) U64MAX = CkSome None
  /\ latest_ckpt_cache 100 1000 (Some []) (Some (project_full wlog3)) U64MAX = CkSome (Some (wck 3 2))
  /\ CompFaithful wlog3 (Some []) (Some (project_full wlog3)).
Proof.
  split; [vm_compute; reflexivity|]. split; [vm_compute; reflexivity|].
  exact (comp_absent_faithful wlog3 (Some []) eq_refl).
Qed.

Lemma ckpt_lookup_faithful me mb comp full l rp mt :
  valid_log l = true -> log_lens_pos l = true -> FullFaithful l full -> CompFaithful l comp full ->
  exists rp', ckpt_lookup me mb comp full l rp mt = (latest_ckpt mt None l, rp').
Proof.
  intros Hv Hp Hff Hcf. unfold ckpt_lookup. rewrite (replay_faithful l full Hv Hff).
  pose proof (ckpt_cache_spec me mb mt comp full l Hv Hp Hcf) as H.
  destruct (latest_ckpt_cache me mb comp full mt) as [| |r]; [| eauto | subst r].
  - (* "no file" is believed only with a full sidecar in hand: then there is no checkpoint to find *)
    destruct rp; [eauto|]. destruct (full_has_last full) eqn:Eh; [|eauto].
    destruct H as [-> | ->]; [discriminate | eauto].
  - destruct (latest_ckpt mt None l) as [f|]; [eauto|].
    destruct rp; [eauto|]. destruct (full_has_last full); eauto.
Qed.

Lemma cut_point_at_mk l ordinal m :
  nth_error (messages l) (N.to_nat (ordinal - 1)) = Some m ->
  cut_point_at l ordinal = Some (mk_cut_point ordinal m (latest_ckpt (fseq m) None l)).
Proof. intros H. unfold cut_point_at. rewrite H. reflexivity. Qed.

Theorem cut_points_fast_eq_truth me mb comp full l stride limit :
  valid_log l = true -> log_lens_pos l = true -> FullFaithful l full -> CompFaithful l comp full ->
  cut_points_fast me mb comp full l stride limit = cut_points_truth l stride limit.
Proof.
  intros Hv Hp Hff Hcf. unfold cut_points_fast, cut_points_truth. f_equal.
  destruct (_ =? 0); [reflexivity|].
  generalize (N.to_nat (clamp_limit limit)) as n, 0 as i, false as rp.
  induction n as [|n IH]; intros i rp; [reflexivity|].
  cbn [cut_points_fast_from cut_points_from].
  destruct (_ =? 0); [reflexivity|].
  destruct (nth_error (messages l) _) as [m|] eqn:En.
  - rewrite (cut_point_at_mk l _ m En).
    destruct (ckpt_lookup_faithful me mb comp full l rp (fseq m) Hv Hp Hff Hcf) as [rp' ->].
    f_equal. apply IH.
  - unfold cut_point_at. rewrite En. apply IH.
Qed.

(* K2 changes cut points too (S4: the probe of DESIGN §0) *)
Lemma K2_changes_cut_points :
  snd (cut_points_fast 100 1000 (Some [LGood (wck 4 1)]) (Some (project_full wlog3)) wlog3 1 2)
    = [ {| cp_ordinal := 2; cp_to_seq := 2; cp_already := false; cp_latest := None |};
        {| cp_ordinal := 1; cp_to_seq := 1; cp_already := true; cp_latest := Some 4 |} ]
  /\ snd (cut_points_truth wlog3 1 2)
    = [ {| cp_ordinal := 2; cp_to_seq := 2; cp_already := true; cp_latest := Some 3 |};
        {| cp_ordinal := 1; cp_to_seq := 1; cp_already := true; cp_latest := Some 4 |} ].
Proof. split; vm_compute; reflexivity. Qed.

(* ¬K3: the complete records of the index are a prefix of the projection, all of it when aligned *)
Definition OrdFaithful (l : log) (ord : ofile) : Prop :=
  match ord with
  | OFile recs torn => exists rest, msg_seqs l = recs ++ rest /\ (torn = 0 -> rest = [])
  | _ => True
  end.

(* in a valid stream the frame at the offset of a frame's seq is that frame *)
Lemma frame_at_seq l m m' : valid_log l = true -> In m l -> frame_at l (fseq m) = Some m' -> m' = m.
Proof.
  intros Hv Hm Hf. unfold frame_at in Hf.
  pose proof (valid_nth_seq l 0 _ _ Hv Hf) as Hseq. rewrite N2Nat.id in Hseq.
  exact (valid_seq_inj l Hv _ _ (nth_error_In _ _ Hf) Hm Hseq).
Qed.

(* the message the ordinal index names is the message the truth path takes *)
Lemma by_ordinal_faithful l ord known k m' :
  valid_log l = true -> OrdFaithful l ord ->
  match ord_by_ordinal ord known k with OSome sq => frame_at l sq | _ => None end = Some m' ->
  nth_error (messages l) (N.to_nat (k - 1)) = Some m'.
Proof.
  intros Hv Hof H. destruct ord as [| | |recs torn]; cbn [ord_by_ordinal] in H; try discriminate.
  destruct (k =? 0) eqn:E0; [discriminate|].
  destruct (nth_error recs (N.to_nat (k - 1))) as [sq|] eqn:En; [|discriminate].
  destruct (known sq); [|discriminate].
  cbn [OrdFaithful] in Hof. destruct Hof as [rest [Hpre _]].
  rewrite <- (nth_error_app1 recs rest), <- Hpre in En by (apply nth_error_Some; congruence).
  unfold msg_seqs in En. rewrite nth_error_map in En. destruct (nth_error (messages l) (N.to_nat (k - 1))) as [m|] eqn:Em; [|discriminate].
  cbn in En. inversion En as [Hs]. subst sq. f_equal. symmetry.
  exact (frame_at_seq l m m' Hv (proj1 (proj1 (filter_In _ _ _) (nth_error_In _ _ Em))) H).
Qed.

Lemma ord_count_faithful l ord n :
  OrdFaithful l ord -> ord_count ord (mr_last_of l) = OSome n -> n = nlen (messages l).
Proof.
  intros Hof H. destruct (ord_count_accepts _ _ _ H) as [recs [last [Hf [_ [Hn _]]]]]. subst ord n.
  cbn [OrdFaithful] in Hof. destruct Hof as [rest [Hpre Hr]]. rewrite (Hr eq_refl), app_nil_r in Hpre.
  unfold nlen. rewrite <- Hpre. unfold msg_seqs. rewrite map_length. reflexivity.
Qed.

(* whichever way the message of an ordinal is found, it is the one the truth path takes; once the message list of
   the replay is in hand ([ld]) the index is not consulted, so nothing need be known of it *)
Lemma ord_route l ord known ordinal rp ld :
  valid_log l = true -> ld = true \/ OrdFaithful l ord ->
  let from_msgs := nth_error (messages l) (N.to_nat (ordinal - 1)) in
  exists rp1 ld1,
    (if ld then (from_msgs, true, true)
     else match (match ord_by_ordinal ord known ordinal with OSome sq => frame_at l sq | _ => None end) with
          | Some m => (Some m, rp, ld)
          | None => (from_msgs, true, true)
          end) = (from_msgs, rp1, ld1)
    /\ (ld1 = true \/ OrdFaithful l ord).
Proof.
  intros Hv Hld from_msgs. destruct ld; [eauto|]. destruct Hld as [Hld|Hof]; [discriminate|].
  destruct (match ord_by_ordinal ord known ordinal with OSome sq => frame_at l sq | _ => None end) as [m'|] eqn:Eb; [|eauto].
  exists rp, false. unfold from_msgs. rewrite (by_ordinal_faithful l ord known ordinal m' Hv Hof Eb). auto.
Qed.

Lemma cut_points_ord_loop me mb comp full l ord known stride latest :
  valid_log l = true -> log_lens_pos l = true -> FullFaithful l full -> CompFaithful l comp full ->
  forall n rp ld i, ld = true \/ OrdFaithful l ord ->
  cut_points_ord_from me mb comp full l ord known stride latest i rp ld n = cut_points_from l stride latest i n.
Proof.
  intros Hv Hp Hff Hcf. pose proof (replay_faithful l full Hv Hff) as Hrp.
  induction n as [|n IH]; intros rp ld i Hld; [reflexivity|].
  cbn [cut_points_ord_from cut_points_from]. rewrite Hrp.
  set (ordinal := latest - i * stride).
  destruct (ordinal =? 0); [reflexivity|].
  destruct (ord_route l ord known ordinal rp ld Hv Hld) as (rp1 & ld1 & -> & Hld1).
  destruct (nth_error (messages l) (N.to_nat (ordinal - 1))) as [m|] eqn:En.
  - rewrite (cut_point_at_mk l _ m En).
    destruct (ckpt_lookup_faithful me mb comp full l rp1 (fseq m) Hv Hp Hff Hcf) as [rp' ->].
    f_equal. apply IH. exact Hld1.
  - unfold cut_point_at. rewrite En. apply IH. exact Hld1.
Qed.

(* the index is trusted only as far as its count check passes: outside K3, or rejected by the check *)
Lemma cut_points_ord_checked me mb comp full l ord known stride limit :
  valid_log l = true -> log_lens_pos l = true -> FullFaithful l full -> CompFaithful l comp full ->
  OrdFaithful l ord \/ (forall n, ord_count ord (mr_last_of l) <> OSome n) ->
  cut_points_ord me mb comp full l ord known stride limit = cut_points_truth l stride limit.
Proof.
  intros Hv Hp Hff Hcf Hord. unfold cut_points_ord, cut_points_truth. rewrite (replay_faithful l full Hv Hff).
  pose proof (cut_points_ord_loop me mb comp full l ord known stride (nlen (messages l) / stride * stride)
                Hv Hp Hff Hcf) as Hloop.
  destruct (ord_count ord (mr_last_of l)) as [| |n0] eqn:Ec.
  1, 2: f_equal; destruct (_ =? 0); [reflexivity | apply Hloop; left; reflexivity].
  destruct Hord as [Hof|Hrej]; [|elim (Hrej n0 eq_refl)].
  rewrite (ord_count_faithful l ord n0 Hof Ec). f_equal.
  destruct (_ =? 0); [reflexivity | apply Hloop; right; exact Hof].
Qed.

Theorem cut_points_ord_eq_truth me mb comp full l ord known stride limit :
  valid_log l = true -> log_lens_pos l = true -> FullFaithful l full -> CompFaithful l comp full -> OrdFaithful l ord ->
  cut_points_ord me mb comp full l ord known stride limit = cut_points_truth l stride limit.
Proof. intros Hv Hp Hff Hcf Hof. apply cut_points_ord_checked; auto. Qed.

(* C04-F3 (fixed in /repo): an index whose count has been rejected (last record is not the last message) was still asked
   for every ordinal: messages 1,3,5,7, index [1;5] (record of message 3 lost, record of message 7 missing): the count
   falls back to the replay (4), ordinal 2 resolved to message 5 through the index; the repaired route takes message 3 *)
Definition wlog7 : log :=
  [wf0; {| fseq := 1; flen := 8; fb := BMessage |}; {| fseq := 2; flen := 8; fb := BOther |};
   {| fseq := 3; flen := 8; fb := BMessage |}; {| fseq := 4; flen := 8; fb := BOther |}; {| fseq := 5; flen := 8; fb := BMessage |};
   {| fseq := 6; flen := 8; fb := BOther |}; {| fseq := 7; flen := 8; fb := BMessage |}].
Lemma rejected_index_unfixed :
  valid_log wlog7 = true
  /\ ord_count (OFile [1; 5] 0) (mr_last_of wlog7) = OErr
  /\ map cp_to_seq (snd (cut_points_ord_unfixed 100 1000 None (Some (project_full wlog7)) wlog7 (OFile [1; 5] 0) (fun _ => true) 2 4)) = [7; 5]
  /\ map cp_to_seq (snd (cut_points_ord 100 1000 None (Some (project_full wlog7)) wlog7 (OFile [1; 5] 0) (fun _ => true) 2 4)) = [7; 3]
  /\ map cp_to_seq (snd (cut_points_truth wlog7 2 4)) = [7; 3].
Proof. repeat split; vm_compute; reflexivity. Qed.

(* K3 changes cut points: index [1;5] of a thread with messages 1,3,5 (last record right, middle one lost) *)
Definition wlog5 : log :=
  [wf0; {| fseq := 1; flen := 8; fb := BMessage |}; {| fseq := 2; flen := 8; fb := BOther |};
   {| fseq := 3; flen := 8; fb := BMessage |}; {| fseq := 4; flen := 8; fb := BOther |}; {| fseq := 5; flen := 8; fb := BMessage |}].
Lemma K3_changes_cut_points :
  valid_log wlog5 = true /\ ~ OrdFaithful wlog5 (OFile [1; 5] 0)
  /\ fst (cut_points_ord 100 1000 None (Some (project_full wlog5)) wlog5 (OFile [1; 5] 0) (fun _ => true) 1 4) = 2
  /\ map cp_to_seq (snd (cut_points_ord 100 1000 None (Some (project_full wlog5)) wlog5 (OFile [1; 5] 0) (fun _ => true) 1 4)) = [5; 1]
  /\ fst (cut_points_truth wlog5 1 4) = 3
  /\ map cp_to_seq (snd (cut_points_truth wlog5 1 4)) = [5; 3; 1].
Proof.
  split; [reflexivity|]. split.
  - cbn [OrdFaithful]. intros [rest [H Hr]]. rewrite (Hr eq_refl), app_nil_r in H. vm_compute in H. discriminate.
  - repeat split; vm_compute; reflexivity.
Qed.
