(* C11 — proofs about Model/WsLockTree.v: every write of a process of the command that still holds one of the
   execution's output streams happens while the execution holds the workspace permit and before it releases
   it, for every waiter accepted by [waiter_wf], every set of processes, every schedule. *)
From RipV Require Import Base.Prelude Model.WsLockTree.

Definition is_rel_ev (e : ev) : bool := match e with ETask TRel => true | _ => false end.

(* newest first: an attached write has no release of the execution before it *)
Fixpoint no_att_after_rel (tr : list ev) : bool :=
  match tr with
  | [] => true
  | e :: r => (match e with ETreeWrite _ _ true _ => negb (existsb is_rel_ev r) | _ => true end)
              && no_att_after_rel r
  end.

Lemma nth_set_nth_same : forall A (l : list A) i x y, nth_error l i = Some y -> nth_error (set_nth l i x) i = Some x.
Proof.
  induction l as [|a l IH]; intros i x y H; destruct i; cbn in *; try discriminate; auto.
  eapply IH; eauto.
Qed.

Lemma nth_set_nth_other : forall A (l : list A) i j x, i <> j -> nth_error (set_nth l i x) j = nth_error l j.
Proof.
  induction l as [|a l IH]; intros i j x H; destruct i; destruct j; cbn; auto; try congruence.
Qed.

Lemma forallb_set_nth : forall A (f : A -> bool) (l : list A) i x,
  forallb f l = true -> f x = true -> forallb f (set_nth l i x) = true.
Proof.
  induction l as [|a l IH]; intros i x H Hx; destruct i; cbn in *; auto.
  - apply andb_true_iff in H. destruct H as [_ H]. rewrite Hx, H. reflexivity.
  - apply andb_true_iff in H. destruct H as [Ha H]. rewrite Ha. cbn. apply IH; auto.
Qed.

Lemma forallb_nth : forall A (f : A -> bool) (l : list A) i x,
  forallb f l = true -> nth_error l i = Some x -> f x = true.
Proof. intros A f l i x H Hn. exact (proj1 (forallb_forall f l) H x (nth_error_In l i Hn)). Qed.

(* [ws] is the ghost state of the waiter automaton [wstep] after the waiter steps taken so far.  [i_good] and
   [i_order] are what is wanted.  The rest carries them: the permit is the execution's from its acquire to its
   release (i_hold, i_oth); the command runs only under it (i_started, i_sp); a release after the spawn has both
   streams joined by a plain await (i_rel); a stream so joined stays closed, since processes only lose streams
   (i_j0, i_j1); a release event in the trace is a release of the waiter (i_relev). *)
Record tinv (st : tstate) (ws : wst) : Prop := {
  i_acc : waccept ws (todo st) = true;
  i_hold : w_acq ws = true -> w_rel ws = false -> tholder st = Some 0%nat;
  i_started : started st = true -> w_sp ws = true;
  i_sp : w_sp ws = true -> w_acq ws = true;
  i_rel : w_rel ws = true -> w_sp ws = true -> w_j0 ws = true /\ w_j1 ws = true;
  i_j0 : w_j0 ws = true -> nobody_holds false (procs st) = true;
  i_j1 : w_j1 ws = true -> nobody_holds true (procs st) = true;
  i_oth : forall j, (nth_error (others st) j = Some 1%nat \/ nth_error (others st) j = Some 2%nat) ->
                    tholder st = Some (S j);
  i_good : forallb good_ev (ttrace st) = true;
  i_relev : existsb is_rel_ev (ttrace st) = true -> w_rel ws = true;
  i_order : no_att_after_rel (ttrace st) = true
}.

Lemma tinv_init : forall w ps n, waiter_wf w = true -> tinv (tinit w ps n) wst0.
Proof.
  intros w ps n H. constructor; cbn; auto; try discriminate.
  intros j [Hj | Hj]; apply nth_error_In, repeat_spec in Hj; discriminate.
Qed.

(* a step of a process takes streams away from it, never gives it one *)
Lemma nobody_holds_set : forall s ps i p p',
  nth_error ps i = Some p -> (holds s p' = true -> holds s p = true) ->
  nobody_holds s ps = true -> nobody_holds s (set_nth ps i p') = true.
Proof.
  intros s ps i p p' Hn Himp H. apply forallb_set_nth; [exact H|].
  apply (forallb_nth _ _ _ _ _ H) in Hn. apply negb_true_iff in Hn. apply negb_true_iff.
  destruct (holds s p'); [rewrite Himp in Hn by reflexivity; discriminate | reflexivity].
Qed.

Lemma holds_after_write : forall s p a r,
  prog p = a :: r -> holds s {| prog := r; h_out := h_out p; h_err := h_err p |} = true -> holds s p = true.
Proof.
  intros s p a r Hp. unfold holds, live. rewrite Hp. cbn [prog h_out h_err].
  intros H. apply andb_true_iff in H. apply H.
Qed.

Lemma holds_after_close : forall s s' p a r,
  prog p = a :: r -> holds s (close_stream s' p r) = true -> holds s p = true.
Proof.
  intros s s' p a r Hp. unfold holds, live, close_stream. rewrite Hp. cbn [prog h_out h_err].
  intros H. apply andb_true_iff in H. destruct s, s'; try apply H; destruct H; discriminate.
Qed.

Lemma attached_held : forall ps i p,
  nth_error ps i = Some p -> attached p = true ->
  nobody_holds false ps = false \/ nobody_holds true ps = false.
Proof.
  intros ps i p Hn Ha. unfold attached in Ha. apply orb_true_iff in Ha. destruct Ha as [Ha | Ha].
  - left. destruct (nobody_holds false ps) eqn:E; auto.
    pose proof (forallb_nth _ _ _ _ _ E Hn) as Hp. cbn in Hp. rewrite Ha in Hp. discriminate.
  - right. destruct (nobody_holds true ps) eqn:E; auto.
    pose proof (forallb_nth _ _ _ _ _ E Hn) as Hp. cbn in Hp. rewrite Ha in Hp. discriminate.
Qed.

Lemma tinv_step : forall st ws x, tinv st ws -> exists ws', tinv (tstep st x) ws'.
Proof.
  intros st ws x I. destruct x as [|i|j]; cbn [tstep].
  - (* the waiter *)
    destruct (todo st) as [|o r] eqn:Ht; [exists ws; exact I|].
    destruct (top_enabled st o) eqn:En; [|exists ws; exact I].
    pose proof (i_acc _ _ I) as Hacc. rewrite Ht in Hacc. cbn [waccept] in Hacc.
    destruct (wstep ws o) as [ws'|] eqn:Hw; [|discriminate].
    exists ws'. destruct I as [_ Ihold Ist Isp Irel Ij0 Ij1 Ioth Igood Irelev Iord].
    destruct o as [| | |s k|]; cbn in Hw.
    + (* TAcq *)
      destruct (negb (w_acq ws) && negb (w_rel ws)) eqn:C; inversion Hw; subst; clear Hw.
      cbn in En. destruct (tholder st) eqn:Hh; [discriminate|].
      apply andb_true_iff in C. destruct C as [C1 _]. apply negb_true_iff in C1.
      constructor; cbn; auto;
        try solve [ intros j Hj; apply Ioth in Hj; discriminate
                  | intros X; apply Isp in X; congruence
                  | intros X Y; apply Isp in Y; congruence ].
    + (* TSpawn *)
      destruct (w_acq ws && negb (w_rel ws) && negb (w_sp ws)) eqn:C; inversion Hw; subst; clear Hw.
      apply andb_true_iff in C. destruct C as [C C3]. apply andb_true_iff in C. destruct C as [C1 C2].
      apply negb_true_iff in C2. apply negb_true_iff in C3.
      constructor; cbn; auto; try solve [ intros; congruence ].
    + (* TWaitShell *)
      inversion Hw; subst. constructor; cbn; auto.
    + (* TJoin *)
      destruct k.
      * destruct s; inversion Hw; subst; clear Hw; cbn in En; constructor; cbn; auto;
          try solve [ intros Hr Hs; destruct (Irel Hr Hs); auto ].
      * assert (ws' = ws) by (destruct s; inversion Hw; auto). subst. constructor; cbn; auto.
    + (* TRel *)
      destruct (w_acq ws && negb (w_rel ws) && (negb (w_sp ws) || (w_j0 ws && w_j1 ws))) eqn:C; inversion Hw; subst; clear Hw.
      apply andb_true_iff in C. destruct C as [C C3]. apply andb_true_iff in C. destruct C as [C1 C2].
      apply negb_true_iff in C2.
      constructor; cbn; auto;
        try solve [ intros; discriminate
                  | intros _ Hs; rewrite Hs in C3; cbn in C3; apply andb_true_iff in C3; exact C3
                  | intros j Hj; pose proof (Ioth j Hj) as Hh; rewrite Hh; reflexivity ].
  - (* a process of the command *)
    destruct (started st) eqn:Hst; [|exists ws; exact I].
    destruct (nth_error (procs st) i) as [p|] eqn:Hn; [|exists ws; exact I].
    destruct (prog p) as [|a r] eqn:Hp; [exists ws; exact I|].
    exists ws. destruct I as [Iacc Ihold Ist Isp Irel Ij0 Ij1 Ioth Igood Irelev Iord].
    destruct a as [n|s].
    + (* a write *)
      assert (Hatt : attached p = true -> tholder st = Some 0%nat /\ existsb is_rel_ev (ttrace st) = false).
      { intros Ha. pose proof (Ist Hst) as Hs. pose proof (Isp Hs) as Hq.
        assert (Hr : w_rel ws = false).
        { destruct (w_rel ws) eqn:E; auto. destruct (Irel eq_refl Hs) as [A B].
          destruct (attached_held _ _ _ Hn Ha) as [X | X]; [rewrite (Ij0 A) in X | rewrite (Ij1 B) in X]; discriminate. }
        split; [apply Ihold; auto|].
        destruct (existsb is_rel_ev (ttrace st)) eqn:E; auto. rewrite (Irelev eq_refl) in Hr. discriminate. }
      constructor; cbn [tholder todo started procs others ttrace]; auto.
      * intros A. exact (nobody_holds_set _ _ _ _ _ Hn (holds_after_write _ _ _ _ Hp) (Ij0 A)).
      * intros B. exact (nobody_holds_set _ _ _ _ _ Hn (holds_after_write _ _ _ _ Hp) (Ij1 B)).
      * cbn. rewrite Igood. destruct (attached p) eqn:Ha; auto.
        destruct (Hatt eq_refl) as [Hh _]. rewrite Hh. reflexivity.
      * cbn. rewrite Iord. destruct (attached p) eqn:Ha; auto.
        destruct (Hatt eq_refl) as [_ Hh]. rewrite Hh. reflexivity.
    + (* a close *)
      constructor; cbn [tholder todo started procs others ttrace]; auto.
      * intros A. exact (nobody_holds_set _ _ _ _ _ Hn (holds_after_close _ _ _ _ _ Hp) (Ij0 A)).
      * intros B. exact (nobody_holds_set _ _ _ _ _ Hn (holds_after_close _ _ _ _ _ Hp) (Ij1 B)).
  - (* another execution *)
    destruct (nth_error (others st) j) as [pc|] eqn:Hn; [|exists ws; exact I].
    exists ws.
    destruct pc as [|[|pc]].
    + (* acquire *)
      destruct (tholder st) eqn:Hh; [exact I|].
      destruct I as [Iacc Ihold Ist Isp Irel Ij0 Ij1 Ioth Igood Irelev Iord].
      constructor; cbn [tholder todo started procs others ttrace]; auto.
      * intros A B. pose proof (Ihold A B) as X. rewrite Hh in X. discriminate.
      * intros j' Hj. destruct (Nat.eq_dec j j') as [->|Hne]; auto.
        rewrite nth_set_nth_other in Hj by auto. apply Ioth in Hj. rewrite Hh in Hj. discriminate.
    + (* write *)
      destruct I as [Iacc Ihold Ist Isp Irel Ij0 Ij1 Ioth Igood Irelev Iord].
      pose proof (Ioth j (or_introl Hn)) as Hh.
      constructor; cbn [tholder todo started procs others ttrace]; auto.
      * intros j' Hj. destruct (Nat.eq_dec j j') as [->|Hne]; auto.
        rewrite nth_set_nth_other in Hj by auto. apply Ioth in Hj. exact Hj.
      * cbn. rewrite Igood, Hh. cbn. rewrite Nat.eqb_refl. reflexivity.
    + (* release *)
      destruct I as [Iacc Ihold Ist Isp Irel Ij0 Ij1 Ioth Igood Irelev Iord].
      constructor; cbn [tholder todo started procs others ttrace]; auto.
      * intros A B. rewrite (Ihold A B). reflexivity.
      * intros j' Hj. destruct (Nat.eq_dec j j') as [->|Hne].
        -- rewrite (nth_set_nth_same _ _ _ _ _ Hn) in Hj. destruct Hj; discriminate.
        -- rewrite nth_set_nth_other in Hj by auto. pose proof (Ioth j' Hj) as Hh. rewrite Hh.
           cbn. destruct (Nat.eqb j' j) eqn:E; auto. apply Nat.eqb_eq in E. congruence.
Qed.

Lemma tinv_run : forall w ps n sched, waiter_wf w = true -> exists ws, tinv (trun w ps n sched) ws.
Proof.
  intros w ps n sched H. apply (fold_left_inv tstep (fun st => exists ws, tinv st ws)).
  - intros st x [ws I]. exact (tinv_step st ws x I).
  - eexists. apply tinv_init, H.
Qed.

(* every write of a still-attached process of the command: the execution holds the permit; every write of
   another execution: that execution holds it *)
Theorem tree_writes_under_lock : forall w ps n sched,
  waiter_wf w = true ->
  (forall p k h, In (ETreeWrite p k true h) (ttrace (trun w ps n sched)) -> h = Some 0%nat)
  /\ (forall j h, In (EOtherWrite j h) (ttrace (trun w ps n sched)) -> h = Some (S j)).
Proof.
  intros w ps n sched H. destruct (tinv_run w ps n sched H) as [ws I].
  pose proof (proj1 (forallb_forall _ _) (i_good _ _ I)) as G. split.
  - intros p k h Hi. apply G in Hi. cbn in Hi.
    destruct h as [[|x]|]; try discriminate; auto.
  - intros j h Hi. pose proof (G _ Hi) as X. cbn in X.
    destruct h as [x|]; try discriminate. apply Nat.eqb_eq in X. subst. reflexivity.
Qed.

Lemma no_att_after_rel_split : forall l1 l2,
  no_att_after_rel (l1 ++ ETask TRel :: l2) = true ->
  forall p k h, ~ In (ETreeWrite p k true h) l1.
Proof.
  induction l1 as [|e l1 IH]; intros l2 H p k h Hi; [inversion Hi|].
  cbn in H. apply andb_true_iff in H. destruct H as [He H]. destruct Hi as [-> | Hi].
  - apply negb_true_iff in He. rewrite existsb_app in He. cbn in He. rewrite orb_true_r in He. discriminate.
  - eapply IH; eauto.
Qed.

(* the ordering form: nothing a still-attached process of the command writes comes after the release *)
Theorem tree_no_attached_write_after_release : forall w ps n sched l1 l2,
  waiter_wf w = true ->
  ttrace (trun w ps n sched) = l1 ++ ETask TRel :: l2 ->
  forall p k h, ~ In (ETreeWrite p k true h) l1.
Proof.
  intros w ps n sched l1 l2 H E. destruct (tinv_run w ps n sched H) as [ws I].
  pose proof (i_order _ _ I) as O. rewrite E in O.
  eapply no_att_after_rel_split; eauto.
Qed.

Lemma ref_waiter_wf : waiter_wf ref_waiter = true.
Proof. vm_compute. reflexivity. Qed.

Lemma bounded_waiter_not_wf : waiter_wf bounded_waiter = false.
Proof. vm_compute. reflexivity. Qed.

(* the bounded drain: the execution releases while the child still holds both pipes; the next execution
   acquires; the child writes under ITS permit *)
Lemma bounded_drain_overlap :
  In (ETreeWrite 1 2 true (Some 1%nat)) (ttrace (trun bounded_waiter bg_procs 1 sched_handover))
  /\ tholder (trun bounded_waiter bg_procs 1 sched_handover) = Some 1%nat.
Proof. vm_compute. split; [left; reflexivity | reflexivity]. Qed.

(* the same schedule against the waiter as built: the joins are not enabled, the execution keeps the permit,
   the other execution does not get it, the child writes under the execution's permit *)
Lemma ref_waiter_holds :
  tholder (trun ref_waiter bg_procs 1 sched_handover) = Some 0%nat
  /\ In (ETreeWrite 1 2 true (Some 0%nat)) (ttrace (trun ref_waiter bg_procs 1 sched_handover)).
Proof. vm_compute. split; [reflexivity | left; reflexivity]. Qed.

(* a child that closed both streams before it writes is invisible to the execution: the joins pass as soon
   as the shell is gone, the lock is handed on, and the child's (unattached) write lands in the next
   execution's span - the model says what the code does, the property text does not speak of it *)
Lemma detached_child_outlives_span :
  In (ETreeWrite 1 2 false (Some 1%nat)) (ttrace (trun ref_waiter detached_procs 1 sched_detached)).
Proof. vm_compute. left; reflexivity. Qed.

Lemma bounded_drain_refuted :
  exists ps n sched p k j, In (ETreeWrite p k true (Some (S j))) (ttrace (trun bounded_waiter ps n sched)).
Proof. exists bg_procs, 1%nat, sched_handover, 1%nat, 2%N, 0%nat. exact (proj1 bounded_drain_overlap). Qed.

(* a read-only call gets a slot while the (one) mutating call in progress holds another, as long as fewer than
   slots - 1 read-only calls are running (which already needs two slots: [runner_wf] adds nothing here); with one
   slot it does not *)
Lemma runner_readonly_beside_mutator : forall slots readers,
  runner_wf slots = true -> (readers + 1 < slots)%N -> runner_admits slots (1 + readers) = true.
Proof.
  intros slots readers _ H. unfold runner_admits. apply N.ltb_lt. lia.
Qed.

Lemma runner_one_slot_serialises : runner_wf 1 = false /\ runner_admits 1 1 = false.
Proof. vm_compute. split; reflexivity. Qed.
