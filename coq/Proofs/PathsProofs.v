(* Lemmas about Model/Paths.v (C13): the lexical resolvers are sound with respect to where the
   operating system lands (`kresolve`), for every root, every string and every working directory.
   Everything about `root.join(x)` for a relative x goes through one decomposition of its segments (segs_join),
   everything about `strip_prefix` through what `join_segs (trim_trivial _)` keeps (join_trim). *)
From RipV Require Import Base.Prelude Base.Fs Model.Paths.
Require Import Coq.Strings.String.

Lemma split_aux_app c cur a b :
  split_aux c cur (a ++ c :: b) = split_aux c cur a ++ split_aux c [] b.
Proof.
  revert cur; induction a as [|x a IH]; intros cur; cbn [app split_aux].
  - rewrite N.eqb_refl. reflexivity.
  - destruct (x =? c) eqn:E.
    + rewrite IH. reflexivity.
    + apply IH.
Qed.

Lemma segs_app_sep a b : segs (a ++ 47 :: b) = segs a ++ segs b.
Proof. unfold segs, split_on. apply split_aux_app. Qed.

Lemma split_aux_noslash c s : forall cur,
  (forall x, In x cur -> x <> c) -> Forall (fun sg => ~ In c sg) (split_aux c cur s).
Proof.
  induction s as [|x s IH]; intros cur Hc; cbn [split_aux].
  - constructor; [|constructor]. intros Hin. apply in_rev in Hin. exact (Hc c Hin eq_refl).
  - destruct (x =? c) eqn:E.
    + constructor.
      * intros Hin. apply in_rev in Hin. exact (Hc c Hin eq_refl).
      * apply IH. intros y [].
    + apply IH. intros y [Hy|Hy]; [subst y; apply N.eqb_neq; exact E | apply Hc; exact Hy].
Qed.

Lemma segs_noslash p : Forall (fun sg => ~ In 47 sg) (segs p).
Proof. unfold segs, split_on. apply split_aux_noslash. intros x []. Qed.

Lemma split_aux_noslash_id c s : forall cur, ~ In c s -> split_aux c cur s = [rev cur ++ s].
Proof.
  induction s as [|x s IH]; intros cur H; cbn [split_aux].
  - rewrite app_nil_r. reflexivity.
  - destruct (x =? c) eqn:E.
    + apply N.eqb_eq in E. exfalso. apply H. left; exact E.
    + rewrite IH by (intros Hin; apply H; right; exact Hin). cbn [rev]. rewrite <- app_assoc. reflexivity.
Qed.

Lemma segs_single s : ~ In 47 s -> segs s = [s].
Proof. intros H. unfold segs, split_on. rewrite split_aux_noslash_id by exact H. reflexivity. Qed.

Lemma segs_join_segs l : l <> [] -> Forall (fun s => ~ In 47 s) l -> segs (join_segs l) = l.
Proof.
  induction l as [|s l IH]; [congruence|]. intros _ H. inversion H as [|x y Hs Hl]; subst.
  destruct l as [|s2 r].
  - cbn [join_segs]. apply segs_single; exact Hs.
  - change (join_segs (s :: s2 :: r)) with (s ++ 47 :: join_segs (s2 :: r)).
    rewrite segs_app_sep, (segs_single s Hs), IH by (try discriminate; exact Hl). reflexivity.
Qed.

Lemma split_aux_ne c s : forall cur, split_aux c cur s <> [].
Proof. induction s as [|x s IH]; intros cur; cbn [split_aux]; [discriminate|]. destruct (x =? c); [discriminate|apply IH]. Qed.

Lemma join_segs_split s : forall cur, join_segs (split_aux 47 cur s) = rev cur ++ s.
Proof.
  induction s as [|x s IH]; intros cur; cbn [split_aux]; [symmetry; apply app_nil_r|].
  destruct (x =? 47) eqn:E.
  - apply N.eqb_eq in E. subst x. pose proof (IH []) as IH0. pose proof (split_aux_ne 47 s []) as Hne.
    destruct (split_aux 47 [] s) as [|y t]; [congruence|]. cbn [join_segs] in *. rewrite IH0. reflexivity.
  - rewrite IH. cbn [rev]. rewrite <- app_assoc. reflexivity.
Qed.

Lemma join_segs_segs p : join_segs (segs p) = p.
Proof. apply (join_segs_split p []). Qed.

(* segments '' and '.' are trivial: components, walk and real_segs skip them *)
Definition nt (s : str) : bool := negb (seg_trivial s).

Lemma real_segs_eq p : real_segs p = filter nt (segs p).
Proof. reflexivity. Qed.

Lemma filter_nt_trivial a : forallb seg_trivial a = true -> filter nt a = [].
Proof.
  induction a as [|s a IH]; [reflexivity|]. cbn [forallb filter]. intros H. apply andb_true_iff in H.
  destruct H as [Hs Ha]. unfold nt at 1. rewrite Hs. apply IH; exact Ha.
Qed.

Lemma filter_nt_nil_all S : filter nt S = [] -> forallb seg_trivial S = true.
Proof.
  induction S as [|s S IH]; [reflexivity|]. cbn [filter forallb]. unfold nt at 1.
  destruct (seg_trivial s); [exact IH|discriminate].
Qed.

Lemma forallb_rev {A} (g : A -> bool) l : forallb g (rev l) = forallb g l.
Proof.
  induction l as [|x l IH]; [reflexivity|]. cbn [rev forallb]. rewrite forallb_app, IH. cbn [forallb].
  rewrite andb_true_r. apply andb_comm.
Qed.

Lemma seg_dotdot_not_trivial s : seg_dotdot s = true -> seg_trivial s = false.
Proof. unfold seg_dotdot. intros H. apply lN_eqb_spec in H. subst s. reflexivity. Qed.

Lemma existsb_dotdot_filter l : existsb seg_dotdot (filter nt l) = existsb seg_dotdot l.
Proof.
  induction l as [|s l IH]; [reflexivity|]. cbn [filter existsb]. unfold nt at 1.
  destruct (seg_trivial s) eqn:E; cbn [negb existsb]; rewrite IH; [|reflexivity].
  destruct (seg_dotdot s) eqn:D; [|reflexivity]. rewrite (seg_dotdot_not_trivial _ D) in E. discriminate.
Qed.

Lemma has_parent_real p : has_parent p = existsb seg_dotdot (real_segs p).
Proof. symmetry. apply (existsb_dotdot_filter (segs p)). Qed.

Lemma real_segs_join_segs l : Forall (fun s => ~ In 47 s) l -> real_segs (join_segs l) = filter nt l.
Proof. intros H. destruct l; [reflexivity|]. rewrite real_segs_eq, segs_join_segs; [reflexivity|discriminate|exact H]. Qed.

Lemma real_segs_cons_sep x : real_segs (47 :: x) = real_segs x.
Proof. rewrite !real_segs_eq. change (47 :: x) with ([] ++ 47 :: x). rewrite segs_app_sep. reflexivity. Qed.

Lemma walk_app l1 : forall c l2, walk c (l1 ++ l2) = walk (walk c l1) l2.
Proof.
  induction l1 as [|s l1 IH]; intros c l2; cbn [app walk]; [reflexivity|].
  destruct (seg_trivial s); [apply IH|]. destruct (seg_dotdot s); apply IH.
Qed.

Lemma walk_trivial l : forall c, forallb seg_trivial l = true -> walk c l = c.
Proof.
  induction l as [|s l IH]; intros c H; [reflexivity|]. cbn [forallb] in H. apply andb_true_iff in H.
  destruct H as [Hs Hl]. cbn [walk]. rewrite Hs. apply IH; exact Hl.
Qed.

Lemma walk_noparent l : forall c, existsb seg_dotdot l = false -> walk c l = c ++ filter nt l.
Proof.
  induction l as [|s l IH]; intros c H; cbn [walk filter existsb] in *.
  - rewrite app_nil_r. reflexivity.
  - apply orb_false_iff in H. destruct H as [Hs Hl]. rewrite Hs. unfold nt at 1.
    destruct (seg_trivial s); cbn [negb].
    + apply IH; exact Hl.
    + rewrite IH by exact Hl. rewrite <- app_assoc. reflexivity.
Qed.

Lemma no_sep_cases a : no_sep a = true -> a = [] \/ exists a', a = a' ++ [47].
Proof.
  induction a as [|x a IH]; intros H; [left; reflexivity|right].
  destruct a as [|y r].
  - cbn [no_sep] in H. apply N.eqb_eq in H. subst x. exists []. reflexivity.
  - change (no_sep (x :: y :: r)) with (no_sep (y :: r)) in H.
    destruct (IH H) as [E|[a' E]]; [discriminate|]. exists (x :: a'). rewrite E. reflexivity.
Qed.

Lemma starts_slash_app a b : a <> [] -> starts_slash (a ++ b) = starts_slash a.
Proof. destruct a as [|x a]; [congruence|]. intros _. reflexivity. Qed.

Lemma starts_slash_inv x r : starts_slash (x :: r) = true -> x = 47.
Proof.
  intros H. destruct x as [|p]; [discriminate|].
  repeat (destruct p as [p|p|]; cbn in H; try discriminate). reflexivity.
Qed.

Lemma noslash_not_abs n : ~ In 47 n -> is_absolute n = false.
Proof.
  intros H. destruct n as [|x r]; [reflexivity|]. unfold is_absolute.
  destruct (starts_slash (x :: r)) eqn:E; [|reflexivity]. apply starts_slash_inv in E. subst x.
  exfalso. apply H. left; reflexivity.
Qed.

(* `a.join(b)` for a relative b: the segments of b after those of a, less the empty segment a trailing separator
   of a (or an empty a) leaves behind *)
Lemma segs_join a b : is_absolute b = false ->
  exists S T, segs (join a b) = S ++ segs b /\ segs a = S ++ T /\ forallb seg_trivial T = true
              /\ is_absolute (join a b) = is_absolute a.
Proof.
  intros Hb. unfold join. rewrite Hb. destruct (no_sep a) eqn:Hs.
  - destruct (no_sep_cases a Hs) as [->|[a' ->]].
    + exists [], [[]]. repeat split. exact Hb.
    + exists (segs a'), [[]]. rewrite <- app_assoc. cbn [app]. rewrite !segs_app_sep. repeat split.
      unfold is_absolute. destruct a'; reflexivity.
  - exists (segs a), []. rewrite segs_app_sep, app_nil_r. repeat split.
    unfold is_absolute. apply starts_slash_app. intros ->. discriminate.
Qed.

Lemma join_absolute a b : is_absolute b = false -> is_absolute (join a b) = is_absolute a.
Proof. intros Hb. destruct (segs_join a b Hb) as (S & T & _ & _ & _ & E). exact E. Qed.

Lemma real_segs_join a b : is_absolute b = false -> real_segs (join a b) = real_segs a ++ real_segs b.
Proof.
  intros Hb. destruct (segs_join a b Hb) as (S & T & ES & Ea & HT & _).
  rewrite !real_segs_eq, ES, Ea, !filter_app, (filter_nt_trivial T HT), app_nil_r. reflexivity.
Qed.

(* a relative string without `..` joined to any root lands at the root's place followed by its real segments *)
Lemma kresolve_join cwd a b :
  is_absolute b = false -> has_parent b = false ->
  kresolve cwd (join a b) = kresolve cwd a ++ real_segs b.
Proof.
  intros Hab Hpar. destruct (segs_join a b Hab) as (S & T & ES & Ea & HT & Eabs).
  unfold kresolve. rewrite Eabs, ES, Ea.
  destruct (is_absolute a); rewrite !walk_app, (walk_trivial T) by exact HT; apply walk_noparent; exact Hpar.
Qed.

Lemma resolve_tool_ok root raw p :
  resolve_tool root raw = Ok p -> is_absolute raw = false /\ has_parent raw = false /\ p = join root raw.
Proof.
  unfold resolve_tool. destruct (is_absolute raw); [discriminate|]. destruct (has_parent raw); [discriminate|].
  intros H; inversion H; auto.
Qed.

Lemma resolver_sound root raw p cwd :
  resolve_tool root raw = Ok p -> kresolve cwd p = kresolve cwd root ++ real_segs raw.
Proof.
  intros H. destruct (resolve_tool_ok _ _ _ H) as (Ha & Hp & ->). apply kresolve_join; assumption.
Qed.

Lemma resolver_under root raw p cwd : resolve_tool root raw = Ok p -> under cwd root p.
Proof. intros H. exists (real_segs raw). eapply resolver_sound; exact H. Qed.

Lemma resolver_refuses root raw :
  is_absolute raw = true \/ has_parent raw = true ->
  resolve_tool root raw = Err V_ABS \/ resolve_tool root raw = Err V_PARENT.
Proof.
  unfold resolve_tool. intros [H|H].
  - rewrite H. left; reflexivity.
  - destruct (is_absolute raw); [left; reflexivity|]. rewrite H. right; reflexivity.
Qed.

Lemma resolver_accepts root raw :
  is_absolute raw = false -> has_parent raw = false -> resolve_tool root raw = Ok (join root raw).
Proof. unfold resolve_tool. intros -> ->. reflexivity. Qed.

Lemma parse_rel_path_ok raw t :
  parse_rel_path raw = Ok t -> t = trim raw /\ t <> [] /\ is_absolute t = false /\ has_parent t = false.
Proof.
  unfold parse_rel_path. destruct (trim raw) as [|x r] eqn:E; [discriminate|].
  destruct (is_absolute (x :: r)) eqn:Ea; [discriminate|]. destruct (has_parent (x :: r)) eqn:Ep; [discriminate|].
  intros H; inversion H; subst t. repeat split; try assumption. discriminate.
Qed.

Lemma patch_target_sound root raw p cwd :
  patch_target root raw = Ok p -> kresolve cwd p = kresolve cwd root ++ real_segs (trim raw).
Proof.
  unfold patch_target. destruct (parse_rel_path raw) as [t|e] eqn:E; [|discriminate].
  destruct (parse_rel_path_ok _ _ E) as (-> & _ & _ & _). apply resolver_sound.
Qed.

Lemma patch_refuses raw :
  trim raw = [] \/ is_absolute (trim raw) = true \/ has_parent (trim raw) = true ->
  exists e, parse_rel_path raw = Err e.
Proof.
  unfold parse_rel_path. destruct (trim raw) as [|x r]; [eexists; reflexivity|].
  intros [H|[H|H]]; [discriminate| |].
  - rewrite H. eexists; reflexivity.
  - destruct (is_absolute (x :: r)); [eexists; reflexivity|]. rewrite H. eexists; reflexivity.
Qed.

Lemma drop_trivial_split l :
  exists pre, l = pre ++ drop_trivial l /\ forallb seg_trivial pre = true.
Proof.
  induction l as [|s l IH]; cbn [drop_trivial].
  - exists []. split; reflexivity.
  - destruct (seg_trivial s) eqn:E.
    + destruct IH as (pre & E1 & E2). exists (s :: pre). split; [cbn [app]; rewrite <- E1; reflexivity|].
      cbn [forallb]. rewrite E, E2. reflexivity.
    + exists []. split; reflexivity.
Qed.

Lemma drop_trivial_head l :
  match drop_trivial l with [] => True | s :: _ => seg_trivial s = false end.
Proof.
  induction l as [|s l IH]; cbn [drop_trivial]; [exact I|]. destruct (seg_trivial s) eqn:E; [exact IH|exact E].
Qed.

Lemma drop_trivial_all l : forallb seg_trivial l = true -> drop_trivial l = [].
Proof.
  induction l as [|s l IH]; [reflexivity|]. cbn [forallb drop_trivial]. intros H. apply andb_true_iff in H.
  destruct H as [Hs Hl]. rewrite Hs. apply IH; exact Hl.
Qed.

Lemma drop_trail_split (L : list str) :
  exists T, L = rev (drop_trivial (rev L)) ++ T /\ forallb seg_trivial T = true.
Proof.
  destruct (drop_trivial_split (rev L)) as (pre & E & Hpre). exists (rev pre). split.
  - rewrite <- (rev_involutive L) at 1. rewrite E at 1. apply rev_app_distr.
  - rewrite forallb_rev. exact Hpre.
Qed.

Lemma trim_trivial_spec l : exists a b,
  l = a ++ trim_trivial l ++ b /\ forallb seg_trivial a = true /\ forallb seg_trivial b = true
  /\ match trim_trivial l with [] => True | s :: _ => seg_trivial s = false end.
Proof.
  unfold trim_trivial. destruct (drop_trivial_split l) as (a & Ea & Ha).
  destruct (drop_trail_split (drop_trivial l)) as (b & Eb & Hb). exists a, b.
  split; [rewrite Ea at 1; rewrite Eb at 1; reflexivity|]. split; [exact Ha|]. split; [exact Hb|].
  pose proof (drop_trivial_head l) as Hh. rewrite Eb in Hh.
  destruct (rev (drop_trivial (rev (drop_trivial l)))); [exact I|exact Hh].
Qed.

Lemma join_segs_not_abs s r : seg_trivial s = false -> ~ In 47 s -> is_absolute (join_segs (s :: r)) = false.
Proof.
  intros Ht Hs. pose proof (noslash_not_abs s Hs) as Hs0.
  destruct r as [|s2 r]; [exact Hs0|]. unfold is_absolute in *. cbn [join_segs].
  rewrite starts_slash_app; [exact Hs0|]. intros ->. discriminate.
Qed.

(* what strip_prefix returns: relative, and with the real segments of what was left *)
Lemma join_trim L : Forall (fun s => ~ In 47 s) L ->
  is_absolute (join_segs (trim_trivial L)) = false /\ real_segs (join_segs (trim_trivial L)) = filter nt L.
Proof.
  intros H. destruct (trim_trivial_spec L) as (a & b & E & Ha & Hb & Hh).
  remember (trim_trivial L) as M eqn:EM. clear EM. subst L.
  apply Forall_app in H. destruct H as [_ H]. apply Forall_app in H. destruct H as [H _].
  rewrite !filter_app, (filter_nt_trivial a Ha), (filter_nt_trivial b Hb), app_nil_r. cbn [app].
  split; [|apply real_segs_join_segs; exact H].
  destruct M as [|s t]; [reflexivity|]. inversion H. apply join_segs_not_abs; assumption.
Qed.

Lemma strip_body_suffix sg : forall b rest, strip_body sg b = Some rest -> exists pre, sg = pre ++ rest.
Proof.
  induction sg as [|s sg IH]; intros [|c b] rest H; cbn [strip_body] in H; try discriminate;
    try (inversion H; exists []; reflexivity).
  assert (exists pre, sg = pre ++ rest) as [pre E].
  { destruct (seg_trivial s); [|destruct (comp_eqb (seg_comp s) c); [|discriminate]]; eapply IH; exact H. }
  exists (s :: pre). rewrite E. reflexivity.
Qed.

Lemma comp_eqb_refl c : comp_eqb c c = true.
Proof. destruct c; try reflexivity. apply lN_eqb_spec. reflexivity. Qed.

Lemma seg_comp_inj s c : comp_eqb (seg_comp s) (seg_comp c) = true -> s = c.
Proof.
  unfold seg_comp, seg_dotdot. destruct (lN_eqb s [46; 46]) eqn:Es, (lN_eqb c [46; 46]) eqn:Ec; cbn [comp_eqb]; try discriminate.
  - intros _. apply lN_eqb_spec in Es, Ec. congruence.
  - apply lN_eqb_spec.
Qed.

(* strip_body succeeds exactly when the components to strip are the first real segments, and leaves the others *)
Lemma strip_body_real sg : forall B rest,
  strip_body sg (map seg_comp B) = Some rest -> filter nt sg = B ++ filter nt rest.
Proof.
  induction sg as [|s sg IH]; intros [|c B] rest H; cbn [map strip_body] in H; try discriminate;
    try (inversion H; reflexivity).
  cbn [filter]. unfold nt at 1. destruct (seg_trivial s); cbn [negb]; [exact (IH (c :: B) rest H)|].
  destruct (comp_eqb (seg_comp s) (seg_comp c)) eqn:E; [|discriminate]. apply seg_comp_inj in E. subst c.
  cbn [app]. f_equal. exact (IH B rest H).
Qed.

Lemma strip_body_complete sg : forall B R,
  filter nt sg = B ++ R -> exists rest, strip_body sg (map seg_comp B) = Some rest.
Proof.
  induction sg as [|s sg IH]; intros [|c B] R H; cbn [map strip_body]; try (eexists; reflexivity); [discriminate H|].
  revert H. cbn [filter]. unfold nt at 1. destruct (seg_trivial s); cbn [negb]; intros H; [exact (IH (c :: B) R H)|].
  inversion H; subst c. rewrite comp_eqb_refl. eapply IH; eassumption.
Qed.

Lemma strip_prefix_real base p rel : strip_prefix base p = Some rel ->
  is_absolute rel = false /\ real_segs p = real_segs base ++ real_segs rel.
Proof.
  unfold strip_prefix. destruct (list_eqb comp_eqb (head_comp base) (head_comp p)); [|discriminate].
  destruct (strip_body (segs p) (body_comps base)) as [rest|] eqn:E; [|discriminate].
  intros H; inversion H; subst rel. destruct (join_trim rest) as [Ha Er].
  - destruct (strip_body_suffix _ _ _ E) as [pre Ep]. pose proof (segs_noslash p) as Hn. rewrite Ep in Hn.
    apply Forall_app in Hn. exact (proj2 Hn).
  - split; [exact Ha|]. rewrite Er. exact (strip_body_real _ _ _ E).
Qed.

Lemma strip_prefix_parent base p rel :
  has_parent base = false -> strip_prefix base p = Some rel -> has_parent rel = has_parent p.
Proof.
  intros Hb H. destruct (strip_prefix_real _ _ _ H) as [_ E].
  rewrite (has_parent_real p), E, existsb_app, <- !has_parent_real, Hb. reflexivity.
Qed.

(* what create_checkpoint records: relative, free of `..`, and with the real segments the requested path has
   below those of the root *)
Theorem to_relative_spec root raw rel : to_relative root raw = Ok rel ->
  is_absolute rel = false /\ has_parent rel = false
  /\ real_segs (if is_absolute raw then raw else join root raw) = real_segs root ++ real_segs rel.
Proof.
  unfold to_relative. destruct (strip_prefix root _) as [r|] eqn:E; [|discriminate].
  destruct (has_parent r) eqn:Hp; [discriminate|]. intros H; inversion H; subst r.
  destruct (strip_prefix_real _ _ _ E) as [Ha Er]. repeat split; assumption.
Qed.

Lemma to_relative_ok root raw rel :
  to_relative root raw = Ok rel -> is_absolute rel = false /\ has_parent rel = false.
Proof. intros H. destruct (to_relative_spec _ _ _ H) as (Ha & Hp & _). split; assumption. Qed.

(* what is recorded passes the same two guards as a file-tool argument, and rewind's
   `root.join(rel)` lands below the root *)
Lemma to_relative_sound root raw rel cwd :
  to_relative root raw = Ok rel ->
  resolve_tool root rel = Ok (restore_path root rel)
  /\ kresolve cwd (restore_path root rel) = kresolve cwd root ++ real_segs rel.
Proof.
  intros H. destruct (to_relative_ok _ _ _ H) as [Ha Hp]. unfold restore_path. split.
  - apply resolver_accepts; assumption.
  - apply kresolve_join; assumption.
Qed.

(* create probes and reads the very string rewind restores: `self.root.join(&rel)` in both places *)
Lemma probe_is_restore root rel cwd :
  kresolve cwd (probe_path root rel) = kresolve cwd (restore_path root rel).
Proof. reflexivity. Qed.

Lemma checkpoint_paths_confined root raw rel cwd :
  to_relative root raw = Ok rel ->
  under cwd root (probe_path root rel) /\ under cwd root (restore_path root rel)
  /\ probe_path root rel = restore_path root rel.
Proof.
  intros H. destruct (to_relative_sound _ _ _ cwd H) as [_ E]. repeat split; exists (real_segs rel); exact E.
Qed.

(* the copy inside the store: <store>/<session>/<id>/files joined with the same validated string *)
Lemma store_copy_confined root raw rel files_root cwd :
  to_relative root raw = Ok rel -> under cwd files_root (join files_root rel).
Proof.
  intros H. destruct (to_relative_ok _ _ _ H) as [Ha Hp]. exists (real_segs rel). apply kresolve_join; assumption.
Qed.

Lemma head_comp_abs p : is_absolute p = true -> head_comp p = [CRoot].
Proof. unfold head_comp. intros ->. reflexivity. Qed.

(* a relative string under an absolute root: `..` is refused; everything else is recorded under a
   name with the same real segments — the file the tools address for the same string *)
Theorem to_relative_relative root raw :
  is_absolute root = true -> is_absolute raw = false ->
  (has_parent raw = true -> to_relative root raw = Err V_PARENT)
  /\ (has_parent raw = false -> exists rel, to_relative root raw = Ok rel /\ real_segs rel = real_segs raw).
Proof.
  intros Hr Ha.
  assert (Hex : exists rel, strip_prefix root (join root raw) = Some rel).
  { destruct (strip_body_complete _ _ _ (real_segs_join root raw Ha)) as [rest E].
    unfold strip_prefix, body_comps. rewrite !head_comp_abs, E by (rewrite ?join_absolute; assumption).
    eexists. reflexivity. }
  destruct Hex as [rel E]. destruct (strip_prefix_real _ _ _ E) as [_ Er].
  rewrite (real_segs_join root raw Ha) in Er. apply app_inv_head in Er.
  unfold to_relative. rewrite Ha, E, (has_parent_real rel), <- Er, <- has_parent_real.
  split; intros Hp; rewrite Hp; [reflexivity|]. exists rel. split; [reflexivity|symmetry; exact Er].
Qed.

(* `..` in an absolute string, too, is refused (the root itself has no `..`) *)
Theorem to_relative_refuses_parent root raw :
  is_absolute root = true -> has_parent root = false -> has_parent raw = true ->
  to_relative root raw = Err V_PARENT \/ to_relative root raw = Err V_OUTSIDE.
Proof.
  intros Hr Hb Hp. destruct (is_absolute raw) eqn:Ha.
  - unfold to_relative. rewrite Ha. destruct (strip_prefix root raw) as [rel|] eqn:E; [|right; reflexivity].
    rewrite (strip_prefix_parent _ _ _ Hb E), Hp. left; reflexivity.
  - left. apply (proj1 (to_relative_relative root raw Hr Ha)). exact Hp.
Qed.

(* the auto-checkpoint's view of the argument (files_for_invocation) against the tool's *)
Lemma auto_write_refused_before_store root raw e :
  resolve_tool root raw = Err e -> auto_write_paths raw = Err e.
Proof.
  unfold resolve_tool, auto_write_paths. destruct (is_absolute raw); [intros H; exact H|].
  destruct (has_parent raw); [intros H; exact H|discriminate].
Qed.

Lemma auto_write_accepted_same root raw p :
  resolve_tool root raw = Ok p -> auto_write_paths raw = Ok raw.
Proof.
  intros H. destruct (resolve_tool_ok _ _ _ H) as (Ha & Hp & _). unfold auto_write_paths. rewrite Ha, Hp. reflexivity.
Qed.

Lemma auto_patch_refused_before_store root raw e :
  patch_target root raw = Err e -> parse_rel_path raw = Err e.
Proof.
  unfold patch_target. destruct (parse_rel_path raw) as [t|e'] eqn:E; [|intros H; exact H].
  destruct (parse_rel_path_ok _ _ E) as (_ & _ & Ha & Hp). rewrite (resolver_accepts root t Ha Hp). discriminate.
Qed.

(* the auto-checkpoint covers the file the tool addresses: same real segments below the root *)
Lemma auto_write_covers root raw p cwd :
  is_absolute root = true -> resolve_tool root raw = Ok p ->
  exists rel, auto_write_paths raw = Ok raw /\ to_relative root raw = Ok rel
    /\ real_segs rel = real_segs raw /\ kresolve cwd p = kresolve cwd root ++ real_segs rel.
Proof.
  intros Hr H. destruct (resolve_tool_ok _ _ _ H) as (Ha & Hp & _).
  destruct (proj2 (to_relative_relative root raw Hr Ha) Hp) as (rel & Et & Er).
  exists rel. split; [eapply auto_write_accepted_same; exact H|]. split; [exact Et|]. split; [exact Er|].
  rewrite Er. eapply resolver_sound; exact H.
Qed.

Lemma auto_patch_covers root raw p cwd :
  is_absolute root = true -> patch_target root raw = Ok p ->
  exists t rel, parse_rel_path raw = Ok t /\ to_relative root t = Ok rel
    /\ real_segs rel = real_segs t /\ kresolve cwd p = kresolve cwd root ++ real_segs rel.
Proof.
  intros Hr H. unfold patch_target in H. destruct (parse_rel_path raw) as [t|e] eqn:E; [|discriminate].
  destruct (auto_write_covers root t p cwd Hr H) as (rel & _ & Et & Er & Ek). exists t, rel. repeat split; assumption.
Qed.

(* tie T1: the step lists tools/gen/resolvers.py reads from the source are the resolvers above *)
Lemma interp_tool root raw : interp [1; 2; 3] root raw = resolve_tool root raw.
Proof. reflexivity. Qed.
Lemma interp_parse root raw : interp [4; 5; 1; 2; 6] root raw = parse_rel_path raw.
Proof. unfold parse_rel_path. cbn [interp]. destruct (trim raw); reflexivity. Qed.
Lemma interp_to_relative root raw : interp [7; 8; 2; 6] root raw = to_relative root raw.
Proof. unfold to_relative. cbn [interp]. destruct (strip_prefix root _); reflexivity. Qed.
Lemma interp_auto_write root raw : interp [1; 2; 6] root raw = auto_write_paths raw.
Proof. reflexivity. Qed.

Lemma list_eqb_idl a b : list_eqb idl_eqb a b = true -> a = b.
Proof.
  apply list_eqb_spec. intros [i s] [j t]. unfold idl_eqb. cbn [fst snd]. rewrite andb_true_iff, N.eqb_eq.
  split.
  - intros [-> H]. f_equal. apply (list_eqb_spec N.eqb); [intros; apply N.eqb_eq|exact H].
  - intros E; inversion E; subst. split; [reflexivity|]. apply (list_eqb_spec N.eqb); [intros; apply N.eqb_eq|reflexivity].
Qed.

Lemma wf_steps found st ord : resolvers_wf found st ord = true -> st = expected_steps.
Proof.
  unfold resolvers_wf. intros H. apply andb_true_iff in H. destruct H as [H _]. apply andb_true_iff in H.
  destruct H as [_ H]. apply list_eqb_idl. exact H.
Qed.

(* every source whose extracted step lists are well-formed has sound resolvers *)
Theorem generated_resolvers_sound found st ord : resolvers_wf found st ord = true ->
  forall root raw p cwd,
    (interp (steps_of st 1) root raw = Ok p \/ interp (steps_of st 2) root raw = Ok p \/ interp (steps_of st 3) root raw = Ok p ->
       kresolve cwd p = kresolve cwd root ++ real_segs raw)
    /\ (interp (steps_of st 4) root raw = Ok p -> resolve_tool root p = Ok (join root p) /\ p = trim raw)
    /\ (interp (steps_of st 5) root raw = Ok p ->
          resolve_tool root p = Ok (restore_path root p) /\ kresolve cwd (restore_path root p) = kresolve cwd root ++ real_segs p)
    /\ (forall e, resolve_tool root raw = Err e -> interp (steps_of st 6) root raw = Err e).
Proof.
  intros H root raw p cwd. rewrite (wf_steps _ _ _ H). cbn [steps_of expected_steps N.eqb Pos.eqb].
  rewrite interp_tool, interp_parse, interp_to_relative, interp_auto_write.
  split; [intros [E|[E|E]]; eapply resolver_sound; exact E|]. split; [|split].
  - intros E. destruct (parse_rel_path_ok _ _ E) as (Et & _ & Ha & Hp). split; [apply resolver_accepts; assumption|exact Et].
  - intros E. exact (to_relative_sound _ _ _ cwd E).
  - intros e He. eapply auto_write_refused_before_store; exact He.
Qed.

(* finding S10: what `to_relative_unfixed`, `probe_path_unfixed` and `auto_write_paths_unfixed` let through, on named
   witnesses, and that `to_relative` refuses the same strings *)
Definition w_root : str := bs "/r/ws"%string.
Definition w_up : str := bs "../outside.txt"%string.
Definition w_abs_up : str := bs "/r/ws/../outside.txt"%string.
Definition w_plain : str := bs "a.txt"%string.
Definition w_cwd : list str := [bs "r"%string; bs "elsewhere"%string].
Definition w_abs_in : str := bs "/r/ws/a.txt"%string.

Lemma to_relative_unfixed_escapes :
  to_relative_unfixed w_root w_up = Ok w_up /\ underb [] w_root (restore_path w_root w_up) = false
  /\ kresolve [] (restore_path w_root w_up) = [bs "r"%string; bs "outside.txt"%string].
Proof. vm_compute. repeat split. Qed.

Lemma to_relative_unfixed_escapes_abs :
  to_relative_unfixed w_root w_abs_up = Ok w_up.
Proof. vm_compute. reflexivity. Qed.

Lemma to_relative_fixed_on_witnesses :
  to_relative w_root w_up = Err V_PARENT /\ to_relative w_root w_abs_up = Err V_PARENT
  /\ to_relative w_root w_plain = Ok w_plain /\ to_relative w_root w_abs_in = Ok w_plain.
Proof. vm_compute. repeat split. Qed.

Lemma probe_unfixed_depends_on_cwd :
  to_relative_unfixed w_root w_plain = Ok w_plain
  /\ kresolve w_cwd (probe_path_unfixed w_root w_plain) = [bs "r"%string; bs "elsewhere"%string; bs "a.txt"%string]
  /\ kresolve w_cwd (restore_path w_root w_plain) = [bs "r"%string; bs "ws"%string; bs "a.txt"%string].
Proof. vm_compute. repeat split. Qed.

Lemma auto_write_unfixed_reaches_store :
  auto_write_paths_unfixed w_abs_in = Ok w_abs_in /\ to_relative w_root w_abs_in = Ok w_plain
  /\ resolve_tool w_root w_abs_in = Err V_ABS.
Proof. vm_compute. repeat split. Qed.

(* accepted strings: the hypotheses of the soundness theorems can be met *)
Definition w_dotted : str := bs "d/./x.txt"%string.
Definition w_dotted_abs : str := bs "/r/ws/d/./x.txt"%string.
Definition w_header : str := bs "  d//x.txt "%string.
Definition w_header_abs : str := bs "/r/ws/d//x.txt"%string.
Definition w_messy_abs : str := bs "/r/ws//d/./x.txt/"%string.
Lemma ex_resolve : resolve_tool w_root w_dotted = Ok w_dotted_abs.
Proof. vm_compute. reflexivity. Qed.
Lemma ex_patch : patch_target w_root w_header = Ok w_header_abs.
Proof. vm_compute. reflexivity. Qed.
Lemma ex_to_relative : to_relative w_root w_messy_abs = Ok w_dotted.
Proof. vm_compute. reflexivity. Qed.

(* the same as existence statements *)
Lemma to_relative_unfixed_refuted :
  exists root raw rel, to_relative_unfixed root raw = Ok rel /\ underb [] root (restore_path root rel) = false.
Proof. exists w_root, w_up, w_up. destruct to_relative_unfixed_escapes as (A & B & _). split; assumption. Qed.

Lemma probe_unfixed_cwd_refuted :
  exists cwd root raw rel, is_absolute raw = false /\ has_parent raw = false
    /\ to_relative_unfixed root raw = Ok rel
    /\ kresolve cwd (probe_path_unfixed root raw) <> kresolve cwd (restore_path root rel).
Proof.
  exists w_cwd, w_root, w_plain, w_plain. destruct probe_unfixed_depends_on_cwd as (A & B & C).
  repeat split; try assumption; try reflexivity. rewrite B, C. discriminate.
Qed.

Lemma auto_write_unfixed_refuted :
  exists root raw rel e, auto_write_paths_unfixed raw = Ok raw /\ to_relative root raw = Ok rel
    /\ resolve_tool root raw = Err e.
Proof. exists w_root, w_abs_in, w_plain, V_ABS. exact auto_write_unfixed_reaches_store. Qed.
