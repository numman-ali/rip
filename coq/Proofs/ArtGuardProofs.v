(* C10 - the guard on a caller-supplied summary_artifact_id (Model/ArtGuard.v).  The code has GPlainIsFile (the id is
   one plain name && is_file); GNonEmptyIsFile (`!id.is_empty() && is_file`) is the guard as it was found, which let
   "../x" through (finding S30). *)
From RipV Require Import Base.Prelude Base.Fs Model.Frames Model.Log Proofs.LogProofs Model.Lineage Proofs.LineageProofs
  Model.ArtGuard.

(* a walk only ever stands at a node the file system has *)
Definition wres_ok (f : fs) (st : wres) : Prop :=
  match st with WAt p n => lookup f p = Some n | WFail => True end.

Lemma walk_step_ok : forall f st s, wres_ok f st -> wres_ok f (walk_step f st s).
Proof.
  intros f st s H. destruct st as [p n|]; [|exact I].
  destruct n as [b|]; [exact I|].
  unfold walk_step.
  destruct (seg_trivial s); [exact H|].
  destruct (seg_dotdot s).
  - destruct (lookup f (removelast p)) eqn:E; [exact E|exact I].
  - destruct (255 <? nlen s); [exact I|].
    destruct (lookup f (p ++ [s])) eqn:E; [exact E|exact I].
Qed.

Lemma resolve_ok : forall f base id, wres_ok f (resolve f base id).
Proof.
  intros f base id. unfold resolve.
  destruct (join_raw base id) as [|x r] eqn:E; [exact I|]. unfold resolve_raw.
  destruct (has_nul (x :: r) || (PATH_MAX <=? nlen (x :: r))); [exact I|].
  apply (fold_left_inv (walk_step f) (wres_ok f) (walk_step_ok f)). reflexivity.
Qed.

(* ---- the central fact: a sound guard lets an id pass only if stat ends at a regular file of the file system,
   whose bytes fs::read returns - for EVERY id (empty, ".", "..", path-like, absolute, with NUL, of any length)
   and EVERY file system *)
Lemma is_file_at_resolves : forall f base id, is_file_at f base id = true ->
  exists p c, resolve f base id = WAt p (File c) /\ lookup f p = Some (File c) /\ read_back f base id = Some c
              /\ is_dir_at f base id = false.
Proof.
  intros f base id H. unfold is_file_at in H. unfold read_back, is_dir_at.
  destruct (resolve f base id) as [p n|] eqn:E; [|discriminate].
  destruct n as [c|]; [|discriminate].
  exists p, c. repeat split. pose proof (resolve_ok f base id) as K. rewrite E in K. exact K.
Qed.

Lemma guard_sound_resolves : forall g f base id,
  guard_sound g = true -> guard_eval g f base id = true ->
  exists p c, resolve f base id = WAt p (File c) /\ lookup f p = Some (File c) /\ read_back f base id = Some c
              /\ is_dir_at f base id = false.
Proof.
  intros g f base id Hs He. apply is_file_at_resolves.
  destruct g; try discriminate Hs; cbn [guard_eval] in He; unfold guard_plain in He;
    try exact He; apply andb_true_iff in He; apply He.
Qed.

(* a directory never passes a sound guard; a failed walk never passes any guard *)
Lemma guard_sound_rejects_dir : forall g f base id,
  guard_sound g = true -> is_dir_at f base id = true -> guard_eval g f base id = false.
Proof.
  intros g f base id Hs Hd. destruct (guard_eval g f base id) eqn:E; [|reflexivity].
  destruct (guard_sound_resolves g f base id Hs E) as (p & c & _ & _ & _ & K). congruence.
Qed.

Lemma guard_rejects_absent : forall g f base id, exists_at f base id = false -> guard_eval g f base id = false.
Proof.
  intros g f base id H. unfold exists_at in H.
  destruct g; cbn [guard_eval]; unfold guard_plain, is_file_at, exists_at; destruct (resolve f base id); try discriminate;
    try rewrite andb_false_r; reflexivity.
Qed.

Lemma art_has_arts_of : forall g f base a id, art_has a (arts_of g f base a id) = guard_eval g f base id.
Proof.
  intros g f base a id. unfold arts_of. destruct (guard_eval g f base id).
  - unfold art_has, art_get. cbn [find fst]. rewrite N.eqb_refl. reflexivity.
  - reflexivity.
Qed.

(* refused: no child thread, no frame, nothing stored *)
Lemma handoff_fs_refused : forall g f base view l parent sel md a id fr,
  guard_eval g f base id = false ->
  handoff_fs g f base view l parent sel md a id fr = (l, [], Err ENoArtifact).
Proof.
  intros g f base view l parent sel md a id fr H. unfold handoff_fs, handoff_gen.
  rewrite art_has_arts_of, H. unfold arts_of. rewrite H. destruct md; reflexivity.
Qed.

(* accepted: the guard let the id pass, and [created; lineage] recording the caller's id was appended *)
Lemma handoff_fs_ok : forall g f base view l parent sel md a id fr l' arts' c cut om,
  handoff_fs g f base view l parent sel md a id fr = (l', arts', Ok (c, cut, om)) ->
  guard_eval g f base id = true
  /\ l' = l ++ [created_frame c (f_e0 fr); handoff_frame c (f_e1 fr) parent cut om (Some a) md].
Proof.
  intros g f base view l parent sel md a id fr l' arts' c cut om H. split.
  - destruct (guard_eval g f base id) eqn:E; [reflexivity|].
    rewrite (handoff_fs_refused g f base view l parent sel md a id fr E) in H. discriminate.
  - destruct (handoff_ok _ _ _ _ _ _ _ _ _ _ _ _ _ _ _ _ H) as (_ & _ & a' & Hl & [(Ea & _)|(Ea & _)]); [|discriminate Ea].
    injection Ea as <-. exact Hl.
Qed.

(* accepted under a sound guard: the id resolves to a regular file whose bytes read back *)
Lemma handoff_fs_summary_resolves : forall g f base view l parent sel md a id fr l' arts' c cut om,
  guard_sound g = true ->
  handoff_fs g f base view l parent sel md a id fr = (l', arts', Ok (c, cut, om)) ->
  l' = l ++ [created_frame c (f_e0 fr); handoff_frame c (f_e1 fr) parent cut om (Some a) md]
  /\ exists p content, resolve f base id = WAt p (File content) /\ lookup f p = Some (File content)
                       /\ read_back f base id = Some content.
Proof.
  intros g f base view l parent sel md a id fr l' arts' c cut om Hs H.
  destruct (handoff_fs_ok _ _ _ _ _ _ _ _ _ _ _ _ _ _ _ _ H) as [G Hl]. split; [exact Hl|].
  destruct (guard_sound_resolves g f base id Hs G) as (p & content & A & B & C & _).
  exists p, content. repeat split; assumption.
Qed.

(* witnesses (w_): "/b" is the blobs directory of a store that holds one blob "/b/k"; "/x" is a file outside the store *)
Definition w_fs : fs := [([[98]], Dir); ([[98]; [107]], File [7]); ([[120]], File [9]); ([[98]; [115]], Dir)].
Definition w_base : list N := [47; 98].
Definition w_fr : fresh := {| f_child := 1; f_e0 := 20; f_e1 := 21; f_art := 30 |}.
Definition w_handoff (g : aguard) (id : list N) := handoff_fs g w_fs w_base demo_parent demo_log 0 SelNone false 40 id w_fr.

(* `exists()` in place of `is_file()`: the ids "", ".", "..", "s" (a sub-directory) pass, the frame is written,
   nothing can be read back *)
Lemma exists_guard_accepts_directory :
  w_handoff GExists [] = (demo_log ++ [created_frame 1 20; handoff_frame 1 21 0 6 (Some 15) (Some 40) false],
                          [(40, [])], Ok (1, 6, Some 15))
  /\ read_back w_fs w_base [] = None
  /\ guard_eval GExists w_fs w_base [46] = true /\ read_back w_fs w_base [46] = None
  /\ guard_eval GExists w_fs w_base [46; 46] = true /\ read_back w_fs w_base [46; 46] = None
  /\ guard_eval GNonEmptyExists w_fs w_base [115] = true /\ read_back w_fs w_base [115] = None
  /\ guard_eval GNonEmptyIsFile w_fs w_base [] = false /\ guard_eval GNonEmptyIsFile w_fs w_base [46] = false
  /\ guard_eval GNonEmptyIsFile w_fs w_base [46; 46] = false /\ guard_eval GNonEmptyIsFile w_fs w_base [115] = false.
Proof. vm_compute. repeat split; reflexivity. Qed.

Lemma handoff_exists_guard_refuted :
  exists g f base view l parent sel a id fr l' arts' r,
    handoff_fs g f base view l parent sel false a id fr = (l', arts', Ok r)
    /\ read_back f base id = None
    /\ exists c e cut om, In (handoff_frame c e parent cut om (Some a) false) l'.
Proof.
  exists GExists, w_fs, w_base, demo_parent, demo_log, 0, SelNone, 40, [], w_fr.
  eexists. eexists. eexists. split; [exact (proj1 exists_guard_accepts_directory)|].
  split; [exact (proj1 (proj2 exists_guard_accepts_directory))|].
  exists 1, 21, 6, (Some 15). apply in_or_app. right. right. left. reflexivity.
Qed.

(* the guard as found (GNonEmptyIsFile): the blob passes, by its name, by a dotted path, by an absolute path *)
Lemma as_built_accepts_blob :
  guard_eval GNonEmptyIsFile w_fs w_base [107] = true /\ read_back w_fs w_base [107] = Some [7]
  /\ guard_eval GNonEmptyIsFile w_fs w_base [46; 47; 107] = true
  /\ guard_eval GNonEmptyIsFile w_fs w_base [115; 47; 46; 46; 47; 107] = true
  /\ guard_eval GNonEmptyIsFile w_fs w_base [47; 98; 47; 107] = true
  /\ guard_eval GNonEmptyIsFile w_fs w_base [107; 47] = false
  /\ guard_eval GNonEmptyIsFile w_fs w_base [110; 47; 46; 46; 47; 107] = false
  /\ guard_eval GNonEmptyIsFile w_fs w_base [107; 0] = false.
Proof. vm_compute. repeat split; reflexivity. Qed.

(* ... and so does a path that leaves the store: "../x" names the file /x, which is no blob.  The guard as found
   does not confine the id to the blobs directory (finding S30). *)
Lemma as_built_guard_escapes_store :
  exists f base id p c,
    guard_eval GNonEmptyIsFile f base id = true /\ resolve f base id = WAt p (File c) /\ under_base base p = false.
Proof. exists w_fs, w_base, [46; 46; 47; 120], [[120]], [9]. vm_compute. repeat split; reflexivity. Qed.

Lemma art_hypotheses_satisfiable :
  guard_sound GNonEmptyIsFile = true
  /\ w_handoff GNonEmptyIsFile [107]
     = (demo_log ++ [created_frame 1 20; handoff_frame 1 21 0 6 (Some 15) (Some 40) false], [(40, [])], Ok (1, 6, Some 15))
  /\ w_handoff GNonEmptyIsFile [] = (demo_log, [], Err ENoArtifact).
Proof. vm_compute. repeat split; reflexivity. Qed.

(* cutting a path string at the separator *)
Lemma split_aux_nosep : forall c id cur, existsb (N.eqb c) id = false -> split_aux c cur id = [rev cur ++ id].
Proof.
  intros c id. induction id as [|x r IH]; intros cur H.
  - cbn [split_aux]. rewrite app_nil_r. reflexivity.
  - cbn [existsb] in H. apply orb_false_iff in H. destruct H as [Hx Hr].
    cbn [split_aux]. rewrite N.eqb_sym in Hx. rewrite Hx. rewrite (IH (x :: cur) Hr).
    cbn [rev]. rewrite <- app_assoc. reflexivity.
Qed.

Lemma split_aux_sep_nosep : forall c id s cur, existsb (N.eqb c) id = false ->
  split_aux c cur (s ++ c :: id) = split_aux c cur s ++ [id].
Proof.
  intros c id s. induction s as [|x r IH]; intros cur H.
  - cbn [app split_aux]. rewrite N.eqb_refl. rewrite (split_aux_nosep c id [] H). reflexivity.
  - cbn [app split_aux]. destruct (x =? c); rewrite (IH _ H); reflexivity.
Qed.

Lemma starts_slash_head : forall x r, starts_slash (x :: r) = true -> x = 47.
Proof.
  intros x r H. unfold starts_slash in H. destruct x as [|p]; [discriminate|].
  do 6 (try (destruct p as [p|p|]; try discriminate H)). reflexivity.
Qed.

(* ---- the non-empty test is implied by is_file: "" joins to a string that ends with a separator, and a walk whose
   last segment is empty never stands at a regular file.  (So dropping `!id.is_empty()` keeps the property,
   while replacing is_file by exists does not.) *)
Lemma walk_last_empty_not_file : forall f st p c, walk_step f st [] <> WAt p (File c).
Proof.
  intros f st p c. destruct st as [q n|]; [|discriminate].
  destruct n as [b|]; [discriminate|]. cbn. discriminate.
Qed.

Lemma ends_slash_snoc : forall s, ends_slash s = true -> exists s', s = s' ++ [47].
Proof.
  intros s H. change (starts_slash (rev s) = true) in H. destruct (rev s) as [|x r] eqn:E; [discriminate|].
  apply starts_slash_head in H. subst x. exists (rev r). rewrite <- (rev_involutive s), E. reflexivity.
Qed.

Lemma join_empty_snoc : forall base, exists s', join_raw base [] = s' ++ [47].
Proof.
  intros base. unfold join_raw. cbn [starts_slash].
  destruct (ends_slash base) eqn:E.
  - destruct (ends_slash_snoc base E) as [s' ->]. exists s'. rewrite !app_nil_r. reflexivity.
  - exists base. rewrite app_nil_r. reflexivity.
Qed.

Lemma empty_id_never_a_file : forall f base, is_file_at f base [] = false.
Proof.
  intros f base. unfold is_file_at, resolve.
  destruct (join_empty_snoc base) as [s' ->].
  destruct (s' ++ [47]) as [|x r] eqn:E; [reflexivity|]. rewrite <- E. unfold resolve_raw.
  destruct (has_nul (s' ++ [47]) || (PATH_MAX <=? nlen (s' ++ [47]))); [reflexivity|].
  unfold split_on. rewrite (split_aux_sep_nosep 47 [] s' [] eq_refl), fold_left_app. cbn [fold_left].
  match goal with
  | |- context [walk_step f ?st ?e] =>
    pose proof (walk_last_empty_not_file f st) as K; destruct (walk_step f st e) as [p [c|]|]
  end; try reflexivity.
  exfalso. exact (K p c eq_refl).
Qed.

(* the two is_file shapes are the same predicate *)
Lemma nonempty_test_redundant : forall f base id,
  guard_eval GNonEmptyIsFile f base id = guard_eval GIsFile f base id.
Proof.
  intros f base id. cbn [guard_eval]. destruct id as [|x r]; [|reflexivity].
  cbn [nonempty andb]. symmetry. apply empty_id_never_a_file.
Qed.

(* ... the two exists shapes are not: "" passes one and not the other *)
Lemma nonempty_test_matters_for_exists :
  guard_eval GExists w_fs w_base [] = true /\ guard_eval GNonEmptyExists w_fs w_base [] = false
  /\ guard_eval GNonEmptyExists w_fs w_base [46] = true.
Proof. vm_compute. repeat split; reflexivity. Qed.

(* ---- an id that is one plain name resolves to the entry of that name IN the blobs directory: under the guard
   `plain id && is_file` (GPlainIsFile, the guard the code has) an accepted id cannot leave the store ---- *)
Lemma nosep_not_absolute : forall id, existsb (N.eqb 47) id = false -> starts_slash id = false.
Proof.
  intros id H. destruct id as [|x r]; [reflexivity|].
  destruct (starts_slash (x :: r)) eqn:S; [|reflexivity].
  apply starts_slash_head in S. subst x. cbn in H. discriminate.
Qed.

Lemma join_rel_form : forall base id, starts_slash id = false ->
  exists b', join_raw base id = b' ++ 47 :: id /\ join_raw base [46] = b' ++ 47 :: [46].
Proof.
  intros base id H. unfold join_raw. rewrite H. cbn [starts_slash].
  destruct (ends_slash base) eqn:E.
  - destruct (ends_slash_snoc base E) as [b' ->]. exists b'. rewrite <- !app_assoc. cbn [app]. split; reflexivity.
  - exists base. cbn [app]. split; reflexivity.
Qed.

Lemma resolve_nonnil : forall f base id b' t, join_raw base id = b' ++ 47 :: t ->
  resolve f base id = resolve_raw f (b' ++ 47 :: t).
Proof. intros f base id b' t H. unfold resolve. rewrite H. destruct b'; reflexivity. Qed.

Lemma plain_parts : forall id, plain id = true ->
  id <> [] /\ existsb (N.eqb 47) id = false /\ seg_dot id = false /\ seg_dotdot id = false.
Proof.
  intros id H. unfold plain in H. apply andb_true_iff in H. destruct H as [H Hdd]. apply andb_true_iff in H.
  destruct H as [H Hd]. apply andb_true_iff in H. destruct H as [Hne Hs]. apply negb_true_iff in Hdd, Hd, Hs.
  repeat split; try assumption. intros ->. discriminate Hne.
Qed.

Lemma resolve_raw_plain : forall f b' id p n,
  plain id = true -> resolve_raw f (b' ++ 47 :: id) = WAt p n ->
  exists q, resolve_raw f (b' ++ 47 :: [46]) = WAt q Dir /\ p = q ++ [id].
Proof.
  intros f b' id p n Hp H. destruct (plain_parts id Hp) as (Hne & Hns & Hd & Hdd).
  destruct id as [|x r]; [congruence|].
  unfold resolve_raw in *.
  destruct (has_nul (b' ++ 47 :: x :: r) || (PATH_MAX <=? nlen (b' ++ 47 :: x :: r))) eqn:G; [discriminate|].
  apply orb_false_iff in G. destruct G as [G1 G2].
  assert (has_nul (b' ++ 47 :: [46]) || (PATH_MAX <=? nlen (b' ++ 47 :: [46])) = false) as G'.
  { apply orb_false_iff. split.
    - unfold has_nul in *. rewrite existsb_app in *. apply orb_false_iff in G1. destruct G1 as [A _].
      rewrite A. reflexivity.
    - apply N.leb_gt. apply N.leb_gt in G2. unfold nlen in *. rewrite app_length in *. cbn [length] in *. lia. }
  rewrite G'. unfold split_on in *.
  rewrite (split_aux_sep_nosep 47 (x :: r) b' [] Hns) in H.
  rewrite (split_aux_sep_nosep 47 [46] b' [] eq_refl).
  rewrite fold_left_app in *. cbn [fold_left] in *.
  revert H.
  match goal with |- context [walk_step f ?st [46]] => destruct st as [q [c|]|] end; intros H; try discriminate H.
  exists q. split; [reflexivity|].
  assert (seg_trivial (x :: r) = false) as T by exact Hd.
  revert H. unfold walk_step. rewrite T, Hdd. cbv beta iota.
  match goal with |- context [if ?b then _ else _] => destruct b end; [intros H; discriminate H|].
  match goal with |- context [match ?o with Some _ => _ | None => _ end] => destruct o end; [|intros H; discriminate H].
  intros H. inversion H. reflexivity.
Qed.

Lemma plain_resolves_in_dir : forall f base id p n,
  plain id = true -> resolve f base id = WAt p n ->
  exists q, resolve f base [46] = WAt q Dir /\ p = q ++ [id].
Proof.
  intros f base id p n Hp H.
  assert (starts_slash id = false) as S by apply nosep_not_absolute, (plain_parts id Hp).
  destruct (join_rel_form base id S) as (b' & J1 & J2).
  rewrite (resolve_nonnil f base id b' id J1) in H. rewrite (resolve_nonnil f base [46] b' [46] J2).
  exact (resolve_raw_plain f b' id p n Hp H).
Qed.

(* the guard `plain && is_file`: accepted => the file is the entry named `id` of the directory `<blobs>/.` *)
Lemma guard_plain_confined : forall f base id,
  guard_plain f base id = true ->
  exists q c, resolve f base [46] = WAt q Dir /\ resolve f base id = WAt (q ++ [id]) (File c)
              /\ read_back f base id = Some c.
Proof.
  intros f base id H. unfold guard_plain in H. apply andb_true_iff in H. destruct H as [Hp Hf].
  destruct (is_file_at_resolves f base id Hf) as (p & c & R & _ & B & _).
  destruct (plain_resolves_in_dir f base id p (File c) Hp R) as (q & Q & ->).
  exists q, c. repeat split; assumption.
Qed.

(* "../x" is not plain: the guard refuses the witness of as_built_guard_escapes_store, and still accepts the blob *)
Lemma guard_plain_examples :
  guard_plain w_fs w_base [46; 46; 47; 120] = false /\ guard_plain w_fs w_base [107] = true
  /\ guard_plain w_fs w_base [] = false /\ guard_plain w_fs w_base [46] = false /\ guard_plain w_fs w_base [115] = false.
Proof. vm_compute. repeat split; reflexivity. Qed.

(* ---- a guard that confines (guard_confines: GPlainIsFile) lets an id pass only if it is the entry of that
   name in the blobs directory; the handoff over the file system records such an id only ---- *)
Lemma guard_confines_store : forall g f base id,
  guard_confines g = true -> guard_eval g f base id = true ->
  exists q c, resolve f base [46] = WAt q Dir /\ resolve f base id = WAt (q ++ [id]) (File c)
              /\ read_back f base id = Some c.
Proof.
  intros g f base id Hc He. destruct g; try discriminate. exact (guard_plain_confined f base id He).
Qed.

Lemma handoff_fs_summary_in_store : forall g f base view l parent sel md a id fr l' arts' c cut om,
  guard_confines g = true ->
  handoff_fs g f base view l parent sel md a id fr = (l', arts', Ok (c, cut, om)) ->
  l' = l ++ [created_frame c (f_e0 fr); handoff_frame c (f_e1 fr) parent cut om (Some a) md]
  /\ exists q content, resolve f base [46] = WAt q Dir /\ resolve f base id = WAt (q ++ [id]) (File content)
                        /\ read_back f base id = Some content.
Proof.
  intros g f base view l parent sel md a id fr l' arts' c cut om Hc H.
  destruct (handoff_fs_ok _ _ _ _ _ _ _ _ _ _ _ _ _ _ _ _ H) as [G Hl]. split; [exact Hl|].
  exact (guard_confines_store g f base id Hc G).
Qed.

(* GPlainIsFile on the witnesses: the blob passes by its name only; every path-like spelling, the directory
   shapes and the file outside the store are refused *)
Lemma repaired_guard_examples :
  guard_eval GPlainIsFile w_fs w_base [107] = true
  /\ guard_eval GPlainIsFile w_fs w_base [46; 47; 107] = false
  /\ guard_eval GPlainIsFile w_fs w_base [47; 98; 47; 107] = false
  /\ guard_eval GPlainIsFile w_fs w_base [46; 46; 47; 120] = false
  /\ guard_eval GPlainIsFile w_fs w_base [] = false /\ guard_eval GPlainIsFile w_fs w_base [46] = false
  /\ guard_eval GPlainIsFile w_fs w_base [46; 46] = false /\ guard_eval GPlainIsFile w_fs w_base [115] = false
  /\ guard_eval GPlainIsFile w_fs w_base [107; 47] = false
  /\ w_handoff GPlainIsFile [46; 46; 47; 120] = (demo_log, [], Err ENoArtifact).
Proof. vm_compute. repeat split; reflexivity. Qed.
