(* C14: name resolution.  Every invocation that edits - under ANY name the registry resolves, aliases included - is
   preceded by a checkpoint the rewind to which restores every file: registry_wf (a decidable condition on the two
   tables; Gen/ToolNames.v holds the tables the extractor read from /repo) + the per-tool theorems auto_write_undone /
   auto_patch_text_undone / auto_patch_text_no_checkpoint / C12's atomicity.  Refutation: a registry with aliases the checkpoint arms do
   not know (trial change C14-9). *)
From RipV Require Import Base.Prelude Base.Fs Model.Paths Model.Checkpoint Model.ToolDispatch Proofs.PathsProofs
  Proofs.CheckpointProofs Proofs.AutoCoverProofs Proofs.AutoPatchProofs.
From RipV Require Model.Patch Proofs.FsProofs Proofs.PatchAtomic.
Require Import Coq.Strings.String.

Lemma names_assoc_in {A} (k : str) : forall (l : list (str * A)) v, assoc k l = Some v -> In k (map fst l).
Proof.
  induction l as [|[k' v'] l IH]; intros v H; cbn [assoc] in H; [discriminate|].
  destruct (lN_eqb k' k) eqn:E.
  - apply lN_eqb_spec in E. subst k'. left. reflexivity.
  - right. exact (IH v H).
Qed.

Lemma hm_get_in {A} (k : str) (l : list (str * A)) v : hm_get k l = Some v -> In k (map fst l).
Proof.
  unfold hm_get. intros H. apply names_assoc_in in H. rewrite map_rev in H. apply in_rev in H. exact H.
Qed.

(* a name that reaches a handler is one of the registry's names *)
Lemma handler_name r name k : handler_of r name = Some k -> In name (names_of r).
Proof.
  unfold handler_of, names_of. intros H. apply in_or_app.
  destruct (hm_get name (r_tools r)) as [k0|] eqn:E1.
  - left. exact (hm_get_in _ _ _ E1).
  - destruct (hm_get name (r_aliases r)) as [t|] eqn:E2; [|discriminate]. right. exact (hm_get_in _ _ _ E2).
Qed.

(* the dispatch-level statement: under a well-formed registry, every name that reaches an editing handler reaches the
   checkpoint arm of that handler *)
Theorem editing_name_has_arm r name k :
  registry_wf r = true -> handler_of r name = Some k ->
  known_kind k = true /\ (edits k = true -> arm_of r name = Some k).
Proof.
  intros W H. unfold registry_wf in W. rewrite forallb_forall in W.
  pose proof (W name (handler_name r name k H)) as Hn. unfold name_ok in Hn. rewrite H in Hn.
  apply andb_true_iff in Hn. destruct Hn as [Hk He]. split; [exact Hk|]. intros E. rewrite E in He.
  unfold option_eqb in He. destruct (arm_of r name) as [ak|]; [|discriminate].
  apply N.eqb_eq in He. subst ak. reflexivity.
Qed.

Lemma known_cases k : known_kind k = true -> k = K_READ \/ k = K_PROCESS \/ k = K_WRITE \/ k = K_PATCH.
Proof.
  unfold known_kind. rewrite !orb_true_iff, !N.eqb_eq. tauto.
Qed.

(* Whatever a call under a resolvable name changed can be undone from the checkpoint taken before it.  The workspace
   hypotheses are those of the two per-tool results together: tree_b / nonul_b for the rewind (AutoCoverProofs), wf_fsb
   for C12's atomicity of apply_patch - neither implies the other (see the note at AutoCoverProofs.nonul).  The process
   handler (bash) is left out: what a command does to the workspace is not a function of the tool's arguments. *)
Theorem every_name_checkpointed (r : registry) (found : bool) (ts as_ : list N) (tk : N) (prog : list (N * N)) :
  registry_wf r = true -> cover_wf found ts as_ tk prog = true ->
  forall (f : fs) (root name : str) (a : targ) (ck : option (list entry)) (f' : fs),
  is_absolute root = true -> tree_b f = true -> nonul_b f = true -> Patch.wf_fsb f = true ->
  arg_ok ts f a -> handler_of r name <> Some K_PROCESS ->
  run_tool r ts as_ f root name a = (ck, f') ->
  forall q, file_at f' q <> file_at f q ->
  exists c f2, ck = Some c /\ rewind f' c = (f2, None) /\ forall q', file_at f2 q' = file_at f q'.
Proof.
  intros W C f root name a ck f' Hr Ht Hn Hw Ha Hp Hrun q Hq.
  enough (X : (forall q, file_at f' q = file_at f q)
              \/ exists c f2, ck = Some c /\ rewind f' c = (f2, None) /\ forall q', file_at f2 q' = file_at f q')
    by (destruct X as [E|X]; [destruct (Hq (E q))|exact X]).
  clear q Hq. unfold run_tool in Hrun. injection Hrun as <- <-.
  destruct (handler_of r name) as [k|] eqn:Hh; [|left; reflexivity].
  destruct (editing_name_has_arm r name k W Hh) as [Hk Harm].
  destruct (known_cases k Hk) as [E|[E|[E|E]]]; subst k.
  - (* a reading handler *)
    left. destruct a; reflexivity.
  - destruct (Hp eq_refl).
  - (* the write handler *)
    rewrite (Harm eq_refl). destruct a as [raw ext mode data|text]; [|left; reflexivity].
    cbn [handler_run arm_checkpoint]. change (K_WRITE =? K_WRITE) with true. cbn iota.
    destruct (write_tool ts f raw ext mode data) as [g er] eqn:Ew. cbn [fst].
    pose proof (auto_write_undone found ts as_ tk prog C f root raw ext mode data g er Hr
                  (tree_b_sound _ Ht) (nonul_b_sound _ Hn) Ha Ew) as U.
    destruct (auto_checkpoint as_ f root raw) as [c|]; [right|left; exact U].
    destruct U as (f2 & U). exists c, f2. split; [reflexivity|exact U].
  - (* apply_patch *)
    rewrite (Harm eq_refl). destruct a as [raw ext mode data|text]; [left; reflexivity|].
    cbn [handler_run arm_checkpoint]. change (K_PATCH =? K_PATCH) with true. cbn iota.
    pose proof (PatchAtomic.wf_fsb_sound f Hw) as Wf.
    destruct (Patch.apply_patch true [] f text) as [g c|g e] eqn:Ea; cbn [Patch.out_fs].
    2:{ left. exact (PatchAtomic.apply_patch_atomic f text g e Wf Ea). }
    right. destruct (Patch.parse_patch text) as [ops|] eqn:Ep.
    2:{ unfold Patch.apply_patch in Ea. rewrite Ep in Ea. discriminate. }
    destruct (create f root (Patch.affected_paths ops)) as [c0|e0] eqn:Ec.
    + destruct (auto_patch_text_undone f root text g c c0 Hr Ht Hn ops Ep (Ha ops Ep) Ec Ea) as (f2 & U).
      exists c0, f2. split; [reflexivity|exact U].
    + destruct (auto_patch_text_no_checkpoint f root text ops e0 Hr Hw Ep Ec) as (g' & e' & F & _).
      rewrite F in Ea. discriminate.
Qed.

Lemma dispatch_wf_registry found r : dispatch_wf found r = true -> registry_wf r = true.
Proof. unfold dispatch_wf. intros H. apply andb_true_iff in H. exact (proj2 H). Qed.

Definition d_root : str := bs "/r/ws"%string.
Definition d_a : str := bs "a.txt"%string.
Definition d_ws : fs := [([d_a], File (bs "one"%string))].
Definition d_data : bytes := bs "two"%string.
Definition d_after : fs := [([d_a], File (bs "two"%string))].
Definition d_ck : list entry := [(d_a, Some (bs "one"%string))].

(* trial change C14-9 (two more aliases, the match stays on the literal name): `write_file` reaches the write handler, not the write arm - the call edits
   a.txt and no checkpoint was taken *)
Lemma alias_unchecked_refuted :
  exists name a,
    handler_of aliased_registry name = Some K_WRITE /\ arm_of aliased_registry name = None
    /\ tree_b d_ws = true /\ nonul_b d_ws = true /\ Patch.wf_fsb d_ws = true
    /\ run_tool aliased_registry expected_tool_steps expected_auto_steps d_ws d_root name a = (None, d_after)
    /\ file_at d_after [d_a] <> file_at d_ws [d_a].
Proof.
  exists n_write_file, (AWrite d_a corr_ext 0 d_data).
  split; [vm_compute; reflexivity|]. split; [vm_compute; reflexivity|]. split; [vm_compute; reflexivity|].
  split; [vm_compute; reflexivity|]. split; [vm_compute; reflexivity|]. split; [vm_compute; reflexivity|].
  vm_compute. discriminate.
Qed.

(* the same call under the registered name, and under the alias once the arms cover it: checkpointed and undone *)
Lemma ex_named_write_undone :
  run_tool small_registry expected_tool_steps expected_auto_steps d_ws d_root n_write (AWrite d_a corr_ext 0 d_data) = (Some d_ck, d_after)
  /\ run_tool aliased_arms_registry expected_tool_steps expected_auto_steps d_ws d_root n_write_file (AWrite d_a corr_ext 0 d_data) = (Some d_ck, d_after)
  /\ run_tool aliased_resolved_registry expected_tool_steps expected_auto_steps d_ws d_root n_write_file (AWrite d_a corr_ext 0 d_data) = (Some d_ck, d_after)
  /\ rewind d_after d_ck = (d_ws, None)
  /\ arg_ok expected_tool_steps d_ws (AWrite d_a corr_ext 0 d_data)
  /\ handler_of small_registry n_write <> Some K_PROCESS.
Proof.
  split; [vm_compute; reflexivity|]. split; [vm_compute; reflexivity|]. split; [vm_compute; reflexivity|].
  split; [vm_compute; reflexivity|]. split.
  - cbn [arg_ok]. intros _ x Hx. vm_compute in Hx. inversion Hx; subst x. vm_compute. reflexivity.
  - vm_compute. discriminate.
Qed.

Lemma ex_registries_wf :
  registry_wf small_registry = true /\ registry_wf aliased_registry = false
  /\ registry_wf aliased_arms_registry = true /\ registry_wf aliased_resolved_registry = true.
Proof. repeat apply conj; vm_compute; reflexivity. Qed.
