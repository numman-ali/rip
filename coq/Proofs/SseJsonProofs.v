(* C15 proofs about the instantiated classification (Model/SseJson.v): what a provider frame carries, with the
   JSON parser of Base/JsonParse.v inside the statement; the text deltas; blocks of field lines. *)
From RipV Require Import Base.Prelude Base.Utf8 Base.Json Model.Sse Model.SseJson Model.SseFacts.
From RipV Require Import Proofs.Utf8Proofs Proofs.SseProofs.
From RipV Require Base.JsonParse Proofs.JsonProofs.
Import JsonParse.

(* every number of the value is a JSON number (Json.json_ok also restricts the code points of strings; the
   round trip does not need that) *)
Fixpoint nums_ok (j : json) : bool :=
  match j with
  | JNum t => num_ok t
  | JArr l => forallb nums_ok l
  | JObj kvs => forallb (fun kv => nums_ok (snd kv)) kvs
  | _ => true
  end.

Theorem parse_print_nums : forall j, nums_ok j = true -> (json_depth j < 128)%nat -> parse (print j) = Some j.
Proof.
  intros j Hok Hd. apply JsonProofs.parse_of_elem_ok; [|exact Hd].
  apply (JsonProofs.printers_elem_ok (fun j => nums_ok j = true)); [| | |exact Hok].
  - intros t H. exact H.
  - intros l H. apply Forall_forall, forallb_forall, H.
  - intros kvs H. apply Forall_forall, (forallb_forall (fun kv => nums_ok (snd kv))), H.
Qed.

Lemma forallb_rev_append {X} (p : X -> bool) a b :
  forallb p a = true -> forallb p b = true -> forallb p (rev_append a b) = true.
Proof.
  revert b. induction a as [|x a IH]; intros b Ha Hb; cbn [rev_append]; [exact Hb|].
  cbn [forallb] in Ha. apply andb_true_iff in Ha as [Hx Ha]. apply IH; [exact Ha|].
  cbn [forallb]. rewrite Hx, Hb. reflexivity.
Qed.

Lemma parse_value_nums_ok fuel :
  (forall d inp j r, parse_value fuel d inp = Some (j, r) -> nums_ok j = true)
  /\ (forall d inp acc l r, parse_elems fuel d inp acc = Some (l, r) ->
        forallb nums_ok acc = true -> forallb nums_ok l = true)
  /\ (forall d inp acc l r, parse_members fuel d inp acc = Some (l, r) ->
        forallb (fun kv => nums_ok (snd kv)) acc = true -> forallb (fun kv => nums_ok (snd kv)) l = true).
Proof.
  induction fuel as [|f (IHv & IHe & IHm)]; [repeat split; intros; discriminate|].
  split; [|split].
  - intros d inp j r H. destruct inp as [|c inp']; [discriminate|].
    cbn [parse_value] in H.
    destruct (num_start c).
    { destruct (span_num (c :: inp')) as [tok r']. destruct (num_ok tok) eqn:E; [|discriminate].
      injection H as <- <-. exact E. }
    destruct (c =? 34).
    { destruct (parse_str_chars inp' []) as [[s r']|]; [|discriminate]. injection H as <- <-. reflexivity. }
    destruct (c =? cLBRK).
    { destruct (Nat.pred d) as [|d']; [discriminate|].
      destruct (empty_close cRBRK (skip_ws inp')) as [r2|].
      - injection H as <- <-. reflexivity.
      - destruct (parse_elems f (S d') (skip_ws inp') []) as [[l r2]|] eqn:E; [|discriminate].
        injection H as <- <-. cbn [nums_ok]. eapply IHe; [exact E|reflexivity]. }
    destruct (c =? cLBRC).
    { destruct (Nat.pred d) as [|d']; [discriminate|].
      destruct (empty_close cRBRC (skip_ws inp')) as [r2|].
      - injection H as <- <-. reflexivity.
      - destruct (parse_members f (S d') (skip_ws inp') []) as [[l r2]|] eqn:E; [|discriminate].
        injection H as <- <-. cbn [nums_ok]. eapply IHm; [exact E|reflexivity]. }
    destruct (c =? 110).
    { destruct (strip_prefix s_null (c :: inp')); [|discriminate]. injection H as <- <-. reflexivity. }
    destruct (c =? 116).
    { destruct (strip_prefix s_true (c :: inp')); [|discriminate]. injection H as <- <-. reflexivity. }
    destruct (c =? 102).
    { destruct (strip_prefix s_false (c :: inp')); [|discriminate]. injection H as <- <-. reflexivity. }
    discriminate.
  - intros d inp acc l r H Hacc. cbn [parse_elems] in H.
    destruct (parse_value f d inp) as [[v r1]|] eqn:E; [|discriminate].
    pose proof (IHv _ _ _ _ E) as Hv.
    destruct (sep_or_close cRBRK r1) as [[[|] r']|]; [| |discriminate].
    + eapply IHe; [exact H|]. cbn [forallb]. rewrite Hv, Hacc. reflexivity.
    + injection H as <- <-. apply forallb_rev_append; cbn [forallb]; rewrite ?Hv, ?Hacc; reflexivity.
  - intros d inp acc l r H Hacc. cbn [parse_members] in H.
    destruct (parse_key inp) as [[k r0]|]; [|discriminate].
    destruct (parse_value f d r0) as [[v r1]|] eqn:E; [|discriminate].
    pose proof (IHv _ _ _ _ E) as Hv.
    destruct (sep_or_close cRBRC r1) as [[[|] r']|]; [| |discriminate].
    + eapply IHm; [exact H|]. cbn [forallb snd]. rewrite Hv, Hacc. reflexivity.
    + injection H as <- <-. apply forallb_rev_append; cbn [forallb snd];
        rewrite ?Hv, ?Hacc; reflexivity.
Qed.

Theorem parse_nums_ok txt j : parse txt = Some j -> nums_ok j = true.
Proof.
  unfold parse. intros H.
  destruct (parse_value (S (2 * length txt)) RECURSION_LIMIT (skip_ws txt)) as [[v r]|] eqn:E; [|discriminate].
  destruct (skip_ws r); [|discriminate]. injection H as <-.
  eapply (proj1 (parse_value_nums_ok _)). exact E.
Qed.

(* canon_list and canon_members name the two local fixpoints inside `canon` (Model/SseJson.v), so that lemmas
   can speak of them; canon_arr / canon_obj identify them. *)
Fixpoint canon_list (A : absfns) (l : list json) : option (list json) :=
  match l with
  | [] => Some []
  | x :: r => match canon A x with
              | None => None
              | Some x' => match canon_list A r with Some r' => Some (x' :: r') | None => None end
              end
  end.
Fixpoint canon_members (A : absfns) (kvs acc : list (str * json)) : option (list (str * json)) :=
  match kvs with
  | [] => Some acc
  | (k, v) :: r => match canon A v with
                   | None => None
                   | Some v' => canon_members A r (obj_insert k v' acc)
                   end
  end.

Lemma canon_arr A l : canon A (JArr l) = option_map JArr (canon_list A l).
Proof.
  cbn [canon].
  match goal with |- match ?G l with _ => _ end = _ => assert (E : forall l, G l = canon_list A l) end.
  { clear l. induction l as [|x l IH]; [reflexivity|]. cbn [canon_list]. rewrite <- IH. reflexivity. }
  rewrite E. destruct (canon_list A l); reflexivity.
Qed.

Lemma canon_obj A kvs : canon A (JObj kvs) = option_map JObj (canon_members A kvs []).
Proof.
  cbn [canon].
  match goal with |- match ?G kvs [] with _ => _ end = _ =>
    assert (E : forall kvs acc, G kvs acc = canon_members A kvs acc);
    [ clear kvs; induction kvs as [|[k v] kvs IH]; intros acc; [reflexivity|]; cbn [canon_members];
      change (G ((k, v) :: kvs) acc) with (match canon A v with None => None | Some v' => G kvs (obj_insert k v' acc) end);
      destruct (canon A v); [apply IH|reflexivity] | ]
  end.
  rewrite E. destruct (canon_members A kvs []); reflexivity.
Qed.

(* Induction along canon for a property Q of the output that may rest on a property P of the input: P has to
   descend to the elements and members, Q to hold of normalised numbers and to be kept by building an array
   and by inserting a member. *)
Lemma canon_out A (P Q : json -> Prop) :
  Q JNull -> (forall b, Q (JBool b)) -> (forall s, Q (JStr s)) ->
  (forall t t', norm_num A t = Some t' -> P (JNum t) -> Q (JNum t')) ->
  (forall l, P (JArr l) -> Forall P l) -> (forall kvs, P (JObj kvs) -> Forall (fun kv => P (snd kv)) kvs) ->
  (forall l, Forall Q l -> Q (JArr l)) ->
  Q (JObj []) -> (forall k v m, Q v -> Q (JObj m) -> Q (JObj (obj_insert k v m))) ->
  forall j v, canon A j = Some v -> P j -> Q v.
Proof.
  intros Hnull Hbool Hstr Hnum Parr Pobj Qarr Qnil Qins.
  induction j as [| b | t | s | l IH | kvs IH] using JsonProofs.json_ind'; intros v Hc Hj.
  - injection Hc as <-. exact Hnull.
  - injection Hc as <-. apply Hbool.
  - cbn [canon] in Hc. destruct (norm_num A t) as [t'|] eqn:E; [|discriminate]. injection Hc as <-. exact (Hnum _ _ E Hj).
  - injection Hc as <-. apply Hstr.
  - rewrite canon_arr in Hc. destruct (canon_list A l) as [l'|] eqn:E; [|discriminate]. injection Hc as <-.
    apply Qarr. apply Parr in Hj. revert l' E. induction IH as [|x l Hx _ IHl]; intros l' E.
    + injection E as <-. constructor.
    + cbn [canon_list] in E. destruct (canon A x) as [x'|] eqn:Ex; [|discriminate].
      destruct (canon_list A l) as [r'|]; [|discriminate]. injection E as <-. inversion Hj; subst.
      constructor; [exact (Hx x' eq_refl ltac:(assumption))|exact (IHl ltac:(assumption) r' eq_refl)].
  - rewrite canon_obj in Hc. destruct (canon_members A kvs []) as [m|] eqn:E; [|discriminate]. injection Hc as <-.
    apply Pobj in Hj. revert E. generalize (@nil (str * json)) at 1 as acc, Qnil. 
    induction IH as [|[k x] r Hx _ IHr]; intros acc Hacc E.
    + injection E as <-. exact Hacc.
    + cbn [canon_members] in E. destruct (canon A x) as [x'|] eqn:Ex; [|discriminate]. inversion Hj; subst.
      eapply IHr; [assumption| |exact E]. apply Qins; [exact (Hx x' Ex ltac:(assumption))|exact Hacc].
Qed.

(* the abstract float printer writes JSON numbers *)
Definition fmt_ok (A : absfns) : Prop := forall t t', a_fmt_float A t = Some t' -> num_ok t' = true.

Lemma obj_insert_nums k v m :
  nums_ok v = true -> forallb (fun kv => nums_ok (snd kv)) m = true ->
  forallb (fun kv => nums_ok (snd kv)) (obj_insert k v m) = true.
Proof.
  intros Hv. induction m as [|[k' v'] m IH]; intros Hm; cbn [obj_insert forallb].
  - cbn [snd]. rewrite Hv. reflexivity.
  - cbn [forallb snd] in Hm. apply andb_true_iff in Hm as [H1 H2].
    destruct (str_cmp k k'); cbn [forallb snd]; rewrite ?Hv, ?H1, ?H2, ?IH; auto.
Qed.

Lemma canon_nums_ok A : fmt_ok A -> forall j v, canon A j = Some v -> nums_ok j = true -> nums_ok v = true.
Proof.
  intros HA. apply (canon_out A (fun j => nums_ok j = true) (fun j => nums_ok j = true)); try reflexivity.
  - intros t t' E Hj. unfold norm_num in E. destruct (plain_int t); [injection E as <-; exact Hj|exact (HA _ _ E)].
  - intros l H. apply Forall_forall, forallb_forall, H.
  - intros kvs H. apply Forall_forall, (forallb_forall (fun kv => nums_ok (snd kv))), H.
  - intros l H. apply forallb_forall, Forall_forall, H.
  - exact obj_insert_nums.
Qed.

(* a payload classified as an event IS the parse of the text, as a Value, within the nesting bound; the delta is
   the `delta` string of a value whose `type` is "response.output_text.delta" *)
Lemma jclassify_event_parts A ev raw v errs rerrs dl :
  jclassify A ev raw = CEvent v errs rerrs dl ->
  (exists j, parse raw = Some j /\ canon A j = Some v)
  /\ (json_depth v <= MAX_PAYLOAD_NESTING)%nat
  /\ dl = text_delta v
  /\ errs = a_vstream A (validation_data A v) ++ name_mismatch ev v
  /\ rerrs = response_errors A v.
Proof.
  intros H. unfold jclassify, parse_value_of in H.
  destruct (parse raw) as [j|]; [|discriminate].
  destruct (canon A j) as [v0|] eqn:Ec; [|discriminate].
  destruct (MAX_PAYLOAD_NESTING <? json_depth v0)%nat eqn:Ed; [discriminate|].
  injection H as <- <- <- <-. apply Nat.ltb_ge in Ed.
  repeat split; [exists j; split; [reflexivity|exact Ec]|exact Ed].
Qed.

(* ... and, the float printer writing JSON numbers, its canonical print parses back to it *)
Lemma jclassify_event A ev raw v errs rerrs dl :
  fmt_ok A -> jclassify A ev raw = CEvent v errs rerrs dl ->
  (exists j, parse raw = Some j /\ canon A j = Some v)
  /\ parse (print v) = Some v
  /\ (json_depth v <= MAX_PAYLOAD_NESTING)%nat
  /\ dl = text_delta v
  /\ errs = a_vstream A (validation_data A v) ++ name_mismatch ev v
  /\ rerrs = response_errors A v.
Proof.
  intros HA H. destruct (jclassify_event_parts _ _ _ _ _ _ _ H) as ((j & Ep & Ec) & Ed & R).
  repeat split; try apply R; [exists j; split; assumption| |exact Ed].
  apply parse_print_nums; [|unfold MAX_PAYLOAD_NESTING in Ed; lia].
  eapply canon_nums_ok; [exact HA|exact Ec|]. eapply parse_nums_ok. exact Ep.
Qed.

(* a payload kept as text: not JSON for serde_json (does not parse / a number out of range), or nested too deep *)
Lemma jclassify_invalid A ev raw errs :
  jclassify A ev raw = CInvalid errs ->
  (parse_value_of A raw = None /\ errs = [a_json_err A raw])
  \/ (exists v, parse_value_of A raw = Some v /\ (MAX_PAYLOAD_NESTING < json_depth v)%nat /\ errs = [nest_msg (json_depth v)]).
Proof.
  unfold jclassify. intros H. destruct (parse_value_of A raw) as [v|].
  - destruct (MAX_PAYLOAD_NESTING <? json_depth v)%nat eqn:Ed.
    + right. exists v. injection H as <-. apply Nat.ltb_lt in Ed. auto.
    + discriminate.
  - left. injection H as <-. auto.
Qed.

(* the text delta of a value: the `delta` string member of an object whose `type` member is the string
   "response.output_text.delta" (first binding = only binding: `canon` leaves no duplicate keys) *)
Lemma text_delta_spec v d :
  text_delta v = Some d <->
  exists kvs, v = JObj kvs /\ assoc S_TYPE kvs = Some (JStr S_OTD) /\ assoc S_DELTA kvs = Some (JStr d).
Proof.
  unfold text_delta, get_str. split.
  - destruct v as [| | | |l|kvs]; try discriminate.
    destruct (assoc S_TYPE kvs) as [[| | |t| |]|] eqn:Et; try discriminate.
    destruct (str_eqb t S_OTD) eqn:Eq; [|discriminate]. apply JsonProofs.str_eqb_spec in Eq. subst t.
    destruct (assoc S_DELTA kvs) as [[| | |s| |]|] eqn:Ed; try discriminate.
    intros H. injection H as <-. exists kvs. auto.
  - intros (kvs & -> & Ht & Hd). rewrite Ht.
    replace (str_eqb S_OTD S_OTD) with true by reflexivity. rewrite Hd. reflexivity.
Qed.

(* e is the parsed event of some event name and payload: every event of a stream is *)
Definition ev_wf (cl : option str -> str -> cls) (e : pev) : Prop := exists ev raw, e = parse_event cl ev raw.

Lemma line_step_wf cl s l : Forall (ev_wf cl) (snd (line_step cl s l)).
Proof.
  unfold line_step. destruct (Sse.strip_prefix S_EVENT (trim_end_cr l)); [constructor|].
  destruct (Sse.strip_prefix S_DATA (trim_end_cr l)); [constructor|].
  destruct (trim_end_cr l); [|constructor]. destruct (snd s); [constructor|].
  cbn [snd]. constructor; [|constructor]. eexists _, _. reflexivity.
Qed.

Lemma fold_lines_wf cl ls : forall s, Forall (ev_wf cl) (snd (fold_lines cl s ls)).
Proof.
  induction ls as [|l ls IH]; intros s; cbn [fold_lines]; [constructor|].
  pose proof (line_step_wf cl s l) as H1. destruct (line_step cl s l) as [s1 e1].
  specialize (IH s1). destruct (fold_lines cl s1 ls) as [s2 e2]. cbn [snd] in *.
  apply Forall_app. split; assumption.
Qed.

Lemma upto_done_Forall (P : pev -> Prop) l : Forall P l -> Forall P (upto_done l).
Proof.
  induction 1 as [|e l He _ IH]; cbn [upto_done]; [constructor|].
  destruct (is_done e); constructor; auto.
Qed.

Lemma events_wf cl text : Forall (ev_wf cl) (upto_done (events_spec cl text)).
Proof. apply upto_done_Forall. unfold events_spec. apply fold_lines_wf. Qed.

(* f is the provider frame of event e: same status and event name, and
   - terminal marker: raw = the payload = "[DONE]";
   - not JSON (or JSON nested too deep for a frame): raw = the payload, the joined data lines, code point for code point;
   - JSON: data = the Value of parse(payload), and printing data gives a text that parses back to data *)
Definition carries (A : absfns) (f : frame) (e : pev) : Prop :=
  match f with
  | FDelta _ _ => False
  | FProv _ st ev raw data _ _ =>
    st = pe_kind e /\ ev = pe_event e /\
    ((st = 0 /\ raw = Some (pe_raw e) /\ data = None /\ pe_raw e = S_DONE)
     \/ (st = 1 /\ raw = Some (pe_raw e) /\ data = None /\
         (parse_value_of A (pe_raw e) = None
          \/ exists v, parse_value_of A (pe_raw e) = Some v /\ (MAX_PAYLOAD_NESTING < json_depth v)%nat))
     \/ (st = 2 /\ raw = None /\
         exists j v, parse (pe_raw e) = Some j /\ canon A j = Some v /\ data = Some v /\ parse (print v) = Some v))
  end.

Lemma carries_prov_frame A s e : fmt_ok A -> ev_wf (jclassify A) e -> carries A (prov_frame s e) e.
Proof.
  intros HA (ev & raw & ->). unfold parse_event.
  destruct (lN_eqb raw S_DONE) eqn:Ed.
  - apply lN_eqb_spec in Ed. cbn. repeat split. left. repeat split. exact Ed.
  - destruct (jclassify A ev raw) as [errs|v errs rerrs dl] eqn:Ec.
    + cbn. repeat split. right. left. repeat split.
      destruct (jclassify_invalid _ _ _ _ Ec) as [[H _]|(v & H1 & H2 & _)]; [left; exact H|right; exists v; auto].
    + cbn. repeat split. right. right. repeat split.
      destruct (jclassify_event _ _ _ _ _ _ _ HA Ec) as ((j & Hp & Hc) & Hr & _).
      exists j, v. auto.
Qed.

Lemma Forall2_of_maps {X Y Z} (f : X -> Z) (g : Y -> Z) l1 : forall l2,
  map f l1 = map g l2 -> Forall2 (fun x y => f x = g y) l1 l2.
Proof.
  induction l1 as [|x l1 IH]; intros [|y l2] H; try discriminate; constructor.
  - cbn [map] in H. injection H as H _. exact H.
  - apply IH. cbn [map] in H. injection H as _ H. exact H.
Qed.

Lemma Forall2_with_r {X Y} (R Q : X -> Y -> Prop) (P : Y -> Prop) l1 l2 :
  Forall2 R l1 l2 -> Forall P l2 -> (forall x y, R x y -> P y -> Q x y) -> Forall2 Q l1 l2.
Proof.
  intros H. induction H as [|x y l1 l2 Hxy _ IH]; intros HP HQ; [constructor|].
  inversion HP as [|? ? Py Pl]; subst. constructor; auto.
Qed.

(* the provider frames of any chunked run, paired in order with the server-sent events of the body *)
Theorem payload_unchanged A off cs : fmt_ok A ->
  Forall2 (carries A)
    (filter is_prov (frames_of (jclassify A) FIXED off cs))
    (upto_done (events_spec (jclassify A) (lossy_text (concat cs)))).
Proof.
  intros HA. pose proof (one_frame_per_event (jclassify A) off cs) as H.
  apply Forall2_of_maps in H.
  eapply Forall2_with_r; [exact H | apply events_wf |].
  intros f e Hfe Hwf. pose proof (carries_prov_frame A 0 e HA Hwf) as C. rewrite <- Hfe in C.
  destruct f; exact C.
Qed.

(* the text delta a provider frame's data holds *)
Definition data_delta (f : frame) : str :=
  match f with
  | FProv _ _ _ _ (Some v) _ _ => match text_delta v with Some d => d | None => [] end
  | _ => []
  end.

Lemma output_text_data cl evs :
  (forall ev raw v errs rerrs dl, cl ev raw = CEvent v errs rerrs dl -> dl = text_delta v) ->
  Forall (ev_wf cl) evs ->
  forall s0, output_text (frames_from s0 evs) = concat (map data_delta (filter is_prov (frames_from s0 evs))).
Proof.
  intros Hcl H. induction H as [|e evs (ev & raw & ->) _ IH]; intros s0; [reflexivity|].
  cbn [frames_from]. rewrite filter_app, map_app, concat_app.
  rewrite output_text_app, IH. f_equal. clear IH.
  unfold parse_event. destruct (lN_eqb raw S_DONE); [reflexivity|].
  destruct (cl ev raw) as [errs|v errs rerrs dl] eqn:Ec; [reflexivity|].
  rewrite (Hcl _ _ _ _ _ _ Ec). unfold ev_frames, prov_frame. cbn [pe_delta pe_kind pe_data pe_event pe_err pe_rerr].
  change (2 =? 2) with true. cbv iota.
  destruct (text_delta v) as [d|] eqn:Ed; cbn [app filter is_prov map data_delta concat output_text]; rewrite ?Ed, ?app_nil_r; reflexivity.
Qed.

(* the output text of a run = the concatenation, over its provider frames in order, of the text delta each one holds *)
Theorem text_is_concat_of_deltas A off cs :
  output_text (frames_of (jclassify A) FIXED off cs)
  = concat (map data_delta (filter is_prov (frames_of (jclassify A) FIXED off cs))).
Proof.
  rewrite frames_of_whole. unfold frames_whole. apply (output_text_data (jclassify A)); [|apply events_wf].
  intros ev raw v errs rerrs dl H. exact (proj1 (proj2 (proj2 (jclassify_event_parts _ _ _ _ _ _ _ H)))).
Qed.

(* stream_transformers::extract_text_deltas reads the same text from the provider frames alone, unless a payload
   WITHOUT a string `type` but with a string `delta` arrives under the SSE event name "response.output_text.delta":
   the library helper then falls back to the event name, the mapper never does *)
Definition typed_or_unnamed (e : pev) : Prop :=
  match pe_data e with
  | Some v => pe_event e = Some S_OTD -> get_str S_TYPE v = None -> get_str S_DELTA v = None
  | None => True
  end.

Lemma frame_text_delta_event s ev raw v errs rerrs :
  frame_text_delta (FProv s 2 ev raw (Some v) errs rerrs) =
  match get_str S_TYPE v with
  | Some t => if str_eqb t S_OTD then get_str S_DELTA v else None
  | None => match ev with
            | Some n => if str_eqb n S_OTD then get_str S_DELTA v else None
            | None => None
            end
  end.
Proof.
  unfold frame_text_delta, frame_event_type, get_str. change (2 =? 2) with true. cbv iota.
  destruct v as [| | | |l|kvs]; try (destruct ev as [n|]; [destruct (str_eqb n S_OTD)|]; reflexivity).
  destruct (assoc S_TYPE kvs) as [[| | |t| |]|]; try (destruct ev as [n|]; [destruct (str_eqb n S_OTD)|]; reflexivity).
Qed.

Lemma extract_frames_from A evs : forall s,
  Forall (ev_wf (jclassify A)) evs -> Forall typed_or_unnamed evs ->
  concat (extract_text_deltas (frames_from s evs)) = output_text (frames_from s evs).
Proof.
  induction evs as [|e evs IH]; intros s Hwf Hty; [reflexivity|].
  inversion Hwf as [|? ? (ev & raw & He) Hwf']; subst. inversion Hty as [|? ? Hte Hty']; subst.
  cbn [frames_from]. unfold extract_text_deltas in *. rewrite flat_map_app, concat_app, output_text_app, IH by assumption. f_equal. clear IH Hwf Hty Hwf' Hty'.
  unfold parse_event in *. destruct (lN_eqb raw S_DONE); [reflexivity|].
  destruct (jclassify A ev raw) as [errs|v errs rerrs dl] eqn:Ec; [reflexivity|].
  destruct (jclassify_event_parts _ _ _ _ _ _ _ Ec) as (_ & _ & -> & _).
  unfold typed_or_unnamed in Hte. cbn [pe_data pe_event] in Hte.
  unfold ev_frames, prov_frame. cbn [pe_delta pe_kind pe_data pe_event pe_err pe_rerr]. change (2 =? 2) with true. cbv iota.
  assert (F : frame_text_delta (FProv s 2 ev None (Some v) errs rerrs) = text_delta v).
  { rewrite frame_text_delta_event. unfold text_delta. destruct (get_str S_TYPE v) as [t|]; [reflexivity|].
    destruct ev as [n|]; [|reflexivity]. destruct (str_eqb n S_OTD) eqn:En; [|reflexivity].
    apply JsonProofs.str_eqb_spec in En. subst n. apply Hte; reflexivity. }
  destruct (text_delta v) as [d|] eqn:Ed; unfold extract_text_deltas; cbn [flat_map]; rewrite F; cbn; rewrite ?app_nil_r; reflexivity.
Qed.

Theorem extractor_agrees A off cs :
  Forall typed_or_unnamed (upto_done (events_spec (jclassify A) (lossy_text (concat cs)))) ->
  concat (extract_text_deltas (frames_of (jclassify A) FIXED off cs)) = output_text (frames_of (jclassify A) FIXED off cs).
Proof. intros H. rewrite frames_of_whole. apply (extract_frames_from A); [apply events_wf|exact H]. Qed.

(* T1: the model's line rule is the interpreter of the rule table the extractor reads *)
Lemma line_step_is_rules cl s l : line_step cl s l = line_step_gen cl LINE_RULES CR s l.
Proof. reflexivity. Qed.

(* The Value is canonical: canon is idempotent on its own output.  First, str_cmp is a strict total order. *)
Lemma str_cmp_eq a : forall b, str_cmp a b = Eq <-> a = b.
Proof.
  induction a as [|x a IH]; intros [|y b]; cbn [str_cmp]; try (split; [discriminate|discriminate]); [split; reflexivity|].
  destruct (x ?= y) eqn:E.
  - apply N.compare_eq in E. subst y. rewrite IH. split; [intros ->; reflexivity|intros H; injection H as H; exact H].
  - split; [discriminate|]. intros H. injection H as H _. subst y. rewrite N.compare_refl in E. discriminate.
  - split; [discriminate|]. intros H. injection H as H _. subst y. rewrite N.compare_refl in E. discriminate.
Qed.

Lemma str_cmp_antisym a : forall b, str_cmp b a = CompOpp (str_cmp a b).
Proof.
  induction a as [|x a IH]; intros [|y b]; cbn [str_cmp]; try reflexivity.
  rewrite (N.compare_antisym x y). destruct (x ?= y); cbn [CompOpp]; [apply IH|reflexivity|reflexivity].
Qed.

Lemma str_cmp_trans a : forall b c, str_cmp a b = Lt -> str_cmp b c = Lt -> str_cmp a c = Lt.
Proof.
  induction a as [|x a IH]; intros [|y b] [|z c]; cbn [str_cmp]; try discriminate; try reflexivity.
  destruct (x ?= y) eqn:E1; destruct (y ?= z) eqn:E2; intros H1 H2; try discriminate.
  - apply N.compare_eq in E1, E2. subst. rewrite N.compare_refl. eapply IH; eassumption.
  - apply N.compare_eq in E1. subst. rewrite E2. reflexivity.
  - apply N.compare_eq in E2. subst. rewrite E1. reflexivity.
  - rewrite (N.lt_trans x y z E1 E2 : (x ?= z) = Lt). reflexivity.
Qed.

(* keys strictly ascending *)
Fixpoint keys_sorted (kvs : list (str * json)) : Prop :=
  match kvs with
  | [] => True
  | (k, _) :: r => match r with [] => True | (k', _) :: _ => str_cmp k k' = Lt end /\ keys_sorted r
  end.
Definition all_below (k : str) (kvs : list (str * json)) : Prop := Forall (fun kv => str_cmp (fst kv) k = Lt) kvs.

Lemma keys_sorted_head_below k v r : keys_sorted ((k, v) :: r) -> Forall (fun kv => str_cmp k (fst kv) = Lt) r.
Proof.
  revert k v. induction r as [|[k' v'] r IH]; intros k v H; [constructor|].
  cbn [keys_sorted] in H. destruct H as [H1 H2]. constructor; [exact H1|].
  specialize (IH k' v' H2). eapply Forall_impl; [|exact IH]. intros kv Hkv. eapply str_cmp_trans; eassumption.
Qed.

Lemma obj_insert_sorted k v m : keys_sorted m -> keys_sorted (obj_insert k v m).
Proof.
  induction m as [|[k' v'] m IH]; intros H; cbn [obj_insert]; [cbn; auto|].
  destruct (str_cmp k k') eqn:E.
  - apply str_cmp_eq in E. subst k'. cbn [keys_sorted] in *. exact H.
  - cbn [keys_sorted] in *. split; [exact E|exact H].
  - cbn [keys_sorted] in H. destruct H as [H1 H2]. specialize (IH H2).
    assert (G : str_cmp k' k = Lt) by (rewrite str_cmp_antisym, E; reflexivity).
    destruct m as [|[k2 v2] m]; cbn [obj_insert] in *.
    + cbn [keys_sorted]. auto.
    + destruct (str_cmp k k2) eqn:E2; cbn [keys_sorted] in *.
      * apply str_cmp_eq in E2. subst k2. split; [exact G|exact IH].
      * split; [exact G|exact IH].
      * split; [exact H1|exact IH].
Qed.

(* inserting a key above all present ones appends *)
Lemma obj_insert_above k v m : all_below k m -> obj_insert k v m = m ++ [(k, v)].
Proof.
  induction m as [|[k' v'] m IH]; intros H; [reflexivity|].
  inversion H as [|? ? H1 H2]; subst. cbn [fst] in H1. cbn [obj_insert app].
  rewrite str_cmp_antisym, H1. cbn [CompOpp]. rewrite IH by exact H2. reflexivity.
Qed.

Section Canonical.
Variable A : absfns.
(* the printer's output is a fixpoint of the number normalisation ("100.0" is re-spelled "100.0") *)
Definition fmt_idem : Prop := forall t t', a_fmt_float A t = Some t' -> norm_num A t' = Some t'.

Fixpoint canonical (j : json) : Prop :=
  match j with
  | JNum t => norm_num A t = Some t
  | JArr l => (fix go (l : list json) : Prop := match l with [] => True | x :: r => canonical x /\ go r end) l
  | JObj kvs => keys_sorted kvs
                /\ (fix go (l : list (str * json)) : Prop := match l with [] => True | (_, x) :: r => canonical x /\ go r end) kvs
  | _ => True
  end.
Definition all_canonical (l : list json) : Prop := Forall canonical l.
Definition vals_canonical (kvs : list (str * json)) : Prop := Forall (fun kv => canonical (snd kv)) kvs.

Lemma canonical_arr l : canonical (JArr l) <-> all_canonical l.
Proof.
  cbn [canonical]. induction l as [|x l IH]; [split; [constructor|auto]|].
  split.
  - intros [H1 H2]. constructor; [exact H1|apply IH; exact H2].
  - intros H. inversion H as [|? ? H1 H2]; subst. split; [exact H1|apply IH; exact H2].
Qed.
Lemma canonical_obj kvs : canonical (JObj kvs) <-> keys_sorted kvs /\ vals_canonical kvs.
Proof.
  cbn [canonical]. apply and_iff_compat_l. induction kvs as [|[k x] l IH]; [split; [constructor|auto]|].
  split.
  - intros [H1 H2]. constructor; [exact H1|apply IH; exact H2].
  - intros H. inversion H as [|? ? H1 H2]; subst. split; [exact H1|apply IH; exact H2].
Qed.

Lemma obj_insert_vals k v m : canonical v -> vals_canonical m -> vals_canonical (obj_insert k v m).
Proof.
  intros Hv. induction m as [|[k' v'] m IH]; intros Hm; cbn [obj_insert].
  - constructor; [exact Hv|constructor].
  - inversion Hm as [|? ? H1 H2]; subst. unfold vals_canonical in *.
    destruct (str_cmp k k'); [constructor; [exact Hv|exact H2] | constructor; [exact Hv|exact Hm] | constructor; [exact H1|exact (IH H2)]].
Qed.

Lemma canon_canonical : fmt_idem -> forall j v, canon A j = Some v -> canonical v.
Proof.
  (* canon_out with nothing asked of the input: P := fun _ => True *)
  intros HA. enough (G : forall j v, canon A j = Some v -> True -> canonical v) by (intros j v Hc; exact (G j v Hc I)).
  apply (canon_out A (fun _ => True) canonical); try exact (fun _ => I); try exact I.
  - intros t t' E _. cbn [canonical]. unfold norm_num in *. destruct (plain_int t) eqn:P.
    + injection E as <-. rewrite P. reflexivity.
    + exact (HA _ _ E).
  - intros l _. apply Forall_forall. auto.
  - intros kvs _. apply Forall_forall. auto.
  - apply canonical_arr.
  - split; exact I.
  - intros k v m Hv Hm. apply canonical_obj in Hm as [Hs Hm]. apply canonical_obj.
    split; [apply obj_insert_sorted; exact Hs|apply obj_insert_vals; assumption].
Qed.

Lemma canon_of_canonical : forall v, canonical v -> canon A v = Some v.
Proof.
  induction v as [| b | t | s | l IH | kvs IH] using JsonProofs.json_ind'; intros Hc; try reflexivity.
  - cbn [canon canonical] in *. rewrite Hc. reflexivity.
  - rewrite canon_arr. apply canonical_arr in Hc.
    assert (E : canon_list A l = Some l).
    { induction IH as [|x l Hx _ IHl]; [reflexivity|]. inversion Hc as [|? ? H1 H2]; subst.
      cbn [canon_list]. rewrite (Hx H1), (IHl H2). reflexivity. }
    rewrite E. reflexivity.
  - rewrite canon_obj. apply canonical_obj in Hc. destruct Hc as [Hs Hv].
    assert (G : forall acc, (forall kv, In kv kvs -> all_below (fst kv) acc) -> canon_members A kvs acc = Some (acc ++ kvs)).
    { clear - IH Hs Hv. induction IH as [|[k x] r Hx _ IHr]; intros acc Hb; [rewrite app_nil_r; reflexivity|].
      inversion Hv as [|? ? H1 H2]; subst. cbn [snd] in *. cbn [canon_members]. rewrite (Hx H1).
      rewrite obj_insert_above by (apply (Hb (k, x)); left; reflexivity).
      pose proof (keys_sorted_head_below _ _ _ Hs) as Hh.
      rewrite IHr.
      - rewrite <- app_assoc. reflexivity.
      - cbn [keys_sorted] in Hs. exact (proj2 Hs).
      - exact H2.
      - intros kv Hin. apply Forall_app. split; [apply Hb; right; exact Hin|].
        constructor; [|constructor]. cbn [fst]. rewrite Forall_forall in Hh. exact (Hh kv Hin). }
    rewrite (G []); [reflexivity|]. intros kv _. constructor.
Qed.

(* the data of a frame, printed and read back by serde_json, is the same Value *)
Theorem value_round_trip : fmt_ok A -> fmt_idem -> forall ev raw v errs rerrs dl,
  jclassify A ev raw = CEvent v errs rerrs dl -> parse_value_of A (print v) = Some v.
Proof.
  intros H1 H2 ev raw v errs rerrs dl Hc.
  destruct (jclassify_event _ _ _ _ _ _ _ H1 Hc) as ((j & Hp & Hcan) & Hr & _).
  unfold parse_value_of. rewrite Hr. apply canon_of_canonical. eapply canon_canonical; eassumption.
Qed.
End Canonical.

Lemma canon_ext A B : (forall t, a_fmt_float A t = a_fmt_float B t) -> forall j, canon A j = canon B j.
Proof.
  intros H. induction j as [| b | t | s | l IH | kvs IH] using JsonProofs.json_ind'; try reflexivity.
  - cbn [canon]. unfold norm_num. rewrite H. reflexivity.
  - rewrite !canon_arr. f_equal. induction IH as [|x l Hx _ IHl]; [reflexivity|].
    cbn [canon_list]. rewrite Hx, IHl. reflexivity.
  - rewrite !canon_obj. f_equal.
    assert (G : forall acc, canon_members A kvs acc = canon_members B kvs acc).
    { induction IH as [|[k x] r Hx _ IHr]; intros acc; [reflexivity|].
      cbn [canon_members]. cbn [snd] in Hx. rewrite Hx. destruct (canon B x); [apply IHr|reflexivity]. }
    apply G.
Qed.

Definition same_but_mode (A B : absfns) : Prop :=
  (forall r, a_json_err A r = a_json_err B r) /\ (forall t, a_fmt_float A t = a_fmt_float B t).

(* strict or compat validation: same status, same raw / data, same text delta — only errors / response_errors can differ *)
Theorem mode_only_errors A B ev raw : same_but_mode A B ->
  match jclassify A ev raw, jclassify B ev raw with
  | CInvalid e, CInvalid e' => e = e'
  | CEvent v _ _ d, CEvent v' _ _ d' => v = v' /\ d = d'
  | _, _ => False
  end.
Proof.
  intros [He Hf]. unfold jclassify, parse_value_of. destruct (JsonParse.parse raw) as [j|].
  - rewrite (canon_ext A B Hf j). destruct (canon B j) as [v|].
    + destruct (MAX_PAYLOAD_NESTING <? json_depth v)%nat; [reflexivity|split; reflexivity].
    + rewrite He. reflexivity.
  - rewrite He. reflexivity.
Qed.

(* one block of field lines = at most one event, whatever the lines are *)
(* the value of a `data:` line / the effect of an `event:` line, as SseDecoder::push reads them *)
Definition line_data (l : str) : list str :=
  match Sse.strip_prefix S_EVENT (trim_end_cr l) with
  | Some _ => []
  | None => match Sse.strip_prefix S_DATA (trim_end_cr l) with Some r => [trim_start r] | None => [] end
  end.
Definition line_event (ev : option str) (l : str) : option str :=
  match Sse.strip_prefix S_EVENT (trim_end_cr l) with
  | Some r => match trim r with [] => None | v => Some v end
  | None => ev
  end.
Definition block_data (block : list str) : list str := flat_map line_data block.
Definition block_event (ev0 : option str) (block : list str) : option str := fold_left line_event block ev0.
(* a line that ends a block: empty once the trailing CRs are gone *)
Definition is_blank (l : str) : bool := match trim_end_cr l with [] => true | _ => false end.

Lemma line_step_nonblank cl ev acc l : is_blank l = false ->
  line_step cl (ev, acc) l = ((line_event ev l, acc ++ line_data l), []).
Proof.
  unfold is_blank, line_step, line_event, line_data. intros H.
  destruct (trim_end_cr l) as [|c t] eqn:E; [discriminate|].
  destruct (Sse.strip_prefix S_EVENT (c :: t)) as [r|].
  - cbn [fst snd]. rewrite app_nil_r. destruct (trim r); reflexivity.
  - destruct (Sse.strip_prefix S_DATA (c :: t)) as [r|]; cbn [fst snd]; [reflexivity|rewrite app_nil_r; reflexivity].
Qed.

(* a block (no blank line inside) followed by the blank line: one event iff the block has a data line (or data was
   pending), with payload = the '\n'-join of ALL its data values in order and the last event name given; comments,
   unknown fields, CR line ends and the blanks after the colon do not matter *)
Theorem block_dispatch cl block : forall ev0 acc,
  forallb (fun l => negb (is_blank l)) block = true ->
  fold_lines cl (ev0, acc) (block ++ [[]]) =
  match acc ++ block_data block with
  | [] => ((block_event ev0 block, []), [])
  | d => ((None, []), [parse_event cl (block_event ev0 block) (join_nl d)])
  end.
Proof.
  induction block as [|l block IH]; intros ev0 acc H.
  - cbn [app fold_lines block_data flat_map block_event fold_left]. rewrite app_nil_r.
    unfold line_step. change (trim_end_cr []) with (@nil N). cbn [Sse.strip_prefix S_EVENT S_DATA fst snd].
    destruct acc; reflexivity.
  - cbn [forallb] in H. apply andb_true_iff in H as [H1 H2]. apply negb_true_iff in H1.
    cbn [app fold_lines]. rewrite (line_step_nonblank cl ev0 acc l H1).
    rewrite (IH (line_event ev0 l) (acc ++ line_data l) H2).
    cbn [block_data flat_map block_event fold_left]. rewrite <- app_assoc.
    fold (block_data block). fold (block_event (line_event ev0 l) block).
    destruct (acc ++ line_data l ++ block_data block); reflexivity.
Qed.

Lemma drop_while_len f l : (length (drop_while f l) <= length l)%nat.
Proof. induction l as [|x l IH]; cbn [drop_while length]; [lia|]. destruct (f x); cbn [length]; lia. Qed.

Lemma trim_end_cr_last l c : (c =? 13) = false -> trim_end_cr (l ++ [c]) = l ++ [c].
Proof. intros H. unfold trim_end_cr. rewrite rev_app_distr. cbn [rev app drop_while]. rewrite H. cbn [rev]. rewrite rev_involutive. reflexivity. Qed.

Lemma trim_end_cr_fixed_app a v : trim_end_cr v = v -> v <> [] -> trim_end_cr (a ++ v) = a ++ v.
Proof.
  intros H Hne. destruct (exists_last Hne) as (v' & c & ->).
  assert ((c =? 13) = false) as Hc.
  { destruct (c =? 13) eqn:E; [|reflexivity]. exfalso. unfold trim_end_cr in H.
    rewrite rev_app_distr in H. cbn [rev app drop_while] in H. rewrite E in H.
    apply (f_equal (@length N)) in H. rewrite rev_length, app_length in H. cbn [length] in H.
    pose proof (drop_while_len (fun c => c =? 13) (rev v')) as L. rewrite rev_length in L. lia. }
  rewrite app_assoc. apply trim_end_cr_last. exact Hc.
Qed.

(* the payload of an event is the '\n'-join of its data lines, untouched: a block of "data: v" lines.
   (no_nl v only says that each "data: v" is one line of a stream; the fold over lines does not need it.) *)
Lemma event_payload_is_joined_data cl (vals : list str) (ev : option str) :
  vals <> [] -> Forall (fun v => trim_start v = v /\ trim_end_cr v = v /\ no_nl v) vals ->
  snd (fold_lines cl (ev, []) (map (fun v => S_DATA ++ 32 :: v) vals ++ [[]]))
  = [parse_event cl ev (join_nl vals)].
Proof.
  intros Hne HF. set (block := map (fun v : list N => S_DATA ++ 32 :: v) vals).
  (* every line is a data line with value v: not blank, no event name *)
  assert (B : forallb (fun l => negb (is_blank l)) block = true /\ block_data block = vals
              /\ block_event ev block = ev).
  { subst block. clear Hne. induction HF as [|v r (H1 & H2 & _) _ (IH1 & IH2 & IH3)]; [repeat split|].
    assert (T : trim_end_cr (S_DATA ++ 32 :: v) = S_DATA ++ 32 :: v).
    { destruct v as [|v0 v']; [reflexivity|].
      change (S_DATA ++ 32 :: v0 :: v') with ((S_DATA ++ [32]) ++ v0 :: v').
      apply trim_end_cr_fixed_app; [exact H2|discriminate]. }
    cbn [map forallb block_data flat_map block_event fold_left].
    unfold is_blank at 1, line_data at 1, line_event at 2. rewrite T.
    change (Sse.strip_prefix S_EVENT (S_DATA ++ 32 :: v)) with (@None str).
    change (Sse.strip_prefix S_DATA (S_DATA ++ 32 :: v)) with (Some (32 :: v)).
    cbv beta iota. change (trim_start (32 :: v)) with (trim_start v). rewrite H1.
    repeat split; [exact IH1|cbn [app]; f_equal; exact IH2|exact IH3]. }
  destruct B as (B1 & B2 & B3). pose proof (f_equal snd (block_dispatch cl block ev [] B1)) as D.
  rewrite B2, B3 in D. destruct vals; [congruence|exact D].
Qed.

Definition demo_block : list str := [[58; 32; 99; 13]; [101; 118; 101; 110; 116; 58; 32; 32; 101; 32; 32]; [100; 97; 116; 97; 58; 120]; [105; 100; 58; 32; 49]; [100; 97; 116; 97; 58; 32; 32; 32; 121; 13; 13]].
Lemma demo_block_event :
  forallb (fun l => negb (is_blank l)) demo_block = true
  /\ block_data demo_block = [[120]; [121]] /\ block_event None demo_block = Some [101]
  /\ snd (fold_lines cls0 (None, []) (demo_block ++ [[]])) = [parse_event cls0 (Some [101]) [120; 10; 121]].
Proof. vm_compute. repeat split. Qed.

(* non-vacuity: a concrete stream through the instantiated classification *)
Definition demoA : absfns :=
  {| a_compat := true;
     a_json_err := fun _ => [107; 101; 121; 32; 109; 117; 115; 116; 32; 98; 101; 32; 97; 32; 115; 116; 114; 105; 110; 103; 32; 97; 116; 32; 108; 105; 110; 101; 32; 49; 32; 99; 111; 108; 117; 109; 110; 32; 50];
     a_fmt_float := fun t => if lN_eqb t [49; 46; 53; 48] || lN_eqb t [49; 46; 53] then Some [49; 46; 53] else None;
     a_vstream := fun _ => [];
     a_vresp := fun _ => [] |}.

Lemma demoA_fmt_ok : fmt_ok demoA.
Proof.
  intros t t' H. cbn [demoA a_fmt_float] in H. destruct (lN_eqb t _ || lN_eqb t _); [|discriminate]. injection H as <-. reflexivity.
Qed.

Lemma demoA_fmt_idem : fmt_idem demoA.
Proof.
  intros t t' H. cbn [demoA a_fmt_float] in H. destruct (lN_eqb t _ || lN_eqb t _); [|discriminate]. injection H as <-. reflexivity.
Qed.

(* CRLF and LF blocks: a text delta with an escaped character, keys out of order, a duplicate key and a value spread over
   two data lines; an event whose SSE name differs from its type; a payload that is not JSON; a payload WITHOUT a type
   under the event name of a text delta; the terminal marker; an event after it:
     event: response.output_text.delta\r
     data: {"delta":"h\u00e9","type":"response.output_text.delta",\r
     data: "n":1.50,"n":2}\r
     \r
     event: x
     data: {"type":"y"}
     
     data: {oops}
     
     event: response.output_text.delta
     data: {"delta":"typeless"}
     
     data: [DONE]
     
     data: {"after":"done"}
     
      *)
Definition demo2_body : list N :=
  [101; 118; 101; 110; 116; 58; 32; 114; 101; 115; 112; 111; 110; 115; 101; 46; 111; 117; 116; 112; 117; 116; 95; 116; 101; 120; 116; 46; 100; 101;
   108; 116; 97; 13; 10; 100; 97; 116; 97; 58; 32; 123; 34; 100; 101; 108; 116; 97; 34; 58; 34; 104; 92; 117; 48; 48; 101; 57; 34; 44;
   34; 116; 121; 112; 101; 34; 58; 34; 114; 101; 115; 112; 111; 110; 115; 101; 46; 111; 117; 116; 112; 117; 116; 95; 116; 101; 120; 116; 46; 100;
   101; 108; 116; 97; 34; 44; 13; 10; 100; 97; 116; 97; 58; 32; 34; 110; 34; 58; 49; 46; 53; 48; 44; 34; 110; 34; 58; 50; 125; 13;
   10; 13; 10; 101; 118; 101; 110; 116; 58; 32; 120; 10; 100; 97; 116; 97; 58; 32; 123; 34; 116; 121; 112; 101; 34; 58; 34; 121; 34; 125;
   10; 10; 100; 97; 116; 97; 58; 32; 123; 111; 111; 112; 115; 125; 10; 10; 101; 118; 101; 110; 116; 58; 32; 114; 101; 115; 112; 111; 110; 115;
   101; 46; 111; 117; 116; 112; 117; 116; 95; 116; 101; 120; 116; 46; 100; 101; 108; 116; 97; 10; 100; 97; 116; 97; 58; 32; 123; 34; 100; 101;
   108; 116; 97; 34; 58; 34; 116; 121; 112; 101; 108; 101; 115; 115; 34; 125; 10; 10; 100; 97; 116; 97; 58; 32; 91; 68; 79; 78; 69; 93;
   10; 10; 100; 97; 116; 97; 58; 32; 123; 34; 97; 102; 116; 101; 114; 34; 58; 34; 100; 111; 110; 101; 34; 125; 10; 10].
Definition demo2_expected : list frame :=
  [FProv 5 2 (Some S_OTD) None
     (Some (JObj [(S_DELTA, JStr [104; 233]); ([110], JNum [50]); (S_TYPE, JStr S_OTD)])) [] [];
   FDelta 6 [104; 233];
   FProv 7 2 (Some [120]) None (Some (JObj [(S_TYPE, JStr [121])]))
     [M_MIS1 ++ [120] ++ M_MIS2 ++ [121] ++ M_MIS3] [];
   FProv 8 1 None (Some [123; 111; 111; 112; 115; 125]) None [a_json_err demoA []] [];
   FProv 9 2 (Some S_OTD) None (Some (JObj [(S_DELTA, JStr [116; 121; 112; 101; 108; 101; 115; 115])])) [] [];
   FProv 10 0 None (Some S_DONE) None [] []].

Lemma demo2_nontrivial :
  frames_of (jclassify demoA) FIXED 5 [demo2_body] = demo2_expected
  /\ frames_of (jclassify demoA) FIXED 5 (map (fun b => [b]) demo2_body) = demo2_expected
  /\ output_text demo2_expected = [104; 233]
  /\ Forall2 (carries demoA) (filter is_prov demo2_expected)
       (upto_done (events_spec (jclassify demoA) (lossy_text demo2_body))).
Proof.
  assert (E : frames_of (jclassify demoA) FIXED 5 [demo2_body] = demo2_expected) by (vm_compute; reflexivity).
  split; [exact E|]. split; [vm_compute; reflexivity|]. split; [reflexivity|].
  rewrite <- E. replace demo2_body with (concat [demo2_body]) at 2 by (cbn [concat]; apply app_nil_r).
  apply payload_unchanged. exact demoA_fmt_ok.
Qed.

(* without the hypothesis of extractor_agrees the two readings differ: the typeless payload above *)
Lemma extractor_agrees_unconditional_refuted :
  exists A off cs,
    concat (extract_text_deltas (frames_of (jclassify A) FIXED off cs)) <> output_text (frames_of (jclassify A) FIXED off cs).
Proof. exists demoA, 5, [demo2_body]. vm_compute. discriminate. Qed.

(* the hypothesis of seq_no_wrap is satisfiable at the very top of the range, and needed: one more overflows *)
Definition top_run (off : N) : list frame * N := run_pipe (jclassify demoA) FIXED off [demo2_body] None.
Lemma seq_top_of_range :
  nlen (fst (top_run (TWO64 - 1 - 6))) = 6
  /\ wrap_run (top_run (TWO64 - 1 - 6)) = top_run (TWO64 - 1 - 6) /\ run_overflows (top_run (TWO64 - 1 - 6)) = false
  /\ run_overflows (top_run (TWO64 - 6)) = true
  /\ wrap_run (top_run (TWO64 - 6)) <> top_run (TWO64 - 6).
Proof.
  (* the concrete run enters only through its number of frames; the rest is seq_no_wrap / seq_overflow_iff.
     top_run is unfolded first so that no conversion has to evaluate a run. *)
  unfold top_run.
  assert (L : forall off, nlen (fst (run_pipe (jclassify demoA) FIXED off [demo2_body] None)) = 6).
  { intros off. rewrite run_pipe_len. vm_compute. reflexivity. }
  pose proof (seq_no_wrap (jclassify demoA) (TWO64 - 1 - 6) [demo2_body] None) as NW.
  pose proof (seq_overflow_iff (jclassify demoA) (TWO64 - 6) [demo2_body] None) as OV.
  pose proof (run_pipe_shape (jclassify demoA) (TWO64 - 6) [demo2_body] None) as [_ SQ].
  rewrite L in NW, OV, SQ.
  split; [apply L|]. destruct NW as [W O]; [reflexivity|]. split; [exact W|]. split; [exact O|].
  split; [apply OV|apply wrap_run_neq; rewrite SQ]; discriminate.
Qed.
