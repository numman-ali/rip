(* C20 — the headless Output view, for every frame sequence up to the first session_ended: when at least one
   text delta was seen it prints exactly the concatenated deltas (+ a final newline when missing); otherwise the
   fallback text, which starts with the buffered tool stdout. *)
From RipV Require Import Base.Prelude Model.Headless.

Definition delta_of (k : hk) : str := match k with HDelta d => d | _ => [] end.
Definition is_delta (k : hk) : bool := match k with HDelta _ => true | _ => false end.
Definition is_ended (k : hk) : bool := match k with HEnded => true | _ => false end.
Definition deltas (ks : list hk) : str := concat (map delta_of ks).

Lemma last_opt_app (a b : str) :
  last_opt (a ++ b) = match last_opt b with Some c => Some c | None => last_opt a end.
Proof.
  unfold last_opt. rewrite rev_app_distr. destruct (rev b) as [|c r] eqn:E; cbn; reflexivity.
Qed.

(* the [tnl] flag after the text d has been printed, as the HDelta arm of observe_frame updates it *)
Definition tnl_after (t0 : bool) (d : str) : bool :=
  match last_opt d with Some c => c =? 10 | None => t0 end.

Lemma tnl_after_app t0 a b : tnl_after (tnl_after t0 a) b = tnl_after t0 (a ++ b).
Proof. unfold tnl_after. rewrite last_opt_app. destruct (last_opt b); reflexivity. Qed.

(* the state after the frames pre *)
Definition after (s : hst) (pre : list hk) : hst := fold_left (fun s k => fst (observe_frame s k)) pre s.
Definition stdouts (pre : list hk) : str :=
  concat (map (fun k => match k with HToolStdout c => c | _ => [] end) pre).

Lemma run_split s pre rest :
  forallb (fun k => negb (is_ended k)) pre = true ->
  run s (pre ++ HEnded :: rest) = deltas pre ++ final_text (after s pre).
Proof.
  revert s. induction pre as [|k pre IH]; intros s Hne.
  - cbn. reflexivity.
  - cbn [forallb] in Hne. apply andb_true_iff in Hne as [Hk Hne].
    unfold after, deltas. cbn [app run fold_left map concat].
    unfold step. destruct (observe_frame s k) as [s1 w] eqn:Eo. cbn [fst].
    assert (w = delta_of k) as ->.
    { destruct k; cbn in Eo; inversion Eo; reflexivity. }
    destruct k; try discriminate Hk; rewrite (IH _ Hne); unfold after, deltas; rewrite <- ?app_assoc; reflexivity.
Qed.

Lemma after_saw s pre : saw (after s pre) = saw s || existsb is_delta pre.
Proof.
  revert s. induction pre as [|k pre IH]; intros s; unfold after; cbn [fold_left existsb].
  - rewrite orb_false_r. reflexivity.
  - fold (after (fst (observe_frame s k)) pre). rewrite IH.
    destruct k; cbn [observe_frame fst is_delta]; destruct (saw s) eqn:Es; cbn [saw]; rewrite ?Es; reflexivity.
Qed.

Lemma after_tnl s pre : tnl (after s pre) = tnl_after (tnl s) (deltas pre).
Proof.
  revert s. induction pre as [|k pre IH]; intros s; unfold after, deltas; cbn [fold_left map concat].
  - unfold tnl_after, last_opt. reflexivity.
  - fold (after (fst (observe_frame s k)) pre). rewrite IH. fold (deltas pre).
    destruct k; cbn [observe_frame fst delta_of app]; try (destruct (saw s); reflexivity); try reflexivity.
    cbn [tnl]. fold (tnl_after (tnl s) d). apply tnl_after_app.
Qed.

Lemma after_tout s pre :
  saw s = false -> existsb is_delta pre = false -> tout (after s pre) = tout s ++ stdouts pre.
Proof.
  revert s. induction pre as [|k pre IH]; intros s Hs Hd; unfold after, stdouts; cbn [fold_left map concat].
  - rewrite app_nil_r. reflexivity.
  - fold (after (fst (observe_frame s k)) pre). fold (stdouts pre).
    cbn [existsb] in Hd. apply orb_false_iff in Hd as [Hk Hd].
    destruct k; try discriminate Hk; cbn [observe_frame fst]; rewrite ?Hs;
      (rewrite IH; [| cbn [saw]; assumption | assumption]); cbn [tout]; rewrite <- ?app_assoc; reflexivity.
Qed.

Theorem headless_output_is_deltas pre rest :
  forallb (fun k => negb (is_ended k)) pre = true -> existsb is_delta pre = true ->
  headless_output (pre ++ HEnded :: rest)
  = deltas pre ++ (if ends_nl (deltas pre) then [] else [10]).
Proof.
  intros Hne Hd. unfold headless_output. rewrite (run_split _ _ _ Hne). f_equal.
  unfold final_text. rewrite after_saw, Hd, after_tnl. cbn [h0 saw tnl orb].
  unfold tnl_after, ends_nl. destruct (last_opt (deltas pre)); reflexivity.
Qed.

(* frames after the first session_ended never influence the output *)
Theorem headless_ignores_after_end pre rest1 rest2 :
  forallb (fun k => negb (is_ended k)) pre = true ->
  headless_output (pre ++ HEnded :: rest1) = headless_output (pre ++ HEnded :: rest2).
Proof.
  intros Hne. unfold headless_output. rewrite !(run_split _ _ _ Hne). reflexivity.
Qed.

(* with no text delta, the buffered tool stdout is what gets shown first *)
Theorem headless_fallback_starts_with_tool_stdout pre rest :
  forallb (fun k => negb (is_ended k)) pre = true -> existsb is_delta pre = false ->
  exists tail, headless_output (pre ++ HEnded :: rest) = stdouts pre ++ tail.
Proof.
  intros Hne Hd. unfold headless_output. rewrite (run_split _ _ _ Hne).
  assert (deltas pre = []) as ->.
  { clear -Hd. unfold deltas. induction pre as [|k pre IH]; [reflexivity|].
    cbn [existsb] in Hd. apply orb_false_iff in Hd as [Hk Hd]. destruct k; try discriminate Hk; cbn; auto. }
  cbn [app]. unfold final_text. rewrite after_saw, Hd. cbn [h0 saw orb].
  rewrite (after_tout h0 pre eq_refl Hd). cbn [h0 tout app]. eexists. reflexivity.
Qed.

Example headless_demo :
  headless_output [HToolStdout [120]; HDelta [104; 105]; HOther; HDelta []; HEnded; HDelta [33]] = [104; 105; 10].
Proof. vm_compute. reflexivity. Qed.
