(* C18 — witnesses on Model/Authority.v: the schedules that refute the full statements, and runs that meet the hypotheses of
   the positive theorems *)
From RipV Require Import Base.Prelude Model.Authority Proofs.AuthorityInv Proofs.AuthorityLive Proofs.AuthorityTake.

Definition two_servers : list proc := [fresh 1 DServer; fresh 2 DServer].
Definition rep (n : nat) (i : nat) (o : N) : list event := repeat (Step i o) n.

(* S13: stale lock of the dead pid 900; both loops pass the re-read, A renames and acquires, B renames A's lock *)
Definition s13_sched : list event := rep 6 0 0 ++ rep 6 1 0 ++ rep 4 0 0 ++ rep 4 1 0.
Definition s13_final := run true (init (LRec 900) MAbsent two_servers) s13_sched.

Lemma s13_two_holders : holders s13_final = [1; 2] /\ s_took_lock s13_final = true.
Proof. vm_compute. split; reflexivity. Qed.

(* S13b: half-written lock of the dead creator 900, both loops saw it invalid for > 1 s (grace bit; the creator is
   dead, so the grace assumption holds); A cleans and acquires, B's cleanup renames A's valid lock *)
Definition s13b_sched : list event :=
  rep 2 0 0 ++ [Step 0 2] ++ rep 2 1 0 ++ [Step 1 2] ++ rep 5 0 0 ++ rep 5 1 0.
Definition s13b_final := run true (init (LHalf 900) MAbsent two_servers) s13b_sched.
Lemma s13b_two_holders : holders s13b_final = [1; 2] /\ s_took_lock s13b_final = true.
Proof. vm_compute. split; reflexivity. Qed.

(* S13c: one cleaner, one acquirer: the cleaner read the dead authority's meta, the new authority published its
   own, the cleaner renames that one *)
Definition s13c_sched : list event := rep 9 0 0 ++ rep 5 1 0 ++ rep 1 0 0.
Definition s13c_final := run true (init (LRec 900) (MRec 900) two_servers) s13c_sched.
Lemma s13c_meta_taken :
  holders s13c_final = [2] /\ s_lock s13c_final = LRec 2 /\ s_meta s13c_final = MAbsent
  /\ s_took_meta s13c_final = true /\ s_took_lock s13c_final = false.
Proof. vm_compute. repeat split; reflexivity. Qed.

(* without the grace assumption: A is between create and write, B's timer fires, B cleans and acquires, A's write
   lands in the renamed inode and try_acquire returns Ok *)
Definition grace_sched : list event := [Step 0 0] ++ rep 2 1 0 ++ [Step 1 2] ++ rep 5 1 0 ++ [Step 0 0].
Definition grace_final (ag : bool) := run ag (init LAbsent MAbsent two_servers) grace_sched.
Lemma grace_needed : holders (grace_final false) = [1; 2] /\ holders (grace_final true) = [1].
Proof. vm_compute. split; reflexivity. Qed.

Definition s13_init := init (LRec 900) MAbsent two_servers.
Definition s13b_init := init (LHalf 900) MAbsent two_servers.
Definition s13c_init := init (LRec 900) (MRec 900) two_servers.
Definition empty_init := init LAbsent MAbsent two_servers.

Lemma mutex_all_schedules_refuted :
  exists sched : list event,
    holders (run true s13_init sched) = [1; 2] /\ s_took_lock (run true s13_init sched) = true.
Proof. exists s13_sched. vm_compute. split; reflexivity. Qed.

Lemma corrupt_cleanup_race_refuted :
  exists sched : list event,
    holders (run true s13b_init sched) = [1; 2] /\ s_took_lock (run true s13b_init sched) = true.
Proof. exists s13b_sched. vm_compute. split; reflexivity. Qed.

Lemma meta_of_live_authority_taken_refuted :
  exists sched : list event,
    holders (run true s13c_init sched) = [2] /\ s_lock (run true s13c_init sched) = LRec 2
    /\ s_meta (run true s13c_init sched) = MAbsent
    /\ s_took_meta (run true s13c_init sched) = true /\ s_took_lock (run true s13c_init sched) = false.
Proof. exists s13c_sched. vm_compute. repeat split; reflexivity. Qed.

Lemma corrupt_cleanup_needs_grace :
  exists sched : list event,
    holders (run false empty_init sched) = [1; 2] /\ holders (run true empty_init sched) = [1].
Proof. exists grace_sched. vm_compute. split; reflexivity. Qed.

Lemma two_servers_ok l m :
  (forall p, lock_pid l = Some p -> p = 900) -> (forall p, meta_pid m = Some p -> p = 900) ->
  init_ok l m two_servers.
Proof.
  intros Hl Hm. split; [|split; [|split]].
  - cbn. repeat constructor; cbn; intuition discriminate.
  - intros q [<-|[<-|[]]]; left; [left|left]; reflexivity.
  - intros p E A. rewrite (Hl p E) in A. vm_compute in A. discriminate.
  - intros p E A. rewrite (Hm p E) in A. vm_compute in A. discriminate.
Qed.

Lemma s13_init_ok : init_ok (LRec 900) MAbsent two_servers.
Proof. apply two_servers_ok; cbn; intros p E; inversion E; reflexivity. Qed.
Lemma s13c_init_ok : init_ok (LRec 900) (MRec 900) two_servers.
Proof. apply two_servers_ok; cbn; intros p E; inversion E; reflexivity. Qed.

(* a serial recovery: server 1 breaks the dead lock, acquires, publishes meta, serves and begins its shutdown (it still
   holds: next is the removal of meta.json); then server 2 runs into the live lock and gives up.  no_overlap holds *)
Definition serial_sched : list event := rep 16 0 0 ++ rep 8 1 0.
Lemma serial_example :
  init_ok (LRec 900) (MRec 900) two_servers
  /\ no_overlap true s13c_init serial_sched = true
  /\ holders (run true s13c_init serial_sched) = [1]
  /\ s_lock (run true s13c_init serial_sched) = LRec 1 /\ s_meta (run true s13c_init serial_sched) = MRec 1.
Proof. split; [exact s13c_init_ok|]. vm_compute. repeat split; reflexivity. Qed.

(* both contenders are inside the cleanup at the same time, but the loser's rename comes before the winner's create:
   still allowed by no_overlap, still one holder *)
Definition interleaved_sched : list event := rep 6 0 0 ++ rep 6 1 0 ++ rep 1 0 0 ++ rep 1 1 0 ++ rep 12 0 0.
Lemma interleaved_example :
  no_overlap true s13_init interleaved_sched = true
  /\ (length (holders (run true s13_init interleaved_sched)) <= 1)%nat.
Proof. vm_compute. split; [reflexivity|]. repeat constructor. Qed.

(* the three witnesses are exactly what the hypothesis excludes *)
Lemma witnesses_overlap :
  no_overlap true s13_init s13_sched = false /\ no_overlap true s13b_init s13b_sched = false
  /\ no_overlap true s13c_init s13c_sched = false.
Proof. vm_compute. repeat split; reflexivity. Qed.

(* a live serving authority (pid 800) with two contenders: a well-formed leftover state *)
Definition with_bystander : list proc := [serving 800; fresh 1 DServer; fresh 2 DClient].
Lemma bystander_ok : init_ok (LRec 800) (MRec 800) with_bystander
  /\ (forall p, lock_pid (LRec 800) = Some p -> pid_alive with_bystander p = true)
  /\ (forall p, meta_pid (MRec 800) = Some p -> pid_alive with_bystander p = true).
Proof.
  split; [|split; cbn; intros p E; inversion E; subst; reflexivity].
  split; [|split; [|split]].
  - cbn. repeat constructor; cbn; intuition discriminate.
  - intros q [<-|[<-|[<-|[]]]]; [right; split; reflexivity|left; left; reflexivity|left; right; reflexivity].
  - cbn. intros p E _. inversion E; subst. left; reflexivity.
  - cbn. intros p E _. inversion E; subst. left; reflexivity.
Qed.

Definition three_contenders : list proc := [fresh 1 DServer; fresh 2 DServer; fresh 3 DClient].
Definition race_sched : list event :=
  [Step 0 0; Step 1 0; Step 2 0; Step 0 0; Step 1 0; Step 2 0; Step 0 0; Step 1 0; Step 0 0; Step 2 0; Step 0 0; Step 1 0].
Lemma no_leftovers_example :
  contenders_ok three_contenders /\ crash_free race_sched = true
  /\ holders (run true (init LAbsent MAbsent three_contenders) race_sched) = [1].
Proof.
  split; [|vm_compute; split; reflexivity].
  split.
  - cbn. repeat constructor; cbn; intuition discriminate.
  - intros q [<-|[<-|[<-|[]]]]; [left|left|right]; reflexivity.
Qed.

(* the full statements (every schedule, every leftover state) and their refutation *)
Definition mutex_all_schedules_full : Prop :=
  forall l m ps es, init_ok l m ps -> (length (holders (run true (init l m ps) es)) <= 1)%nat.
Lemma mutex_all_schedules_full_false : ~ mutex_all_schedules_full.
Proof. intros H. pose proof (H (LRec 900) MAbsent two_servers s13_sched s13_init_ok) as X. vm_compute in X. lia. Qed.

Definition live_files_never_taken_full : Prop :=
  forall l m ps es, init_ok l m ps ->
    s_took_lock (run true (init l m ps) es) = false /\ s_took_meta (run true (init l m ps) es) = false.
Lemma live_files_never_taken_full_false : ~ live_files_never_taken_full.
Proof.
  intros H. destruct (H (LRec 900) MAbsent two_servers s13_sched s13_init_ok) as [X _]. vm_compute in X. discriminate.
Qed.

Lemma recovers_example :
  (forall q, In q two_servers -> contender q) /\ nth_error two_servers 1 = Some (fresh 2 DServer)
  /\ dead_leftover two_servers (LRec 900) (MRec 901) /\ dead_leftover two_servers (LHalf 900) (MRec 901).
Proof.
  split; [intros q [<-|[<-|[]]]; left; reflexivity|]. split; [reflexivity|].
  split; split; cbn; intros p E; inversion E; subst; reflexivity.
Qed.

(* non-vacuity of the all-schedules theorem: a run in which nothing live was taken and somebody holds; and the run without
   the timer assumption (grace_sched), where the flag is set *)
Lemma not_taken_example :
  s_took_lock (run true s13c_init serial_sched) = false /\ holders (run true s13c_init serial_sched) = [1]
  /\ s_took_lock (run false empty_init grace_sched) = true.
Proof. vm_compute. repeat split; reflexivity. Qed.

(* environment answers: 0 nothing, 2 the 1 s timer has expired, 6 timer expired and deadline passed *)
Definition bystander_sched : list event := [Step 1 0; Step 2 0; Step 1 0; Step 2 0; Crash 1; Step 2 2; Step 2 0; Step 2 6].
Lemma undisturbed_example :
  (forall q, In q [fresh 1 DServer; fresh 2 DClient] -> contender q)
  /\ (forall e, In e bystander_sched -> ev_idx e <> 0%nat).
Proof.
  split.
  - intros q [<-|[<-|[]]]; [left|right]; reflexivity.
  - intros e He. cbn in He. repeat (destruct He as [<-|He]; [cbn; lia|]). destruct He.
Qed.

(* crash_free is needed in mutex_no_leftovers: from NO files at all, one crash of the first authority turns the state into
   a dead-leftover state and the S13 race between the two other contenders follows *)
Definition three_servers : list proc := [fresh 1 DServer; fresh 2 DServer; fresh 3 DServer].
Definition crash_sched : list event := rep 2 0 0 ++ [Crash 0] ++ rep 6 1 0 ++ rep 6 2 0 ++ rep 4 1 0 ++ rep 4 2 0.
Lemma no_leftovers_needs_crash_free :
  exists sched : list event,
    holders (run true (init LAbsent MAbsent three_servers) sched) = [2; 3]
    /\ s_took_lock (run true (init LAbsent MAbsent three_servers) sched) = true.
Proof. exists crash_sched. vm_compute. split; reflexivity. Qed.
