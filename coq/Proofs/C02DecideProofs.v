(* C02: the decisions the store takes before an append (Model/C02Decide.v) and the histories in which the
   model takes them itself (Model/C02Cases.v, call3). *)
From RipV Require Import Base.Prelude Model.Frames Model.Log Model.ContStore Model.SidecarInv Model.LogBytes
  Model.NoopPlan Model.C02Decide Model.C02Cases
  Proofs.LogProofs Proofs.ContStoreProofs Proofs.SidecarInvProofs Proofs.C02CasesProofs.

Lemma exec_quiet prog st : quiet_prog prog = true -> s_log (exec prog st) = s_log st.
Proof.
  intros H. unfold exec. apply (quiet_calls_keep_log [(prog, 0)]). constructor; [exact H|constructor].
Qed.

(* the two readings of an optional filter agree on every frame that recorded the field *)
Lemma field_ok_lenient_same lenient flt x : field_ok lenient flt (Some x) = field_ok false flt (Some x).
Proof. destruct flt; reflexivity. Qed.

Lemma rot_match_lenient_same_on_full_frames rq f p e m :
  cursor_fields f = Some (p, Some e, Some m) -> rot_match true rq f = rot_match false rq f.
Proof. intros H. unfold rot_match. rewrite H. rewrite !field_ok_lenient_same. reflexivity. Qed.

Lemma rot_target_none lenient rq fs :
  (forall f, In f fs -> rot_match lenient rq f = false) -> rot_target lenient rq fs = None.
Proof.
  intros H. unfold rot_target. destruct (find (rot_match lenient rq) (rev fs)) as [f|] eqn:E; [|reflexivity].
  apply find_some in E. destruct E as [Hin Hm]. rewrite <- in_rev in Hin. rewrite (H f Hin) in Hm. discriminate.
Qed.

(* nothing of what the search reads passes the filters => nothing is appended (any state, known id or not) *)
Lemma rotate_reads_nothing_adds_nothing st known c rq :
  (forall f, In f (rotate_reads st c) -> rot_match false rq f = false) ->
  s_log (exec (rotate_prog false known c rq st) st) = s_log st.
Proof.
  intros H. apply exec_quiet. unfold rotate_prog. destruct known; [|reflexivity].
  rewrite (rot_target_none false rq _ H). reflexivity.
Qed.

(* a thread id the in-memory index does not list: not_found, nothing appended *)
Lemma rotate_unknown_adds_nothing lenient st c rq :
  s_log (exec (rotate_prog lenient false c rq st) st) = s_log st.
Proof. apply exec_quiet. reflexivity. Qed.

Lemma replay_lines_In c : forall ls e fs f,
  replay_lines c e ls = Some fs -> In f fs -> In (SGood f) ls /\ in_stream KContinuity c f = true.
Proof.
  induction ls as [|ln r IH]; intros e fs f H Hin; cbn [replay_lines] in H.
  - inversion H; subst. destruct Hin.
  - destruct (line_ok c ln) as [g|] eqn:El; [|discriminate].
    destruct (seq g =? e); [|discriminate].
    destruct (replay_lines c (e + 1) r) as [gs|] eqn:Er; cbn [option_map] in H; [|discriminate].
    inversion H; subst. destruct Hin as [Hin|Hin].
    + subst. unfold line_ok in El. destruct ln as [g'|]; [|discriminate].
      destruct (in_stream KContinuity c g') eqn:Es; [|discriminate]. inversion El; subst.
      split; [left; reflexivity|exact Es].
    + destruct (IH _ _ _ Er Hin) as [H1 H2]. split; [right; exact H1|exact H2].
Qed.

(* under SideSub everything the search reads is a frame of the thread in the truth log *)
Lemma rotate_reads_sub st c f :
  SideSub st -> In f (rotate_reads st c) -> In f (cstream c (s_log st)).
Proof.
  intros HS Hin. unfold rotate_reads, replay_events in Hin.
  destruct (try_replay c (s_side st c)) as [fs|] eqn:Et; cbn [fst] in Hin.
  - unfold try_replay in Et. destruct (s_side st c) as [ls|] eqn:Es; [|discriminate].
    destruct (replay_lines c 0 ls) as [[|g gs]|] eqn:Er; try discriminate. inversion Et; subst.
    destruct (replay_lines_In c ls 0 _ f Er Hin) as [H1 H2].
    unfold cstream, stream. apply filter_In. split; [exact (HS c ls f Es H1)|exact H2].
  - destruct (validate (s_log st)); cbn [fst] in Hin; [exact Hin|destruct Hin].
Qed.

(* THE statement: no cursor frame of the thread IN THE TRUTH LOG passes the filters => rotate appends nothing *)
Lemma rotate_nothing_in_the_log_adds_nothing st known c rq :
  SideSub st -> rotate_has_target rq c (s_log st) = false ->
  s_log (exec (rotate_prog false known c rq st) st) = s_log st.
Proof.
  intros HS Hn. apply rotate_reads_nothing_adds_nothing. intros f Hin.
  apply (rotate_reads_sub st c f HS) in Hin. unfold rotate_has_target in Hn.
  destruct (rot_match false rq f) eqn:E; [|reflexivity].
  assert (Hex : existsb (rot_match false rq) (cstream c (s_log st)) = true).
  { apply existsb_exists. exists f. split; assumption. }
  rewrite Hex in Hn. discriminate.
Qed.

(* SideSub with the state taken apart: every line of a sidecar that parses is a frame of the log *)
Definition LinesInLog (sd : N -> option (list sline)) (l : log) : Prop :=
  forall c ls f, sd c = Some ls -> In (SGood f) ls -> In f l.

Lemma LinesInLog_app sd l x : LinesInLog sd l -> LinesInLog sd (l ++ x).
Proof. intros H c ls f Hs Hin. apply in_or_app. left. exact (H c ls f Hs Hin). Qed.

Lemma LinesInLog_upd_stream sd l c : LinesInLog sd l -> LinesInLog (upd sd c (Some (map SGood (cstream c l)))) l.
Proof.
  intros H c' ls f Hs Hin. unfold upd in Hs. destruct (c' =? c).
  - inversion Hs; subst. apply in_map_iff in Hin. destruct Hin as (g & Hg & Hin). inversion Hg; subst.
    unfold cstream, stream in Hin. apply filter_In in Hin. tauto.
  - exact (H c' ls f Hs Hin).
Qed.

Lemma side_append_LinesInLog sd l f : LinesInLog sd l -> In f l -> LinesInLog (side_append sd f) l.
Proof.
  intros H Hf. unfold side_append.
  assert (K : LinesInLog (upd sd (sid f) (Some (match sd (sid f) with Some ls => ls | None => [] end ++ [SGood f]))) l).
  { intros c ls g Hs Hin. unfold upd in Hs. destruct (c =? sid f) eqn:E.
    - inversion Hs; subst. apply in_app_or in Hin. destruct Hin as [Hin|[Hin|[]]].
      + apply N.eqb_eq in E. subst c. destruct (sd (sid f)) as [ls0|] eqn:E0; [exact (H _ _ _ E0 Hin)|destruct Hin].
      + inversion Hin; subst. exact Hf.
    - exact (H c ls g Hs Hin). }
  destruct (hd_error (rev _)) as [[g|]|]; try exact H; exact K.
Qed.

Lemma exec_m_SideSub st a p m r :
  s_procs st a = Some p -> SideInv st -> SideSub st -> SideSub (exec_m st a p m r).
Proof.
  intros Hp [HA HB] HS. change (LinesInLog (s_side (exec_m st a p m r)) (s_log (exec_m st a p m r))).
  assert (K : LinesInLog (s_side (exec_m st a p m r)) (s_log st));
    [|destruct (exec_m_log st a p m r) as [->|[g ->]]; [exact K|apply LinesInLog_app; exact K]].
  apply (exec_m_side_ind (fun sd => LinesInLog sd (s_log st))).
  - exact HS.
  - intros c _. apply LinesInLog_upd_stream. exact HS.
  - intros f Hf. apply side_append_LinesInLog; [exact HS|exact (HB a p f Hp Hf)].
Qed.

(* sidecars exist only for ids the log names, and hold only frames of the log *)
Definition SideFromLog (st : state) : Prop := SideInv st /\ SideSub st.

Lemma step_SideFromLog st a : SideFromLog st -> SideFromLog (step st a).
Proof.
  intros [HI HS]. split; [apply step_SideInv; exact HI|].
  unfold step, step_gen. destruct (s_procs st a) as [p|] eqn:Hp; [|exact HS].
  destruct (p_rem p) as [|m r]; [exact HS|]. apply (exec_m_SideSub st a p m r Hp HI HS).
Qed.

Lemma run_SideFromLog sched st : SideFromLog st -> SideFromLog (run sched st).
Proof. rewrite run_fold. apply fold_left_inv. exact step_SideFromLog. Qed.

Lemma exec_SideFromLog prog st : SideFromLog st -> SideFromLog (exec prog st).
Proof.
  intros [[HA HB] HS]. unfold exec. apply run_SideFromLog. split; [apply spawn_SideInv; exact HA|exact HS].
Qed.

Lemma LinesInLog_shrinks sd' sd l : Shrinks sd' sd -> LinesInLog sd l -> LinesInLog sd' l.
Proof. intros Hs H c ls f E Hin. destruct (Hs c ls E) as (ls0 & E0 & Hl). exact (H c ls0 f E0 (Hl f Hin)). Qed.

Lemma restart_SideFromLog st : SideFromLog st -> SideFromLog (restart st).
Proof.
  intros [[HA HB] HS]. split; [split|]; cbn [restart s_side s_log s_procs]; [exact HA| |exact HS].
  intros a p f Hp. discriminate.
Qed.

Lemma do_call2_SideFromLog st k : SideFromLog st -> SideFromLog (do_call2 st k).
Proof.
  intros H. pose proof H as [HI HS]. split; [apply do_call2_SideInv; exact HI|].
  destruct k as [[cp th f|x th|]| |mid th|]; cbn [do_call2 do_call].
  - apply exec_SideFromLog. exact H.
  - change (LinesInLog (apply_fault (s_side st) (mk_fault x (nth_thread (s_log st) th))) (s_log st)).
    exact (LinesInLog_shrinks _ _ _ (apply_fault_shrinks _ _) HS).
  - exact HS.
  - exact HS.
  - change (LinesInLog (side_garbage (s_side st) mid (nth_thread (s_log st) th)) (s_log st)).
    exact (LinesInLog_shrinks _ _ _ (side_garbage_shrinks _ _ _) HS).
  - exact HS.
Qed.

Lemma raw_append_SideFromLog st c t ar : SideFromLog st -> SideFromLog (raw_append st c t ar).
Proof.
  intros [[HA HB] HS]. unfold raw_append. destruct (last_seq _); [|split; [split|]; assumption].
  split; [split|]; cbn [set_store s_side s_log s_procs].
  - intros c' Hc. apply names_app. apply HA. exact Hc.
  - intros a p f Hp Hl. apply in_or_app. left. exact (HB a p f Hp Hl).
  - apply LinesInLog_app. exact HS.
Qed.

Lemma ensure_SideFromLog skip d : SideFromLog (d_st d) -> SideFromLog (d_st (fst (ensure skip d))).
Proof.
  intros H. unfold ensure. destruct (ws_lookup _ _); [exact H|].
  destruct (skip && file_exists (d_file d)); cbn [fst].
  - destruct (new_frames _ _); cbn [fst]; apply exec_SideFromLog; exact H.
  - destruct (validate (s_log (d_st d))); [|exact H].
    destruct (find_default _ _); cbn [fst]; [exact H|].
    destruct (new_frames _ _); cbn [fst]; apply exec_SideFromLog; exact H.
Qed.

Lemma do_call3_SideFromLog d k : SideFromLog (d_st d) -> SideFromLog (d_st (fst (do_call3 d k))).
Proof.
  intros H. destruct k as [k2| |th p e m|th fp fe fm|br th ok|x|ws|th t ar]; cbn [do_call3].
  - cbn [fst]. destruct (reloads k2); apply do_call2_SideFromLog; exact H.
  - pose proof (ensure_SideFromLog false d H) as K. destruct (ensure false d) as [d' a]. exact K.
  - apply exec_SideFromLog. exact H.
  - apply exec_SideFromLog. exact H.
  - cbn [fst]. unfold lineage. destruct (new_frames _ _); apply exec_SideFromLog; exact H.
  - exact H.
  - apply restart_SideFromLog. exact H.
  - apply restart_SideFromLog. apply raw_append_SideFromLog. exact H.
Qed.

Lemma run_calls3_fold ks : forall d, snd (run_calls3 d ks) = fold_left (fun d k => fst (do_call3 d k)) ks d.
Proof.
  induction ks as [|k r IH]; intros d; cbn [run_calls3 fold_left]; [reflexivity|].
  rewrite <- IH. destruct (do_call3 d k) as [d' extra]. cbn [fst]. destruct (run_calls3 d' r). reflexivity.
Qed.

Lemma run_calls3_SideFromLog ks d : SideFromLog (d_st d) -> SideFromLog (d_st (snd (run_calls3 d ks))).
Proof.
  rewrite run_calls3_fold. apply (fold_left_inv _ (fun d => SideFromLog (d_st d))). intros s k. apply do_call3_SideFromLog.
Qed.

Lemma dstate0_SideFromLog : SideFromLog (d_st dstate0).
Proof. split; [exact empty_SideInv|]. intros c ls f H. discriminate. Qed.

(* in whatever state a history of call3 has led to: a rotate whose filters no cursor frame of the
   thread in the truth log passes appends nothing *)
Lemma rotate_noop_anywhere_in_a_history ks th fp fe fm :
  let d := snd (run_calls3 dstate0 ks) in
  rotate_has_target (req_of fp fe fm) (nth_thread (s_log (d_st d)) th) (s_log (d_st d)) = false ->
  s_log (d_st (fst (do_call3 d (DRotate th fp fe fm)))) = s_log (d_st d).
Proof.
  intros d Hn. cbn [do_call3 fst with_st d_st].
  apply rotate_nothing_in_the_log_adds_nothing; [|exact Hn].
  exact (proj2 (run_calls3_SideFromLog ks dstate0 dstate0_SideFromLog)).
Qed.

Lemma existsb_filter_nonempty {A} (p : A -> bool) l : existsb p l = true -> filter p l <> [].
Proof.
  intros H. apply existsb_exists in H. destruct H as (x & Hin & Hp).
  assert (K : In x (filter p l)) by (apply filter_In; tauto). intros E. rewrite E in K. destruct K.
Qed.

Lemma find_default_some ws l : log_has_ws ws l = true -> exists c, find_default ws l = Some c.
Proof.
  intros H. unfold find_default. destruct (hd_error (rev (filter _ _))) as [c|]; [exists c; reflexivity|].
  apply existsb_filter_nonempty in H.
  destruct (filter (created_in ws) l) as [|f r] eqn:E; [congruence|].
  destruct (rev (map sid (f :: r))) as [|c t] eqn:Er.
  - apply (f_equal (@length N)) in Er. rewrite rev_length, map_length in Er. discriminate.
  - exists c. reflexivity.
Qed.

Lemma hd_error_rev_In {A} (l : list A) x : hd_error (rev l) = Some x -> In x l.
Proof.
  intros H. apply in_rev. destruct (rev l) as [|y t]; [discriminate|]. inversion H; subst. left. reflexivity.
Qed.

Lemma find_default_in_log ws l c :
  find_default ws l = Some c -> exists f, In f l /\ created_in ws f = true /\ sid f = c.
Proof.
  unfold find_default. intros H.
  assert (K : In c (map sid (filter (created_in ws) l))).
  { destruct (hd_error (rev (filter _ (map sid _)))) as [c'|] eqn:E.
    - inversion H; subst. apply hd_error_rev_In in E. apply filter_In in E. tauto.
    - apply hd_error_rev_In. exact H. }
  apply in_map_iff in K. destruct K as (f & Hs & Hin). apply filter_In in Hin. exists f. tauto.
Qed.

(* THE statement: the log holds a thread of the store's workspace => ensure_default appends nothing - for every
   in-memory index and every state of the index file *)
Lemma ensure_thread_in_the_log_adds_nothing d :
  log_has_ws (d_ws d) (s_log (d_st d)) = true ->
  s_log (d_st (fst (ensure false d))) = s_log (d_st d).
Proof.
  intros H. unfold ensure. destruct (ws_lookup _ _); [reflexivity|]. cbn [andb].
  destruct (validate (s_log (d_st d))); [|reflexivity].
  destruct (find_default_some _ _ H) as [c Hc]. rewrite Hc. reflexivity.
Qed.

(* ... spelled out for a restart: whatever the harness (a crash, a backup, another version) has left in
   continuities/index.json and whichever workspace the store is opened for *)
Lemma ensure_after_restart_any_index_file d (file : idx_file) ws :
  log_has_ws ws (s_log (d_st d)) = true ->
  s_log (d_st (fst (ensure false (reopen {| d_st := d_st d; d_ws := d_ws d; d_file := file; d_mem := d_mem d |} ws))))
  = s_log (d_st d).
Proof.
  intros H. rewrite ensure_thread_in_the_log_adds_nothing; [reflexivity|exact H].
Qed.

(* ... and as three calls - index fault, restart, ensure - from any store *)
Lemma ensure_idempotent d x ws :
  log_has_ws ws (s_log (d_st d)) = true ->
  s_log (d_st (snd (run_calls3 d [DIdx x; DReopen ws; DEnsure]))) = s_log (d_st d).
Proof.
  intros H. cbn [run_calls3 do_call3].
  set (d1 := reopen _ ws).
  pose proof (ensure_thread_in_the_log_adds_nothing d1 H) as K.
  destruct (ensure false d1) as [d' a]. cbn [fst snd] in *. exact K.
Qed.

(* the answer: a thread of the workspace that is in the log *)
Definition MemSound (d : dstate) : Prop :=
  forall ws c, ws_lookup (ix_ws (d_mem d)) ws = Some c ->
               exists f, In f (s_log (d_st d)) /\ created_in ws f = true /\ sid f = c.

Lemma answer_code_of_frame ws l c f :
  In f l -> created_in ws f = true -> sid f = c -> answer_code ws l (Some c) = 1.
Proof.
  intros Hin Hc Hs. unfold answer_code.
  assert (K : existsb (fun f => created_in ws f && (sid f =? c)) l = true).
  { apply existsb_exists. exists f. split; [exact Hin|]. rewrite Hc, Hs, N.eqb_refl. reflexivity. }
  rewrite K. reflexivity.
Qed.

Lemma ensure_answers_from_the_log d :
  MemSound d -> log_has_ws (d_ws d) (s_log (d_st d)) = true -> validate (s_log (d_st d)) = true ->
  answer_code (d_ws d) (s_log (d_st (fst (ensure false d)))) (snd (ensure false d)) = 1.
Proof.
  intros HM H Hv. unfold ensure. destruct (ws_lookup _ _) as [c|] eqn:El; cbn [fst snd].
  - destruct (HM _ _ El) as (f & Hin & Hc & Hs). exact (answer_code_of_frame _ _ _ f Hin Hc Hs).
  - cbn [andb]. rewrite Hv. destruct (find_default_some _ _ H) as [c Hc]. rewrite Hc. cbn [fst snd with_index d_st].
    destruct (find_default_in_log _ _ _ Hc) as (f & Hin & Hcr & Hs). exact (answer_code_of_frame _ _ _ f Hin Hcr Hs).
Qed.

(* scanning the log only when index.json is missing (`ensure true`, trial patch C02-9) is invisible while the file is missing or the in-memory index knows the
   workspace - the two situations the repository's tests exercise *)
Lemma ensure_skip_hidden d :
  d_file d = IAbsent \/ ws_lookup (ix_ws (d_mem d)) (d_ws d) <> None ->
  ensure true d = ensure false d.
Proof.
  intros [H|H]; unfold ensure.
  - rewrite H. reflexivity.
  - destruct (ws_lookup _ _); [reflexivity|congruence].
Qed.

Lemma ensure_log skip d : exists fs, s_log (d_st (fst (ensure skip d))) = s_log (d_st d) ++ fs.
Proof.
  unfold ensure. destruct (ws_lookup _ _); [apply grows_refl|].
  destruct (skip && file_exists (d_file d)); cbn [fst].
  - destruct (new_frames _ _); cbn [fst with_index with_st d_st]; apply exec_log.
  - destruct (validate _); [|apply grows_refl]. destruct (find_default _ _); cbn [fst with_index d_st]; [apply grows_refl|].
    destruct (new_frames _ _); cbn [fst with_index with_st d_st]; apply exec_log.
Qed.

Lemma do_call3_log d k : exists fs, s_log (d_st (fst (do_call3 d k))) = s_log (d_st d) ++ fs.
Proof.
  destruct k as [k2| |th p e m|th fp fe fm|br th ok|x|ws|th t ar]; cbn [do_call3].
  - cbn [fst]. destruct (reloads k2); cbn [d_st with_st]; apply do_call2_log.
  - pose proof (ensure_log false d) as K. destruct (ensure false d) as [d' a]. exact K.
  - cbn [fst with_st d_st]. apply exec_log.
  - cbn [fst with_st d_st]. apply exec_log.
  - cbn [fst]. unfold lineage. destruct (new_frames _ _); cbn [with_index with_st d_st]; apply exec_log.
  - apply grows_refl.
  - apply grows_refl.
  - cbn [fst reopen d_st with_st restart s_log]. unfold raw_append. destruct (last_seq _); [|apply grows_refl].
    cbn [set_store s_log]. eexists. reflexivity.
Qed.

Lemma history3_prefix ks1 ks2 :
  exists fs, s_log (d_st (snd (run_calls3 dstate0 (ks1 ++ ks2))))
             = s_log (d_st (snd (run_calls3 dstate0 ks1))) ++ fs.
Proof. rewrite !run_calls3_fold. apply (fold_left_history (fun d => s_log (d_st d)) _ do_call3_log). Qed.

(* index faults and re-opening leave the log as it is *)
Lemma index_fault_and_reopen_keep_the_log d x ws :
  s_log (d_st (fst (do_call3 d (DIdx x)))) = s_log (d_st d)
  /\ s_log (d_st (fst (do_call3 d (DReopen ws)))) = s_log (d_st d).
Proof. split; reflexivity. Qed.

(* witnesses (w_).  The lenient filter `recorded.is_some_and(|r| r != filter)` (trial patch C02-7): a cursor frame that records an endpoint and NO model; a request that filters on a model *)
Definition w_rot_history : list call3 := [DEnsure; DCursor 0 0 1 0].
Definition w_rot_state : state := d_st (snd (run_calls3 dstate0 w_rot_history)).
Definition w_rot_req : rot_req := {| rq_provider := None; rq_endpoint := None; rq_model := Some 5 |}.

Lemma rotate_lenient_filter_refuted :
  rotate_has_target w_rot_req 0 (s_log w_rot_state) = false
  /\ map seq (s_log (exec (rotate_prog true true 0 w_rot_req w_rot_state) w_rot_state)) = [0; 1; 2]
  /\ map seq (s_log (exec (rotate_prog false true 0 w_rot_req w_rot_state) w_rot_state)) = [0; 1].
Proof. vm_compute. repeat split; reflexivity. Qed.

(* `ensure true` (trial patch C02-9): the default thread is in the log, index.json is present but lists nothing (unreadable, another
   version, an older backup - all load as the empty index), the store is restarted *)
Definition w_ens_state : dstate := snd (run_calls3 dstate0 [DEnsure; DIdx XIUnreadable; DReopen 0]).

Lemma ensure_skip_refuted :
  log_has_ws 0 (s_log (d_st w_ens_state)) = true
  /\ map seq (s_log (d_st (fst (ensure true w_ens_state)))) = [0; 0]
  /\ map seq (s_log (d_st (fst (ensure false w_ens_state)))) = [0]
  /\ snd (ensure false w_ens_state) = Some 0.
Proof. vm_compute. repeat split; reflexivity. Qed.

(* non-vacuity: the same calls DO append when there is something to find / nothing in the log;
   two workspaces on one data dir, a crash between the log append of the second thread and save_index *)
Definition demo3_history : list call3 :=
  [DEnsure;                                   (* workspace 0: thread 0 created *)
   DCursor 0 0 1 0;                           (* cursor: provider 0, endpoint 0, no model *)
   DRotate 0 0 0 6;                           (* filter model = 5: nothing passes *)
   DRotate 0 0 1 0;                           (* filter endpoint = 0: rotated *)
   DReopen 1; DEnsure;                        (* workspace 1: its thread created *)
   DIdx (XIRestore [(0, 0%nat)] [0%nat]);     (* index.json as it was before that: lists workspace 0 only *)
   DReopen 1; DEnsure;                        (* found in the log: nothing appended, answer from the log *)
   DIdx XIWrongVersion; DReopen 0; DEnsure;
   DLineage true 0 true;                      (* branch: child carries workspace 0 *)
   DIdx XIAbsent; DReopen 0; DEnsure;         (* the default thread, not the child; nothing appended *)
   DReopen 2; DEnsure].                       (* a third workspace: created *)
Lemma demo3 :
  fst (run_calls3 dstate0 demo3_history) = [1; 1; 2; 2; 3; 3; 4; 1; 4; 4; 4; 1; 4; 4; 4; 1; 6; 6; 6; 6; 1; 6; 7; 1].
Proof. vm_compute. reflexivity. Qed.

Lemma mem_sound_demo :
  MemSound w_ens_state /\ log_has_ws 0 (s_log (d_st w_ens_state)) = true /\ validate (s_log (d_st w_ens_state)) = true.
Proof.
  split; [|split; vm_compute; reflexivity].
  intros ws c H. vm_compute in H. discriminate.
Qed.
