(* C02: histories with single-file cache faults, garbage lines in the
   full sidecar and aged stores (Model/C02Cases.v, call2); the table of helpers shared between
   read-only and appending capabilities (Gen/Effects.v). *)
From Coq Require String.
From RipV Require Import Base.Prelude Model.Frames Model.Log Model.ContStore Model.CapEffects
  Model.SidecarInv Model.LogBytes Model.C02Cases
  Proofs.LogProofs Proofs.ContStoreProofs Proofs.SidecarInvProofs.

Definition is_fault2 (k : call2) : bool :=
  match k with
  | K (KFault _ _) | K KRestart | KDerivedFault | KSideGarbage _ _ | KAge => true
  | K (KCap _ _ _) => false
  end.

(* a cache fault (full sidecar or derived file), a garbage line, a restart, the passing of time:
   none of them touches the log *)
Lemma fault2_keeps_log st k : is_fault2 k = true -> s_log (do_call2 st k) = s_log st.
Proof.
  destruct k as [[cp th f|x th|]| |mid th|]; cbn [is_fault2 do_call2 do_call]; intros H;
    try discriminate; try reflexivity.
Qed.

Lemma exec_log prog st : exists fs, s_log (exec prog st) = s_log st ++ fs.
Proof. unfold exec. apply (run_log (repeat 0 (length prog)) (spawn [(prog, 0)] st)). Qed.

Lemma do_call2_log st k : exists fs, s_log (do_call2 st k) = s_log st ++ fs.
Proof. destruct k as [[cp th f|x th|]| |mid th|]; cbn [do_call2 do_call]; try apply grows_refl. apply exec_log. Qed.

Lemma run_calls2_fold ks : forall st, snd (run_calls2 st ks) = fold_left do_call2 ks st.
Proof.
  induction ks as [|k r IH]; intros st; cbn [run_calls2 fold_left]; [reflexivity|].
  rewrite <- IH. destruct (run_calls2 (do_call2 st k) r). reflexivity.
Qed.

(* every history of calls, faults, garbage, restarts and ageing: the log at any point of it is a prefix of the
   log at the end *)
Lemma history2_prefix ks1 ks2 :
  exists fs, s_log (snd (run_calls2 empty_state (ks1 ++ ks2)))
             = s_log (snd (run_calls2 empty_state ks1)) ++ fs.
Proof. rewrite !run_calls2_fold. apply (fold_left_history s_log do_call2 do_call2_log). Qed.

(* a call the property names as silent adds nothing wherever it stands in such a history *)
Lemma silent_call2_keeps_log st cp th f :
  silent cp f = true -> s_log (do_call2 st (K (KCap cp th f))) = s_log st.
Proof. intros H. cbn [do_call2 do_call]. apply silent_calls_keep_log. exact H. Qed.

Lemma side_garbage_shrinks sd mid c0 : Shrinks (side_garbage sd mid c0) sd.
Proof.
  unfold side_garbage. destruct (sd c0) as [ls0|] eqn:E; [|apply shrinks_refl]. apply (shrinks_upd sd c0 ls0 _ E).
  intros f Hin. unfold garbage_lines in Hin. destruct mid; apply in_app_or in Hin.
  - destruct Hin as [Hin|[Hin|Hin]]; [exact (In_firstn _ _ _ Hin)|discriminate|exact (In_skipn _ _ _ Hin)].
  - destruct Hin as [Hin|[Hin|[]]]; [exact Hin|discriminate].
Qed.

Lemma do_call2_SideInv st k : SideInv st -> SideInv (do_call2 st k).
Proof.
  intros H. destruct k as [k'| |mid th|]; cbn [do_call2].
  - apply do_call_SideInv. exact H.
  - exact H.
  - destruct H as [HA HB]. split; cbn [with_side set_store s_side s_log s_procs].
    + intros c Hc. apply HA. exact (shrinks_side _ _ c (side_garbage_shrinks _ _ _) Hc).
    + exact HB.
  - apply (do_call_SideInv st KRestart H).
Qed.

Lemma run_calls2_SideInv ks st : SideInv st -> SideInv (snd (run_calls2 st ks)).
Proof. rewrite run_calls2_fold. apply fold_left_inv. exact do_call2_SideInv. Qed.

Lemma sidecars_named_any_history2 ks c :
  s_side (snd (run_calls2 empty_state ks)) c <> None ->
  exists f, In f (s_log (snd (run_calls2 empty_state ks))) /\ sid f = c.
Proof. intros Hc. apply (proj1 (run_calls2_SideInv ks empty_state empty_SideInv) c Hc). Qed.

Lemma shared_helpers_rows (t : list (String.string * bool)) :
  shared_helpers_silent t = true -> t <> [] /\ forall n b, In (n, b) t -> b = false.
Proof.
  unfold shared_helpers_silent. intros H. apply andb_true_iff in H. destruct H as [H1 H2]. split.
  - intros E. subst. discriminate.
  - intros n b Hin. rewrite forallb_forall in H2. specialize (H2 (n, b) Hin). cbn [snd] in H2.
    destruct b; [discriminate|reflexivity].
Qed.

(* non-vacuity: a model history with a checkpoint made, the derived cache torn, garbage in the full sidecar, an
   hour passed, an auto call with nothing to do and a status call (the settings of trial patches C02-6, C02-5) *)
Definition fact_auto (planned created : nat) : cfacts :=
  {| cf_ok := true; cf_stride0 := false; cf_dry := false; cf_planned := planned; cf_inflight := false;
     cf_execute := true; cf_created := created; cf_ended := true |}.
Definition demo2_history : list call2 :=
  [K (KCap CapEnsureDefault 0 fact_ok);
   K (KCap (CapAppend EContinuityMessageAppended) 0 fact_ok);
   K (KCap (CapAppend EContinuityMessageAppended) 0 fact_ok);
   K (KCap CapAuto 0 (fact_auto 1 1));          (* job_spawned, checkpoint, job_ended *)
   KDerivedFault;                               (* <id>.comp.v1.jsonl torn *)
   KSideGarbage true 0;
   KAge;
   K (KCap CapAuto 0 (fact_auto 0 0));          (* nothing to do *)
   K (KCap CapCompactionStatus 0 fact_ok)].
Lemma demo2 :
  fst (run_calls2 empty_state demo2_history) = [1; 2; 3; 6; 6; 6; 6; 6; 6].
Proof. vm_compute. reflexivity. Qed.
