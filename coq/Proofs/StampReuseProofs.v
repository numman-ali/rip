(* C14: `create_reuse` (Model/StampReuse.v: a create that does not read a file whose length and modification time are
   those the previous checkpoint recorded; trial patch C14-8).  Without a previous checkpoint it IS create; with
   one, on a clock that does not advance (or after a tool put the old time back), a second checkpoint taken after an edit
   of the same length records the FIRST checkpoint's bytes, and the rewind to it succeeds with bytes the file did not
   have when that checkpoint was taken. *)
From RipV Require Import Base.Prelude Base.Fs Model.Paths Model.Checkpoint Model.StampReuse Proofs.CheckpointProofs.
Require Import Coq.Strings.String.

Lemma map_res_ext {A B} (g h : A -> res B) : (forall x, g x = h x) -> forall l, map_res g l = map_res h l.
Proof.
  intros E l. induction l as [|x l IH]; [reflexivity|]. cbn [map_res]. rewrite E, IH. reflexivity.
Qed.

Theorem create_reuse_first mt f root raws : create_reuse mt [] f root raws = create f root raws.
Proof.
  unfold create_reuse, create. destruct (map_res (to_relative root) raws) as [rels|e]; [|reflexivity].
  apply map_res_ext. intros rel. unfold save_one_reuse. destruct (save_one f rel) as [[r [b|]]|e]; reflexivity.
Qed.

Definition t_root : str := bs "/r/ws"%string.
Definition t_a : str := bs "config.toml"%string.
Definition t_f1 : fs := [([t_a], File (bs "retries = 3"%string))].
Definition t_f2 : fs := [([t_a], File (bs "retries = 5"%string))].   (* same length *)
Definition t_f3 : fs := [([t_a], File (bs "something else"%string))].
Definition t_frozen : str -> N := fun _ => 1600000000.
Definition t_ck1 : list entry := [(t_a, Some (bs "retries = 3"%string))].

Theorem stamp_reuse_refuted :
  exists mt f1 f2 f3 root raws ck1 ck2 f4 b,
    create_reuse mt [] f1 root raws = Ok ck1
    /\ create_reuse mt (recorded mt ck1) f2 root raws = Ok ck2     (* the second checkpoint, taken from f2 *)
    /\ create f2 root raws <> Ok ck2                                 (* ... is not what reading f2 gives *)
    /\ sane_b f3 = true /\ rewind f3 ck2 = (f4, None)                (* the rewind to it succeeds *)
    /\ os_read f2 (tgt_of t_a) = Ok b /\ os_read f4 (tgt_of t_a) <> Ok b.   (* with other bytes than f2 had *)
Proof.
  exists t_frozen, t_f1, t_f2, t_f3, t_root, [t_a], t_ck1, t_ck1, t_f1, (bs "retries = 5"%string).
  split; [vm_compute; reflexivity|]. split; [vm_compute; reflexivity|]. split; [vm_compute; discriminate|].
  split; [vm_compute; reflexivity|]. split; [vm_compute; reflexivity|]. split; [vm_compute; reflexivity|].
  vm_compute. discriminate.
Qed.
