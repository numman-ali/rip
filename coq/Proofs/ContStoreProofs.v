(* Proofs about the ContinuityStore transition system: what one micro-step can do, the log only grows by
   whole frames, calls without an append step leave it alone (C02). *)
From RipV Require Import Base.Prelude Model.Frames Model.Log Model.ContStore Proofs.LogProofs.

(* case analysis on every discriminee of a `match` or `if` in the goal, until none is left *)
Ltac dmatch :=
  repeat match goal with
         | |- context [match ?x with _ => _ end] => destruct x eqn:?
         | |- context [if ?x then _ else _] => destruct x eqn:?
         end.

Lemma upd_same {A} (m : N -> A) k v : upd m k v k = v.
Proof. unfold upd. rewrite N.eqb_refl. reflexivity. Qed.

Lemma upd_other {A} (m : N -> A) k v x : x <> k -> upd m k v x = m x.
Proof. intros H. unfold upd. destruct (x =? k) eqn:E; [apply N.eqb_eq in E; congruence|reflexivity]. Qed.

Lemma upd_inv {A} (m : N -> option A) k v x w :
  upd m k (Some v) x = Some w -> (x = k /\ w = v) \/ (x <> k /\ m x = Some w).
Proof.
  unfold upd. destruct (x =? k) eqn:E; intros H.
  - apply N.eqb_eq in E. left. inversion H. tauto.
  - apply N.eqb_neq in E. right. tauto.
Qed.

(* a property of every entry of an updated map: of the new entry, and of the old ones elsewhere *)
Lemma upd_all {A} (m : N -> option A) k v (Q : N -> A -> Prop) :
  Q k v -> (forall x w, x <> k -> m x = Some w -> Q x w) ->
  forall x w, upd m k (Some v) x = Some w -> Q x w.
Proof. intros H1 H2 x w H. destruct (upd_inv _ _ _ _ _ H) as [[-> ->]|[Hne Hx]]; auto. Qed.

(* what a micro-step can do at all: nothing (the actor waits for a mutex), or the actor moves on - past
   the step, or (early return) to its next call -, the log stays or, at an append step, grows by one frame,
   and the actor's `event` local is none, the old one, or the frame just logged *)
Lemma exec_m_shape st a p m r :
  exec_m st a p m r = st \/
  exists p', s_procs (exec_m st a p m r) = upd (s_procs st) a (Some p')
    /\ (p_rem p' = r \/ p_rem p' = skip_call r)
    /\ (s_log (exec_m st a p m r) = s_log st
        \/ appends m = true /\ exists f, s_log (exec_m st a p m r) = s_log st ++ [f])
    /\ (p_last p' = None \/ p_last p' = p_last p
        \/ exists f, p_last p' = Some f /\ s_log (exec_m st a p m r) = s_log st ++ [f]).
Proof.
  (* Every branch of exec_m_gen is the old store (blocked) or a written-out successor whose fields are read off:
     the clauses hold by reflexivity, or by the equation the case analysis left (`assumption`).  The successor is
     kept in one place while its definition is taken apart. *)
  pattern (exec_m st a p m r). set (P := fun _ => _).
  unfold exec_m, exec_m_gen, abort. destruct m; dmatch; subst P; cbv beta; try (left; reflexivity); right;
    (eexists; split; [reflexivity|]; cbn; split; [tauto|]; split);
    first [left; reflexivity | left; assumption | right; left; reflexivity | right; left; assumption
          | right; right; eexists; split; reflexivity | right; split; [reflexivity|eexists; reflexivity]].
Qed.

Lemma exec_m_log st a p m r :
  s_log (exec_m st a p m r) = s_log st \/ exists f, s_log (exec_m st a p m r) = s_log st ++ [f].
Proof.
  destruct (exec_m_shape st a p m r) as [->|(p' & _ & _ & [E|[_ E]] & _)]; [left; reflexivity|left; exact E|right; exact E].
Qed.

Lemma step_log st a :
  s_log (step st a) = s_log st \/ exists f, s_log (step st a) = s_log st ++ [f].
Proof.
  unfold step, step_gen. destruct (s_procs st a) as [p|]; [|left; reflexivity].
  destruct (p_rem p) as [|m r]; [left; reflexivity|]. apply exec_m_log.
Qed.

Lemma run_nil st : run [] st = st.
Proof. reflexivity. Qed.
Lemma run_cons a r st : run (a :: r) st = run r (step st a).
Proof. reflexivity. Qed.

Lemma run_log sched : forall st, exists fs, s_log (run sched st) = s_log st ++ fs.
Proof.
  induction sched as [|a r IH]; intros st; rewrite ?run_nil, ?run_cons.
  - exists []. rewrite app_nil_r. reflexivity.
  - destruct (IH (step st a)) as [fs Hfs]. rewrite Hfs.
    destruct (step_log st a) as [E|[f E]]; rewrite E.
    + exists fs. reflexivity.
    + exists (f :: fs). rewrite <- app_assoc. reflexivity.
Qed.

(* byte view: the old file content is an exact prefix, the new bytes are whole LF-terminated frames *)
Lemma run_bytes enc sched st :
  (forall f, ~ In 10 (enc f)) ->
  exists fs, log_bytes enc (s_log (run sched st)) = log_bytes enc (s_log st) ++ log_bytes enc fs
             /\ split_lines (log_bytes enc fs) = (map enc fs, []).
Proof.
  intros Hn. destruct (run_log sched st) as [fs E]. exists fs. rewrite E, log_bytes_app.
  split; [reflexivity|]. apply split_lines_log_bytes. exact Hn.
Qed.

Definition quiet_prog (prog : list mstep) : bool := forallb (fun m => negb (appends m)) prog.
Definition AllQuiet (st : state) : Prop :=
  forall a p, s_procs st a = Some p -> quiet_prog (p_rem p) = true.

(* an actor whose next micro-step is not an append leaves the log alone *)
Lemma exec_m_quiet st a p m r :
  appends m = false -> s_log (exec_m st a p m r) = s_log st.
Proof.
  intros H. destruct (exec_m_shape st a p m r) as [->|(p' & _ & _ & [E|[E _]] & _)]; [reflexivity|exact E|congruence].
Qed.

Lemma quiet_skip r : quiet_prog r = true -> quiet_prog (skip_call r) = true.
Proof.
  induction r as [|m r IH]; intros H; [reflexivity|]. cbn [skip_call].
  destruct (call_start m); [exact H|]. apply IH. cbn [quiet_prog forallb] in H.
  apply andb_true_iff in H. tauto.
Qed.

Lemma step_AllQuiet st a : AllQuiet st -> AllQuiet (step st a) /\ s_log (step st a) = s_log st.
Proof.
  intros H. unfold step, step_gen. destruct (s_procs st a) as [p|] eqn:Hp; [|split; [exact H|reflexivity]].
  destruct (p_rem p) as [|m r] eqn:Hr; [split; [exact H|reflexivity]|].
  pose proof (H a p Hp) as Hq. rewrite Hr in Hq. cbn [quiet_prog forallb] in Hq.
  apply andb_true_iff in Hq. destruct Hq as [Hm Hq]. apply negb_true_iff in Hm.
  fold (exec_m st a p m r). split; [|apply exec_m_quiet; exact Hm].
  destruct (exec_m_shape st a p m r) as [->|(p' & Ep & Hr' & _)]; [exact H|].
  unfold AllQuiet. rewrite Ep. refine (upd_all _ _ _ _ _ (fun b q _ => H b q)). destruct Hr' as [->| ->]; [exact Hq|apply quiet_skip; exact Hq].
Qed.

Lemma run_AllQuiet sched : forall st, AllQuiet st -> s_log (run sched st) = s_log st.
Proof.
  induction sched as [|a r IH]; intros st H; rewrite ?run_nil, ?run_cons; [reflexivity|].
  destruct (step_AllQuiet st a H) as [H1 H2]. rewrite IH by exact H1. exact H2.
Qed.

Lemma procs_of_in ps : forall i a p,
  procs_of i ps a = Some p -> exists x, In x ps /\ p = new_proc (fst x) (snd x).
Proof.
  induction ps as [|[prog s] r IH]; intros i a p H; cbn [procs_of] in H; [discriminate|].
  unfold upd in H. destruct (a =? i).
  - inversion H. exists (prog, s). split; [left; reflexivity|reflexivity].
  - destruct (IH _ _ _ H) as [x [Hx E]]. exists x. split; [right; exact Hx|exact E].
Qed.

Lemma procs_of_quiet ps i a p :
  Forall (fun x => quiet_prog (fst x) = true) ps ->
  procs_of i ps a = Some p -> quiet_prog (p_rem p) = true.
Proof.
  intros HF H. destruct (procs_of_in _ _ _ _ H) as [x [Hx ->]]. rewrite Forall_forall in HF. apply (HF x Hx).
Qed.

(* any number of concurrent calls none of which contains an append step: the log does not change,
   whatever the schedule and whatever the store looks like *)
Lemma quiet_calls_keep_log ps sched st :
  Forall (fun x => quiet_prog (fst x) = true) ps ->
  s_log (run sched (spawn ps st)) = s_log st.
Proof.
  intros HF. rewrite run_AllQuiet; [reflexivity|].
  intros a p H. cbn [spawn s_procs] in H. apply (procs_of_quiet _ _ _ _ HF H).
Qed.

Lemma silent_prog_quiet cp c f : silent cp f = true -> quiet_prog (cap_prog cp c f) = true.
Proof.
  destruct cp; cbn [silent cap_prog]; intros H; try discriminate H; try reflexivity.
  - apply negb_true_iff in H. rewrite H. reflexivity.
  - apply negb_true_iff in H. rewrite H. reflexivity.
  - apply negb_true_iff in H. rewrite H. reflexivity.
  - apply negb_true_iff in H. rewrite H. reflexivity.
  - apply negb_true_iff in H. rewrite H. reflexivity.
  - destruct (cf_stride0 f); [reflexivity|]. cbn [orb] in H. rewrite H. reflexivity.
  - destruct (cf_stride0 f); [reflexivity|]. cbn [orb] in H. rewrite H. reflexivity.
Qed.

Lemma silent_calls_keep_log cp c f st :
  silent cp f = true -> s_log (exec (cap_prog cp c f) st) = s_log st.
Proof.
  intros H. unfold exec. apply quiet_calls_keep_log. constructor; [|constructor].
  apply silent_prog_quiet. exact H.
Qed.

Lemma read_only_caps_silent cp f : cap_can_append cp = false -> silent cp f = true.
Proof. destruct cp; cbn; intros H; try discriminate H; reflexivity. Qed.

Lemma restart_keeps_log st : s_log (restart st) = s_log st.
Proof. reflexivity. Qed.

Lemma step_at st a p m r :
  s_procs st a = Some p -> p_rem p = m :: r -> step st a = exec_m st a p m r.
Proof. intros H1 H2. unfold step, step_gen. rewrite H1, H2. reflexivity. Qed.

Lemma step_done st a : (forall q, s_procs st a = Some q -> p_rem q = []) -> step st a = st.
Proof.
  intros H. unfold step, step_gen. destruct (s_procs st a) as [q|] eqn:E; [|reflexivity].
  rewrite (H q eq_refl). reflexivity.
Qed.

Lemma run_done n : forall st a,
  (forall q, s_procs st a = Some q -> p_rem q = []) -> run (repeat a n) st = st.
Proof.
  induction n as [|n IH]; intros st a H; cbn [repeat]; rewrite ?run_nil, ?run_cons; [reflexivity|].
  rewrite step_done by exact H. apply IH. exact H.
Qed.

Lemma run_repeat_S a n st : run (repeat a (S n)) st = run (repeat a n) (step st a).
Proof. apply run_cons. Qed.

(* a write capability on a thread id that does not exist (no frames, no counter) appends nothing:
   load_next_seq_for fails and the call returns before the append; what the sidecar holds plays no role *)
Lemma unknown_thread_append_silent st c t ar rest :
  skip_call rest = [] ->
  s_mu st = None -> s_next st c = None -> s_side st c = None -> cstream c (s_log st) = [] ->
  s_log (exec (MTarget c :: locked_append t ar ++ rest) st) = s_log st.
Proof.
  intros Hrest Hmu Hn Hs Hc. unfold exec, locked_append. cbn [app length].
  set (prog := MTarget c :: MLock :: MChoose :: MLogAppend t ar :: MSidecar :: MBcast :: MAdvance :: MUnlock :: rest).
  set (st0 := spawn [(prog, 0)] st).
  do 3 rewrite run_repeat_S.
  set (s3 := step (step (step st0 0) 0) 0).
  assert (H3 : (forall q, s_procs s3 0 = Some q -> p_rem q = []) /\ s_log s3 = s_log st).
  { unfold s3.
    assert (H0 : s_procs st0 0 = Some (new_proc prog 0)) by (unfold st0; cbn; apply upd_same).
    rewrite (step_at st0 0 _ _ _ H0 eq_refl). unfold exec_m; cbn [exec_m_gen].
    match goal with |- context [step (step ?s 0) 0] => set (st1 := s) end.
    assert (H1 : exists p1, s_procs st1 0 = Some p1 /\ p_rem p1 = MLock :: MChoose :: MLogAppend t ar :: MSidecar :: MBcast :: MAdvance :: MUnlock :: rest
                          /\ p_cid p1 = Some c).
    { eexists. split; [unfold st1; cbn; apply upd_same|]. split; reflexivity. }
    destruct H1 as [p1 [H1 [H1r H1c]]].
    rewrite (step_at st1 0 _ _ _ H1 H1r). unfold exec_m; cbn [exec_m_gen].
    assert (Hmu1 : s_mu st1 = None) by exact Hmu. rewrite Hmu1.
    match goal with |- context [step ?s 0] => set (st2 := s) end.
    assert (H2 : exists p2, s_procs st2 0 = Some p2 /\ p_rem p2 = MChoose :: MLogAppend t ar :: MSidecar :: MBcast :: MAdvance :: MUnlock :: rest
                          /\ p_cid p2 = Some c).
    { eexists. split; [unfold st2; cbn; apply upd_same|]. split; [reflexivity|exact H1c]. }
    destruct H2 as [p2 [H2 [H2r H2c]]].
    rewrite (step_at st2 0 _ _ _ H2 H2r). unfold exec_m; cbn [exec_m_gen]. rewrite H2c.
    assert (Hn2 : s_next st2 c = None) by exact Hn. rewrite Hn2.
    assert (Hl : exists sd, load_next st2 c = (None, sd)).
    { unfold load_next. change (s_log st2) with (s_log st). rewrite Hc. cbn. eexists. reflexivity. }
    destruct Hl as [sd Hl]. rewrite Hl. split.
    - intros q Hq. unfold abort in Hq. cbn in Hq. rewrite upd_same in Hq. inversion Hq. cbn. exact Hrest.
    - reflexivity. }
  destruct H3 as [H3 H3l]. rewrite (run_done _ s3 0 H3). exact H3l.
Qed.

(* a small history on the empty store, as a test of the model: post, auto-compaction, a post to an unknown id *)
Lemma c02_demo :
  let st := exec (create_prog []) empty_state in
  let f := {| cf_ok := true; cf_stride0 := false; cf_dry := false; cf_planned := 1%nat;
              cf_inflight := false; cf_execute := true; cf_created := 1%nat; cf_ended := true |} in
  map seq (s_log (exec (cap_prog CapPost 0 f) st)) = [0; 1; 2]
  /\ map seq (s_log (exec (cap_prog CapAuto 0 f) st)) = [0; 1; 2; 3]
  /\ silent CapAuto f = false
  /\ map seq (s_log (exec (cap_prog CapPost 77 f) st)) = [0].
Proof. vm_compute. repeat split; reflexivity. Qed.
