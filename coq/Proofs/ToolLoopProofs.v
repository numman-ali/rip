(* C16 — proofs about Model/ToolLoop.v: collector (completion only at done events, distinct call ids with the
   fix, drain = stable sort), tool_choice enforcement by shape, and the loop (run relation + the theorems of
   Props/C16.v). *)
From Coq Require Import Strings.String Strings.Ascii.
From RipV Require Import Base.Prelude Base.Json Model.ToolLoop.
From Coq Require Import Permutation Sorted.

(* two facts about lists in general *)
Lemma hd_error_skipn {A} n : forall l : list A, hd_error (skipn n l) = nth_error l n.
Proof. induction n as [|n IH]; intros [|x l]; cbn; auto. Qed.

Lemma filter_len {A} (f : A -> bool) (l : list A) : (length (filter f l) <= length l)%nat.
Proof. induction l as [|x r IH]; cbn [filter length]; [lia|]. destruct (f x); cbn [length]; lia. Qed.

Lemma str_eqb_eq a b : str_eqb a b = true <-> a = b.
Proof. apply lN_eqb_spec. Qed.
Lemma str_eqb_refl a : str_eqb a a = true.
Proof. apply str_eqb_eq; reflexivity. Qed.
Lemma str_eqb_neq a b : str_eqb a b = false <-> a <> b.
Proof. rewrite <- str_eqb_eq. destruct (str_eqb a b); split; congruence. Qed.

Lemma ins_call_perm x l : Permutation (ins_call x l) (x :: l).
Proof.
  induction l as [|y r IH]; cbn [ins_call]; [apply Permutation_refl|].
  destruct (c_oi x <=? c_oi y); [apply Permutation_refl|].
  eapply perm_trans; [apply perm_skip, IH | apply perm_swap].
Qed.

Lemma sort_calls_perm l : Permutation (sort_calls l) l.
Proof.
  induction l as [|x r IH]; cbn [sort_calls]; [constructor|].
  eapply perm_trans; [apply ins_call_perm | apply perm_skip, IH].
Qed.

(* the order drain sorts by: output_index *)
Definition oi_le (a b : call) : Prop := c_oi a <= c_oi b.

Lemma ins_call_sorted x l : StronglySorted oi_le l -> StronglySorted oi_le (ins_call x l).
Proof.
  induction l as [|y r IH]; intros Hs; cbn [ins_call].
  - constructor; constructor.
  - destruct (c_oi x <=? c_oi y) eqn:E.
    + constructor; [exact Hs|].
      inversion Hs as [|? ? Hr Hy]; subst.
      constructor; [unfold oi_le; lia|].
      eapply Forall_impl; [|exact Hy]. intros z Hz. unfold oi_le in *. lia.
    + inversion Hs as [|? ? Hr Hy]; subst.
      constructor; [apply IH; exact Hr|].
      eapply Permutation_Forall; [apply Permutation_sym, ins_call_perm|].
      constructor; [unfold oi_le; lia | exact Hy].
Qed.

Lemma sort_calls_sorted l : StronglySorted oi_le (sort_calls l).
Proof.
  induction l as [|x r IH]; cbn [sort_calls]; [constructor | apply ins_call_sorted, IH].
Qed.

(* stability: calls with the same output index keep their completion order *)
Lemma ins_call_filter k x l :
  filter (fun c => c_oi c =? k) (ins_call x l)
  = if c_oi x =? k then x :: filter (fun c => c_oi c =? k) l else filter (fun c => c_oi c =? k) l.
Proof.
  induction l as [|y r IH]; cbn [ins_call filter]; [reflexivity|].
  destruct (c_oi x <=? c_oi y) eqn:E; cbn [filter].
  - reflexivity.
  - rewrite IH. destruct (c_oi y =? k) eqn:Ey; destruct (c_oi x =? k) eqn:Ex; try reflexivity.
    exfalso. lia.
Qed.

Lemma sort_calls_stable k l :
  filter (fun c => c_oi c =? k) (sort_calls l) = filter (fun c => c_oi c =? k) l.
Proof.
  induction l as [|x r IH]; cbn [sort_calls filter]; [reflexivity|].
  rewrite ins_call_filter, IH. reflexivity.
Qed.

Lemma drain_perm c : Permutation (drain c) (k_done c).
Proof. apply sort_calls_perm. Qed.

(* an `output_item.done` event carrying a function_call item *)
Definition is_fc_done (ev : json) : bool :=
  match ev with
  | JObj obj =>
    match get_str K_type obj with
    | Some ty =>
      str_eqb ty S_item_done &&
      match obind (jget K_item obj) as_obj with
      | Some item => match get_str K_type item with Some t => str_eqb t S_function_call | None => false end
      | None => false
      end
    | None => false
    end
  | _ => false
  end.

Definition grows (fx : bool) (d d' : list call) : Prop :=
  d' = d \/ exists x, d' = push_done fx d x.

Lemma k_done_obs_item fx c obj dn :
  k_done (obs_item fx c obj dn) = k_done c \/
  (dn = true /\
   (match obind (jget K_item obj) as_obj with
    | Some item => match get_str K_type item with Some t => str_eqb t S_function_call | None => false end
    | None => false
    end) = true /\
   exists x, k_done (obs_item fx c obj dn) = push_done fx (k_done c) x).
Proof.
  unfold obs_item.
  destruct (obind (jget K_item obj) as_obj) as [item|]; [|left; reflexivity].
  destruct (match get_str K_type item with Some t => str_eqb t S_function_call | None => false end) eqn:Et;
    cbn [negb]; [|left; reflexivity].
  (* whatever the item holds, k_done is touched in the is_done branch alone, and there by one push_done at most *)
  repeat match goal with
  | |- context [match ?x with _ => _ end] => destruct x eqn:?; cbn [k_done]; try (left; reflexivity)
  end.
  all: right; split; [reflexivity|]; split; [reflexivity|]; eexists; reflexivity.
Qed.

Lemma k_done_obs_args c obj dn : k_done (obs_args c obj dn) = k_done c.
Proof. unfold obs_args. destruct (get_str K_item_id obj); reflexivity. Qed.

(* observe changes nothing, or sets the response id (c1) and then at most handles an item or an arguments event *)
Lemma observe_cases fx c ev :
  exists c1, k_bufs c1 = k_bufs c /\ k_ids c1 = k_ids c /\ k_done c1 = k_done c /\
    (observe fx c ev = c1 \/
     exists obj, ev = JObj obj /\
       ((exists dn : bool, get_str K_type obj = Some (if dn then S_item_done else S_item_added) /\
                    observe fx c ev = obs_item fx c1 obj dn) \/
        (exists dn : bool, observe fx c ev = obs_args c1 obj dn))).
Proof.
  unfold observe. destruct ev as [| | | |?|obj]; try solve [exists c; repeat split; auto].
  set (c1 := match nonempty _ with Some id => _ | None => c end).
  exists c1. assert (H : k_bufs c1 = k_bufs c /\ k_ids c1 = k_ids c /\ k_done c1 = k_done c)
    by (subst c1; destruct (nonempty _); auto).
  destruct H as (H1 & H2 & H3). repeat (split; [assumption|]).
  destruct (get_str K_type obj) as [ty|] eqn:Et; [|left; reflexivity].
  destruct (str_eqb ty S_item_added) eqn:Ea.
  { apply str_eqb_eq in Ea. subst ty. right. exists obj. split; [reflexivity|]. left. exists false. auto. }
  destruct (str_eqb ty S_item_done) eqn:Ed.
  { apply str_eqb_eq in Ed. subst ty. right. exists obj. split; [reflexivity|]. left. exists true. auto. }
  destruct (str_eqb ty S_args_delta); [right; exists obj; split; [reflexivity|]; right; exists false; reflexivity|].
  destruct (str_eqb ty S_args_done); [right; exists obj; split; [reflexivity|]; right; exists true; reflexivity|].
  left; reflexivity.
Qed.

Lemma k_done_observe fx c ev :
  k_done (observe fx c ev) = k_done c \/
  (is_fc_done ev = true /\ exists x, k_done (observe fx c ev) = push_done fx (k_done c) x).
Proof.
  destruct (observe_cases fx c ev) as (c1 & _ & _ & H1 & [->|(obj & -> & [(dn & Ht & ->)|(dn & ->)])]).
  - left; exact H1.
  - destruct (k_done_obs_item fx c1 obj dn) as [H|(-> & Hi & x & Hx)]; [left; congruence|].
    right. split; [cbn [is_fc_done]; rewrite Ht, str_eqb_refl, Hi; reflexivity | exists x; rewrite Hx, H1; reflexivity].
  - left. rewrite k_done_obs_args. exact H1.
Qed.

(* an invariant of the collector that may speak of the events observed so far *)
Lemma collect_ind fx (P : list json -> coll -> Prop) :
  P [] coll0 -> (forall evs c ev, P evs c -> P (evs ++ [ev]) (observe fx c ev)) ->
  forall evs, P evs (collect fx evs).
Proof.
  intros H0 Hs evs. induction evs as [|ev evs IH] using rev_ind; [exact H0|].
  unfold collect. rewrite fold_left_app. apply Hs, IH.
Qed.

Lemma push_done_length fx d x : (length (push_done fx d x) <= S (length d))%nat.
Proof.
  unfold push_done. destruct (fx && has_call_id (c_id x) d); [lia|]. rewrite app_length. cbn. lia.
Qed.

Lemma has_call_id_in ci l : has_call_id ci l = true <-> In ci (map c_id l).
Proof.
  unfold has_call_id. rewrite existsb_exists, in_map_iff. split.
  - intros (x & Hin & E). apply str_eqb_eq in E. exists x. auto.
  - intros (x & E & Hin). exists x. split; [exact Hin | apply str_eqb_eq, E].
Qed.

Lemma push_done_nodup d x : NoDup (map c_id d) -> NoDup (map c_id (push_done true d x)).
Proof.
  intros Hd. unfold push_done. cbn [andb].
  destruct (has_call_id (c_id x) d) eqn:E; [exact Hd|].
  rewrite map_app. cbn [map].
  eapply Permutation_NoDup; [apply Permutation_cons_append|].
  constructor; [|exact Hd]. rewrite <- has_call_id_in, E. discriminate.
Qed.

Lemma collect_length fx evs :
  (length (k_done (collect fx evs)) <= length (filter is_fc_done evs))%nat.
Proof.
  apply (collect_ind fx (fun evs c => (length (k_done c) <= length (filter is_fc_done evs))%nat)); [cbn; lia|].
  intros evs0 c ev IH. rewrite filter_app, app_length. cbn [filter].
  destruct (k_done_observe fx c ev) as [E|(Ed & x & E)]; rewrite E.
  - destruct (is_fc_done ev); cbn [length]; lia.
  - rewrite Ed. pose proof (push_done_length fx (k_done c) x). cbn [length]. lia.
Qed.

Lemma collect_nodup evs : NoDup (map c_id (k_done (collect FIXED evs))).
Proof.
  apply (collect_ind FIXED (fun _ c => NoDup (map c_id (k_done c)))); [constructor|].
  intros _ c ev IH. destruct (k_done_observe FIXED c ev) as [->|(_ & x & ->)]; [exact IH|].
  apply push_done_nodup, IH.
Qed.

Lemma drain_nodup evs : NoDup (map c_id (drain (collect FIXED evs))).
Proof.
  eapply Permutation_NoDup; [|apply collect_nodup].
  apply Permutation_map, Permutation_sym, drain_perm.
Qed.

Lemma drain_length fx evs : (length (drain (collect fx evs)) <= length (filter is_fc_done evs))%nat.
Proof.
  rewrite (Permutation_length (drain_perm _)). apply collect_length.
Qed.

(* an `output_item.done` event whose function_call item carries a non-empty call id and a name
   (the item id may be missing: the collector falls back to the call id) *)
Definition wf_done (ev : json) (cid : str) : Prop :=
  exists obj item nm,
    ev = JObj obj /\ get_str K_type obj = Some S_item_done /\
    obind (jget K_item obj) as_obj = Some item /\
    get_str K_type item = Some S_function_call /\
    get_str K_call_id item = Some cid /\ cid <> [] /\ get_str K_name item = Some nm.

Lemma push_done_keeps fx d x y : In y (map c_id d) -> In y (map c_id (push_done fx d x)).
Proof.
  intros H. unfold push_done. destruct (fx && has_call_id (c_id x) d); [exact H|].
  rewrite map_app. apply in_or_app. left; exact H.
Qed.

Lemma push_done_has fx d x : In (c_id x) (map c_id (push_done fx d x)).
Proof.
  unfold push_done. destruct (fx && has_call_id (c_id x) d) eqn:E.
  - apply andb_true_iff in E. apply has_call_id_in, E.
  - rewrite map_app. apply in_or_app. right. left. reflexivity.
Qed.

Lemma observe_keeps fx c ev y : In y (map c_id (k_done c)) -> In y (map c_id (k_done (observe fx c ev))).
Proof.
  intros H. destruct (k_done_observe fx c ev) as [E|(_ & x & E)]; rewrite E; [exact H|].
  apply push_done_keeps; exact H.
Qed.

(* item ids remembered per call id are never empty *)
Definition ids_ok (c : coll) : Prop := forall k v, aget k (k_ids c) = Some v -> v <> [].

Lemma aget_aset {V} k k' (v : V) l :
  aget k (aset k' v l) = if str_eqb k k' then Some v else aget k l.
Proof.
  induction l as [|[k0 v0] r IH]; cbn [aset aget].
  - destruct (str_eqb k k'); reflexivity.
  - destruct (str_eqb k' k0) eqn:E0; cbn [aget].
    + apply str_eqb_eq in E0. subst k0. destruct (str_eqb k k'); reflexivity.
    + rewrite IH. destruct (str_eqb k k') eqn:E1; [|reflexivity].
      apply str_eqb_eq in E1. subst k'. rewrite E0. reflexivity.
Qed.

Lemma k_ids_obs_item fx c obj dn :
  k_ids (obs_item fx c obj dn) = k_ids c \/
  exists cid iid, iid <> [] /\ k_ids (obs_item fx c obj dn) = aset cid iid (k_ids c).
Proof.
  unfold obs_item.
  (* k_ids changes by one aset at most, behind the test that the item id is not empty *)
  repeat match goal with
  | |- context [match ?x with _ => _ end] => destruct x eqn:?; cbn [k_ids]; try (left; reflexivity)
  end.
  all: right; eexists; eexists; split; [|reflexivity]; discriminate.
Qed.

Lemma k_ids_obs_args c obj dn : k_ids (obs_args c obj dn) = k_ids c.
Proof. unfold obs_args. destruct (get_str K_item_id obj); reflexivity. Qed.

Lemma ids_ok_observe fx c ev : ids_ok c -> ids_ok (observe fx c ev).
Proof.
  intros Hc.
  destruct (observe_cases fx c ev) as (c1 & _ & H2 & _ & [->|(obj & -> & [(dn & _ & ->)|(dn & ->)])]); unfold ids_ok.
  - rewrite H2. exact Hc.
  - destruct (k_ids_obs_item fx c1 obj dn) as [E|(cid & iid & Hne & E)]; rewrite E, ?H2; [exact Hc|].
    intros k v. rewrite aget_aset. destruct (str_eqb k cid); [intros H; inversion H; subst; exact Hne | apply Hc].
  - rewrite k_ids_obs_args, H2. exact Hc.
Qed.

Lemma observe_wf_done fx c ev cid :
  ids_ok c -> wf_done ev cid -> In cid (map c_id (k_done (observe fx c ev))).
Proof.
  intros Hok (obj & item & nm & -> & Ht & Hi & Hit & Hc & Hne & Hn).
  unfold observe. rewrite Ht.
  replace (str_eqb S_item_done S_item_added) with false by reflexivity.
  rewrite str_eqb_refl.
  set (c1 := match nonempty _ with Some id => _ | None => c end).
  assert (H1 : k_ids c1 = k_ids c) by (subst c1; destruct (nonempty _); reflexivity).
  unfold obs_item. rewrite Hi, Hit, str_eqb_refl. cbn [negb].
  rewrite Hc, Hn.
  destruct cid as [|c0 cr]; [contradiction|]. cbn [nonempty orelse obind].
  match goal with |- context [match ?e with [] => c1 | _ :: _ => _ end] => destruct e as [|i0 ir] eqn:Eid end.
  - (* the item id falls back to the one remembered for the call id, or to the call id: neither is empty *)
    exfalso. revert Eid.
    destruct (nonempty (get_str K_id item)) as [[|a b]|] eqn:En; cbn [orelse]; try discriminate.
    + destruct (get_str K_id item) as [[|? ?]|]; discriminate En.
    + destruct (aget (c0 :: cr) (k_ids c1)) as [v|] eqn:E2; cbn [orelse]; [|discriminate].
      intros ->. rewrite H1 in E2. exact (Hok _ _ E2 eq_refl).
  - cbn [k_done].
    match goal with |- In _ (map c_id (push_done fx ?d ?x)) => apply (push_done_has fx d x) end.
Qed.

Lemma emitted_call_drained fx evs ev cid :
  In ev evs -> wf_done ev cid -> In cid (map c_id (drain (collect fx evs))).
Proof.
  intros Hin Hw. eapply Permutation_in; [apply Permutation_map, Permutation_sym, drain_perm|].
  refine (proj2 (collect_ind fx (fun evs c => ids_ok c /\
            forall ev, In ev evs -> wf_done ev cid -> In cid (map c_id (k_done c))) _ _ evs) ev Hin Hw).
  - split; [intros k v H; discriminate H | intros e []].
  - intros evs0 c ev0 [Hok IH]. split; [apply ids_ok_observe, Hok|].
    intros e He Hwe. apply in_app_or in He. destruct He as [He|[<-|[]]].
    + apply observe_keeps. eapply IH; eauto.
    + apply observe_wf_done; assumption.
Qed.

Lemma enforce_none : enforce (JStr S_none) = NoTools.
Proof. reflexivity. Qed.

Lemma enforce_string s : s <> S_none -> enforce (JStr s) = AllFunctions.
Proof. intros H. cbn [enforce]. apply str_eqb_neq in H. rewrite H. reflexivity. Qed.

Lemma enforce_other_value v :
  match v with JStr _ | JObj _ => False | _ => True end -> enforce v = AllFunctions.
Proof. destruct v; cbn; tauto. Qed.

Lemma enforce_object_other obj :
  match get_str K_type obj with
  | Some ty => ty <> S_function /\ ty <> S_allowed_tools
  | None => True
  end -> enforce (JObj obj) = AllFunctions.
Proof.
  cbn [enforce]. destruct (get_str K_type obj) as [ty|]; [|reflexivity].
  intros [H1 H2]. apply str_eqb_neq in H1. apply str_eqb_neq in H2. rewrite H1, H2. reflexivity.
Qed.

Lemma allows_only ns n : allows (OnlyFunctions ns) n = true <-> In n ns.
Proof.
  cbn [allows]. rewrite existsb_exists. split.
  - intros (x & Hin & E). apply str_eqb_eq in E. subst x. exact Hin.
  - intros H. exists n. split; [exact H | apply str_eqb_refl].
Qed.

Lemma allows_function obj n :
  get_str K_type obj = Some S_function ->
  (allows (enforce (JObj obj)) n = true <-> (get_str K_name obj = Some n /\ n <> [])).
Proof.
  intros Ht. cbn [enforce]. rewrite Ht, str_eqb_refl, allows_only.
  destruct (get_str K_name obj) as [[|c r]|]; cbn [nonempty In]; intuition congruence.
Qed.

Lemma in_allowed_tool_name t n :
  In n (allowed_tool_name t) <->
  exists o, t = JObj o /\ get_str K_type o = Some S_function /\ get_str K_name o = Some n /\ n <> [].
Proof.
  unfold allowed_tool_name. split.
  - destruct t as [| | | | |o]; try (cbn; tauto).
    destruct (get_str K_type o) as [ty|] eqn:Et; [|cbn; tauto].
    destruct (str_eqb ty S_function) eqn:Ef; [|cbn; tauto].
    apply str_eqb_eq in Ef. subst ty.
    destruct (get_str K_name o) as [[|c r]|] eqn:En; cbn [nonempty In]; try tauto.
    intros [E|[]]. subst n. exists o. repeat split; try assumption. discriminate.
  - intros (o & -> & Et & En & Hn). rewrite Et, str_eqb_refl, En.
    destruct n; [contradiction|]. cbn. left; reflexivity.
Qed.

Lemma allows_allowed_tools obj n :
  get_str K_type obj = Some S_allowed_tools ->
  (allows (enforce (JObj obj)) n = true <->
   (get_str K_mode obj <> Some S_none /\
    exists tools t, obind (jget K_tools obj) as_arr = Some tools /\ In t tools /\ In n (allowed_tool_name t))).
Proof.
  intros Ht. cbn [enforce]. rewrite Ht.
  replace (str_eqb S_allowed_tools S_function) with false by reflexivity.
  rewrite str_eqb_refl.
  set (none := match get_str K_mode obj with Some m => str_eqb m S_none | None => false end).
  assert (Hm : none = true <-> get_str K_mode obj = Some S_none).
  { subst none. destruct (get_str K_mode obj) as [m|]; [rewrite str_eqb_eq|]; split; intros H; inversion H; reflexivity. }
  destruct none.
  - split; [discriminate | intros [H _]; elim H; apply Hm; reflexivity].
  - assert (Hn : get_str K_mode obj <> Some S_none) by (intros E; apply Hm in E; discriminate).
    rewrite allows_only. destruct (obind (jget K_tools obj) as_arr) as [tools|].
    + rewrite in_flat_map. split.
      * intros (t & H1 & H2). split; [exact Hn|]. exists tools, t. auto.
      * intros (_ & tools' & t & E & H1 & H2). inversion E; subst tools'. exists t. auto.
    + split; [intros [] | intros (_ & tools & t & E & _); discriminate].
Qed.

Lemma run_calls_cons e tool count nexec c r :
  count < MAX_TOOL_CALLS ->
  run_calls e tool count nexec (c :: r)
  = let ran := allows e (c_name c) in
    let '(xs, cnt, ne, hit) := run_calls e tool (count + 1) (if ran then nexec + 1 else nexec) r in
    ({| x_call := c; x_ran := ran; x_out := if ran then tool nexec c else reject_output c |} :: xs, cnt, ne, hit).
Proof.
  intros H. cbn [run_calls]. replace (MAX_TOOL_CALLS <=? count) with false by lia.
  destruct (allows e (c_name c)); reflexivity.
Qed.

Lemma run_calls_spec e tool calls : forall count nexec xs cnt ne hit,
  run_calls e tool count nexec calls = (xs, cnt, ne, hit) ->
  map x_call xs = firstn (length xs) calls /\
  Forall (fun x => x_ran x = allows e (c_name (x_call x)) /\
                   (x_ran x = false -> x_out x = reject_output (x_call x))) xs /\
  cnt = count + nlen xs /\
  (count <= MAX_TOOL_CALLS -> cnt <= MAX_TOOL_CALLS) /\
  (hit = false -> map x_call xs = calls) /\
  (hit = true -> MAX_TOOL_CALLS <= cnt).
Proof.
  induction calls as [|c r IH]; intros count nexec xs cnt ne hit H.
  - inversion H; subst. rewrite nlen_nil. cbn [map length firstn]. repeat split; auto; try lia; discriminate.
  - destruct (MAX_TOOL_CALLS <=? count) eqn:Em.
    + cbn [run_calls] in H. rewrite Em in H. inversion H; subst. rewrite nlen_nil. cbn [map length firstn]. repeat split; auto; try lia; discriminate.
    + rewrite run_calls_cons in H by lia. cbv zeta in H.
      destruct (run_calls e tool (count + 1) _ r) as [[[xs' cnt'] ne'] hit'] eqn:Er.
      inversion H; subst. destruct (IH _ _ _ _ _ _ Er) as (I1 & I2 & I3 & I4 & I5 & I6).
      rewrite nlen_cons. cbn [map length firstn x_call]. repeat split.
      * f_equal; exact I1.
      * constructor; [|exact I2]. cbn [x_ran x_out x_call]. split; [reflexivity | intros ->; reflexivity].
      * lia.
      * intros Hc. apply I4. lia.
      * intros Hh. f_equal. apply I5; exact Hh.
      * exact I6.
Qed.

Section Run.
Variable g : cfg.
Variable valid : N -> request -> bool.
Variable tool : N -> call -> str.
Variable prompt : str.

(* the state `s2` the loop goes on with after an iteration (convertible: outputs_for unfolds to the model's map) *)
Definition next_state (s s1 : lst) (prev : option str) (calls : list call) (xs : list xcall) (cnt ne : N) : lst :=
  let hist1 := if g_stateless g then s_hist s1 ++ map call_item calls else s_hist s1 in
  let outs := outputs_for (g_stateless g) xs in
  {| s_prev := prev; s_follow := Some outs; s_count := cnt; s_nexec := ne;
     s_hist := if g_stateless g then hist1 ++ outs else hist1;
     s_init := s_init s1; s_idx := s_idx s + 1 |}.

(* from state s the request req is built, passes the gate and is sent; s1 = the state while it is answered *)
Definition sends (s : lst) (req : request) (s1 : lst) : Prop :=
  s_count s < MAX_TOOL_CALLS /\ build g prompt s = Some (req, s1) /\ valid (s_idx s) req = true.

(* the run ends in state s without another request being sent *)
Inductive stops (s : lst) : option request -> reason -> Prop :=
| ST_max : MAX_TOOL_CALLS <= s_count s -> stops s None MaxToolCalls
| ST_noprev : s_count s < MAX_TOOL_CALLS -> build g prompt s = None -> stops s None ProviderError
| ST_invalid req s1 :
    s_count s < MAX_TOOL_CALLS -> build g prompt s = Some (req, s1) -> valid (s_idx s) req = false ->
    stops s (Some req) InvalidRequest.

(* the stream of the scripted answer rd does not fail, and these calls are drained from it *)
Definition answered (rd : round) (calls : list call) : Prop :=
  r_fail rd = false /\ drain (collect (g_fixed g) (r_events rd)) = calls.

(* how a run ends after its last request was sent (answered by rd, if anything is scripted) *)
Inductive last_iter (s1 : lst) : option round -> list call -> list xcall -> reason -> Prop :=
| LI_exhausted : last_iter s1 None [] [] ProviderError
| LI_failed rd : r_fail rd = true -> last_iter s1 (Some rd) [] [] ProviderError
| LI_completed rd : answered rd [] -> last_iter s1 (Some rd) [] [] Completed
| LI_noprev rd calls :
    answered rd calls -> calls <> [] -> g_stateless g = false ->
    orelse (k_resp (collect (g_fixed g) (r_events rd))) (s_prev s1) = None ->
    last_iter s1 (Some rd) calls [] ProviderError
| LI_bound rd calls xs cnt ne :
    answered rd calls -> calls <> [] ->
    run_calls (enforce (g_choice g)) tool (s_count s1) (s_nexec s1) calls = (xs, cnt, ne, true) ->
    last_iter s1 (Some rd) calls xs MaxToolCalls.

(* The `loop` fixpoint read as a relation (loop_run): a run stops before a request, ends with a last request, or
   processes all calls of an answer and goes on.  Every theorem below goes by inversion on how a run ends or starts. *)
Inductive LoopRun : list round -> lst -> result -> Prop :=
| LR_stop script s rj rsn : stops s rj rsn -> LoopRun script s (mkres [] rj rsn)
| LR_last script s req s1 calls xs rsn :
    sends s req s1 -> last_iter s1 (hd_error script) calls xs rsn ->
    LoopRun script s (mkres [mkiter req calls xs] None rsn)
| LR_step rd rest s req s1 calls xs cnt ne prev r :
    sends s req s1 -> answered rd calls -> calls <> [] ->
    prev = orelse (k_resp (collect (g_fixed g) (r_events rd))) (s_prev s1) ->
    (g_stateless g = false -> prev <> None) ->
    run_calls (enforce (g_choice g)) tool (s_count s1) (s_nexec s1) calls = (xs, cnt, ne, false) ->
    LoopRun rest (next_state s s1 prev calls xs cnt ne) r ->
    LoopRun (rd :: rest) s (mkres (mkiter req calls xs :: res_iters r) (res_rejected r) (res_reason r)).

Lemma loop_run script : forall s, LoopRun script s (loop g valid tool prompt script s).
Proof.
  induction script as [|rd rest IH]; intros s; cbn [loop].
  all: destruct (MAX_TOOL_CALLS <=? s_count s) eqn:Em; [apply LR_stop, ST_max; lia|].
  all: destruct (build g prompt s) as [[req s1]|] eqn:Eb; [|apply LR_stop, ST_noprev; [lia | exact Eb]].
  all: destruct (valid (s_idx s) req) eqn:Ev; cbn [negb]; [|eapply LR_stop, ST_invalid; eauto; lia].
  all: assert (Hs : sends s req s1) by (repeat split; [lia | exact Eb | exact Ev]).
  - eapply LR_last; [exact Hs | apply LI_exhausted].
  - destruct (r_fail rd) eqn:Ef; [eapply LR_last; [exact Hs | apply LI_failed, Ef]|].
    destruct (drain (collect (g_fixed g) (r_events rd))) as [|c0 cr] eqn:Ed.
    { eapply LR_last; [exact Hs | apply LI_completed, (conj Ef Ed)]. }
    assert (Hne : c0 :: cr <> []) by discriminate.
    remember (orelse (k_resp (collect (g_fixed g) (r_events rd))) (s_prev s1)) as prev eqn:Hp.
    destruct (negb (g_stateless g) && match prev with Some _ => false | None => true end) eqn:Ep.
    { apply andb_true_iff in Ep. destruct Ep as [Ep1 Ep2].
      eapply LR_last; [exact Hs | apply LI_noprev; [exact (conj Ef Ed) | exact Hne | |]].
      - destruct (g_stateless g); [discriminate | reflexivity].
      - rewrite <- Hp. destruct prev; [discriminate | reflexivity]. }
    destruct (run_calls (enforce (g_choice g)) tool (s_count s1) (s_nexec s1) (c0 :: cr))
      as [[[xs cnt] ne] hit] eqn:Er.
    destruct hit; [eapply LR_last; [exact Hs | eapply LI_bound; eauto; exact (conj Ef Ed)]|].
    eapply LR_step with (cnt := cnt) (ne := ne) (prev := prev); eauto; [exact (conj Ef Ed)|].
    intros Hst E. rewrite Hst, E in Ep. discriminate Ep.
Qed.

Lemma build_count s req s1 : build g prompt s = Some (req, s1) -> s_count s1 = s_count s.
Proof.
  unfold build. intros H.
  destruct (s_follow s).
  - destruct (g_stateless g); [inversion H; reflexivity|].
    destruct (s_prev s); [inversion H; reflexivity | discriminate].
  - destruct (s_init s); [inversion H; reflexivity|].
    destruct (g_stateless g); inversion H; reflexivity.
Qed.

Lemma run_bound script s r :
  LoopRun script s r -> s_count s <= MAX_TOOL_CALLS ->
  s_count s + nlen (processed r) <= MAX_TOOL_CALLS /\
  nlen (res_iters r) <= nlen (processed r) + 1 /\
  (res_reason r = MaxToolCalls -> s_count s + nlen (processed r) = MAX_TOOL_CALLS).
Proof.
  unfold processed.
  induction 1 as [script s rj rsn Hst|script s req s1 calls xs rsn (Hc & Hb & _) Hl
                 |rd rest s req s1 calls xs cnt ne prev r (Hc & Hb & _) _ Hne _ _ Hr _ IH];
    intros Hs; cbn [res_iters res_reason mkres map concat it_done mkiter];
    rewrite ?app_nil_r, ?nlen_app, ?nlen_cons, ?nlen_nil.
  - rewrite (@nlen_nil iter). split; [lia|]. split; [lia|]. intros Hm. destruct Hst; try discriminate. lia.
  - apply build_count in Hb.
    destruct Hl as [ | | | |rd calls xs cnt ne _ _ Hr]; rewrite ?nlen_nil;
      try (split; [lia|]; split; [lia | discriminate]).
    destruct (run_calls_spec _ _ _ _ _ _ _ _ _ Hr) as (_ & _ & R3 & R4 & _ & R6).
    rewrite Hb in *. specialize (R4 ltac:(lia)). specialize (R6 eq_refl).
    split; [lia|]. split; lia.
  - apply build_count in Hb.
    destruct (run_calls_spec _ _ _ _ _ _ _ _ _ Hr) as (_ & _ & R3 & R4 & R5 & _).
    rewrite Hb in *. specialize (R4 ltac:(lia)).
    destruct (IH R4) as (I1 & I2 & I3). cbn [s_count next_state] in I1, I3.
    (* an iteration that goes on has processed all its calls, at least one *)
    assert (Hx : 1 <= nlen xs).
    { specialize (R5 eq_refl). destruct xs; [cbn in R5; congruence|]. rewrite nlen_cons. lia. }
    split; [lia|]. split; [lia|]. intros Hm. specialize (I3 Hm). lia.
Qed.

Lemma run_rejected script s r :
  LoopRun script s r -> forall q, res_rejected r = Some q ->
  res_reason r = InvalidRequest /\ valid (s_idx s + nlen (res_iters r)) q = false.
Proof.
  induction 1 as [script s rj rsn Hst| |rd rest s req s1 calls xs cnt ne prev r _ _ _ _ _ _ _ IH];
    cbn [res_iters res_rejected res_reason mkres]; intros q Hq; [|discriminate|].
  - destruct Hst; try discriminate. inversion Hq; subst q. rewrite nlen_nil, N.add_0_r. auto.
  - destruct (IH q Hq) as [J1 J2]. split; [exact J1|]. rewrite nlen_cons, N.add_assoc. exact J2.
Qed.

(* initial-items invariant: while the compiled context has not been sent, it is the history and no follow-up is pending *)
Definition init_inv (s : lst) : Prop :=
  match s_init s with Some l => (g_stateless g = true -> s_hist s = l) /\ s_follow s = None | None => True end.

Lemma filter_is_out_fmsg : filter is_out (fmsg g) = [].
Proof. unfold fmsg. destruct (g_followup g); reflexivity. Qed.

Lemma filter_is_out_calls l : filter is_out (map call_item l) = [].
Proof. induction l; cbn; auto. Qed.

Lemma filter_is_out_outputs st xs : filter is_out (outputs_for st xs) = outputs_for st xs.
Proof. unfold outputs_for. induction xs; cbn; [reflexivity | f_equal; assumption]. Qed.

(* the history the next state carries, in terms of the request just sent (stateless mode) *)
Lemma build_stateless s req s1 :
  g_stateless g = true -> init_inv s -> build g prompt s = Some (req, s1) ->
  q_prev req = None /\
  filter is_out (s_hist s1) = filter is_out (items_of req) /\
  (g_fixed g = true -> s_hist s1 = items_of req) /\
  (s_follow s <> None -> q_kind req = 4 /\ items_of req = s_hist s ++ fmsg g).
Proof.
  intros Hst Hinv Hb. unfold build in Hb. unfold init_inv in Hinv. rewrite Hst in Hb.
  destruct (s_follow s) as [outs|] eqn:Ef.
  - inversion Hb; subst; clear Hb. cbn [s_hist q_prev q_input items_of mkreq q_kind].
    repeat split; auto.
    + destruct (g_fixed g); rewrite ?filter_app, ?filter_is_out_fmsg, ?app_nil_r; reflexivity.
    + intros Hfx. rewrite Hfx. reflexivity.
  - destruct (s_init s) as [l|] eqn:Ei.
    + destruct Hinv as [Hh _]. specialize (Hh Hst).
      inversion Hb; subst req s1; clear Hb. cbn. rewrite Hh. repeat split; auto; exfalso; congruence.
    + inversion Hb; subst req s1; clear Hb. cbn. repeat split; auto; exfalso; congruence.
Qed.

Lemma build_stateful s req s1 outs :
  g_stateless g = false -> s_follow s = Some outs -> build g prompt s = Some (req, s1) ->
  q_input req = InItems (outs ++ fmsg g) /\ q_prev req <> None /\ q_kind req = 3.
Proof.
  intros Hst Hf Hb. unfold build in Hb. rewrite Hf, Hst in Hb.
  destruct (s_prev s); [|discriminate]. inversion Hb; subst. cbn. repeat split; auto. discriminate.
Qed.

Lemma build_init_none s req s1 :
  init_inv s -> build g prompt s = Some (req, s1) -> s_init s1 = None.
Proof.
  intros Hinv Hb. unfold build in Hb. unfold init_inv in Hinv.
  destruct (s_follow s) as [outs|] eqn:Ef.
  - destruct (s_init s) as [l|] eqn:Ei; [destruct Hinv as [_ Hn]; discriminate|].
    destruct (g_stateless g); [inversion Hb; subst; cbn; auto|].
    destruct (s_prev s); [inversion Hb; subst; cbn; auto | discriminate].
  - destruct (s_init s) as [l|] eqn:Ei; [inversion Hb; subst; reflexivity|].
    destruct (g_stateless g); inversion Hb; subst; auto.
Qed.

Lemma next_state_inv s s1 prev calls xs cnt ne : s_init s1 = None -> init_inv (next_state s s1 prev calls xs cnt ne).
Proof. intros H. unfold init_inv, next_state. cbn [s_init]. rewrite H. exact I. Qed.

(* q answers exactly the calls that iteration `it` processed *)
Definition answer_shape (it : iter) (q : request) : Prop :=
  (g_stateless g = false ->
     q_input q = InItems (outputs_for false (it_done it) ++ fmsg g) /\ q_prev q <> None /\ q_kind q = 3) /\
  (g_stateless g = true ->
     q_prev q = None /\ q_kind q = 4 /\
     filter is_out (items_of q) = filter is_out (items_of (it_req it)) ++ outputs_for true (it_done it) /\
     (g_fixed g = true ->
        items_of q = items_of (it_req it) ++ map call_item (it_calls it) ++ outputs_for true (it_done it) ++ fmsg g)).

(* what the next request must look like after an iteration that continues *)
Definition answers (it1 it2 : iter) : Prop :=
  map x_call (it_done it1) = it_calls it1 /\ it_calls it1 <> [] /\ answer_shape it1 (it_req it2).

(* whatever payload is built from the state after an iteration that processed all its calls is the answer to
   exactly these calls *)
Lemma step_answers s req s1 calls xs cnt ne prev it2 s1' :
  init_inv s -> build g prompt s = Some (req, s1) -> calls <> [] ->
  run_calls (enforce (g_choice g)) tool (s_count s1) (s_nexec s1) calls = (xs, cnt, ne, false) ->
  build g prompt (next_state s s1 prev calls xs cnt ne) = Some (it_req it2, s1') ->
  answers (mkiter req calls xs) it2.
Proof.
  intros Hinv Hb Hne Hr Hb2.
  pose proof (build_init_none _ _ _ Hinv Hb) as Hin.
  destruct (run_calls_spec _ _ _ _ _ _ _ _ _ Hr) as (_ & _ & _ & _ & R5 & _).
  unfold answers. cbn [it_done it_calls it_req mkiter].
  split; [exact (R5 eq_refl)|]. split; [exact Hne|]. split.
  - intros Hst.
    eapply build_stateful in Hb2; [|exact Hst|cbn [s_follow next_state]; reflexivity].
    rewrite Hst in Hb2. exact Hb2.
  - intros Hst.
    destruct (build_stateless _ _ _ Hst Hinv Hb) as (_ & H3 & H4 & _).
    destruct (build_stateless _ _ _ Hst (next_state_inv s s1 prev calls xs cnt ne Hin) Hb2) as (K2 & _ & _ & K5).
    cbn [s_follow next_state] in K5. destruct (K5 ltac:(discriminate)) as [K6 K7].
    cbn [s_hist next_state] in K7. rewrite Hst in K7.
    split; [exact K2|]. split; [exact K6|]. split.
    + rewrite K7. rewrite !filter_app, filter_is_out_fmsg, filter_is_out_calls, filter_is_out_outputs, H3.
      rewrite !app_nil_r. reflexivity.
    + intros Hfx. rewrite K7, (H4 Hfx). rewrite <- !app_assoc. reflexivity.
Qed.

Lemma run_suffix script s r :
  LoopRun script s r -> init_inv s -> forall pre it post, res_iters r = pre ++ it :: post ->
  exists si, init_inv si /\ s_idx si = s_idx s + nlen pre /\
    LoopRun (skipn (length pre) script) si (mkres (it :: post) (res_rejected r) (res_reason r)).
Proof.
  induction 1 as [script s rj rsn Hst|script s req s1 calls xs rsn Hs Hl
                 |rd rest s req s1 calls xs cnt ne prev r Hs Ha Hne Hp Hpn Hr Hrun IH];
    intros Hinv pre it post E; cbn [res_iters res_rejected res_reason mkres] in *.
  - destruct pre; discriminate.
  - destruct pre as [|p [|]]; cbn [app] in E; try discriminate. injection E as <- <-.
    exists s. split; [exact Hinv|]. split; [rewrite nlen_nil, N.add_0_r; reflexivity|]. eapply LR_last; eauto.
  - destruct pre as [|p pre]; cbn [app] in E; injection E as E1 E2.
    + subst it post. exists s. split; [exact Hinv|]. split; [rewrite nlen_nil, N.add_0_r; reflexivity|].
      cbn [length skipn]. eapply LR_step; eauto.
    + pose proof (build_init_none _ _ _ Hinv (proj1 (proj2 Hs))) as Hin.
      destruct (IH (next_state_inv s s1 prev calls xs cnt ne Hin) pre it post E2) as (si & Hi & Hx & Hrun').
      exists si. split; [exact Hi|]. split; [|exact Hrun'].
      rewrite Hx, nlen_cons. cbn [s_idx next_state]. lia.
Qed.

(* what was drained from which scripted answer, and what was processed *)
Definition iter_from (rd : option round) (it : iter) : Prop :=
  (it_calls it = [] \/ exists r, rd = Some r /\ answered r (it_calls it)) /\
  map x_call (it_done it) = firstn (length (it_done it)) (it_calls it) /\
  Forall (fun x => x_ran x = allows (enforce (g_choice g)) (c_name (x_call x))) (it_done it).

Lemma iter_from_run_calls rd req calls xs count nexec cnt ne hit :
  answered rd calls -> run_calls (enforce (g_choice g)) tool count nexec calls = (xs, cnt, ne, hit) ->
  iter_from (Some rd) (mkiter req calls xs).
Proof.
  intros Ha Hr. destruct (run_calls_spec _ _ _ _ _ _ _ _ _ Hr) as (R1 & R2 & _).
  split; [right; eauto|]. split; [exact R1|].
  eapply Forall_impl; [|exact R2]. intros x Hx. apply Hx.
Qed.

Lemma head_iter script s r it post :
  LoopRun script s r -> res_iters r = it :: post ->
  (exists s1, sends s (it_req it) s1) /\ iter_from (hd_error script) it.
Proof.
  intros H. inversion H as [|? ? req s1 calls xs rsn Hs Hl|rd rest ? req s1 calls xs cnt ne prev r' Hs Ha Hne Hp Hpn Hr Hrun];
    subst; cbn [res_iters mkres]; intros E; [discriminate| |]; injection E as <- _; cbn [it_req mkiter hd_error].
  - split; [eauto|]. revert Hl. generalize (hd_error script). intros ord Hl. inversion Hl; subst.
    1-3: split; [left; reflexivity|]; split; [reflexivity | constructor].
    + split; [right; eauto|]. split; [reflexivity | constructor].
    + eapply iter_from_run_calls; eauto.
  - split; [eauto|]. eapply iter_from_run_calls; eauto.
Qed.

Lemma head_answers script s r it1 it2 post :
  LoopRun script s r -> init_inv s -> res_iters r = it1 :: it2 :: post -> answers it1 it2.
Proof.
  intros H Hinv. inversion H as [| |rd rest ? req s1 calls xs cnt ne prev r' (_ & Hb & _) Ha Hne Hp Hpn Hr Hrun];
    subst; cbn [res_iters mkres]; intros E; try discriminate.
  injection E as <- E.
  destruct (head_iter _ _ _ _ _ Hrun E) as [(s1' & _ & Hb2 & _) _].
  eapply step_answers; eauto.
Qed.

(* why the calls of a run's last iteration `it` got no next request; P = what else is known in the MaxToolCalls case *)
Definition unanswered_why (P : Prop) (r : result) (it : iter) : Prop :=
  (res_reason r = ProviderError /\ res_rejected r = None /\ g_stateless g = false /\ it_done it = []) \/
  (res_reason r = MaxToolCalls /\ res_rejected r = None /\ P) \/
  (res_reason r = InvalidRequest /\
   exists q, res_rejected r = Some q /\ map x_call (it_done it) = it_calls it /\ answer_shape it q).

Lemma run_no_iters script s r :
  LoopRun script s r -> res_iters r = [] -> exists rj rsn, r = mkres [] rj rsn /\ stops s rj rsn.
Proof. intros H. inversion H; subst; cbn [res_iters mkres]; intros E; try discriminate. eauto. Qed.

Lemma head_last script s r it :
  LoopRun script s r -> init_inv s -> res_iters r = [it] ->
  (res_reason r = Completed ->
     it_calls it = [] /\ it_done it = [] /\ exists rd, hd_error script = Some rd /\ answered rd []) /\
  (it_calls it <> [] -> unanswered_why True r it).
Proof.
  intros H Hinv. unfold unanswered_why.
  inversion H as [|? ? req s1 calls xs rsn Hs Hl|rd rest ? req s1 calls xs cnt ne prev r' (_ & Hb & _) Ha Hne Hp Hpn Hr Hrun];
    subst; cbn [res_iters res_reason res_rejected mkres]; intros E; [discriminate| |].
  - injection E as <-. cbn [it_calls it_done mkiter].
    revert Hl. generalize (hd_error script). intros ord Hl.
    inversion Hl; subst; (split; [intros Hc; try discriminate | intros Hc; try (elim Hc; reflexivity)]).
    + split; [reflexivity|]. split; [reflexivity|]. eauto.
    + left. auto.
    + right. left. auto.
  - injection E as <- E. cbn [it_calls it_done mkiter].
    destruct (run_no_iters _ _ _ Hrun E) as (rj & rsn & -> & Hst). cbn [res_reason res_rejected mkres].
    split; [intros Hc; inversion Hst; subst; discriminate|]. intros _.
    inversion Hst as [Hm|Hc Hn|q s2 Hc Hb2 Hv]; subst.
    + right. left. auto.
    + (* stateful and no response id: the run had ended an iteration earlier *)
      exfalso. unfold build in Hn. cbn [s_follow next_state] in Hn.
      destruct (g_stateless g) eqn:Es; [discriminate|]. cbn [s_prev] in Hn.
      destruct (orelse _ _) eqn:Eo; [discriminate|]. apply Hpn; congruence.
    + right. right. split; [reflexivity|]. exists q. split; [reflexivity|].
      destruct (step_answers _ _ _ _ _ _ _ _ (mkiter q [] []) _ Hinv Hb Hne Hr Hb2) as (A1 & _ & A3). split; assumption.
Qed.

End Run.

Lemma lst0_inv g prompt init : init_inv g (lst0 g prompt init).
Proof.
  unfold init_inv, lst0. cbn [s_init s_hist s_follow]. destruct init as [l|]; [|exact I].
  split; [intros ->; reflexivity | reflexivity].
Qed.

Lemma run_is_looprun g valid tool prompt init script :
  LoopRun g valid tool prompt script (lst0 g prompt init) (run g valid tool prompt init script).
Proof. unfold run. apply loop_run. Qed.

(* the run from iteration number `length pre` on *)
Lemma run_from g valid tool prompt init script pre it post :
  res_iters (run g valid tool prompt init script) = pre ++ it :: post ->
  exists si, init_inv g si /\ s_idx si = nlen pre /\
    LoopRun g valid tool prompt (skipn (length pre) script) si
      (mkres (it :: post) (res_rejected (run g valid tool prompt init script))
             (res_reason (run g valid tool prompt init script))).
Proof.
  intros E.
  exact (run_suffix _ _ _ _ _ _ _ (run_is_looprun g valid tool prompt init script) (lst0_inv g prompt init) _ _ _ E).
Qed.

Lemma run_nth g valid tool prompt init script i it :
  nth_error (res_iters (run g valid tool prompt init script)) i = Some it ->
  valid (N.of_nat i) (it_req it) = true /\ iter_from g (nth_error script i) it.
Proof.
  intros Hi. apply nth_error_split in Hi. destruct Hi as (pre & post & E & <-).
  destruct (run_from _ _ _ _ _ _ _ _ _ E) as (si & _ & Hx & Hrun).
  destruct (head_iter _ _ _ _ _ _ _ _ _ Hrun eq_refl) as [(s1 & _ & _ & Hv) Hf].
  rewrite hd_error_skipn in Hf. rewrite Hx in Hv. split; [exact Hv | exact Hf].
Qed.

Lemma refused_iff_barred g valid tool prompt init script it x :
  In it (res_iters (run g valid tool prompt init script)) -> In x (it_done it) ->
  x_ran x = allows (enforce (g_choice g)) (c_name (x_call x)).
Proof.
  intros Hit Hx. apply In_nth_error in Hit. destruct Hit as [i Hi].
  destruct (run_nth _ _ _ _ _ _ _ _ Hi) as (_ & _ & _ & Hf).
  rewrite Forall_forall in Hf. apply Hf, Hx.
Qed.

Lemma at_most_once g valid tool prompt init script i it :
  nth_error (res_iters (run g valid tool prompt init script)) i = Some it ->
  (* the processed calls are an initial segment of the drained ones, position by position ... *)
  map x_call (it_done it) = firstn (length (it_done it)) (it_calls it) /\
  (* ... which are the calls completed in the i-th scripted answer, each once, in output order ... *)
  (it_calls it = [] \/
   exists rd, nth_error script i = Some rd /\ r_fail rd = false /\
     it_calls it = drain (collect (g_fixed g) (r_events rd)) /\
     Permutation (it_calls it) (k_done (collect (g_fixed g) (r_events rd))) /\
     StronglySorted oi_le (it_calls it) /\
     (forall k, filter (fun c => c_oi c =? k) (it_calls it)
                = filter (fun c => c_oi c =? k) (k_done (collect (g_fixed g) (r_events rd)))) /\
     (* ... no more than the answer has done events for function-call items *)
     (length (it_calls it) <= length (filter is_fc_done (r_events rd)))%nat).
Proof.
  intros Hi. destruct (run_nth _ _ _ _ _ _ _ _ Hi) as (_ & H1 & H2 & _).
  split; [exact H2|].
  destruct H1 as [H1|(rd & E1 & E2 & E3)]; [left; exact H1|].
  right. exists rd. repeat split; auto.
  - rewrite <- E3. apply drain_perm.
  - rewrite <- E3. apply sort_calls_sorted.
  - intros k. rewrite <- E3. apply sort_calls_stable.
  - rewrite <- E3. apply drain_length.
Qed.

Lemma call_ids_distinct g valid tool prompt init script it :
  g_fixed g = FIXED ->
  In it (res_iters (run g valid tool prompt init script)) -> NoDup (map c_id (it_calls it)).
Proof.
  intros Hfx Hit. apply In_nth_error in Hit. destruct Hit as [i Hi].
  destruct (run_nth _ _ _ _ _ _ _ _ Hi) as (_ & [H1|(rd & _ & _ & E3)] & _).
  - rewrite H1. constructor.
  - rewrite <- E3, Hfx. apply drain_nodup.
Qed.

(* 33 = 32 + 1: an iteration that is followed by another processed at least one call (run_bound) *)
Lemma bound g valid tool prompt init script :
  nlen (processed (run g valid tool prompt init script)) <= MAX_TOOL_CALLS /\
  nlen (executed (run g valid tool prompt init script)) <= MAX_TOOL_CALLS /\
  (length (sent (run g valid tool prompt init script)) <= 33)%nat /\
  (res_reason (run g valid tool prompt init script) = MaxToolCalls ->
   nlen (processed (run g valid tool prompt init script)) = MAX_TOOL_CALLS).
Proof.
  pose proof (run_bound _ _ _ _ _ _ _ (run_is_looprun g valid tool prompt init script)) as H.
  cbn [s_count lst0] in H. specialize (H ltac:(unfold MAX_TOOL_CALLS; lia)).
  destruct H as (H1 & H2 & H3). unfold MAX_TOOL_CALLS, nlen in *.
  repeat split.
  - lia.
  - unfold executed. pose proof (filter_len x_ran (processed (run g valid tool prompt init script))). lia.
  - unfold sent. rewrite map_length. lia.
  - intros Hm. specialize (H3 Hm). lia.
Qed.

Lemma invalid_never_sent g valid tool prompt init script :
  (forall i q, nth_error (sent (run g valid tool prompt init script)) i = Some q -> valid (N.of_nat i) q = true) /\
  (forall q, res_rejected (run g valid tool prompt init script) = Some q ->
     res_reason (run g valid tool prompt init script) = InvalidRequest /\
     valid (nlen (sent (run g valid tool prompt init script))) q = false).
Proof.
  split.
  - intros i q Hi. unfold sent in Hi. rewrite nth_error_map in Hi.
    destruct (nth_error (res_iters (run g valid tool prompt init script)) i) as [it|] eqn:E; [|discriminate].
    inversion Hi; subst. apply (run_nth _ _ _ _ _ _ _ _ E).
  - intros q Hq.
    destruct (run_rejected _ _ _ _ _ _ _ (run_is_looprun g valid tool prompt init script) q Hq) as [J1 J2].
    split; [exact J1|]. unfold sent, nlen in *. rewrite map_length. exact J2.
Qed.

Lemma answered_next_request g valid tool prompt init script pre it1 it2 post :
  res_iters (run g valid tool prompt init script) = pre ++ it1 :: it2 :: post -> answers g it1 it2.
Proof.
  intros E. destruct (run_from _ _ _ _ _ _ _ _ _ E) as (si & Hinv & _ & Hrun).
  exact (head_answers _ _ _ _ _ _ _ _ _ _ Hrun Hinv eq_refl).
Qed.

Lemma stateless_prefix g valid tool prompt init script pre it1 it2 post :
  g_stateless g = true -> g_fixed g = FIXED ->
  res_iters (run g valid tool prompt init script) = pre ++ it1 :: it2 :: post ->
  exists ext, items_of (it_req it2) = items_of (it_req it1) ++ ext.
Proof.
  intros Hs Hf E. destruct (answered_next_request _ _ _ _ _ _ _ _ _ _ E) as (_ & _ & _ & H).
  destruct (H Hs) as (_ & _ & _ & H4). eexists. apply H4. exact Hf.
Qed.

(* a run that ends "completed": its last request was answered by a scripted round that did not fail and from which
   nothing was drained *)
Lemma completed_round g valid tool prompt init script :
  res_reason (run g valid tool prompt init script) = Completed ->
  exists pre it rd, res_iters (run g valid tool prompt init script) = pre ++ [it] /\ it_calls it = [] /\ it_done it = [] /\
    nth_error script (length pre) = Some rd /\ r_fail rd = false /\ drain (collect (g_fixed g) (r_events rd)) = [].
Proof.
  intros Hc. destruct (res_iters (run g valid tool prompt init script)) as [|i0 l] eqn:El.
  - destruct (run_no_iters _ _ _ _ _ _ _ (run_is_looprun g valid tool prompt init script) El) as (rj & rsn & Er & Hst).
    rewrite Er in Hc. cbn [res_reason mkres] in Hc. inversion Hst; subst; discriminate.
  - destruct (@exists_last _ (i0 :: l)) as (pre & it & E); [discriminate|]. rewrite E in El.
    destruct (run_from _ _ _ _ _ _ _ _ _ El) as (si & Hinv & _ & Hrun).
    destruct (head_last _ _ _ _ _ _ _ _ Hrun Hinv eq_refl) as [H _].
    destruct (H Hc) as (H1 & H2 & rd & Hrd & Hf & Hd). rewrite hd_error_skipn in Hrd.
    exists pre, it, rd. repeat split; assumption.
Qed.

Lemma completed_all_answered g valid tool prompt init script :
  res_reason (run g valid tool prompt init script) = Completed ->
  exists pre it, res_iters (run g valid tool prompt init script) = pre ++ [it] /\ it_calls it = [] /\ it_done it = [].
Proof. intros H. destruct (completed_round _ _ _ _ _ _ H) as (pre & it & _ & E & H1 & H2 & _). eauto. Qed.

Lemma out_ids_app a b : out_ids (a ++ b) = out_ids a ++ out_ids b.
Proof. unfold out_ids. apply flat_map_app. Qed.

Lemma out_ids_filter l : out_ids (filter is_out l) = out_ids l.
Proof.
  unfold out_ids. induction l as [|i r IH]; cbn [filter flat_map]; [reflexivity|].
  destruct i; cbn [is_out flat_map app]; rewrite ?IH; reflexivity.
Qed.

Lemma out_ids_outputs st xs : out_ids (outputs_for st xs) = map c_id (map x_call xs).
Proof.
  unfold out_ids, outputs_for. induction xs as [|x r IH]; cbn [map flat_map out_item app]; [reflexivity|].
  rewrite IH. reflexivity.
Qed.

Lemma out_ids_fmsg g : out_ids (fmsg g) = [].
Proof. unfold fmsg. destruct (g_followup g); reflexivity. Qed.

(* answered exactly once, by call id, in output order: the call ids answered by the next request *)
Lemma answered_by_call_id g valid tool prompt init script pre it1 it2 post :
  res_iters (run g valid tool prompt init script) = pre ++ it1 :: it2 :: post ->
  (g_stateless g = false -> out_ids (items_of (it_req it2)) = map c_id (it_calls it1)) /\
  (g_stateless g = true ->
     out_ids (items_of (it_req it2)) = out_ids (items_of (it_req it1)) ++ map c_id (it_calls it1)) /\
  (g_fixed g = FIXED -> NoDup (map c_id (it_calls it1))).
Proof.
  intros E. pose proof (answered_next_request _ _ _ _ _ _ _ _ _ _ E) as (A1 & _ & A3 & A4).
  split; [|split].
  - intros Hst. destruct (A3 Hst) as (B1 & _). unfold items_of. rewrite B1.
    rewrite out_ids_app, out_ids_outputs, out_ids_fmsg, app_nil_r, A1. reflexivity.
  - intros Hst. destruct (A4 Hst) as (_ & _ & B3 & _).
    rewrite <- (out_ids_filter (items_of (it_req it2))), B3, out_ids_app, out_ids_filter, out_ids_outputs, A1.
    reflexivity.
  - intros Hfx. eapply call_ids_distinct; [exact Hfx|].
    rewrite E. apply in_or_app. right. left. reflexivity.
Qed.

(* a call the provider announces with a well-formed done event in answer i is among the calls iteration i
   drains whenever the run goes on to a next request (where it is answered: answered_by_call_id) *)
Lemma emitted_call_answered g valid tool prompt init script pre it1 it2 post rd ev cid :
  res_iters (run g valid tool prompt init script) = pre ++ it1 :: it2 :: post ->
  nth_error script (length pre) = Some rd -> In ev (r_events rd) -> wf_done ev cid ->
  In cid (map c_id (it_calls it1)).
Proof.
  intros E Hrd Hev Hw.
  assert (Hi : nth_error (res_iters (run g valid tool prompt init script)) (length pre) = Some it1).
  { rewrite E, nth_error_app2 by lia. rewrite Nat.sub_diag. reflexivity. }
  destruct (run_nth _ _ _ _ _ _ _ _ Hi) as (_ & [H0|(rd' & Hrd' & _ & Hc)] & _).
  - destruct (answered_next_request _ _ _ _ _ _ _ _ _ _ E) as (_ & Hne & _). contradiction.
  - rewrite Hrd in Hrd'. inversion Hrd'; subst rd'. rewrite <- Hc. eapply emitted_call_drained; eauto.
Qed.

(* calls stay unanswered only for three named reasons; a refused follow-up was exactly their answer *)
Lemma unanswered_only_when g valid tool prompt init script pre it :
  res_iters (run g valid tool prompt init script) = pre ++ [it] -> it_calls it <> [] ->
  unanswered_why g (nlen (processed (run g valid tool prompt init script)) = MAX_TOOL_CALLS)
    (run g valid tool prompt init script) it.
Proof.
  intros E Hc. destruct (run_from _ _ _ _ _ _ _ _ _ E) as (si & Hinv & _ & Hrun).
  destruct (head_last _ _ _ _ _ _ _ _ Hrun Hinv eq_refl) as [_ H].
  destruct (H Hc) as [H1|[(H1 & H2 & _)|H3]]; cbn [res_reason res_rejected mkres] in *.
  - left. exact H1.
  - right. left. repeat split; auto. apply (bound g valid tool prompt init script). exact H1.
  - right. right. exact H3.
Qed.

Lemma call_id_ok_spec s : call_id_ok s = true <-> CALL_ID_MIN <= nlen s <= CALL_ID_MAX.
Proof. unfold call_id_ok. rewrite andb_true_iff, !N.leb_le. tauto. Qed.

Lemma name_ok_spec s :
  name_ok s = true <-> NAME_MIN <= nlen s <= NAME_MAX /\ (forall c, In c s -> name_char_ok c = true).
Proof. unfold name_ok. rewrite !andb_true_iff, !N.leb_le, forallb_forall. tauto. Qed.

(* the gate instantiated with the schema's own limits on input items *)
Lemma sent_within_schema_limits g valid tool prompt init script i q :
  nth_error (sent (run g (fun k r => items_ok r && valid k r) tool prompt init script)) i = Some q ->
  (forall id cid n a, In (ICall id cid n a) (items_of q) ->
     CALL_ID_MIN <= nlen cid <= CALL_ID_MAX /\ NAME_MIN <= nlen n <= NAME_MAX /\
     (forall c, In c n -> name_char_ok c = true)) /\
  (forall id cid o, In (IOut id cid o) (items_of q) ->
     CALL_ID_MIN <= nlen cid <= CALL_ID_MAX /\ nlen o <= TEXT_MAX) /\
  (forall r t, In (IMsg r t) (items_of q) -> role_ok r = true /\ nlen t <= TEXT_MAX).
Proof.
  intros H. apply (proj1 (invalid_never_sent _ _ _ _ _ _)) in H. apply andb_true_iff, proj1 in H.
  unfold items_ok in H. rewrite forallb_forall in H.
  split; [|split]; intros.
  all: match goal with Hin : In _ _ |- _ => apply H in Hin; cbn [item_ok] in Hin; apply andb_true_iff in Hin end.
  all: rewrite ?call_id_ok_spec, ?name_ok_spec, ?N.leb_le in *; tauto.
Qed.

(* the compiled context a run starts from, when there is one (run's `init`) *)
Definition init_items (init : option (list item)) : list item := match init with Some l => l | None => [] end.

Lemma first_request_out_ids g valid tool prompt init script it rest :
  res_iters (run g valid tool prompt init script) = it :: rest ->
  out_ids (items_of (it_req it)) = out_ids (init_items init).
Proof.
  intros E.
  destruct (head_iter _ _ _ _ _ _ _ _ _ (run_is_looprun g valid tool prompt init script) E) as [(s1 & _ & Hb & _) _].
  unfold build, lst0 in Hb. cbn [s_follow s_init s_hist] in Hb.
  destruct init as [l|].
  - injection Hb as Hq Hs. rewrite <- Hq. reflexivity.
  - destruct (g_stateless g); injection Hb as Hq Hs; rewrite <- Hq; reflexivity.
Qed.

(* stateless history: request k answers, in order, the calls of ALL earlier responses, response by response
   (after whatever outputs the initial context already held); stateful: only those of the response before it
   (answered_by_call_id) *)
Lemma answers_accumulate g valid tool prompt init script : forall pre it post,
  g_stateless g = true ->
  res_iters (run g valid tool prompt init script) = pre ++ it :: post ->
  out_ids (items_of (it_req it)) = out_ids (init_items init) ++ flat_map (fun i => map c_id (it_calls i)) pre.
Proof.
  intros pre. induction pre as [|p pre IH] using rev_ind; intros it post Hst E.
  - cbn [app flat_map] in E |- *. rewrite app_nil_r. eapply first_request_out_ids; eauto.
  - rewrite <- app_assoc in E. cbn [app] in E.
    destruct (answered_by_call_id _ _ _ _ _ _ _ _ _ _ E) as (_ & A2 & _).
    rewrite (A2 Hst), (IH p (it :: post) Hst E), flat_map_app. cbn [flat_map]. rewrite app_nil_r, app_assoc.
    reflexivity.
Qed.

Definition str_eq_dec : forall a b : str, {a = b} + {a <> b} := list_eq_dec N.eq_dec.
(* the response of iteration `it` completed a call with this call id *)
Definition completes (cid : str) (it : iter) : bool := existsb (str_eqb cid) (map c_id (it_calls it)).

Lemma count_occ_nodup (l : list str) x :
  NoDup l -> count_occ str_eq_dec l x = if existsb (str_eqb x) l then 1%nat else 0%nat.
Proof.
  induction 1 as [|y l Hy Hn IH]; cbn [count_occ existsb]; [reflexivity|].
  destruct (str_eq_dec y x) as [->|Hne].
  - rewrite str_eqb_refl. cbn [orb].
    assert (Hz : count_occ str_eq_dec l x = 0%nat) by (apply count_occ_not_In; exact Hy).
    rewrite Hz. reflexivity.
  - assert (Hf : str_eqb x y = false) by (apply str_eqb_neq; congruence).
    rewrite Hf. cbn [orb]. exact IH.
Qed.

(* the same call id in several responses: in request k it is answered once per earlier response that completed it
   — the same id completed by two responses is two calls, each answered once *)
Lemma answered_once_per_response g valid tool prompt init script pre it post cid :
  g_stateless g = true -> g_fixed g = FIXED ->
  res_iters (run g valid tool prompt init script) = pre ++ it :: post ->
  count_occ str_eq_dec (out_ids (items_of (it_req it))) cid
  = (count_occ str_eq_dec (out_ids (init_items init)) cid + length (filter (completes cid) pre))%nat.
Proof.
  intros Hst Hfx E. rewrite (answers_accumulate _ _ _ _ _ _ _ _ _ Hst E), count_occ_app. f_equal.
  assert (Hin : forall i, In i pre -> In i (res_iters (run g valid tool prompt init script))).
  { intros i Hi. rewrite E. apply in_or_app. left. exact Hi. }
  clear E. induction pre as [|p pre IH]; cbn [flat_map filter length]; [reflexivity|].
  rewrite count_occ_app, IH by (intros i Hi; apply Hin; right; exact Hi).
  rewrite count_occ_nodup by (eapply call_ids_distinct; [exact Hfx | apply Hin; left; reflexivity]).
  unfold completes at 2. destruct (existsb (str_eqb cid) (map c_id (it_calls p))); cbn [length]; lia.
Qed.

Definition w_str (x : String.string) : str := lit x.
(* output indices above 1 all print as "2": the witnesses need no more *)
Definition w_done (oi : N) (id cid name args : String.string) : json :=
  JObj [ (K_type, JStr S_item_done); (K_output_index, JNum (lit (match oi with 0 => "0" | 1 => "1" | _ => "2" end)));
         (K_item, JObj [ (K_type, JStr S_function_call); (K_id, JStr (lit id)); (K_call_id, JStr (lit cid));
                         (K_name, JStr (lit name)); (K_arguments, JStr (lit args)) ]) ].
Definition w_resp (id : String.string) : json :=
  JObj [ (K_type, JStr (lit "response.created")); (K_response, JObj [ (K_id, JStr (lit id)) ]) ].

(* S16: stateless history + follow-up user message, two tool rounds *)
Definition s16_cfg (fx : bool) : cfg :=
  {| g_stateless := true; g_choice := JStr (lit "auto"); g_followup := Some (lit "go"); g_fixed := fx |}.
Definition s16_script : list round :=
  [ {| r_fail := false; r_events := [w_resp "r1"; w_done 0 "f1" "c1" "ls" "{}"] |};
    {| r_fail := false; r_events := [w_resp "r2"; w_done 0 "f2" "c2" "ls" "{}"] |};
    {| r_fail := false; r_events := [w_resp "r3"] |} ].
Definition s16_run (fx : bool) : result :=
  run (s16_cfg fx) (fun _ _ => true) (fun _ _ => lit "o") (lit "p") None s16_script.
Definition s16_inputs_unfixed : list (list item) :=
  Eval vm_compute in map (fun it => items_of (it_req it)) (res_iters (s16_run UNFIXED)).

Lemma s16_inputs_unfixed_ok :
  map (fun it => items_of (it_req it)) (res_iters (s16_run UNFIXED)) = s16_inputs_unfixed.
Proof. vm_compute. reflexivity. Qed.

Definition s16_in1 : list item := Eval vm_compute in nth 1 s16_inputs_unfixed [].
Definition s16_in2 : list item := Eval vm_compute in nth 2 s16_inputs_unfixed [].

Lemma s16_not_prefix : forall ext, s16_in2 <> s16_in1 ++ ext.
Proof. intros ext H. vm_compute in H. discriminate H. Qed.

Lemma stateless_prefix_unfixed_refuted :
  exists g valid tool prompt init script pre it1 it2 post,
    g_stateless g = true /\ g_fixed g = UNFIXED /\
    res_iters (run g valid tool prompt init script) = pre ++ it1 :: it2 :: post /\
    forall ext, items_of (it_req it2) <> items_of (it_req it1) ++ ext.
Proof.
  exists (s16_cfg UNFIXED), (fun _ _ => true), (fun _ _ => lit "o"), (lit "p"), None, s16_script.
  pose (its := res_iters (s16_run UNFIXED)).
  exists (firstn 1 its), (nth 1 its (mkiter (mkreq 0 None (InText [])) [] [])),
         (nth 2 its (mkiter (mkreq 0 None (InText [])) [] [])), (skipn 3 its).
  split; [reflexivity|]. split; [reflexivity|]. split; [vm_compute; reflexivity|].
  intros ext H. apply (s16_not_prefix ext). vm_compute in H. vm_compute. exact H.
Qed.

(* S19: the same completed call announced twice in one response *)
Definition s19_events : list json := [w_resp "r1"; w_done 0 "f1" "c1" "write" "{}"; w_done 0 "f1" "c1" "write" "{}"].

Lemma call_ids_distinct_unfixed_refuted :
  exists evs, ~ NoDup (map c_id (drain (collect UNFIXED evs))).
Proof.
  exists s19_events. vm_compute. intros H. inversion H as [|? ? Hn _]; subst. apply Hn. left; reflexivity.
Qed.

Lemma s19_fixed_once : length (drain (collect FIXED s19_events)) = 1%nat.
Proof. vm_compute. reflexivity. Qed.

(* non-vacuity: a run with two answered rounds, a refused call and an executed one *)
Definition ex_cfg : cfg :=
  {| g_stateless := false; g_choice := JObj [(K_type, JStr S_function); (K_name, JStr (lit "ls"))];
     g_followup := None; g_fixed := FIXED |}.
Definition ex_script : list round :=
  [ {| r_fail := false; r_events := [w_resp "r1"; w_done 1 "f1" "c1" "write" "{}"; w_done 0 "f2" "c2" "ls" "{}"] |};
    {| r_fail := false; r_events := [w_resp "r2"] |} ].
Definition ex_run : result := run ex_cfg (fun _ _ => true) (fun _ _ => lit "o") (lit "p") None ex_script.

Lemma ex_run_shape :
  length (res_iters ex_run) = 2%nat /\ res_reason ex_run = Completed /\
  map (fun x => (c_id (x_call x), x_ran x)) (processed ex_run) = [(lit "c2", true); (lit "c1", false)].
Proof. vm_compute. repeat split. Qed.

Lemma ex_wf_done : wf_done (w_done 0 "f1" "c1" "write" "{}") (lit "c1").
Proof.
  unfold wf_done, w_done. eexists _, _, (lit "write"). split; [reflexivity|].
  repeat split; try reflexivity. discriminate.
Qed.

(* a refused follow-up: the only request the validator lets through is the first one *)
Definition ex_refused_run : result :=
  run ex_cfg (fun i _ => i =? 0) (fun _ _ => lit "o") (lit "p") None ex_script.
Lemma ex_refused_shape :
  length (res_iters ex_refused_run) = 1%nat /\ res_reason ex_refused_run = InvalidRequest /\
  map (fun it => map c_id (it_calls it)) (res_iters ex_refused_run) = [[lit "c2"; lit "c1"]] /\
  match res_rejected ex_refused_run with Some q => out_ids (items_of q) = [lit "c2"; lit "c1"] | None => False end.
Proof. vm_compute. repeat split. Qed.

(* the same call id completed by two responses, stateless history: the third request answers it twice *)
Definition ex_same_id_cfg : cfg :=
  {| g_stateless := true; g_choice := JStr (lit "auto"); g_followup := None; g_fixed := FIXED |}.
Definition ex_same_id_script : list round :=
  [ {| r_fail := false; r_events := [w_done 0 "f1" "c1" "ls" "{}"] |};
    {| r_fail := false; r_events := [w_done 0 "f2" "c1" "ls" "{}"] |};
    {| r_fail := false; r_events := [] |} ].
Definition ex_same_id_run : result :=
  run ex_same_id_cfg (fun _ _ => true) (fun _ _ => lit "o") (lit "p") None ex_same_id_script.
Lemma ex_same_id_shape :
  res_reason ex_same_id_run = Completed /\
  map (fun it => out_ids (items_of (it_req it))) (res_iters ex_same_id_run) = [[]; [lit "c1"]; [lit "c1"; lit "c1"]].
Proof. vm_compute. repeat split. Qed.

(* the schema gate at work: the provider sends a 70-character call id; its answer is refused, nothing more is sent *)
Definition ex_long_id : String.string := "call_xxxxxxxxxxxxxxxxxxxxxxxxxxxxxxxxxxxxxxxxxxxxxxxxxxxxxxxxxxxxxxxxx".
Definition ex_long_id_script : list round :=
  [ {| r_fail := false; r_events := [w_resp "r1"; w_done 0 "f1" ex_long_id "ls" "{}"] |};
    {| r_fail := false; r_events := [w_resp "r2"] |} ].
Definition ex_long_id_run : result :=
  run ex_cfg (fun _ r => items_ok r) (fun _ _ => lit "o") (lit "p") None ex_long_id_script.
Lemma ex_long_id_shape :
  nlen (lit ex_long_id) = 70 /\ length (sent ex_long_id_run) = 1%nat /\ res_reason ex_long_id_run = InvalidRequest /\
  match res_rejected ex_long_id_run with Some q => out_ids (items_of q) = [lit ex_long_id] | None => False end.
Proof. vm_compute. repeat split. Qed.
