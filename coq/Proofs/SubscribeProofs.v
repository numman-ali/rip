(* C06 — proofs about Model/Subscribe.v.  The three stream models (step, rstep, wstep) share one producer invariant,
   proved once over a parametrised subscriber (sstep, SysInv); each exactly-once theorem adds its subscriber invariant
   (SInv, RSInv).  Several producers and the history buffer over time reduce to the one-producer model by simulation
   (mrun_view, monotone_run_eq).  The refutations are schedules run by the kernel. *)
From RipV Require Import Base.Prelude Model.Subscribe.
Local Open Scope nat_scope.

Lemma rest_nil o n k : n <= k -> rest o n k = [].
Proof. intros H. unfold rest. replace (n - k) with 0 by lia. reflexivity. Qed.

Lemma rest_unfold o n k : k < n -> rest o n k = frame_steps o k ++ rest o n (S k).
Proof.
  intros H. unfold rest. replace (n - k) with (S (n - S k)) by lia. reflexivity.
Qed.

Lemma seq_upto_snoc a b : a <= b -> seq a (b - a) ++ [b] = seq a (S b - a).
Proof. intros H. replace (S b - a) with (S (b - a)) by lia. rewrite seq_S. do 2 f_equal. lia. Qed.

Lemma last_seq_seq h : last_seq (seq 0 h) = match h with 0 => None | S h' => Some h' end.
Proof.
  destruct h as [|h']; [reflexivity|]. unfold last_seq. rewrite seq_S, rev_app_distr. reflexivity.
Qed.

Lemma keep_gt_seq h k : keep FilterGtLast (last_seq (seq 0 h)) k = Nat.leb h k.
Proof. rewrite last_seq_seq. destruct h as [|h']; reflexivity. Qed.

Lemma filter_ge_seq h len : forall q,
  filter (fun k => Nat.leb h k) (seq q len) = seq (Nat.max h q) (q + len - Nat.max h q).
Proof.
  induction len as [|l IH]; intros q.
  - rewrite Nat.add_0_r, (proj2 (Nat.sub_0_le _ _)) by apply Nat.le_max_r. reflexivity.
  - cbn [seq filter]. rewrite IH. destruct (Nat.leb_spec h q) as [Hle|Hgt].
    + rewrite !Nat.max_r by auto with arith. replace (q + S l - q) with (S (S q + l - S q)) by lia. reflexivity.
    + rewrite !Nat.max_l by auto with arith. f_equal. lia.
Qed.

(* The arithmetic of every drain.  The body holds 0..max h q - 1: the history 0..h-1, and whatever earlier drains took
   from the receiver, which starts at q since.  The live frames q..p-1 above the history's last seq bring it to max h p *)
Lemma drain_seq h q p : q <= p ->
  seq 0 (Nat.max h q) ++ filter (keep FilterGtLast (last_seq (seq 0 h))) (seq q (p - q)) = seq 0 (Nat.max h p).
Proof.
  intros Hq. rewrite (filter_ext _ (fun k => Nat.leb h k)) by (intros k; apply keep_gt_seq).
  rewrite filter_ge_seq, <- seq_app. f_equal. lia.
Qed.

Lemma Forall_upd_nth {A} (P : A -> Prop) f : (forall x, P x -> P (f x)) ->
  forall l i, Forall P l -> Forall P (upd_nth i f l).
Proof.
  intros Hf l. induction l as [|x l IH]; intros [|j] H; cbn [upd_nth]; try exact H; constructor.
  - apply Hf, (Forall_inv H).
  - exact (Forall_inv_tail H).
  - exact (Forall_inv H).
  - apply IH, (Forall_inv_tail H).
Qed.

Lemma existsb_upd_nth {A} (b : A -> bool) f : (forall x, b (f x) = b x) ->
  forall l i, existsb b (upd_nth i f l) = existsb b l.
Proof.
  intros Hf l. induction l as [|x l IH]; intros [|j]; cbn [upd_nth existsb]; rewrite ?Hf, ?IH; reflexivity.
Qed.

Lemma nth_error_upd_nth {A} (f : A -> A) : forall (l : list A) i j,
  nth_error (upd_nth i f l) j = if Nat.eqb j i then option_map f (nth_error l j) else nth_error l j.
Proof.
  induction l as [|x l IH]; intros i j.
  - destruct i, j; cbn; try reflexivity; destruct (Nat.eqb j i); reflexivity.
  - destruct i as [|i], j as [|j]; cbn [upd_nth nth_error Nat.eqb option_map]; try reflexivity. apply IH.
Qed.

Lemma Forall_repeat {A} (P : A -> Prop) x m : P x -> Forall P (repeat x m).
Proof. intros H. apply Forall_forall. intros y Hy. apply repeat_spec in Hy. subst y. exact H. Qed.

Lemma fold_left_view {S V A} (view : S -> V) (f : S -> A -> S) (g : V -> A -> V) :
  (forall s a, view (f s a) = g (view s) a) -> forall l s, view (fold_left f l s) = fold_left g l (view s).
Proof. intros H. induction l as [|a l IH]; intros s; [reflexivity|]. cbn [fold_left]. rewrite IH, H. reflexivity. Qed.

Lemma count_pub_app a b : count_pub (a ++ b) = count_pub a + count_pub b.
Proof. induction a as [|[k|k] a IH]; cbn [count_pub app]; lia. Qed.

Lemma count_pub_rest o n : forall d k, n - k = d -> count_pub (rest o n k) = d.
Proof.
  induction d as [|d IH]; intros k H.
  - rewrite rest_nil by lia. reflexivity.
  - rewrite rest_unfold by lia. rewrite count_pub_app, (IH (S k)) by lia. destruct o; reflexivity.
Qed.

Lemma own_app a b : own (a ++ b) = own a ++ own b.
Proof. unfold own. apply flat_map_app. Qed.

(* what arrives on the channel: frame p of this stream (p' = S p published afterwards) or a frame of another stream *)
Definition arrives (k : option nat) (p p' : nat) : Prop := (k = Some p /\ p' = S p) \/ (k = None /\ p' = p).

Lemma arrives_le k p p' : arrives k p p' -> p <= p'.
Proof. intros [(_ & ->)|(_ & ->)]; lia. Qed.

Lemma own_push l q p k p' : arrives k p p' -> q <= p -> own l = seq q (p - q) -> own (l ++ [k]) = seq q (p' - q).
Proof.
  intros [(-> & ->)|(-> & ->)] Hq H; rewrite own_app, H; cbn [own flat_map app].
  - apply seq_upto_snoc, Hq.
  - apply app_nil_r.
Qed.

(* the invariant of a record-then-publish producer over program g and history h: frames 0..r-1 are recorded,
   0..p-1 published, and r is p or p + 1 *)
Definition PInv (n : nat) (g : list pstep) (h : list nat) (p r : nat) : Prop :=
  h = seq 0 r /\
  ((r = p /\ p <= n /\ g = rest RecThenPub n p) \/ (r = S p /\ p < n /\ g = Pub p :: rest RecThenPub n (S p))).

Lemma PInv_next n g h p r : PInv n g h p r ->
  match g with
  | [] => True
  | Pub k :: g' => k = p /\ PInv n g' h (S p) r
  | Rec k :: g' => k = p /\ PInv n g' (h ++ [k]) p (S r)
  end.
Proof.
  intros (-> & [(-> & Hp & ->)|(-> & Hp & ->)]).
  - destruct (Nat.eq_dec p n) as [->|Hne]; [rewrite rest_nil by lia; exact I|].
    rewrite rest_unfold by lia. split; [reflexivity|]. split; [symmetry; apply seq_S|]. right. repeat split. lia.
  - split; [reflexivity|]. split; [reflexivity|]. left. repeat split. lia.
Qed.

(* what the statements say about a number k of delivered frames follows from p <= k <= r *)
Lemma PInv_bounds n g h p r : PInv n g h p r ->
  p <= r /\ r <= n /\ forall k, p <= k -> k <= r -> n - count_pub g <= k /\ k <= n /\ (g = [] -> k = n).
Proof.
  intros (_ & [(-> & Hp & ->)|(-> & Hp & ->)]); (split; [auto with arith|]); (split; [exact Hp|]); intros k Hk Hkr.
  - rewrite (count_pub_rest _ _ (n - p)) by reflexivity. split; [lia|]. split; [lia|].
    intros E. destruct (Nat.eq_dec p n); [lia|]. rewrite rest_unfold in E by lia. discriminate.
  - cbn [count_pub]. rewrite (count_pub_rest _ _ (n - S p)) by reflexivity. split; [lia|]. split; [lia|discriminate].
Qed.

(* The three stream models as one transition system: step, rstep and wstep differ in the subscriber record X and in
   what a delivery (dl) and a subscriber step (ss) do to it; program and history move in the same way. *)
Section Stream.
  Context {X : Type} (dl : option nat -> X -> X) (ss : list nat -> X -> X).

  Definition sstep (v : list pstep * list nat * list X) (a : actor) : list pstep * list nat * list X :=
    let '(g, h, xs) := v in
    match a with
    | AP => match g with
            | [] => v
            | Pub k :: g' => (g', h, map (dl (Some k)) xs)
            | Rec k :: g' => (g', h ++ [k], xs)
            end
    | AS i => (g, h, upd_nth i (ss h) xs)
    | AO => (g, h, map (dl None) xs)
    end.

  (* a subscriber invariant in terms of the two counters, kept by each kind of step *)
  Variable SI : nat -> nat -> X -> Prop.
  Hypothesis SI_rec : forall p r x, SI p r x -> SI p (S r) x.
  Hypothesis SI_dl : forall k p p' r x, arrives k p p' -> SI p r x -> SI p' r (dl k x).
  Hypothesis SI_ss : forall p r x, p <= r -> SI p r x -> SI p r (ss (seq 0 r) x).

  Definition SysInv (n : nat) (v : list pstep * list nat * list X) : Prop :=
    let '(g, h, xs) := v in exists p r, PInv n g h p r /\ Forall (SI p r) xs.

  Lemma SysInv_step n v a : SysInv n v -> SysInv n (sstep v a).
  Proof.
    destruct v as [[g h] xs]. intros (p & r & HP & HS). pose proof (PInv_next _ _ _ _ _ HP) as Hn.
    destruct a as [|i|]; cbn [sstep].
    - destruct g as [|[k|k] g']; [exists p, r; auto| |]; destruct Hn as (-> & HP').
      + exists (S p), r. split; [exact HP'|]. apply Forall_map. revert HS. apply Forall_impl. intros x. apply SI_dl. left. auto.
      + exists p, (S r). split; [exact HP'|]. revert HS. apply Forall_impl, SI_rec.
    - exists p, r. split; [exact HP|]. destruct (PInv_bounds _ _ _ _ _ HP) as (Hpr & _). destruct HP as (-> & _).
      apply Forall_upd_nth; [|exact HS]. intros x. apply SI_ss, Hpr.
    - exists p, r. split; [exact HP|]. apply Forall_map. revert HS. apply Forall_impl. intros x. apply SI_dl. right. auto.
  Qed.

  Theorem stream_inv n m x0 sched : SI 0 0 x0 ->
    SysInv n (fold_left sstep sched (producer_prog RecThenPub n, [], repeat x0 m)).
  Proof.
    intros H0. apply fold_left_inv; [intros v a; apply SysInv_step|]. exists 0, 0. split; [|apply Forall_repeat, H0].
    split; [reflexivity|]. left. repeat split. lia.
  Qed.

  Lemma SysInv_nth n g h xs i x : SysInv n (g, h, xs) -> nth_error xs i = Some x -> exists p r, PInv n g h p r /\ SI p r x.
  Proof.
    intros (p & r & HP & HS) Hn. exists p, r. split; [exact HP|]. rewrite Forall_forall in HS. exact (HS x (nth_error_In _ _ Hn)).
  Qed.
End Stream.

(* the orders and the filter of the code, on the unbounded channel *)
Definition okc : cfg := code_cfg None.

Definition st_view (s : st) : list pstep * list nat * list sub := (g_prog s, g_hist s, g_subs s).
Lemma step_view c s a : st_view (step c s a) = sstep (deliver (c_cap c)) (sub_step c) (st_view s) a.
Proof. destruct a; cbn [step sstep st_view]; [destruct (g_prog s) as [|[k|k] g]|..]; reflexivity. Qed.

(* not attached: nothing written; subscribed: the receiver holds the frames q..p-1; attached: history 0..h-1 taken
   after the subscription, 0..max h q - 1 written *)
Definition SInv (p r : nat) (x : sub) : Prop :=
  match s_pc x with
  | 0 => s_live x = None /\ s_hist x = None /\ s_out x = []
  | S pc => exists q l, q <= p /\ s_live x = Some l /\ own l = seq q (p - q) /\
      match pc with
      | 0 => s_hist x = None /\ s_out x = []
      | _ => exists h, h <= r /\ s_hist x = Some (seq 0 h) /\ s_out x = seq 0 (Nat.max h q)
      end
  end.

Lemma SInv_rec p r x : SInv p r x -> SInv p (S r) x.
Proof.
  unfold SInv. destruct (s_pc x) as [|[|pc]]; auto.
  intros (q & l & Hq & Hl & Hown & h & Hh & H). exists q, l. repeat split; auto. exists h. split; [lia|exact H].
Qed.

(* an arrival on the unbounded channel: an own frame moves p on, a frame of another stream on the shared channel changes
   nothing a subscriber of this stream will deliver *)
Lemma SInv_deliver k p p' r x : arrives k p p' -> SInv p r x -> SInv p' r (deliver None k x).
Proof.
  intros A H. pose proof (arrives_le _ _ _ A). unfold deliver, SInv in *. destruct (s_live x) as [l|] eqn:El.
  - cbn [push_live s_pc s_live s_hist s_out]. destruct (s_pc x) as [|pc]; [destruct H as (H & _); discriminate|].
    destruct H as (q & l0 & Hq & Hl & Hown & H). injection Hl as <-. exists q, (l ++ [k]).
    split; [lia|]. split; [reflexivity|]. split; [apply (own_push _ _ p); assumption|exact H].
  - rewrite El. destruct (s_pc x); [exact H|]. destruct H as (q & l & _ & Hl & _). discriminate.
Qed.

Lemma SInv_sub cap p r x : p <= r -> SInv p r x -> SInv p r (sub_step (code_cfg cap) (seq 0 r) x).
Proof.
  intros Hpr H. unfold SInv, sub_step in *. cbn [code_cfg c_s c_f]. destruct (s_pc x) as [|[|pc]] eqn:Epc.
  - destruct H as (Hl & Hh & Ho). cbn [do_subscribe s_pc s_live s_hist s_out]. rewrite Epc.
    exists p, []. rewrite Nat.sub_diag. repeat split; auto.
  - destruct H as (q & l & Hq & Hl & Hown & Hh & Ho). cbn [do_snapshot s_pc s_live s_hist s_out]. rewrite Epc.
    exists q, l. repeat split; auto. exists r. rewrite Nat.max_l by exact (Nat.le_trans _ _ _ Hq Hpr). auto.
  - destruct H as (q & l & Hq & Hl & Hown & h & Hh & Hs & Ho). unfold do_drain. rewrite Hl, Hs.
    cbn [s_pc s_live s_hist s_out]. rewrite Epc. exists p, []. rewrite Nat.sub_diag. repeat split; auto.
    exists h. repeat split; auto. rewrite Ho, Hown. apply drain_seq, Hq.
Qed.

(* the receiver of x has overflowed.  Not s_lag itself: for cap = None this is false by computation, so the theorem for
   the unbounded channel needs no invariant saying that s_lag stays false *)
Definition lagged (cap : option nat) (x : sub) : bool := match cap with None => false | Some _ => s_lag x end.

Lemma sub_step_shape c h x :
  s_lag (sub_step c h x) = s_lag x /\ (s_live (sub_step c h x) = s_live x \/ s_live (sub_step c h x) = Some []).
Proof.
  unfold sub_step. destruct (s_pc x) as [|[|k]], (c_s c); cbn [do_subscribe do_snapshot s_lag s_live]; auto;
    unfold do_drain; destruct (s_live x) eqn:El, (s_hist x); rewrite ?El; auto.
Qed.

(* a delivery that leaves the receiver un-overflowed is a delivery on the unbounded channel *)
Lemma deliver_unlagged cap k x : lagged cap (deliver cap k x) = false ->
  deliver cap k x = deliver None k x /\ lagged cap x = false.
Proof.
  destruct cap as [c|]; [|auto]. unfold deliver. destruct (s_live x) as [q|]; [|auto]. cbn [push_live].
  destruct (Nat.ltb (length q) c); cbn [lagged s_lag]; [rewrite orb_false_r; auto|rewrite orb_true_r; discriminate].
Qed.

Definition SInvL (cap : option nat) (p r : nat) (x : sub) : Prop := lagged cap x = false -> SInv p r x.

Lemma final_inv cap n m sched : SysInv (SInvL cap) n (st_view (final (code_cfg cap) n m sched)).
Proof.
  unfold final, run. rewrite (fold_left_view st_view _ _ (step_view _)).
  apply (stream_inv (deliver cap) (sub_step (code_cfg cap))).
  - intros p r x H L. apply SInv_rec, H, L.
  - intros k p p' r x A H L. destruct (deliver_unlagged _ _ _ L) as (-> & L'). apply (SInv_deliver _ p), H, L'. exact A.
  - intros p r x Hpr H L. unfold lagged in L. rewrite (proj1 (sub_step_shape _ _ _)) in L. apply SInv_sub, H, L. exact Hpr.
  - intros _. repeat split.
Qed.

(* the property, at every moment of every schedule, for every subscriber (of any number of subscribers) whose receiver
   has not overflowed - on the unbounded channel: for every subscriber *)
Theorem exactly_once_unlagged : forall (cap : option nat) (n m : nat) (sched : list actor) (i : nat) (x : sub),
  nth_error (g_subs (final (code_cfg cap) n m sched)) i = Some x -> lagged cap x = false -> attached x = true ->
  ExactlyOnce (code_cfg cap) n (final (code_cfg cap) n m sched) x.
Proof.
  intros cap n m sched i x Hn L Ha. destruct (SysInv_nth _ _ _ _ _ _ _ (final_inv cap n m sched) Hn) as (p & r & HP & HS).
  destruct (PInv_bounds _ _ _ _ _ HP) as (Hpr & _ & Hk). specialize (HS L).
  unfold attached in Ha. apply Nat.leb_le in Ha. unfold SInv in HS.
  destruct (s_pc x) as [|[|pc]]; [lia|lia|]. destruct HS as (q & l & Hq & Hl & Hown & h & Hh & Hs & Ho).
  exists (Nat.max h p). split; [|apply Hk; [apply Nat.le_max_r|apply Nat.max_lub; assumption]].
  unfold delivered, do_drain. rewrite Hl, Hs. cbn [code_cfg c_f s_out]. rewrite Ho, Hown. apply drain_seq, Hq.
Qed.

(* what has been written to the body so far is always a gap-free, duplicate-free ascending prefix *)
Theorem out_is_prefix : forall (n m : nat) (sched : list actor) (i : nat) (x : sub),
  nth_error (g_subs (final okc n m sched)) i = Some x -> exists k, s_out x = seq 0 k /\ k <= n.
Proof.
  intros n m sched i x Hn. destruct (SysInv_nth _ _ _ _ _ _ _ (final_inv None n m sched) Hn) as (p & r & HP & HS).
  destruct (PInv_bounds _ _ _ _ _ HP) as (Hpr & Hrn & _). specialize (HS eq_refl). unfold SInv in HS.
  destruct (s_pc x) as [|[|pc]]; [destruct HS as (_ & _ & ->)|destruct HS as (q & l & _ & _ & _ & _ & ->)|].
  - exists 0. split; [reflexivity|apply Nat.le_0_l].
  - exists 0. split; [reflexivity|apply Nat.le_0_l].
  - destruct HS as (q & l & Hq & _ & _ & h & Hh & _ & ->). exists (Nat.max h q). split; [reflexivity|apply Nat.max_lub; lia].
Qed.

Lemma any_lag_false s x : any_lag s = false -> In x (g_subs s) -> s_lag x = false.
Proof.
  intros H Hx. destruct (s_lag x) eqn:E; [|reflexivity]. rewrite <- H. symmetry. apply existsb_exists. exists x. auto.
Qed.

Lemma map_deliver_unlagged cap k l : existsb s_lag (map (deliver (Some cap) k) l) = false ->
  map (deliver (Some cap) k) l = map (deliver None k) l /\ existsb s_lag l = false.
Proof.
  induction l as [|x l IH]; [auto|]. cbn [map existsb]. intros H. apply orb_false_elim in H.
  destruct (deliver_unlagged (Some cap) k x (proj1 H)) as (-> & Hx), (IH (proj2 H)) as (-> & Hl).
  cbn [lagged] in Hx. rewrite Hx, Hl. auto.
Qed.

Lemma step_unlagged c cap s a : any_lag (step (with_cap c (Some cap)) s a) = false ->
  step (with_cap c (Some cap)) s a = step (with_cap c None) s a /\ any_lag s = false.
Proof.
  unfold any_lag. destruct a as [|i|]; cbn [step with_cap mk c_cap].
  - destruct (g_prog s) as [|[k|k] g]; auto. cbn [g_subs]. intros H.
    destruct (map_deliver_unlagged _ _ _ H) as (-> & Hl). auto.
  - cbn [g_subs]. rewrite existsb_upd_nth by (intros x; apply sub_step_shape). auto.
  - cbn [g_subs]. intros H. destruct (map_deliver_unlagged _ _ _ H) as (-> & Hl). auto.
Qed.

Lemma run_app c a b s : run c (a ++ b) s = run c b (run c a s).
Proof. unfold run. apply fold_left_app. Qed.

(* what run does when no receiver overflows: it is the run of the unbounded model.  The theorems do not go through
   it: they carry the bounded channel in the invariant (SInvL) *)
Theorem nolag_run_eq c cap sched : forall s,
  any_lag (run (with_cap c (Some cap)) sched s) = false ->
  run (with_cap c (Some cap)) sched s = run (with_cap c None) sched s.
Proof.
  induction sched as [|a l IH] using rev_ind; intros s H; [reflexivity|]. rewrite !run_app in *. cbn [run fold_left] in *.
  destruct (step_unlagged _ _ _ _ H) as (E & Hl). rewrite E, (IH s Hl). reflexivity.
Qed.

(* a receiver never holds more than (frames of the stream) + (foreign frames on the shared channel): if that fits
   the capacity nothing lags, whatever the orders and the schedule *)
Definition LInv (b : nat) (s : st) : Prop :=
  count_pub (g_prog s) <= b /\
  Forall (fun x => s_lag x = false /\
                   match s_live x with Some q => length q + count_pub (g_prog s) <= b | None => True end) (g_subs s).

Lemma LInv_deliver cap b k kp x : b <= cap ->
  (s_lag x = false /\ match s_live x with Some q => length q + S kp <= b | None => True end) ->
  s_lag (deliver (Some cap) k x) = false /\
  match s_live (deliver (Some cap) k x) with Some q => length q + kp <= b | None => True end.
Proof.
  intros Hb (Hl & Hq). unfold deliver. destruct (s_live x) as [q|] eqn:El.
  - cbn [push_live]. destruct (Nat.ltb_spec (length q) cap) as [Hlt|Hge]; [|lia].
    cbn [s_lag s_live]. rewrite Hl. split; [reflexivity|]. rewrite app_length. cbn [length]. lia.
  - split; [exact Hl|]. rewrite El. exact I.
Qed.

Lemma LInv_weaken b s : LInv b s -> LInv (S b) s.
Proof.
  intros (Hp & HS). split; [lia|]. eapply Forall_impl; [|exact HS]. intros x (Hl & Hq). split; [exact Hl|].
  destruct (s_live x); [lia|exact I].
Qed.

(* producer and subscriber steps keep the bound; a foreign frame raises it by one *)
Lemma LInv_step c cap b s a : c_cap c = Some cap -> b + count_other [a] <= cap -> LInv b s ->
  LInv (b + count_other [a]) (step c s a).
Proof.
  intros Hc Hb (Hp & HS). destruct a as [|i|]; cbn [count_other] in *; cbn [step].
  - rewrite Nat.add_0_r in *.
    destruct (g_prog s) as [|[k|k] r] eqn:E; [split; [rewrite E; exact Hp|rewrite E; exact HS] | |].
    + cbn [count_pub] in *. split; [cbn [g_prog]; lia|]. cbn [g_prog g_subs]. apply Forall_map.
      eapply Forall_impl; [|exact HS]. intros x Hx. rewrite Hc. apply LInv_deliver; [exact Hb|exact Hx].
    + cbn [count_pub g_prog g_subs] in *. split; [exact Hp|exact HS].
  - rewrite Nat.add_0_r in *. cbn [g_prog g_subs]. split; [exact Hp|]. apply Forall_upd_nth; [|exact HS].
    intros x (Hl & Hq). destruct (sub_step_shape c (g_hist s) x) as (-> & [-> | ->]); (split; [exact Hl|]);
      [exact Hq|cbn [length g_prog]; lia].
  - rewrite Nat.add_1_r in *. split; [cbn [g_prog]; lia|]. cbn [g_prog g_subs]. apply Forall_map.
    eapply Forall_impl; [|exact HS]. intros x (Hl & Hq). rewrite Hc.
    apply LInv_deliver; [exact Hb|]. split; [exact Hl|]. destruct (s_live x); [lia|exact I].
Qed.

Lemma count_other_cons a l : count_other (a :: l) = count_other [a] + count_other l.
Proof. destruct a; cbn [count_other]; lia. Qed.

Lemma LInv_run c cap sched : c_cap c = Some cap ->
  forall b s, b + count_other sched <= cap -> LInv b s -> LInv (b + count_other sched) (run c sched s).
Proof.
  intros Hc. induction sched as [|a l IH]; intros b s Hb H.
  - cbn [count_other run fold_left]. rewrite Nat.add_0_r. exact H.
  - rewrite count_other_cons in *. rewrite Nat.add_assoc in *. apply IH; [exact Hb|].
    apply (LInv_step c cap); [exact Hc|lia|exact H].
Qed.

Theorem lag_bound_thm : forall (c : cfg) (cap n m : nat) (sched : list actor),
  c_cap c = Some cap -> n + count_other sched <= cap -> NoLag (final c n m sched).
Proof.
  intros c cap n m sched Hc Hn. assert (LInv n (init c n m)) as H0.
  { split; [cbn [init g_prog]; unfold producer_prog; rewrite (count_pub_rest _ _ n); lia|].
    apply Forall_repeat. split; [reflexivity|exact I]. }
  destruct (LInv_run c cap sched Hc n _ Hn H0) as (_ & HS).
  unfold NoLag, any_lag. destruct (existsb s_lag _) eqn:E; [|reflexivity].
  apply existsb_exists in E. destruct E as (x & Hx & Hl). rewrite Forall_forall in HS.
  destruct (HS x Hx) as (Hf & _). congruence.
Qed.

Lemma with_cap_id c : c_cap c = None -> with_cap c None = c.
Proof. destruct c; cbn. intros ->. reflexivity. Qed.
(* Every hypothesis of exactly-once is necessary: a losing schedule for each.

   A witness schedule is run once; the rest is read off the state it ends in *)
Lemma Loses_final c n sched h x : final c n 1 sched = {| g_prog := []; g_hist := h; g_subs := [x] |} ->
  attached x = true -> delivered c x <> seq 0 n -> Loses c n sched.
Proof. intros E Ha Hd. unfold Loses. rewrite E. split; [reflexivity|]. exists x. auto. Qed.

(* S8: send(0) < subscribe < snapshot < push(0): frame 0 is in neither history nor live *)
Definition s8_sched : list actor := [AP; AS 0; AS 0; AP].
Lemma pub_then_rec_refuted : exists n sched, Loses unfixed_cfg n sched.
Proof. exists 1, s8_sched. eapply Loses_final; [vm_compute; reflexivity|reflexivity|discriminate]. Qed.
(* the same witness, spelled out: the subscriber of the 1-frame stream receives nothing *)
Lemma s8_witness : map (delivered unfixed_cfg) (g_subs (final unfixed_cfg 1 1 s8_sched)) = [[]]
  /\ g_prog (final unfixed_cfg 1 1 s8_sched) = [] /\ g_hist (final unfixed_cfg 1 1 s8_sched) = [0].
Proof. vm_compute. repeat split. Qed.

(* ... and in a longer stream ANY frame k can be the lost one (attach inside the window of frame k) *)
Definition s8_sched_at (k : nat) : list actor := repeat AP (2 * k) ++ [AP; AS 0; AS 0].
Lemma s8_any_frame_examples :
  map (fun k => map (delivered unfixed_cfg) (g_subs (final unfixed_cfg 4 1 (s8_sched_at k ++ repeat AP 8)))) [0; 1; 2; 3]
  = [[[1; 2; 3]]; [[0; 2; 3]]; [[0; 1; 3]]; [[0; 1; 2]]].
Proof. vm_compute. reflexivity. Qed.

Lemma snap_then_sub_refuted : exists n sched, Loses (mk RecThenPub SnapThenSub FilterGtLast None) n sched.
Proof.
  exists 1, [AS 0; AP; AP; AS 0]. eapply Loses_final; [vm_compute; reflexivity|reflexivity|discriminate].
Qed.

(* with `>=` frame `last` comes twice, with no filter every frame recorded between subscribe and snapshot does *)
Lemma wrong_filter_refuted : forall f, f <> FilterGtLast ->
  exists n sched, Loses (mk RecThenPub SubThenSnap f None) n sched.
Proof.
  intros f Hf. exists 1, [AS 0; AP; AP; AS 0].
  destruct f; [congruence| |]; (eapply Loses_final; [vm_compute; reflexivity|reflexivity|discriminate]).
Qed.
Lemma ge_filter_duplicates :
  map (delivered (mk RecThenPub SubThenSnap FilterGeLast None))
      (g_subs (final (mk RecThenPub SubThenSnap FilterGeLast None) 1 1 [AS 0; AP; AP; AS 0])) = [[0; 0]].
Proof. vm_compute. reflexivity. Qed.

(* NoLag is necessary: capacity 1, two frames published before the receiver is read *)
Lemma lag_refuted : exists n sched, Loses (mk RecThenPub SubThenSnap FilterGtLast (Some 1)) n sched.
Proof.
  exists 2, [AS 0; AS 0; AP; AP; AP; AP]. eapply Loses_final; [vm_compute; reflexivity|reflexivity|discriminate].
Qed.

(* the hypotheses are met: three subscribers attaching at different moments of a 3-frame stream *)
Definition demo_sched : list actor := [AP; AS 0; AP; AS 1; AP; AS 0; AS 1; AP; AS 0; AP; AP; AS 2; AS 2].
Lemma demo_run :
  g_prog (final okc 3 3 demo_sched) = []
  /\ map (delivered okc) (g_subs (final okc 3 3 demo_sched)) = [[0; 1; 2]; [0; 1; 2]; [0; 1; 2]]
  /\ map attached (g_subs (final okc 3 3 demo_sched)) = [true; true; true].
Proof. vm_compute. repeat split. Qed.
(* mid-run: subscriber 0 attached inside the run, subscriber 2 not attached yet *)
Lemma demo_mid_run :
  g_prog (final okc 3 3 (firstn 7 demo_sched)) <> []
  /\ map attached (g_subs (final okc 3 3 (firstn 7 demo_sched))) = [true; true; false]
  /\ map (delivered okc) (g_subs (final okc 3 3 (firstn 7 demo_sched))) = [[0; 1]; [0; 1]; []].
Proof. vm_compute. repeat split. discriminate. Qed.
(* a shared channel: 4 frames of other streams (AO) interleaved; capacity 7 = 3 + 4 is the bound of lag_bound_thm *)
Definition demo_shared_sched : list actor := [AO; AP; AS 0; AO; AP; AS 1; AP; AO; AS 0; AS 1; AP; AS 0; AP; AO; AP; AS 2; AS 2].
Lemma demo_shared :
  NoLag (final (code_cfg (Some 7)) 3 3 demo_shared_sched)
  /\ g_prog (final (code_cfg (Some 7)) 3 3 demo_shared_sched) = []
  /\ map (delivered (code_cfg (Some 7))) (g_subs (final (code_cfg (Some 7)) 3 3 demo_shared_sched)) = [[0; 1; 2]; [0; 1; 2]; [0; 1; 2]]
  /\ count_other demo_shared_sched = 4.
Proof. vm_compute. repeat split. Qed.
Lemma demo_nolag :
  NoLag (final (code_cfg (Some 3)) 3 3 demo_sched)
  /\ map attached (g_subs (final (code_cfg (Some 3)) 3 3 demo_sched)) = [true; true; true].
Proof. vm_compute. repeat split. Qed.

Lemma cfg_code c : c_p c = RecThenPub -> c_s c = SubThenSnap -> c_f c = FilterGtLast -> c = code_cfg (c_cap c).
Proof. destruct c; cbn. intros -> -> ->. reflexivity. Qed.

Lemma cfg_ok_code c : cfg_ok c = true -> c = code_cfg (c_cap c).
Proof. unfold cfg_ok. intros H. apply cfg_code; destruct (c_p c), (c_s c), (c_f c); reflexivity || discriminate H. Qed.

(* The same for a configuration c given by equations on its fields, the form in which Props/C06.v states them:
   such a c is code_cfg (c_cap c) *)
Theorem exactly_once_thm : forall (c : cfg),
  c_p c = RecThenPub -> c_s c = SubThenSnap -> c_f c = FilterGtLast -> c_cap c = None ->
  forall (n m : nat) (sched : list actor) (i : nat) (x : sub),
  nth_error (g_subs (final c n m sched)) i = Some x -> attached x = true ->
  ExactlyOnce c n (final c n m sched) x.
Proof.
  intros c H1 H2 H3 H4. rewrite (cfg_code c H1 H2 H3), H4. intros n m sched i x Hn.
  exact (exactly_once_unlagged None n m sched i x Hn eq_refl).
Qed.

Theorem exactly_once_nolag_thm : forall (c : cfg) (cap : nat),
  c_p c = RecThenPub -> c_s c = SubThenSnap -> c_f c = FilterGtLast -> c_cap c = Some cap ->
  forall (n m : nat) (sched : list actor) (i : nat) (x : sub),
  NoLag (final c n m sched) ->
  nth_error (g_subs (final c n m sched)) i = Some x -> attached x = true ->
  ExactlyOnce c n (final c n m sched) x.
Proof.
  intros c cap H1 H2 H3 H4. rewrite (cfg_code c H1 H2 H3), H4. intros n m sched i x Hl Hn.
  apply (exactly_once_unlagged (Some cap) n m sched i x Hn), (any_lag_false _ _ Hl), (nth_error_In _ _ Hn).
Qed.

Theorem body_is_prefix_thm : forall (c : cfg),
  c_p c = RecThenPub -> c_s c = SubThenSnap -> c_f c = FilterGtLast -> c_cap c = None ->
  forall (n m : nat) (sched : list actor) (i : nat) (x : sub),
  nth_error (g_subs (final c n m sched)) i = Some x -> exists k, s_out x = seq 0 k /\ k <= n.
Proof. intros c H1 H2 H3 H4. rewrite (cfg_code c H1 H2 H3), H4. exact out_is_prefix. Qed.

(* the generated stream kinds (Gen/StreamOrder.v) feed the theorems through wf_kinds *)
Lemma wf_kinds_in l k : wf_kinds l = true -> In k l ->
  (forall cap, kind_cfg k cap = code_cfg cap) /\ k_span k = SpanEmit.
Proof.
  unfold wf_kinds. intros H Hin. apply andb_prop in H. destruct H as (H & _). apply andb_prop in H.
  destruct H as (_ & H). rewrite forallb_forall in H. specialize (H k Hin). unfold wf_kind in H.
  apply andb_prop in H. destruct H as (H & Hs). apply andb_prop in H. destruct H as (H & _).
  split; [intros cap; apply (cfg_ok_code (kind_cfg k cap)), H | destruct (k_span k); [reflexivity|discriminate]].
Qed.

Theorem exactly_once_kinds : forall (l : list kind_orders), wf_kinds l = true ->
  forall (k : kind_orders), In k l ->
  forall (n m : nat) (sched : list actor) (i : nat) (x : sub),
  NoLag (final (kind_code_cfg k) n m sched) ->
  nth_error (g_subs (final (kind_code_cfg k) n m sched)) i = Some x -> attached x = true ->
  ExactlyOnce (kind_code_cfg k) n (final (kind_code_cfg k) n m sched) x.
Proof.
  intros l Hl k Hk. unfold kind_code_cfg. rewrite (proj1 (wf_kinds_in l k Hl Hk)).
  exact (exactly_once_nolag_thm (code_cfg (Some (kind_cap k))) _ eq_refl eq_refl eq_refl eq_refl).
Qed.

Theorem short_stream_kinds : forall (l : list kind_orders), wf_kinds l = true ->
  forall (k : kind_orders), In k l ->
  forall (n m : nat) (sched : list actor) (i : nat) (x : sub), n + count_other sched <= kind_cap k ->
  nth_error (g_subs (final (kind_code_cfg k) n m sched)) i = Some x -> attached x = true ->
  ExactlyOnce (kind_code_cfg k) n (final (kind_code_cfg k) n m sched) x.
Proof.
  intros l Hl k Hk n m sched i x Hn. apply (exactly_once_kinds l Hl k Hk).
  exact (lag_bound_thm (kind_code_cfg k) _ n m sched eq_refl Hn).
Qed.

Lemma wf_kinds_names l : wf_kinds l = true -> map k_name l = [0%N; 1%N; 2%N].
Proof. unfold wf_kinds. intros H. apply andb_prop in H. apply lN_eqb_spec. exact (proj2 H). Qed.

(* S8 in general: in a stream of ANY length the unfixed order can lose ANY frame *)

Definition s8_sched_for (n k : nat) : list actor := repeat AP (2 * k) ++ [AP; AS 0; AS 0] ++ repeat AP (2 * (n - k)).

(* the stream of the unfixed order after k whole frames, with the one subscriber x *)
Definition ust (n k : nat) (x : sub) : st :=
  {| g_prog := rest PubThenRec n k; g_hist := seq 0 k; g_subs := [x] |}.

(* two producer steps of the unfixed order = one whole frame *)
Lemma unfixed_frame n k x : k < n ->
  run unfixed_cfg [AP; AP] (ust n k x) = ust n (S k) (deliver None (Some k) x).
Proof.
  intros H. unfold ust, run. cbn [fold_left step g_prog]. rewrite rest_unfold by lia.
  cbn [frame_steps app g_prog g_hist g_subs map unfixed_cfg mk c_cap]. f_equal. rewrite seq_S. reflexivity.
Qed.

Lemma repeat_two_S j : repeat AP (2 * S j) = [AP; AP] ++ repeat AP (2 * j).
Proof. replace (2 * S j) with (S (S (2 * j))) by lia. reflexivity. Qed.

(* frames k .. k+j-1 pass a subscriber that is not subscribed yet and are queued, in order, for a subscribed one *)
Lemma unfixed_frames n : forall j k pc lv h o lag, k + j <= n ->
  run unfixed_cfg (repeat AP (2 * j)) (ust n k {| s_pc := pc; s_live := lv; s_hist := h; s_out := o; s_lag := lag |})
  = ust n (k + j) {| s_pc := pc; s_live := option_map (fun q => q ++ map Some (seq k j)) lv; s_hist := h; s_out := o;
                     s_lag := lag |}.
Proof.
  induction j as [|j IH]; intros k pc lv h o lag H.
  - rewrite Nat.add_0_r. destruct lv; cbn [seq map option_map]; rewrite ?app_nil_r; reflexivity.
  - rewrite repeat_two_S, run_app, unfixed_frame by lia. unfold deliver. cbn [s_live s_pc s_hist s_out s_lag].
    destruct lv as [q|]; cbn [push_live]; rewrite ?orb_false_r, IH, Nat.add_succ_r by lia; [|reflexivity].
    cbn [option_map seq map]. rewrite <- app_assoc. reflexivity.
Qed.

Lemma init_ust n : init unfixed_cfg n 1 = ust n 0 fresh.
Proof. reflexivity. Qed.

Lemma own_map_Some l : own (map Some l) = l.
Proof. induction l as [|a l IH]; [reflexivity|]. cbn [map own flat_map app] in *. f_equal. exact IH. Qed.

(* Pub k reaches nobody; subscribe; snapshot 0..k-1; then Rec k *)
Lemma unfixed_attach n k : k < n ->
  run unfixed_cfg [AP] (run unfixed_cfg [AP; AS 0; AS 0] (ust n k fresh))
  = ust n (S k) {| s_pc := 2; s_live := Some []; s_hist := Some (seq 0 k); s_out := seq 0 k; s_lag := false |}.
Proof. intros H. unfold ust. rewrite rest_unfold by lia. rewrite (seq_S k 0). reflexivity. Qed.

(* the subscriber attaches inside the window of frame k: it receives every frame EXCEPT k *)
Theorem pub_then_rec_loses_any_frame : forall n k, k < n ->
  g_prog (final unfixed_cfg n 1 (s8_sched_for n k)) = [] /\
  map attached (g_subs (final unfixed_cfg n 1 (s8_sched_for n k))) = [true] /\
  map (delivered unfixed_cfg) (g_subs (final unfixed_cfg n 1 (s8_sched_for n k))) = [seq 0 k ++ seq (S k) (n - S k)].
Proof.
  intros n k H. unfold final, s8_sched_for.
  (* after the attach: Rec k, the remaining whole frames, one idle producer step *)
  replace (repeat AP (2 * (n - k))) with ([AP] ++ repeat AP (2 * (n - S k)) ++ [AP])
    by (change [AP] with (repeat AP 1); rewrite <- !repeat_app; f_equal; lia).
  rewrite !run_app, init_ust. unfold fresh. rewrite unfixed_frames by lia. cbn [Nat.add option_map]. fold fresh.
  rewrite unfixed_attach, unfixed_frames by lia. replace (S k + (n - S k)) with n by lia.
  unfold ust. rewrite rest_nil by lia. cbn [run fold_left step g_prog app g_subs map]. repeat split.
  unfold delivered, do_drain. cbn [s_live s_hist s_out option_map app unfixed_cfg mk c_f].
  rewrite own_map_Some, (filter_ext _ (fun j => Nat.leb k j)) by (intros j; apply keep_gt_seq).
  rewrite filter_ge_seq, Nat.max_r, (Nat.add_comm (S k)), Nat.add_sub by auto with arith. reflexivity.
Qed.

(* Several producers on one stream: with the seq mutex spanning the whole emit they are ONE producer *)

Lemma actives_cons p r : actives (p :: r) = actives [p] ++ actives r.
Proof. unfold actives. cbn [map filter]. destruct (negb (is_idle (fst p))); reflexivity. Qed.

(* replacing a producer's entry replaces its contribution to the active phases, in place *)
Lemma actives_upd ps : forall j p f, nth_error ps j = Some p ->
  exists A B, actives ps = A ++ actives [p] ++ B /\ actives (upd_nth j f ps) = A ++ actives [f p] ++ B.
Proof.
  induction ps as [|p0 r IH]; intros [|j] p f Hn; try discriminate Hn; cbn [nth_error upd_nth] in *.
  - injection Hn as ->. exists [], (actives r). rewrite (actives_cons p r), (actives_cons (f p) r). split; reflexivity.
  - destruct (IH j p f Hn) as (A & B & E1 & E2). exists (actives [p0] ++ A), B.
    rewrite (actives_cons p0 r), (actives_cons p0 (upd_nth j f r)), E1, E2, <- !app_assoc. split; reflexivity.
Qed.

(* ... and when at most one producer is active, and none unless this one is, it is the whole of them *)
Lemma actives_upd_one ps j p f : length (actives ps) <= 1 -> nth_error ps j = Some p ->
  (actives [p] = [] -> actives ps = []) -> actives ps = actives [p] /\ actives (upd_nth j f ps) = actives [f p].
Proof.
  intros Hl Hn H0. destruct (actives_upd ps j p f Hn) as (A & B & E1 & E2). rewrite E1 in Hl, H0. rewrite E1, E2.
  assert (A = [] /\ B = []) as (-> & ->).
  { destruct (actives [p]) as [|x t].
    - apply app_eq_nil in H0; [|reflexivity]. exact H0.
    - rewrite !app_length in Hl. cbn [length] in Hl. destruct A, B; cbn [length] in Hl; auto; lia. }
  rewrite !app_nil_r. split; reflexivity.
Qed.

Lemma work_left_upd ps : forall j ph l ph' l', nth_error ps j = Some (ph, l) ->
  work_left (upd_nth j (fun _ => (ph', l')) ps) + l = work_left ps + l'.
Proof.
  induction ps as [|p r IH]; intros j ph l ph' l' Hn; [destruct j; discriminate|].
  destruct j as [|j]; cbn [nth_error] in Hn; cbn [upd_nth work_left fold_right].
  - injection Hn as ->. cbn [snd]. fold (work_left r). lia.
  - fold (work_left r) (work_left (upd_nth j (fun _ => (ph', l')) r)). specialize (IH j ph l ph' l' Hn). lia.
Qed.

(* the invariant of SpanEmit: at most one producer is inside its emit, and it holds the latest number *)
Definition MInv (s : mst) : Prop :=
  actives (m_prods s) = [] \/
  (exists k, actives (m_prods s) = [MChosen k] /\ m_next s = S k) \/
  (exists k, actives (m_prods s) = [MRecorded k] /\ m_next s = S k).

Lemma MInv_next s k : MInv s -> actives (m_prods s) = [MChosen k] \/ actives (m_prods s) = [MRecorded k] -> m_next s = S k.
Proof.
  intros [E|[(k0 & E & Hn)|(k0 & E & Hn)]] [E'|E']; rewrite E in E'; try discriminate E'; injection E' as <-; exact Hn.
Qed.

(* every step of the multi-producer system is a step of the one-producer model, or leaves its view unchanged *)
Lemma mstep_view c s a : MInv s ->
  MInv (mstep c SpanEmit s a) /\
  (mview (mstep c SpanEmit s a) = mview s \/ exists a', mview (mstep c SpanEmit s a) = step c (mview s) a').
Proof.
  intros HI.
  destruct a as [j|i|]; [|split; [exact HI|right; exists (AS i); reflexivity]|split; [exact HI|right; exists AO; reflexivity]].
  cbn [mstep]. unfold prod_step.
  destruct (nth_error (m_prods s) j) as [[ph l]|] eqn:En; [|split; [exact HI|left; reflexivity]].
  assert (forall f, (actives [(ph, l)] = [] -> actives (m_prods s) = []) ->
          actives (m_prods s) = actives [(ph, l)] /\ actives (upd_nth j f (m_prods s)) = actives [f (ph, l)]) as Hu.
  { intros f. apply actives_upd_one; [|exact En]. destruct HI as [->|[(k & -> & _)|(k & -> & _)]]; cbn [length]; lia. }
  destruct ph as [|k|k].
  - (* idle: takes the next number unless somebody is inside its emit *)
    destruct l as [|l]; [split; [exact HI|left; reflexivity]|].
    destruct (actives (m_prods s)) as [|a0 r0] eqn:Ea; [|split; [exact HI|left; reflexivity]].
    destruct (Hu (fun _ => (MChosen (m_next s), l)) (fun _ => eq_refl)) as (_ & Eu).
    pose proof (work_left_upd _ j MIdle (S l) (MChosen (m_next s)) l En) as Hw. split.
    + right; left. exists (m_next s). split; [exact Eu|reflexivity].
    + left. unfold mview. cbn [m_prods m_next m_hist m_subs]. rewrite Eu, Ea. cbn [actives map filter fst is_idle negb].
      f_equal. f_equal. lia.
  - (* chosen k: records *)
    destruct (Hu (fun _ => (MRecorded k, l))) as (Ea & Eu); [discriminate|]. cbn [actives map filter fst is_idle negb] in Ea, Eu.
    pose proof (MInv_next s k HI (or_introl Ea)) as Hn.
    pose proof (work_left_upd _ j (MChosen k) l (MRecorded k) l En) as Hw. apply Nat.add_cancel_r in Hw. split.
    + right; right. exists k. split; [exact Eu|exact Hn].
    + right. exists AP. unfold mview. cbn [m_prods m_next m_hist m_subs]. rewrite Eu, Ea.
      rewrite Hw, (rest_unfold RecThenPub _ k) by lia. reflexivity.
  - (* recorded k: publishes *)
    destruct (Hu (fun _ => (MIdle, l))) as (Ea & Eu); [discriminate|]. cbn [actives map filter fst is_idle negb] in Ea, Eu.
    pose proof (MInv_next s k HI (or_intror Ea)) as Hn.
    pose proof (work_left_upd _ j (MRecorded k) l MIdle l En) as Hw. apply Nat.add_cancel_r in Hw. split.
    + left. exact Eu.
    + right. exists AP. unfold mview. cbn [m_prods m_next m_hist m_subs]. rewrite Eu, Ea.
      rewrite Hw, Hn. reflexivity.
Qed.

Lemma mrun_view c : forall msched s, MInv s ->
  exists sched, mview (mrun c SpanEmit msched s) = run c sched (mview s).
Proof.
  induction msched as [|a l IH]; intros s HI; [exists []; reflexivity|].
  destruct (mstep_view c s a HI) as (HI' & Hv). destruct (IH _ HI') as (sched & E).
  unfold mrun in *. cbn [fold_left]. rewrite E. destruct Hv as [Hv|(a' & Hv)]; rewrite Hv.
  - exists sched. reflexivity.
  - exists (a' :: sched). reflexivity.
Qed.

Lemma work_left_map work : work_left (map (fun w => (MIdle, w)) work) = fold_right Nat.add 0 work.
Proof. induction work as [|w r IH]; [reflexivity|]. cbn [map work_left fold_right snd] in *. fold (work_left (map (fun w => (MIdle, w)) r)). rewrite IH. reflexivity. Qed.

Lemma actives_minit work : actives (map (fun w => (MIdle, w)) work) = [].
Proof. induction work as [|w r IH]; [reflexivity|]. unfold actives in *. cbn [map filter fst is_idle negb]. exact IH. Qed.

(* the simulation for whole runs: what the subscribers of the multi-producer system see at the end of any schedule is the
   end of some schedule of the one-producer stream of the same total length *)
Lemma mfinal_view c work m msched : c_p c = RecThenPub ->
  exists sched, mview (mfinal c SpanEmit work m msched) = final c (fold_right Nat.add 0 work) m sched.
Proof.
  intros Hp. destruct (mrun_view c msched (minit work m)) as (sched & E); [left; apply actives_minit|].
  exists sched. unfold mfinal, final. rewrite E. f_equal.
  unfold mview, minit, init. cbn [m_next m_prods m_hist m_subs]. rewrite actives_minit, work_left_map, Hp. reflexivity.
Qed.

(* any number of producers, any split of the frames among them, any schedule: the subscribers of the multi-producer
   system are subscribers of a one-producer stream of the same total length, so exactly-once carries over *)
Theorem multi_producer_exactly_once : forall (c : cfg),
  c_p c = RecThenPub -> c_s c = SubThenSnap -> c_f c = FilterGtLast -> c_cap c = None ->
  forall (work : list nat) (m : nat) (msched : list mactor) (i : nat) (x : sub),
  nth_error (m_subs (mfinal c SpanEmit work m msched)) i = Some x -> attached x = true ->
  ExactlyOnce c (fold_right Nat.add 0 work) (mview (mfinal c SpanEmit work m msched)) x.
Proof.
  intros c H1 H2 H3 H4 work m msched i x Hn Ha. destruct (mfinal_view c work m msched H1) as (sched & E).
  rewrite E. apply (exactly_once_thm c H1 H2 H3 H4 _ m sched i x); [|exact Ha]. rewrite <- E. exact Hn.
Qed.

(* with the mutex narrowed to the counter two producers lose a frame: A takes 0, B takes 1, B records and publishes 1,
   the subscriber attaches (history [1], last = 1), A records and publishes 0 - dropped by `seq > last` *)
Definition narrowed_sched : list mactor := [MP 0; MP 1; MP 1; MP 1; MS 0; MS 0; MP 0; MP 0].
Lemma span_counter_refuted :
  m_hist (mfinal okc SpanCounter [1; 1] 1 narrowed_sched) = [1; 0]
  /\ map attached (m_subs (mfinal okc SpanCounter [1; 1] 1 narrowed_sched)) = [true]
  /\ map (delivered okc) (m_subs (mfinal okc SpanCounter [1; 1] 1 narrowed_sched)) = [[1]]
  /\ actives (m_prods (mfinal okc SpanCounter [1; 1] 1 narrowed_sched)) = []
  /\ work_left (m_prods (mfinal okc SpanCounter [1; 1] 1 narrowed_sched)) = 0.
Proof. vm_compute. repeat split. Qed.
(* the same schedule under SpanEmit: B is blocked until A is done, nothing is lost *)
Lemma span_emit_same_schedule :
  map (delivered okc) (m_subs (mfinal okc SpanEmit [1; 1] 1 (narrowed_sched ++ [MP 1; MP 1; MP 1; MS 0]))) = [[0; 1]]
  /\ m_hist (mfinal okc SpanEmit [1; 1] 1 (narrowed_sched ++ [MP 1; MP 1; MP 1; MS 0])) = [0; 1].
Proof. vm_compute. repeat split. Qed.

(* for the stream kinds read from the source: the span is the extracted one *)
Theorem multi_producer_kinds : forall (l : list kind_orders), wf_kinds l = true ->
  forall (k : kind_orders), In k l ->
  forall (work : list nat) (m : nat) (msched : list mactor) (i : nat) (x : sub),
  nth_error (m_subs (mfinal (kind_cfg k None) (k_span k) work m msched)) i = Some x -> attached x = true ->
  ExactlyOnce (kind_cfg k None) (fold_right Nat.add 0 work) (mview (mfinal (kind_cfg k None) (k_span k) work m msched)) x.
Proof.
  intros l Hl k Hk. destruct (wf_kinds_in l k Hl Hk) as (-> & ->).
  exact (multi_producer_exactly_once okc eq_refl eq_refl eq_refl eq_refl).
Qed.

(* The history buffer over time: statements that only read keep the history monotone (history_monotone), a monotone run is
   a run of the stream model (monotone_run_eq), and take-and-restore is not monotone and loses every frame *)

Lemma erun_app c a b s : erun c (a ++ b) s = erun c b (erun c a s).
Proof. unfold erun. apply fold_left_app. Qed.

Lemma eproj_app a b : eproj (a ++ b) = eproj a ++ eproj b.
Proof. unfold eproj. apply flat_map_app. Qed.

Lemma set_hist_same s : set_hist s (g_hist s) = s.
Proof. destruct s; reflexivity. Qed.

Lemma is_prefix_refl a : is_prefix a a.
Proof. exists []. symmetry. apply app_nil_r. Qed.

Lemma is_prefix_trans a b d : is_prefix a b -> is_prefix b d -> is_prefix a d.
Proof. intros (x & ->) (y & ->). exists (x ++ y). symmetry. apply app_assoc. Qed.

Lemma is_prefix_nil a : is_prefix a [] -> a = [].
Proof. intros (x & H). symmetry in H. apply app_eq_nil in H. exact (proj1 H). Qed.

Lemma is_prefix_firstn a k : is_prefix a (firstn k a) -> firstn k a = a.
Proof.
  intros (x & H). assert (length (firstn k a) <= length a) as Hl by (rewrite firstn_length; lia).
  rewrite H, app_length in Hl. destruct x as [|y x]; [rewrite app_nil_r in H; exact H|cbn [length] in Hl; lia].
Qed.

(* a statement under which the history stays prefix-ordered leaves it (and the moved-out frames) as they were *)
Lemma bufop_monotone_id o h : is_prefix h (fst (bufop_apply o h [])) -> bufop_apply o h [] = (h, []).
Proof.
  destruct o as [| | | |k]; cbn [bufop_apply fst]; intros H; try reflexivity.
  1-3: rewrite (is_prefix_nil _ H); reflexivity.
  rewrite (is_prefix_firstn _ _ H). reflexivity.
Qed.

Lemma HistMonotone_removelast c n m ops l a : HistMonotone c n m ops (l ++ [a]) -> HistMonotone c n m ops l.
Proof.
  intros H s1 s2 s3 E. apply (H s1 s2 (s3 ++ [a])). rewrite E, <- !app_assoc. reflexivity.
Qed.

(* a run whose history is monotone IS a run of the stream model on the same schedule (the buffer statements stutter) *)
Lemma monotone_run_eq c n m ops : forall sched, HistMonotone c n m ops sched ->
  e_st (efinal c n m ops sched) = final c n m (eproj sched) /\ e_taken (efinal c n m ops sched) = [].
Proof.
  induction sched as [|a l IH] using rev_ind; intros H; [split; reflexivity|].
  destruct (IH (HistMonotone_removelast _ _ _ _ _ _ H)) as (Est & Etk).
  (* the last step keeps the history a prefix: a buffer statement there does nothing *)
  specialize (H l [a] [] eq_refl). unfold ehist, efinal, final in *. rewrite erun_app, ?eproj_app, ?run_app in *.
  set (sl := erun c l (einit c n m ops)) in *.
  destruct a as [a'|]; cbn [erun fold_left estep eproj flat_map app run e_st e_taken] in *.
  - rewrite Est. auto.
  - destruct (e_ops sl) as [|o r]; [auto|]. cbn [e_st e_taken set_hist g_hist] in *. rewrite Etk in *.
    rewrite (bufop_monotone_id _ _ H). cbn [fst snd]. rewrite set_hist_same. auto.
Qed.

Theorem end_of_run_exactly_once : forall (c : cfg),
  c_p c = RecThenPub -> c_s c = SubThenSnap -> c_f c = FilterGtLast -> c_cap c = None ->
  forall (ops : list bufop) (n m : nat) (sched : list eactor) (i : nat) (x : sub),
  HistMonotone c n m ops sched ->
  nth_error (g_subs (e_st (efinal c n m ops sched))) i = Some x -> attached x = true ->
  ExactlyOnce c n (e_st (efinal c n m ops sched)) x.
Proof.
  intros c H1 H2 H3 H4 ops n m sched i x Hm. destruct (monotone_run_eq c n m ops sched Hm) as (E & _). rewrite E.
  apply exactly_once_thm; assumption.
Qed.

(* the stream model never shrinks the history ... *)
Lemma step_hist_grows c s a : is_prefix (g_hist s) (g_hist (step c s a)).
Proof.
  destruct a as [|i|]; cbn [step]; try apply is_prefix_refl.
  destruct (g_prog s) as [|[k|k] r]; cbn [g_hist]; try apply is_prefix_refl. exists [k]. reflexivity.
Qed.

(* ... and neither do buffer statements that only read *)
Lemma estep_reads_grows c s a : buffer_ops_ok (e_ops s) = true ->
  buffer_ops_ok (e_ops (estep c s a)) = true /\ is_prefix (g_hist (e_st s)) (g_hist (e_st (estep c s a))).
Proof.
  intros Hk. destruct a as [a'|]; cbn [estep e_ops e_st].
  - split; [exact Hk|apply step_hist_grows].
  - destruct (e_ops s) as [|o r] eqn:Eo; [rewrite Eo; split; [reflexivity|apply is_prefix_refl]|].
    cbn [buffer_ops_ok forallb] in Hk. apply andb_prop in Hk. destruct Hk as (Ho & Hr).
    cbn [e_ops e_st]. split; [exact Hr|]. destruct o; try discriminate. cbn [bufop_apply fst set_hist g_hist].
    apply is_prefix_refl.
Qed.

Lemma erun_reads_grows c : forall sched s, buffer_ops_ok (e_ops s) = true ->
  buffer_ops_ok (e_ops (erun c sched s)) = true /\ is_prefix (g_hist (e_st s)) (g_hist (e_st (erun c sched s))).
Proof.
  intros sched s Hk.
  apply (fold_left_inv (estep c) (fun s' => buffer_ops_ok (e_ops s') = true /\ is_prefix (g_hist (e_st s)) (g_hist (e_st s')))).
  - intros s' a (Hk' & Hp). destruct (estep_reads_grows c s' a Hk') as (Hk'' & Hp').
    split; [exact Hk''|exact (is_prefix_trans _ _ _ Hp Hp')].
  - split; [exact Hk|apply is_prefix_refl].
Qed.

(* c06_history_monotone: when every buffer statement of the producer's code only reads (the generated obligation), the
   recorded history is prefix-ordered over time - every configuration, every schedule, wherever the statements run *)
Theorem history_monotone : forall (ops : list bufop), buffer_ops_ok ops = true ->
  forall (c : cfg) (n m : nat) (sched : list eactor), HistMonotone c n m ops sched.
Proof.
  intros ops Hk c n m sched s1 s2 s3 _. unfold ehist, efinal. rewrite erun_app.
  apply erun_reads_grows. apply (erun_reads_grows c s1 (einit c n m ops)). exact Hk.
Qed.

Theorem end_of_run_kinds : forall (l : list kind_orders), wf_kinds l = true ->
  forall (ops : list bufop), buffer_ops_ok ops = true ->
  forall (k : kind_orders), In k l ->
  forall (n m : nat) (sched : list eactor) (i : nat) (x : sub),
  nth_error (g_subs (e_st (efinal (kind_cfg k None) n m ops sched))) i = Some x -> attached x = true ->
  ExactlyOnce (kind_cfg k None) n (e_st (efinal (kind_cfg k None) n m ops sched)) x.
Proof.
  intros l Hl ops Hk k Hin. rewrite (proj1 (wf_kinds_in l k Hl Hin)).
  intros n m sched i x. apply (end_of_run_exactly_once okc eq_refl eq_refl eq_refl eq_refl), history_monotone, Hk.
Qed.

(* take-and-restore around the snapshot write : the 3 frames are recorded and published, the buffer is moved
   out, a subscriber attaches (subscribe, snapshot: EMPTY history, nothing live any more), the buffer is put back *)
Definition take_restore_ops : list bufop := [BTake; BRead; BRestore].
Definition take_restore_sched : list eactor :=
  repeat (EA AP) 6 ++ [EB; EA (AS 0); EA (AS 0); EB; EB; EA (AS 0)].
Lemma take_restore_refuted :
  ~ HistMonotone okc 3 1 take_restore_ops take_restore_sched
  /\ g_prog (e_st (efinal okc 3 1 take_restore_ops take_restore_sched)) = []
  /\ g_hist (e_st (efinal okc 3 1 take_restore_ops take_restore_sched)) = [0; 1; 2]
  /\ map attached (g_subs (e_st (efinal okc 3 1 take_restore_ops take_restore_sched))) = [true]
  /\ map (delivered okc) (g_subs (e_st (efinal okc 3 1 take_restore_ops take_restore_sched))) = [[]].
Proof.
  split; [|vm_compute; repeat split].
  intros H. specialize (H (repeat (EA AP) 6) [EB] [EA (AS 0); EA (AS 0); EB; EB; EA (AS 0)] eq_refl).
  destruct H as (ext & H). vm_compute in H. discriminate H.
Qed.
(* the same schedule when the statement only reads (BRead, under the lock): everything arrives *)
Lemma read_only_same_schedule :
  buffer_ops_ok [BRead] = true
  /\ map (delivered okc) (g_subs (e_st (efinal okc 3 1 [BRead] take_restore_sched))) = [[0; 1; 2]].
Proof. vm_compute. split; reflexivity. Qed.
(* each of the other non-reading statements breaks it as well: clear / truncate before a late attach *)
Lemma clear_truncate_refuted :
  map (delivered okc) (g_subs (e_st (efinal okc 3 1 [BClear] (repeat (EA AP) 6 ++ [EB; EA (AS 0); EA (AS 0)])))) = [[]]
  /\ map (delivered okc) (g_subs (e_st (efinal okc 3 1 [BTruncate 1] (repeat (EA AP) 6 ++ [EB; EA (AS 0); EA (AS 0)])))) = [[0]].
Proof. vm_compute. split; reflexivity. Qed.

(* The thread kind's history source (replay_events = sidecar if try_replay accepts it, else the log) *)

Lemma sidecar_exact_seq : forall l e, sidecar_ok SeqExact e l = true -> l = seq e (length l).
Proof.
  induction l as [|k r IH]; intros e H; [reflexivity|]. cbn [sidecar_ok] in H. apply andb_prop in H. destruct H as (Hk & Hr).
  apply Nat.eqb_eq in Hk. subst k. cbn [length seq]. f_equal. apply IH, Hr.
Qed.

(* an accepted sidecar that is a run j.. starts at the expected seq *)
Lemma sidecar_ok_seq e j len : sidecar_ok SeqExact e (seq j (S len)) = true -> j = e.
Proof. cbn [seq sidecar_ok]. intros H. apply andb_prop in H. apply Nat.eqb_eq, H. Qed.

Lemma replay_ok_inv r : replay_ok r = true -> r_first r = 0 /\ r_cmp r = SeqExact.
Proof.
  unfold replay_ok. intros H. apply andb_prop in H. destruct H as (Hf & Hc). apply Nat.eqb_eq in Hf.
  destruct (r_cmp r); [auto|discriminate].
Qed.

(* whatever the sidecar holds: the history handed to a thread subscriber is the truth log or a gap-free run from seq 0 *)
Theorem thread_history_from_zero : forall (r : replay_check), replay_ok r = true ->
  forall (side : option (list nat)) (log : list nat),
  thread_history r side log = log \/ exists k, thread_history r side log = seq 0 k /\ side = Some (seq 0 k).
Proof.
  intros r Hr side log. destruct (replay_ok_inv r Hr) as (Hf & Hc). unfold thread_history.
  destruct side as [[|k l]|]; [left; reflexivity| |left; reflexivity].
  rewrite Hf, Hc. destruct (sidecar_ok SeqExact 0 (k :: l)) eqn:E; [|left; reflexivity].
  right. exists (length (k :: l)). rewrite <- (sidecar_exact_seq _ _ E). split; reflexivity.
Qed.

(* cache loss (deletion) at any moment j of a thread that has n frames now: the subscriber's history is the whole log *)
Theorem thread_history_after_loss : forall (r : replay_check), replay_ok r = true ->
  forall n j, thread_history r (sidecar_after_loss n j) (seq 0 n) = seq 0 n.
Proof.
  intros r Hr n j. destruct (replay_ok_inv r Hr) as (Hf & Hc). unfold thread_history, sidecar_after_loss.
  destruct (Nat.ltb_spec j n) as [Hlt|Hge]; [|reflexivity]. destruct (n - j) as [|d] eqn:Ed; [lia|].
  change (seq j (S d)) with (j :: seq (S j) d). rewrite Hf, Hc.
  destruct (sidecar_ok SeqExact 0 (j :: seq (S j) d)) eqn:E; [|reflexivity].
  (* the sidecar j..n-1 is accepted: j = 0, it is the whole log *)
  apply (sidecar_ok_seq 0 j d) in E. subst j. rewrite Nat.sub_0_r in Ed. rewrite Ed. reflexivity.
Qed.

(* `seq < expected` instead of `seq != expected` accepts the truncated / holed sidecar *)
Definition weak_replay : replay_check := {| r_first := 0; r_cmp := SeqIncreasing |}.
Definition code_replay : replay_check := {| r_first := 0; r_cmp := SeqExact |}.
Lemma weak_replay_refuted :
  thread_history weak_replay (sidecar_after_loss 10 7) (seq 0 10) = [7; 8; 9]
  /\ thread_history weak_replay (Some [0; 1; 3; 4]) (seq 0 5) = [0; 1; 3; 4]
  /\ thread_history code_replay (sidecar_after_loss 10 7) (seq 0 10) = seq 0 10
  /\ thread_history code_replay (Some [0; 1; 3; 4]) (seq 0 5) = seq 0 5.
Proof. vm_compute. repeat split. Qed.

(* Handlers that re-read the history when their receiver lagged (LagRefill): exactly-once on the bounded channel
   WITHOUT NoLag *)

Lemma emit_seq : forall len q o, q <= o -> emit_new (seq 0 o) (seq q len) = seq 0 (Nat.max o (q + len)).
Proof.
  induction len as [|len IH]; intros q o H.
  - cbn [seq emit_new]. rewrite Nat.add_0_r, Nat.max_l by exact H. reflexivity.
  - cbn [seq emit_new]. rewrite keep_gt_seq, Nat.add_succ_r. destruct (Nat.leb_spec o q) as [Hle|Hgt].
    + rewrite (Nat.le_antisymm _ _ Hle H). replace (seq 0 q ++ [q]) with (seq 0 (S q)) by apply seq_S.
      rewrite IH by apply le_n. f_equal. lia.
    + apply IH, Hgt.
Qed.

(* not subscribed; subscribed: the receiver holds the frames q..p-1; attached: 0..o-1 written, and nothing between o and
   q is missing unless the receiver says Lagged at its next recv *)
Definition RSInv (p r : nat) (x : rsub) : Prop :=
  match rs_pc x with
  | 0 => rs_out x = []
  | S pc => exists q, q <= p /\ own (rs_live x) = seq q (p - q) /\
      match pc with
      | 0 => rs_out x = []
      | _ => exists o, rs_out x = seq 0 o /\ o <= r /\ (rs_pend x = false -> q <= o)
      end
  end.

(* dropping the oldest pending entry keeps the own frames a contiguous run that ends at p *)
Lemma own_tl l q p : q <= p -> own l = seq q (p - q) -> exists q', q <= q' /\ q' <= p /\ own (tl l) = seq q' (p - q').
Proof.
  intros Hq H. destruct l as [|[k|] t]; cbn [tl].
  - exists q. auto.
  - cbn [own flat_map app] in H. fold (own t) in H. destruct (p - q) as [|d] eqn:Ed; [discriminate|].
    cbn [seq] in H. injection H as _ Ht. exists (S q). repeat split; try lia. rewrite Ht. f_equal. lia.
  - exists q. auto.
Qed.

Lemma RSInv_deliver cap k p p' r x : arrives k p p' -> RSInv p r x -> RSInv p' r (rdeliver cap k x).
Proof.
  intros A H. pose proof (arrives_le _ _ _ A). unfold RSInv, rdeliver in *. destruct (rs_pc x) as [|pc] eqn:E; [rewrite E; exact H|].
  destruct H as (q & Hq & Hown & H). cbn [push_live].
  destruct (Nat.ltb (length (rs_live x)) cap); cbn [rs_pc rs_live rs_out rs_pend].
  - exists q. split; [lia|]. split; [apply (own_push _ _ p); assumption|]. destruct pc; [exact H|].
    rewrite orb_false_r. exact H.
  - destruct (own_tl _ _ _ Hq Hown) as (q' & Hq1 & Hq2 & Ht). exists q'. split; [lia|].
    split; [apply (own_push _ _ p); assumption|]. destruct pc; [exact H|].
    destruct H as (o & Ho & Hor & _). exists o. rewrite orb_true_r. repeat split; auto. discriminate.
Qed.

Lemma RSInv_rec p r x : RSInv p r x -> RSInv p (S r) x.
Proof.
  unfold RSInv. destruct (rs_pc x) as [|[|pc]]; auto.
  intros (q & Hq & Hown & o & Ho & Hor & Hp). exists q. repeat split; auto. exists o. auto.
Qed.

(* subscribe; snapshot: the same under every policy *)
Lemma RSInv_attach pol p r x : p <= r -> rs_pc x < 2 -> RSInv p r x -> RSInv p r (rsub_step pol (seq 0 r) x).
Proof.
  intros Hpr Hpc H. unfold RSInv, rsub_step in *. destruct (rs_pc x) as [|[|pc]]; [| |lia]; cbn [rs_pc rs_live rs_out rs_pend].
  - exists p. rewrite Nat.sub_diag. auto.
  - destruct H as (q & Hq & Hown & _). exists q. repeat split; auto. exists r. repeat split; auto. lia.
Qed.

(* Lagged: the history goes out; what the receiver still holds stays *)
Lemma RSInv_wrefill p r s : p <= r -> 2 <= rs_pc s -> RSInv p r s -> RSInv p r (wrefill (seq 0 r) s).
Proof.
  intros Hpr Hpc H. unfold RSInv, wrefill in *. cbn [rs_pc rs_live rs_out rs_pend].
  destruct (rs_pc s) as [|[|pc]]; [lia|lia|]. destruct H as (q & Hq & Hown & o & Ho & Hor & _).
  exists q. repeat split; auto. exists r. rewrite Ho, (emit_seq r 0 o), Nat.max_r by (assumption || apply Nat.le_0_l).
  split; [reflexivity|]. split; [apply le_n|]. intros _. exact (Nat.le_trans _ _ _ Hq Hpr).
Qed.

(* no Lagged: what is queued goes out, and the body then covers every frame published so far *)
Lemma RSInv_wplain p r s : p <= r -> 2 <= rs_pc s -> rs_pend s = false -> RSInv p r s ->
  RSInv p r (wplain s) /\ exists k, rs_out (wplain s) = seq 0 k /\ p <= k /\ k <= r.
Proof.
  intros Hpr Hpc Hnp H. unfold RSInv, wplain in *. cbn [rs_pc rs_live rs_out rs_pend].
  destruct (rs_pc s) as [|[|pc]]; [lia|lia|]. destruct H as (q & Hq & Hown & o & Ho & Hor & Hqo).
  rewrite Ho, Hown, emit_seq, (Nat.add_comm q), Nat.sub_add by auto.
  pose proof (Nat.le_max_r o p) as Hk1. pose proof (Nat.max_lub _ _ _ Hor Hpr) as Hk2. split.
  - exists p. rewrite Nat.sub_diag. repeat split; auto. exists (Nat.max o p). auto.
  - exists (Nat.max o p). auto.
Qed.

(* rfinal's atomic drain is the window model's two pieces in sequence; the invariant is proved on the pieces (above), so
   that wfinal uses the same lemmas *)
Lemma rdrain_refill h s : rdrain LagRefill h s = if rs_pend s then wplain (wrefill h s) else wplain s.
Proof. unfold rdrain. destruct (rs_pend s); reflexivity. Qed.

Lemma RSInv_drain p r s : p <= r -> 2 <= rs_pc s -> RSInv p r s ->
  RSInv p r (rdrain LagRefill (seq 0 r) s) /\ exists k, rs_out (rdrain LagRefill (seq 0 r) s) = seq 0 k /\ p <= k /\ k <= r.
Proof.
  intros Hpr Hpc H. rewrite rdrain_refill. destruct (rs_pend s) eqn:E; apply RSInv_wplain; auto.
  apply RSInv_wrefill; assumption.
Qed.

Lemma RSInv_sub p r x : p <= r -> RSInv p r x -> RSInv p r (rsub_step LagRefill (seq 0 r) x).
Proof.
  intros Hpr H. destruct (rs_pc x) as [|[|pc]] eqn:E.
  1-2: apply RSInv_attach; [exact Hpr|rewrite E; auto with arith|exact H].
  unfold rsub_step. rewrite E. apply RSInv_drain; [exact Hpr|rewrite E; auto with arith|exact H].
Qed.

(* the conclusion of both exactly-once theorems, for an attached subscriber that has read everything pending *)
Lemma RSInv_exactly_once n g h p r s : PInv n g h p r -> RSInv p r s -> 2 <= rs_pc s ->
  exists k, rs_out (rdrain LagRefill h s) = seq 0 k /\ n - count_pub g <= k /\ k <= n /\ (g = [] -> k = n).
Proof.
  intros HP HS Ha. destruct (PInv_bounds _ _ _ _ _ HP) as (Hpr & _ & Hk). destruct HP as (-> & _).
  destruct (RSInv_drain p r s Hpr Ha HS) as (_ & k & E & Hk1 & Hk2). exists k. split; [exact E|apply Hk; assumption].
Qed.

Definition rst_view (s : rst) : list pstep * list nat * list rsub := (r_prog s, r_hist s, r_subs s).
Lemma rstep_view pol cap s a : rst_view (rstep pol cap s a) = sstep (rdeliver cap) (rsub_step pol) (rst_view s) a.
Proof. destruct a; cbn [rstep sstep rst_view]; [destruct (r_prog s) as [|[k|k] g]|..]; reflexivity. Qed.

(* every capacity, every stream length, every schedule, every subscriber: no NoLag hypothesis *)
Theorem exactly_once_with_refill : forall (cap n m : nat) (sched : list actor) (i : nat) (x : rsub),
  nth_error (r_subs (rfinal LagRefill cap n m sched)) i = Some x -> rattached x = true ->
  exists k, rdelivered LagRefill (rfinal LagRefill cap n m sched) x = seq 0 k
            /\ rpublished n (rfinal LagRefill cap n m sched) <= k /\ k <= n
            /\ (r_prog (rfinal LagRefill cap n m sched) = [] -> k = n).
Proof.
  intros cap n m sched i x Hn Ha.
  assert (SysInv RSInv n (rst_view (rfinal LagRefill cap n m sched))) as HI.
  { unfold rfinal. rewrite (fold_left_view rst_view _ _ (rstep_view _ _)).
    apply (stream_inv _ _ _ RSInv_rec (RSInv_deliver cap) RSInv_sub). reflexivity. }
  destruct (SysInv_nth _ _ _ _ _ _ _ HI Hn) as (p & r & HP & HS). apply Nat.leb_le in Ha.
  exact (RSInv_exactly_once _ _ _ _ _ _ HP HS Ha).
Qed.

Lemma lag_refills_in pols pol : forallb lag_refills pols = true -> In pol pols -> pol = LagRefill.
Proof. intros H Hin. rewrite forallb_forall in H. specialize (H pol Hin). destruct pol; [discriminate|reflexivity|discriminate]. Qed.

Theorem exactly_once_with_refill_policies : forall (pols : list lagpolicy), forallb lag_refills pols = true ->
  forall pol, In pol pols ->
  forall (cap n m : nat) (sched : list actor) (i : nat) (x : rsub),
  nth_error (r_subs (rfinal pol cap n m sched)) i = Some x -> rattached x = true ->
  exists k, rdelivered pol (rfinal pol cap n m sched) x = seq 0 k
            /\ rpublished n (rfinal pol cap n m sched) <= k /\ k <= n
            /\ (r_prog (rfinal pol cap n m sched) = [] -> k = n).
Proof. intros pols H pol Hin. rewrite (lag_refills_in pols pol H Hin). exact exactly_once_with_refill. Qed.

(* L1, handlers that ignore Lagged (LagSkip): capacity 1, the subscriber attaches, two frames are produced before it reads *)
Definition lag_sched : list actor := [AS 0; AS 0; AP; AP; AP; AP].
Lemma lag_skip_refuted :
  r_prog (rfinal LagSkip 1 2 1 lag_sched) = []
  /\ map rattached (r_subs (rfinal LagSkip 1 2 1 lag_sched)) = [true]
  /\ map (rdelivered LagSkip (rfinal LagSkip 1 2 1 lag_sched)) (r_subs (rfinal LagSkip 1 2 1 lag_sched)) = [[1]]
  /\ map (rdelivered LagRefill (rfinal LagRefill 1 2 1 lag_sched)) (r_subs (rfinal LagRefill 1 2 1 lag_sched)) = [[0; 1]].
Proof. vm_compute. repeat split. Qed.
(* non-vacuity: capacity 2, 6 frames, three subscribers (one lags before its snapshot, two after it),
   frames of another stream in between *)
Definition refill_demo_sched : list actor :=
  [AS 0; AP; AP; AS 1; AS 1; AP; AP; AO; AP; AP; AS 2; AS 2; AS 2; AP; AP; AO; AP; AP; AS 0; AP; AP; AS 2].
Lemma refill_demo :
  r_prog (rfinal LagRefill 2 6 3 refill_demo_sched) = []
  /\ map rs_pend (r_subs (rfinal LagRefill 2 6 3 refill_demo_sched)) = [true; true; false]
  /\ map rattached (r_subs (rfinal LagRefill 2 6 3 refill_demo_sched)) = [true; true; true]
  /\ map (rdelivered LagRefill (rfinal LagRefill 2 6 3 refill_demo_sched)) (r_subs (rfinal LagRefill 2 6 3 refill_demo_sched))
     = [[0; 1; 2; 3; 4; 5]; [0; 1; 2; 3; 4; 5]; [0; 1; 2; 3; 4; 5]]
  /\ map (rdelivered LagSkip (rfinal LagSkip 2 6 3 refill_demo_sched)) (r_subs (rfinal LagSkip 2 6 3 refill_demo_sched))
     = [[0; 1; 2; 3; 4; 5]; [0; 4; 5]; [0; 1; 2; 4; 5]].
Proof. vm_compute. repeat split. Qed.

(* The window between the history re-read and the next recv (wfinal) *)

Lemma wdrain_refill_shape hist x :
  wdrain LagRefill hist x = if rs_pend (w_s x) then {| w_s := wrefill hist (w_s x); w_win := true |}
                            else {| w_s := wplain (w_s x); w_win := false |}.
Proof. unfold wdrain. destruct (w_win x); reflexivity. Qed.

(* reading everything that is pending: resume / re-read, then the plain drain - the drain of the window-free model *)
Lemma wdrain_twice hist x : w_s (wdrain LagRefill hist (wdrain LagRefill hist x)) = rdrain LagRefill hist (w_s x).
Proof. rewrite rdrain_refill, !wdrain_refill_shape. destruct (rs_pend (w_s x)); reflexivity. Qed.

Lemma RSInv_wsub p r x : p <= r -> RSInv p r (w_s x) -> RSInv p r (w_s (wsub_step LagRefill (seq 0 r) x)).
Proof.
  intros Hpr H. unfold wsub_step. destruct (rs_pc (w_s x)) as [|[|pc]] eqn:E.
  1-2: apply RSInv_attach; [exact Hpr|rewrite E; auto with arith|exact H].
  rewrite wdrain_refill_shape. destruct (rs_pend (w_s x)) eqn:Ep; cbn [w_s]; [apply RSInv_wrefill|apply RSInv_wplain];
    auto; rewrite E; auto with arith.
Qed.

Definition wst_view (s : wst) : list pstep * list nat * list wsub := (w_prog s, w_hist s, w_subs s).
Lemma wstep_view pol cap s a : wst_view (wstep pol cap s a) = sstep (wdeliver cap) (wsub_step pol) (wst_view s) a.
Proof. destruct a; cbn [wstep sstep wst_view]; [destruct (w_prog s) as [|[k|k] g]|..]; reflexivity. Qed.

(* every capacity, every stream length, every schedule (the producer may move inside every window), every subscriber *)
Theorem exactly_once_with_refill_window : forall (cap n m : nat) (sched : list actor) (i : nat) (x : wsub),
  nth_error (w_subs (wfinal LagRefill cap n m sched)) i = Some x -> wattached x = true ->
  exists k, wdelivered LagRefill (wfinal LagRefill cap n m sched) x = seq 0 k
            /\ wpublished n (wfinal LagRefill cap n m sched) <= k /\ k <= n
            /\ (w_prog (wfinal LagRefill cap n m sched) = [] -> k = n).
Proof.
  intros cap n m sched i x Hn Ha.
  assert (SysInv (fun p r x => RSInv p r (w_s x)) n (wst_view (wfinal LagRefill cap n m sched))) as HI.
  { unfold wfinal. rewrite (fold_left_view wst_view _ _ (wstep_view _ _)).
    apply (stream_inv (wdeliver cap) (wsub_step LagRefill)).
    - intros p r y. apply RSInv_rec.
    - intros k p p' r y. apply RSInv_deliver.
    - intros p r y. apply RSInv_wsub.
    - reflexivity. }
  destruct (SysInv_nth _ _ _ _ _ _ _ HI Hn) as (p & r & HP & HS). apply Nat.leb_le in Ha.
  unfold wdelivered. rewrite wdrain_twice. exact (RSInv_exactly_once _ _ _ _ _ _ HP HS Ha).
Qed.

Theorem exactly_once_with_refill_window_policies : forall (pols : list lagpolicy), forallb lag_refills pols = true ->
  forall pol, In pol pols ->
  forall (cap n m : nat) (sched : list actor) (i : nat) (x : wsub),
  nth_error (w_subs (wfinal pol cap n m sched)) i = Some x -> wattached x = true ->
  exists k, wdelivered pol (wfinal pol cap n m sched) x = seq 0 k
            /\ wpublished n (wfinal pol cap n m sched) <= k /\ k <= n
            /\ (w_prog (wfinal pol cap n m sched) = [] -> k = n).
Proof. intros pols H pol Hin. rewrite (lag_refills_in pols pol H Hin). exact exactly_once_with_refill_window. Qed.

(* LagRefillResubscribe: capacity 1; the subscriber attaches, frames 0 and 1 are produced (the receiver lags), it reads: Lagged, the
   history [0;1] is re-read; in the window frame 2 is recorded and published; the subscriber resumes - with a NEW receiver
   at the channel's tail under LagRefillResubscribe; frame 3 is produced; everything is read.  Frame 2 is in neither the
   re-read history nor the new receiver, and the running last_seq (3) hides it from every later re-read. *)
Definition resub_sched : list actor := [AS 0; AS 0; AP; AP; AP; AP; AS 0; AP; AP; AS 0; AP; AP; AS 0].
Lemma resubscribe_refuted :
  w_prog (wfinal LagRefillResubscribe 1 4 1 resub_sched) = []
  /\ map wattached (w_subs (wfinal LagRefillResubscribe 1 4 1 resub_sched)) = [true]
  /\ map (wdelivered LagRefillResubscribe (wfinal LagRefillResubscribe 1 4 1 resub_sched)) (w_subs (wfinal LagRefillResubscribe 1 4 1 resub_sched)) = [[0; 1; 3]]
  /\ map (wdelivered LagRefill (wfinal LagRefill 1 4 1 resub_sched)) (w_subs (wfinal LagRefill 1 4 1 resub_sched)) = [[0; 1; 2; 3]]
  /\ map (wdelivered LagSkip (wfinal LagSkip 1 4 1 resub_sched)) (w_subs (wfinal LagSkip 1 4 1 resub_sched)) = [[1; 2; 3]].
Proof. vm_compute. repeat split. Qed.
(* ... and with room in the channel (capacity 4, 6 frames before the read, one frame in the window, one after) *)
Definition resub_sched4 : list actor := [AS 0; AS 0] ++ repeat AP 12 ++ [AS 0; AP; AP; AS 0; AP; AP; AS 0].
Lemma resubscribe_refuted_cap4 :
  w_prog (wfinal LagRefillResubscribe 4 8 1 resub_sched4) = []
  /\ map (wdelivered LagRefillResubscribe (wfinal LagRefillResubscribe 4 8 1 resub_sched4)) (w_subs (wfinal LagRefillResubscribe 4 8 1 resub_sched4)) = [[0; 1; 2; 3; 4; 5; 7]]
  /\ map (wdelivered LagRefill (wfinal LagRefill 4 8 1 resub_sched4)) (w_subs (wfinal LagRefill 4 8 1 resub_sched4)) = [[0; 1; 2; 3; 4; 5; 6; 7]].
Proof. vm_compute. repeat split. Qed.
(* without a producer step inside the window the re-subscription loses nothing: the window is what matters *)
Lemma resubscribe_quiet_window :
  map (wdelivered LagRefillResubscribe (wfinal LagRefillResubscribe 1 4 1 [AS 0; AS 0; AP; AP; AP; AP; AS 0; AS 0; AP; AP; AP; AP; AS 0]))
      (w_subs (wfinal LagRefillResubscribe 1 4 1 [AS 0; AS 0; AP; AP; AP; AP; AS 0; AS 0; AP; AP; AP; AP; AS 0])) = [[0; 1; 2; 3]].
Proof. vm_compute. repeat split. Qed.
