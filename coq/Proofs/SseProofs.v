(* C15 proofs.  Line level: SseDecoder pushes compose over concatenation (the decoder state after any
   chunk prefix is a function of the consumed text).  Byte level: push_bytes with the carry-over
   buffer pushes exactly the lossy decoding of the consumed bytes.  Pipe level: the emitted frames
   are `frames_whole (concat chunks)`: a function of the body alone. *)
From RipV Require Import Base.Prelude Base.Utf8 Base.Json Model.Sse Proofs.Utf8Proofs.

Definition no_nl (s : str) : Prop := forallb (fun c => negb (c =? NL)) s = true.

Lemma no_nl_app a b : no_nl a -> no_nl b -> no_nl (a ++ b).
Proof. unfold no_nl. intros Ha Hb. rewrite forallb_app, Ha, Hb. reflexivity. Qed.

Lemma split_lines_nonl b : forall cur l, no_nl b -> split_lines cur (b ++ l) = split_lines (cur ++ b) l.
Proof.
  induction b as [|c b IH]; intros cur l H.
  - rewrite app_nil_r. reflexivity.
  - unfold no_nl in H. cbn [forallb] in H. apply andb_true_iff in H. destruct H as [Hc Hb].
    cbn [app split_lines]. destruct (c =? NL); [discriminate|].
    rewrite IH by exact Hb. rewrite <- app_assoc. reflexivity.
Qed.

Lemma split_lines_app a : forall cur b,
  split_lines cur (a ++ b) =
  let '(l1, t1) := split_lines cur a in let '(l2, t2) := split_lines t1 b in (l1 ++ l2, t2).
Proof.
  induction a as [|c a IH]; intros cur b; cbn [app split_lines].
  - destruct (split_lines cur b); reflexivity.
  - destruct (c =? NL).
    + rewrite IH. destruct (split_lines [] a) as [l1 t1]. destruct (split_lines t1 b); reflexivity.
    + apply IH.
Qed.

Lemma split_lines_parts_nonl l : forall cur, no_nl cur ->
  Forall no_nl (fst (split_lines cur l)) /\ no_nl (snd (split_lines cur l)).
Proof.
  induction l as [|c l IH]; intros cur H; cbn [split_lines].
  - split; [constructor|exact H].
  - destruct (c =? NL) eqn:E.
    + specialize (IH [] eq_refl). destruct (split_lines [] l). cbn [fst snd] in *.
      split; [constructor; [exact H|]|]; apply IH.
    + apply IH. apply no_nl_app; [exact H|]. unfold no_nl. cbn [forallb]. rewrite E. reflexivity.
Qed.

Lemma split_lines_lines_nonl l : forall cur, no_nl cur -> Forall no_nl (fst (split_lines cur l)).
Proof. intros cur H. apply split_lines_parts_nonl, H. Qed.

Lemma upto_done_app_done a b : existsb is_done a = true -> upto_done (a ++ b) = upto_done a.
Proof.
  induction a as [|e a IH]; cbn [existsb upto_done app]; [discriminate|].
  destruct (is_done e); [reflexivity|]. cbn [orb]. intros H. rewrite IH by exact H. reflexivity.
Qed.
Lemma upto_done_app_nodone a b : existsb is_done a = false -> upto_done (a ++ b) = a ++ upto_done b.
Proof.
  induction a as [|e a IH]; cbn [existsb upto_done app]; [reflexivity|].
  intros H. apply orb_false_iff in H. destruct H as [H1 H2]. rewrite H1, IH by exact H2. reflexivity.
Qed.
Lemma upto_done_nodone l : existsb is_done l = false -> upto_done l = l.
Proof. intros H. rewrite <- (app_nil_r l) at 1. rewrite upto_done_app_nodone by exact H. apply app_nil_r. Qed.
Lemma upto_done_idem l : upto_done (upto_done l) = upto_done l.
Proof.
  induction l as [|e l IH]; cbn [upto_done]; [reflexivity|].
  destruct (is_done e) eqn:E; cbn [upto_done]; rewrite E; [reflexivity|]. rewrite IH. reflexivity.
Qed.

(* the number of frames the events evs map to *)
Definition nfr (evs : list pev) : N := sumN (map nframes1 evs).
Lemma nfr_app a b : nfr (a ++ b) = nfr a + nfr b.
Proof. unfold nfr. rewrite map_app, sumN_app. reflexivity. Qed.

Lemma frames_from_app a : forall s b, frames_from s (a ++ b) = frames_from s a ++ frames_from (s + nfr a) b.
Proof.
  induction a as [|e a IH]; intros s b; cbn [app frames_from].
  - unfold nfr. cbn [map sumN]. rewrite N.add_0_r. reflexivity.
  - rewrite IH, <- app_assoc. unfold nfr. cbn [map sumN]. fold (nfr a). rewrite N.add_assoc. reflexivity.
Qed.

Lemma frames_from_length s evs : nlen (frames_from s evs) = nfr evs.
Proof.
  revert s. induction evs as [|e r IH]; intros s; [reflexivity|].
  cbn [frames_from]. rewrite nlen_app, IH. unfold nfr. cbn [map sumN]. f_equal.
  unfold ev_frames, nframes1. destruct (pe_delta e); reflexivity.
Qed.

Lemma output_text_app a b : output_text (a ++ b) = output_text a ++ output_text b.
Proof. induction a as [|[|] a IH]; cbn [app output_text]; rewrite ?IH, ?app_assoc; reflexivity. Qed.

Section Proofs.
Variable classify : option str -> str -> cls.
Variable off : N.

Notation dpush := (dec_push classify).
Notation flines := (fold_lines classify).

Lemma fold_lines_app l1 : forall s l2,
  flines s (l1 ++ l2) =
  let '(s1, e1) := flines s l1 in let '(s2, e2) := flines s1 l2 in (s2, e1 ++ e2).
Proof.
  induction l1 as [|l l1 IH]; intros s l2; cbn [app fold_lines].
  - destruct (flines s l2); reflexivity.
  - destruct (line_step classify s l) as [s1 e1]. rewrite IH.
    destruct (flines s1 l1) as [s2 e2]. destruct (flines s2 l2) as [s3 e3].
    rewrite app_assoc. reflexivity.
Qed.

Lemma dec_push_buf_nonl d a : no_nl (d_buf (fst (dpush d a))).
Proof.
  unfold dec_push. pose proof (proj2 (split_lines_parts_nonl (d_buf d ++ a) [] eq_refl)) as H.
  destruct (split_lines [] (d_buf d ++ a)) as [ls t]. destruct (flines (d_event d, d_data d) ls). exact H.
Qed.

(* the state after pushing a then b is the state after pushing a ++ b, and the events concatenate *)
Lemma dec_push_app d a b :
  dpush d (a ++ b) = let '(d1, e1) := dpush d a in let '(d2, e2) := dpush d1 b in (d2, e1 ++ e2).
Proof.
  unfold dec_push. rewrite app_assoc, split_lines_app.
  pose proof (proj2 (split_lines_parts_nonl (d_buf d ++ a) [] eq_refl)) as Ht.
  destruct (split_lines [] (d_buf d ++ a)) as [l1 t1]. cbn [snd] in Ht.
  destruct (flines (d_event d, d_data d) l1) as [s1 e1] eqn:F1. cbn [d_buf d_event d_data].
  rewrite (split_lines_nonl t1 [] b Ht). cbn [app].
  destruct (split_lines t1 b) as [l2 t2]. rewrite fold_lines_app, F1.
  destruct s1 as [ev dt]. cbn [fst snd]. destruct (flines (ev, dt) l2) as [s2 e2]. reflexivity.
Qed.

Lemma dec_push_nil d : no_nl (d_buf d) -> dpush d [] = (d, []).
Proof.
  intros H. unfold dec_push. rewrite app_nil_r.
  pose proof (split_lines_nonl (d_buf d) [] [] H) as E. rewrite app_nil_r in E. rewrite E. cbn [app split_lines fold_lines fst snd].
  destruct d; reflexivity.
Qed.

Lemma dec_pushes_concat cs : forall d, no_nl (d_buf d) -> dec_pushes classify d cs = dpush d (concat cs).
Proof.
  induction cs as [|c cs IH]; intros d H; cbn [dec_pushes concat].
  - rewrite dec_push_nil by exact H. reflexivity.
  - rewrite dec_push_app. pose proof (dec_push_buf_nonl d c) as H1.
    destruct (dpush d c) as [d1 e1]. rewrite IH by exact H1. reflexivity.
Qed.

(* library-level chunking invariance (SseDecoder alone) *)
Lemma run_dec_concat cs1 cs2 : concat cs1 = concat cs2 -> run_dec classify cs1 = run_dec classify cs2.
Proof. intros H. unfold run_dec. rewrite !dec_pushes_concat by reflexivity. rewrite H. reflexivity. Qed.

(* WF p E: the pipe has emitted exactly the frames of the events E, numbered from off, and its mapper-local
   seq stands after them.  Pre adds what the decoder keeps: its buffer holds no newline. *)
Definition WF (p : pipe) (E : list pev) : Prop := p_out p = frames_from off E /\ p_mseq p = nfr E.
Definition Pre (p : pipe) (E : list pev) : Prop := no_nl (d_buf (p_dec p)) /\ WF p E.

Lemma emit_evs_WF evs : forall p E, WF p E -> WF (emit_evs off p evs) (E ++ evs) /\ p_dec (emit_evs off p evs) = p_dec p.
Proof.
  induction evs as [|e r IH]; intros p E [Ho Hm]; cbn [emit_evs fold_left].
  - rewrite app_nil_r. split; [split; assumption|reflexivity].
  - fold (emit_evs off (emit_ev off p e) r).
    destruct (IH (emit_ev off p e) (E ++ [e])) as [W D].
    { split; cbn [emit_ev p_out p_mseq].
      - rewrite frames_from_app, Ho, Hm. cbn [frames_from]. rewrite app_nil_r. reflexivity.
      - rewrite nfr_app, Hm. unfold nfr. cbn [map sumN]. lia. }
    rewrite <- app_assoc in W. split; [exact W|]. rewrite D. reflexivity.
Qed.

(* what a run of pushes must have achieved once the text t has been handed to the decoder *)
Definition spec (p : pipe) (E : list pev) (t : str) (p' : pipe) (done : bool) : Prop :=
  done = existsb is_done (snd (dpush (p_dec p) t))
  /\ WF p' (E ++ upto_done (snd (dpush (p_dec p) t)))
  /\ (done = false -> p_dec p' = fst (dpush (p_dec p) t))
  /\ no_nl (d_buf (p_dec p')).

Notation push_str := (push_sse_str classify FIXED off).

Lemma spec_push p E s : WF p E -> spec p E s (fst (push_str p s)) (snd (push_str p s)).
Proof.
  intros Hw. unfold spec, push_sse_str. cbn [fx_cut FIXED].
  pose proof (dec_push_buf_nonl (p_dec p) s) as Hb.
  destruct (dpush (p_dec p) s) as [d parsed]. cbn [fst snd] in *.
  destruct (emit_evs_WF (upto_done parsed) (with_dec p d) E) as [W D].
  { destruct Hw as [Ho Hm]. split; assumption. }
  repeat split; try apply W.
  - intros _. rewrite D. reflexivity.
  - rewrite D. exact Hb.
Qed.

Lemma spec_nil p E : Pre p E -> spec p E [] p false.
Proof.
  intros [Hn Hw]. unfold spec. rewrite dec_push_nil by exact Hn. cbn [fst snd existsb upto_done].
  rewrite app_nil_r. repeat split; try apply Hw; auto.
Qed.

(* Feeding bytes whose lossy decoding is tr = (text, carry-over): res = (buffer, pipe, done) is what the
   byte loops must return: the text pushed, and unless [DONE] was seen the carry-over kept. *)
Definition fed (p : pipe) (E : list pev) (tr : str * list N) (res : list N * pipe * bool) : Prop :=
  spec p E (fst tr) (snd (fst res)) (snd res) /\ (snd res = false -> fst (fst res) = snd tr).

Lemma fed_stop p E b : Pre p E -> fed p E ([], b) (b, p, false).
Proof. intros HP. split; [apply spec_nil; exact HP|reflexivity]. Qed.

(* a text s pushed with result (p1, d1), then k: once [DONE] is seen nothing that follows matters *)
Lemma fed_seq p E s p1 d1 b tr k : spec p E s p1 d1 ->
  (d1 = false -> forall E1, Pre p1 E1 -> fed p1 E1 tr k) ->
  fed p E (s ++ fst tr, snd tr) (if d1 then (b, p1, true) else k).
Proof.
  intros (Hd & W & Hdec & Hb) Hk. unfold fed, spec in *. cbn [fst snd].
  rewrite dec_push_app. symmetry in Hd. destruct d1.
  - destruct (dpush (p_dec p) s) as [d1 e1]. cbn [fst snd] in *. destruct (dpush d1 (fst tr)) as [d2 e2]. cbn [fst snd] in *.
    rewrite existsb_app, Hd, upto_done_app_done by exact Hd.
    repeat split; try apply W; try assumption; discriminate.
  - rewrite (upto_done_nodone _ Hd) in W.
    destruct (Hk eq_refl (E ++ snd (dpush (p_dec p) s))) as [(Hd2 & W2 & Hdec2 & Hb2) Hr]; [split; assumption|].
    rewrite (Hdec eq_refl) in *.
    destruct (dpush (p_dec p) s) as [d1 e1]. cbn [fst snd] in *. destruct (dpush d1 (fst tr)) as [d2 e2]. cbn [fst snd] in *.
    rewrite existsb_app, Hd, upto_done_app_nodone, app_assoc by exact Hd.
    repeat split; try apply W2; assumption.
Qed.

Notation pbl := (pb_loop classify FIXED off).

Lemma pb_loop_spec fuel : forall buf p E, (length buf < fuel)%nat -> Pre p E -> fed p E (lossyF buf) (pbl fuel buf p).
Proof.
  induction fuel as [|fuel IH]; intros buf p E Hf HP; [lia|].
  (* an invalid prefix at the head of b: one U+FFFD is pushed, the prefix dropped, the loop goes on *)
  assert (D : forall b p E k, (length b <= length buf)%nat -> Pre p E -> step b = UInvalid k ->
            fed p E (lossyF b) (let '(p1, d1) := push_str p [FFFD] in
                                if d1 then ([], p1, true) else pbl fuel (skipn (Nat.min k (length b)) b) p1)).
  { clear p E HP. intros b p E k Hb HP Hs.
    pose proof (step_shape b) as L. rewrite Hs in L. destruct L as [L _].
    rewrite (lossyF_unfold b), Hs. replace (Nat.min k (length b)) with k by lia.
    pose proof (spec_push p E [FFFD] (proj2 HP)) as SP. destruct (push_str p [FFFD]) as [p1 d1].
    specialize (IH (skipn k b)). rewrite skipn_length in IH. destruct (lossyF (skipn k b)) as [t r] eqn:LK.
    apply (fed_seq p E [FFFD] p1 d1 [] (t, r)); [exact SP|].
    intros _ E1 HP1. apply IH; [lia|exact HP1]. }
  cbn [pb_loop]. pose proof (from_utf8_spec buf) as S. destruct (from_utf8 buf) as [text|text valid rest elen].
  - rewrite S. pose proof (spec_push p E text (proj2 HP)) as SP.
    destruct (push_str p text) as [p1 d1]. split; [exact SP|reflexivity].
  - destruct S as (Hr & Hz & Hs & Hl). destruct valid as [|v].
    + rewrite (Hz eq_refl) in *. cbn [skipn] in Hr. subst rest. destruct elen as [k|].
      * apply (D buf p E k); [lia|exact HP|exact Hs].
      * rewrite (lossyF_unfold buf), Hs. apply fed_stop. exact HP.
    + rewrite Hl. pose proof (spec_push p E text (proj2 HP)) as SP. destruct (push_str p text) as [p1 d1].
      apply (fed_seq p E text p1 d1 [] (lossyF rest)); [exact SP|].
      intros _ E1 HP1. destruct elen as [k|].
      * apply D; [rewrite Hr, skipn_length; lia|exact HP1|exact Hs].
      * rewrite (lossyF_unfold rest), Hs. apply fed_stop. exact HP1.
Qed.

Notation runc := (run_chunks classify FIXED off).

(* buf is a carry-over: decoded alone it yields nothing (lossyF_rest_idem) *)
Lemma run_chunks_spec cs : forall buf p E, Pre p E -> lossyF buf = ([], buf) ->
  fed p E (lossyF (buf ++ concat cs)) (runc buf p cs).
Proof.
  induction cs as [|c cs IH]; intros buf p E HP Hc; cbn [run_chunks concat].
  - rewrite app_nil_r, Hc. apply fed_stop. exact HP.
  - unfold push_bytes. rewrite app_assoc, lossyF_app.
    destruct (pb_loop_spec (S (length (buf ++ c))) (buf ++ c) p E ltac:(lia) HP) as [P1 P2].
    pose proof (lossyF_rest_idem (buf ++ c)) as I.
    destruct (pbl (S (length (buf ++ c))) (buf ++ c) p) as [[buf1 p1] d1].
    destruct (lossyF (buf ++ c)) as [t1 r1]. cbn [fst snd] in P1, P2, I.
    destruct (lossyF (r1 ++ concat cs)) as [t2 r2] eqn:L2.
    apply (fed_seq p E t1 p1 d1 buf1 (t2, r2)); [exact P1|].
    intros -> E1 HP1. rewrite (P2 eq_refl), <- L2. apply IH; [exact HP1|exact I].
Qed.

(* events of the whole text = events of one push + events of finish() on the pending tail *)
Lemma events_spec_split text :
  events_spec classify text =
  snd (dpush dinit text) ++ snd (dec_finish classify (fst (dpush dinit text))).
Proof.
  unfold events_spec, all_lines, dec_push, dec_finish. cbn [dinit d_buf d_event d_data app].
  pose proof (proj2 (split_lines_parts_nonl text [] eq_refl)) as Ht.
  destruct (split_lines [] text) as [ls t]. cbn [snd] in Ht.
  destruct (flines (None, []) ls) as [s e] eqn:F. cbn [fst snd d_buf d_event d_data].
  destruct t as [|c t].
  - rewrite F. cbn [snd]. rewrite app_nil_r. reflexivity.
  - unfold dec_push. cbn [d_buf d_event d_data]. rewrite fold_lines_app, F.
    change ([] ++ c :: t ++ [NL]) with ((c :: t) ++ [NL]).
    rewrite (split_lines_nonl (c :: t) [] [NL] Ht). cbn [app split_lines].
    replace (NL =? NL) with true by reflexivity.
    rewrite <- (surjective_pairing s). unfold str, lstate in *. destruct (flines s [c :: t]) as [s2 e2]. reflexivity.
Qed.

Lemma run_chunks_new cs :
  spec pipe_new [] (lossy_text (concat cs)) (snd (fst (runc [] pipe_new cs))) (snd (runc [] pipe_new cs)).
Proof.
  destruct (run_chunks_spec cs [] pipe_new []) as [H _]; [repeat split|reflexivity|].
  rewrite lossyF_parts in H. exact H.
Qed.

(* The run without chunks: the events of the whole text, cut after the first [DONE].  A transport error
   before any [DONE] takes the place of finish(): the pending tail is dropped and the error frame takes
   the number after the events pushed so far. *)
Definition run_whole (body : list N) (terr : option str) : list frame * N :=
  let text := lossy_text body in
  let pushed := snd (dpush dinit text) in
  let evs := upto_done (events_spec classify text) in
  match terr with
  | Some h =>
    if existsb is_done pushed then (frames_from off evs, off + nfr evs)
    else (frames_from off pushed ++ [FProv (off + nfr pushed) 2 None None None [h] []], off + nfr pushed + 1)
  | None => (frames_from off evs, off + nfr evs)
  end.

Theorem run_pipe_whole cs terr : run_pipe classify FIXED off cs terr = run_whole (concat cs) terr.
Proof.
  unfold run_pipe, run_whole. rewrite events_spec_split.
  destruct (run_chunks_new cs) as (Hd & [Ho Hm] & Hdec & _). set (text := lossy_text (concat cs)) in *.
  destruct (runc [] pipe_new cs) as [[buf p] d]. cbn [fst snd pipe_new p_dec app] in *.
  rewrite <- Hd. symmetry in Hd. destruct d.
  - rewrite Ho, Hm, upto_done_app_done by exact Hd. destruct terr; reflexivity.
  - rewrite (upto_done_nodone _ Hd) in Ho, Hm. destruct terr as [h|].
    + unfold transport_error_frame. rewrite Ho, Hm. reflexivity.
    + unfold pipe_finish. cbn [fx_cut FIXED]. rewrite (Hdec eq_refl).
      destruct (dec_finish classify (fst (dpush dinit text))) as [d2 e2]. cbn [fst snd].
      destruct (emit_evs_WF (upto_done e2) (with_dec p d2) (snd (dpush dinit text))) as [[W1 W2] _]; [split; assumption|].
      rewrite W1, W2, upto_done_app_nodone by exact Hd. reflexivity.
Qed.

Theorem frames_of_whole cs :
  frames_of classify FIXED off cs = frames_whole classify off (concat cs).
Proof. unfold frames_of. rewrite run_pipe_whole. reflexivity. Qed.

Theorem chunk_invariant body cs1 cs2 :
  concat cs1 = body -> concat cs2 = body ->
  frames_of classify FIXED off cs1 = frames_of classify FIXED off cs2.
Proof. intros H1 H2. rewrite !frames_of_whole. rewrite H1, H2. reflexivity. Qed.

(* on a body that is valid UTF-8 the byte layer is the identity *)
Theorem valid_utf8_body text cs :
  forallb is_scalar text = true -> concat cs = encode text ->
  frames_of classify FIXED off cs = frames_from off (upto_done (events_spec classify text)).
Proof.
  intros Hs Hc. rewrite frames_of_whole, Hc. unfold frames_whole.
  pose proof (lossy_encode text Hs) as L. rewrite lossyF_parts in L. injection L as -> _. reflexivity.
Qed.

(* s, s+1, ..., s+n-1: the seq numbers of n frames numbered from s *)
Fixpoint iotaN (s : N) (n : nat) : list N := match n with O => [] | S k => s :: iotaN (s + 1) k end.

Lemma iotaN_app a : forall s b, iotaN s (a + b) = iotaN s a ++ iotaN (s + N.of_nat a) b.
Proof.
  induction a as [|a IH]; intros s b.
  - cbn. rewrite N.add_0_r. reflexivity.
  - cbn [Nat.add iotaN app]. rewrite IH. do 3 f_equal. lia.
Qed.

Lemma iotaN_bound n : forall s x, In x (iotaN s n) -> s <= x < s + N.of_nat n.
Proof.
  induction n as [|n IH]; intros s x H; [destruct H|].
  cbn [iotaN] in H. destruct H as [<- | H]; [lia|]. apply IH in H. lia.
Qed.

Lemma frames_from_seqs evs : forall s, map fseq (frames_from s evs) = iotaN s (length (frames_from s evs)).
Proof.
  induction evs as [|e r IH]; intros s; [reflexivity|].
  cbn [frames_from]. rewrite map_app, app_length, iotaN_app, IH. f_equal.
  - unfold ev_frames, prov_frame. destruct (pe_delta e); destruct (pe_kind e =? 2); reflexivity.
  - f_equal. unfold ev_frames, nframes1. destruct (pe_delta e); reflexivity.
Qed.

(* However the stream ends ([DONE], a transport error, or the end of the body with finish()), the frames
   are numbered off, off+1, ... without a gap and *seq ends right after the last one: the error frame of
   a transport error takes the next number. *)
Theorem run_pipe_shape cs terr :
  let fs := fst (run_pipe classify FIXED off cs terr) in
  map fseq fs = iotaN off (length fs) /\ snd (run_pipe classify FIXED off cs terr) = off + nlen fs.
Proof.
  rewrite run_pipe_whole. unfold run_whole.
  destruct terr as [h|]; [destruct (existsb is_done _)|];
    try (cbn [fst snd]; rewrite frames_from_length; split; [apply frames_from_seqs|reflexivity]).
  cbn [fst snd]. rewrite map_app, app_length, iotaN_app, nlen_app, <- frames_from_seqs.
  fold (nlen (frames_from off (snd (dpush dinit (lossy_text (concat cs)))))). rewrite frames_from_length.
  split; [reflexivity|symmetry; apply N.add_assoc].
Qed.

Lemma wrap_frame_small f : fseq f < TWO64 -> wrap_frame f = f.
Proof. destruct f; cbn [fseq wrap_frame]; intros H; rewrite N.mod_small by exact H; reflexivity. Qed.

(* No-overflow hypothesis, explicit: when seq_offset + number of frames stays below 2^64 the u64 additions of the
   code never wrap (release build) and never panic (build with overflow checks): the unbounded model is exact. *)
Theorem seq_no_wrap cs terr :
  off + nlen (fst (run_pipe classify FIXED off cs terr)) < TWO64 ->
  wrap_run (run_pipe classify FIXED off cs terr) = run_pipe classify FIXED off cs terr
  /\ run_overflows (run_pipe classify FIXED off cs terr) = false.
Proof.
  intros H. destruct (run_pipe_shape cs terr) as [Hs He].
  destruct (run_pipe classify FIXED off cs terr) as [fs sq]. cbn [fst snd] in *. subst sq.
  unfold wrap_run, run_overflows. cbn [fst snd]. split.
  - f_equal; [|apply N.mod_small; exact H].
    rewrite <- (map_id fs) at 2. apply map_ext_in. intros f Hf. apply wrap_frame_small.
    assert (In (fseq f) (iotaN off (length fs))) as Hi by (rewrite <- Hs; apply in_map; exact Hf).
    apply iotaN_bound in Hi. unfold nlen in H. lia.
  - apply N.leb_gt. exact H.
Qed.

(* and exactly then: one frame more and `*seq += frame_count` overflows *)
Theorem seq_overflow_iff cs terr :
  run_overflows (run_pipe classify FIXED off cs terr) = true
  <-> TWO64 <= off + nlen (fst (run_pipe classify FIXED off cs terr)).
Proof. destruct (run_pipe_shape cs terr) as [_ He]. unfold run_overflows. rewrite He. apply N.leb_le. Qed.

Lemma wrap_run_neq r : TWO64 <= snd r -> wrap_run r <> r.
Proof.
  intros H E. apply (f_equal snd) in E. cbn [wrap_run snd] in E.
  pose proof (N.mod_lt (snd r) TWO64 ltac:(discriminate)). lia.
Qed.

Lemma run_pipe_len cs :
  nlen (fst (run_pipe classify FIXED off cs None)) = nfr (upto_done (events_spec classify (lossy_text (concat cs)))).
Proof. fold (frames_of classify FIXED off cs). rewrite frames_of_whole. apply frames_from_length. Qed.

(* a frame with its seq number set to 0: frames compared up to numbering *)
Definition strip_seq (f : frame) : frame :=
  match f with FProv _ st ev raw data e r => FProv 0 st ev raw data e r | FDelta _ d => FDelta 0 d end.
Lemma prov_frames_from evs : forall s,
  map strip_seq (filter is_prov (frames_from s evs)) = map (prov_frame 0) evs.
Proof.
  induction evs as [|e r IH]; intros s; [reflexivity|].
  cbn [frames_from map]. rewrite filter_app, map_app, IH. f_equal.
  unfold ev_frames, prov_frame. destruct (pe_delta e); destruct (pe_kind e =? 2); reflexivity.
Qed.
(* exactly one provider-event frame per event, in order, carrying the event's payload *)
Theorem one_frame_per_event cs :
  map strip_seq (filter is_prov (frames_of classify FIXED off cs))
  = map (prov_frame 0) (upto_done (events_spec classify (lossy_text (concat cs)))).
Proof. rewrite frames_of_whole. apply prov_frames_from. Qed.

(* the text delta of an event, empty if it has none *)
Definition delta_of (e : pev) : str := match pe_delta e with Some d => d | None => [] end.
Lemma output_text_from evs : forall s, output_text (frames_from s evs) = concat (map delta_of evs).
Proof.
  induction evs as [|e r IH]; intros s; [reflexivity|].
  cbn [frames_from map concat]. unfold ev_frames, delta_of, prov_frame.
  destruct (pe_delta e); destruct (pe_kind e =? 2); cbn [app output_text]; rewrite IH; reflexivity.
Qed.
(* the derived output text is the concatenation of the events' text deltas *)
Theorem text_is_concat_of_event_deltas cs :
  output_text (frames_of classify FIXED off cs)
  = concat (map delta_of (upto_done (events_spec classify (lossy_text (concat cs))))).
Proof. rewrite frames_of_whole. apply output_text_from. Qed.

End Proofs.

(* S11: with either of the two flags of Model/Sse.v off, the frames depend on the chunking *)
Definition cls0 : option str -> str -> cls := fun _ _ => CInvalid [].
(* "data: x" E2 82 "A\n\n" : the truncated 3-byte sequence E2 82 followed by 'A' *)
Definition s11_body : list N := [100; 97; 116; 97; 58; 32; 120; 226; 130; 65; 10; 10].
Definition s11_split : list (list N) := [[100; 97; 116; 97; 58; 32; 120]; [226; 130; 65; 10; 10]].

Lemma ffd_at_buffer_start_refuted :
  exists cs1 cs2, concat cs1 = concat cs2 /\ frames_of cls0 UNFIXED 0 cs1 <> frames_of cls0 UNFIXED 0 cs2.
Proof. exists [s11_body], s11_split. split; [reflexivity|]. vm_compute. discriminate. Qed.

(* "data: [DONE]\n\ndata: x\n\n" in one chunk / in two chunks cut after the blank line *)
Definition s11_done : list N := [100; 97; 116; 97; 58; 32; 91; 68; 79; 78; 69; 93; 10; 10].
Definition s11_after : list N := [100; 97; 116; 97; 58; 32; 120; 10; 10].
Lemma after_done_refuted :
  exists cs1 cs2, concat cs1 = concat cs2 /\ frames_of cls0 UNFIXED 0 cs1 <> frames_of cls0 UNFIXED 0 cs2.
Proof. exists [s11_done ++ s11_after], [s11_done; s11_after]. split; [reflexivity|]. vm_compute. discriminate. Qed.

(* one flag alone is not enough *)
Lemma drain_only_refuted :
  exists cs1 cs2, concat cs1 = concat cs2 /\
    frames_of cls0 {| fx_drain0 := true; fx_cut := false |} 0 cs1 <> frames_of cls0 {| fx_drain0 := true; fx_cut := false |} 0 cs2.
Proof. exists [s11_done ++ s11_after], [s11_done; s11_after]. split; [reflexivity|]. vm_compute. discriminate. Qed.
Lemma cut_only_refuted :
  exists cs1 cs2, concat cs1 = concat cs2 /\
    frames_of cls0 {| fx_drain0 := false; fx_cut := true |} 0 cs1 <> frames_of cls0 {| fx_drain0 := false; fx_cut := true |} 0 cs2.
Proof. exists [s11_body], s11_split. split; [reflexivity|]. vm_compute. discriminate. Qed.

(* non-vacuity: a body with CRLF, a comment, an event name, multi-line data, a 3-byte character cut
   by the chunking, an invalid byte, [DONE] and trailing garbage gives the same 3 frames *)
Definition demo_cls : option str -> str -> cls :=
  fun ev raw => match raw with 123 :: _ => CEvent (JNum [55]) [] [] (Some [104; 105]) | _ => CInvalid [[57]] end.
(* ": c\r\nevent: e\r\ndata: {\r\ndata: \xE2\x82\xAC\xFF\r\n\r\ndata: [DONE]\n\ndata: z\n\n" *)
Definition demo_body : list N :=
  [58; 32; 99; 13; 10] ++ [101; 118; 101; 110; 116; 58; 32; 101; 13; 10] ++ [100; 97; 116; 97; 58; 32; 123; 13; 10]
  ++ [100; 97; 116; 97; 58; 32; 226; 130; 172; 255; 13; 10; 13; 10]
  ++ [100; 97; 116; 97; 58; 32; 91; 68; 79; 78; 69; 93; 10; 10] ++ [100; 97; 116; 97; 58; 32; 122; 10; 10].
Definition demo_expected : list frame :=
  [FProv 5 2 (Some [101]) None (Some (JNum [55])) [] []; FDelta 6 [104; 105]; FProv 7 0 None (Some S_DONE) None [] []].
Lemma demo_nontrivial :
  frames_whole demo_cls 5 demo_body = demo_expected
  /\ frames_of demo_cls FIXED 5 (map (fun b => [b]) demo_body) = demo_expected
  /\ frames_of demo_cls FIXED 5 [firstn 32 demo_body; skipn 32 demo_body] = demo_expected
  /\ events_spec demo_cls (lossy_text demo_body) <> upto_done (events_spec demo_cls (lossy_text demo_body)).
Proof. vm_compute. repeat split; discriminate. Qed.
