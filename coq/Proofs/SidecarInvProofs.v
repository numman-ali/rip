(* C02: a sidecar exists only for an id that a frame in the log carries - for every schedule of
   every program, every history of calls, cache faults and restarts (Model/SidecarInv.v). *)
From RipV Require Import Base.Prelude Model.Frames Model.Log Model.ContStore Model.SidecarInv
  Proofs.LogProofs Proofs.ContStoreProofs.

Lemma grows_refl {A} (l : list A) : exists x, l = l ++ x.
Proof. exists []. symmetry. apply app_nil_r. Qed.

(* when every step extends a list read off the state, the list at any point of a history is a prefix of the
   list at any later point *)
Lemma fold_left_history {S K A} (lg : S -> list A) (step : S -> K -> S) :
  (forall s k, exists x, lg (step s k) = lg s ++ x) ->
  forall ks1 ks2 s, exists x, lg (fold_left step (ks1 ++ ks2) s) = lg (fold_left step ks1 s) ++ x.
Proof.
  intros H ks1 ks2 s. rewrite fold_left_app.
  apply (fold_left_inv step (fun s' => exists x, lg s' = lg (fold_left step ks1 s) ++ x)); [|apply grows_refl].
  intros s' k [x E]. destruct (H s' k) as [y G]. exists (x ++ y). rewrite G, E, app_assoc. reflexivity.
Qed.

Lemma run_fold sched : forall st, run sched st = fold_left step sched st.
Proof. induction sched as [|a r IH]; intros st; [reflexivity|apply IH]. Qed.

Lemma run_calls_fold ks : forall st, snd (run_calls st ks) = fold_left do_call ks st.
Proof.
  induction ks as [|k r IH]; intros st; cbn [run_calls fold_left]; [reflexivity|].
  rewrite <- IH. destruct (run_calls (do_call st k) r). reflexivity.
Qed.

Lemma names_app l x c : names l c -> names (l ++ x) c.
Proof. intros (f & Hin & Hs). exists f. split; [apply in_or_app; left; exact Hin|exact Hs]. Qed.

Lemma names_of_stream c l : cstream c l <> [] -> names l c.
Proof.
  intros H. destruct (cstream c l) as [|f r] eqn:E; [congruence|].
  assert (Hin : In f (cstream c l)) by (rewrite E; left; reflexivity).
  unfold cstream in Hin. apply stream_In in Hin. destruct Hin as (Hin & _ & Hs). exists f. tauto.
Qed.

Lemma upd_names (sd : N -> option (list sline)) l c v :
  (forall c', sd c' <> None -> names l c') -> names l c ->
  forall c', upd sd c v c' <> None -> names l c'.
Proof.
  intros H Hc c' Hu. unfold upd in Hu. destruct (c' =? c) eqn:E.
  - apply N.eqb_eq in E. subst. exact Hc.
  - apply H. exact Hu.
Qed.

Lemma side_append_side (sd : N -> option (list sline)) l f :
  (forall c', sd c' <> None -> names l c') -> In f l ->
  forall c', side_append sd f c' <> None -> names l c'.
Proof.
  intros H Hin. unfold side_append. destruct (hd_error (rev _)) as [[g|]|]; try exact H;
    apply upd_names; try exact H; exists f; tauto.
Qed.

(* the sidecars after a micro-step: three steps write them, each in one way *)
Lemma exec_m_side_eq st a p m r :
  s_side (exec_m st a p m r) =
  match m with
  | MChoose => match p_cid p with
               | Some c => match s_next st c with None => snd (load_next st c) | Some _ => s_side st end
               | None => s_side st
               end
  | MSidecar => match p_last p with Some f => side_append (s_side st) f | None => s_side st end
  | MRead => match p_cid p with Some c => snd (replay_events st c) | None => s_side st end
  | _ => s_side st
  end.
Proof.
  unfold exec_m, exec_m_gen, abort. destruct m; cbv beta iota zeta.
  all: repeat match goal with |- context [match ?x with _ => _ end] => destruct x end; reflexivity.
Qed.

(* replay_events and load_next write a sidecar in one way only: rebuilt from a stream that is not empty *)
Definition rebuilt (st : state) (c : N) : N -> option (list sline) :=
  upd (s_side st) c (Some (map SGood (cstream c (s_log st)))).

Section SideInd.
Variables (Q : (N -> option (list sline)) -> Prop) (st : state).
Hypotheses (H0 : Q (s_side st)) (Hr : forall c, cstream c (s_log st) <> [] -> Q (rebuilt st c)).

Lemma replay_events_side_ind c : Q (snd (replay_events st c)).
Proof.
  unfold replay_events. destruct (try_replay c (s_side st c)); cbn [snd]; [exact H0|].
  destruct (validate (s_log st)); cbn [snd]; [|exact H0].
  destruct (cstream c (s_log st)) as [|f r] eqn:E; [exact H0|]. rewrite <- E. apply Hr. rewrite E. discriminate.
Qed.

Lemma load_next_side_ind c : Q (snd (load_next st c)).
Proof.
  unfold load_next. destruct (last_seq (cstream c (s_log st))) as [q|] eqn:E; cbn [snd]; [|exact H0].
  assert (Hne : cstream c (s_log st) <> []) by (intros Hn; rewrite Hn in E; discriminate).
  destruct (side_tail c (s_side st c)) as [q'|]; [destruct (q' =? q)|]; try exact H0;
    destruct (validate (s_log st)); try exact H0; exact (Hr c Hne).
Qed.

(* so a property of sidecar maps that rebuilding and append_best_effort keep is kept by every micro-step *)
Lemma exec_m_side_ind a p m r :
  (forall f, p_last p = Some f -> Q (side_append (s_side st) f)) -> Q (s_side (exec_m st a p m r)).
Proof.
  intros Ha. rewrite exec_m_side_eq. destruct m; try exact H0.
  - destruct (p_cid p) as [c|]; [|exact H0]. destruct (s_next st c); [exact H0|apply load_next_side_ind].
  - destruct (p_last p) as [f|]; [apply Ha; reflexivity|exact H0].
  - destruct (p_cid p) as [c|]; [apply replay_events_side_ind|exact H0].
Qed.
End SideInd.

Lemma exec_m_SideInv st a p m r :
  s_procs st a = Some p -> SideInv st -> SideInv (exec_m st a p m r).
Proof.
  intros Hp [HA HB].
  assert (Old : forall g, In g (s_log st) -> In g (s_log (exec_m st a p m r))).
  { intros g Hg. destruct (exec_m_log st a p m r) as [->|[f ->]]; [exact Hg|apply in_or_app; left; exact Hg]. }
  split.
  - intros c Hc. assert (K : names (s_log st) c); [|destruct K as (f & Hin & Hs); exists f; split; [exact (Old f Hin)|exact Hs]].
    revert c Hc. apply (exec_m_side_ind (fun sd => forall c, sd c <> None -> names (s_log st) c)).
    + exact HA.
    + intros c Hc. apply upd_names; [exact HA|exact (names_of_stream c _ Hc)].
    + intros f Hf. apply side_append_side; [exact HA|exact (HB a p f Hp Hf)].
  - (* the `event` local of the stepping actor is none, the old one, or the frame just logged *)
    intros b q f Hq Hl. destruct (exec_m_shape st a p m r) as [E|(q0 & E & _ & _ & Hq0)]; rewrite E in *; [exact (HB b q f Hq Hl)|].
    destruct (upd_inv _ _ _ _ _ Hq) as [[-> ->]|[_ Hq']]; [|exact (Old f (HB b q f Hq' Hl))].
    destruct Hq0 as [H|[H|(g & H & Eg)]]; rewrite H in Hl.
    + discriminate.
    + exact (Old f (HB a p f Hp Hl)).
    + injection Hl as <-. rewrite Eg. apply in_or_app. right. left. reflexivity.
Qed.

Lemma step_SideInv st a : SideInv st -> SideInv (step st a).
Proof.
  intros H. unfold step, step_gen. destruct (s_procs st a) as [p|] eqn:Hp; [|exact H].
  destruct (p_rem p) as [|m r]; [exact H|]. apply (exec_m_SideInv st a p m r Hp H).
Qed.

Lemma run_SideInv sched st : SideInv st -> SideInv (run sched st).
Proof. rewrite run_fold. apply fold_left_inv. exact step_SideInv. Qed.

Lemma procs_of_last ps : forall i a p, procs_of i ps a = Some p -> p_last p = None.
Proof.
  induction ps as [|[prog sess] r IH]; intros i a p H; cbn [procs_of] in H; [discriminate|].
  unfold upd in H. destruct (a =? i); [inversion H; reflexivity|apply (IH _ _ _ H)].
Qed.

Lemma spawn_SideInv ps st : SideA st -> SideInv (spawn ps st).
Proof.
  intros H. split; [exact H|]. intros a p f Hp Hl. cbn [spawn s_procs] in Hp.
  rewrite (procs_of_last _ _ _ _ Hp) in Hl. discriminate.
Qed.

Lemma exec_SideA prog st : SideA st -> SideInv (exec prog st).
Proof. intros H. unfold exec. apply run_SideInv, spawn_SideInv, H. Qed.

Lemma In_removelast {A} (x : A) l : In x (removelast l) -> In x l.
Proof. rewrite removelast_firstn_len. apply In_firstn. Qed.

(* what a cache fault does to the sidecars: no new sidecar, and in none a parsing line it did not hold before *)
Definition Shrinks (sd' sd : N -> option (list sline)) : Prop :=
  forall c ls, sd' c = Some ls -> exists ls0, sd c = Some ls0 /\ forall f, In (SGood f) ls -> In (SGood f) ls0.

Lemma shrinks_refl sd : Shrinks sd sd.
Proof. intros c ls H. exists ls. auto. Qed.

Lemma shrinks_upd sd c0 old new :
  sd c0 = Some old -> (forall f, In (SGood f) new -> In (SGood f) old) -> Shrinks (upd sd c0 (Some new)) sd.
Proof.
  intros E Hn c ls H. unfold upd in H. destruct (c =? c0) eqn:Ec; [|exact (shrinks_refl sd c ls H)].
  apply N.eqb_eq in Ec. subst c. injection H as <-. exists old. auto.
Qed.

Lemma shrinks_side sd' sd c : Shrinks sd' sd -> sd' c <> None -> sd c <> None.
Proof.
  intros H Hc. destruct (sd' c) as [ls|] eqn:E; [|congruence]. destruct (H c ls E) as (ls0 & -> & _). discriminate.
Qed.

Lemma apply_fault_shrinks sd x : Shrinks (apply_fault sd x) sd.
Proof.
  destruct x as [c0|c0|c0 k|c0|c0]; cbn [apply_fault].
  - intros c ls H. unfold upd in H. destruct (c =? c0); [discriminate|exact (shrinks_refl sd c ls H)].
  - destruct (sd c0) as [ls0|] eqn:E; [|apply shrinks_refl]. apply (shrinks_upd sd c0 ls0 _ E). intros f. apply In_removelast.
  - destruct (sd c0) as [ls0|] eqn:E; [|apply shrinks_refl]. apply (shrinks_upd sd c0 ls0 _ E). intros f. apply In_firstn.
  - destruct (sd c0) as [[|ln ls0]|] eqn:E; try apply shrinks_refl. apply (shrinks_upd sd c0 _ _ E).
    intros f Hin. apply in_app_or in Hin. destruct Hin as [Hin|[Hin|[]]]; [apply In_removelast; exact Hin|discriminate].
  - destruct (sd c0) as [ls0|] eqn:E; [|apply shrinks_refl]. apply (shrinks_upd sd c0 ls0 _ E). intros f [].
Qed.

Lemma do_call_SideInv st k : SideInv st -> SideInv (do_call st k).
Proof.
  intros [HA HB]. destruct k as [cp th f|x th|]; cbn [do_call].
  - apply exec_SideA. exact HA.
  - split; cbn [with_side set_store s_side s_log s_procs].
    + intros c Hc. apply HA. exact (shrinks_side _ _ c (apply_fault_shrinks _ _) Hc).
    + exact HB.
  - split; cbn [restart s_side s_log s_procs]; [exact HA|]. intros a p f Hp. discriminate.
Qed.

Lemma run_calls_SideInv ks st : SideInv st -> SideInv (snd (run_calls st ks)).
Proof. rewrite run_calls_fold. apply fold_left_inv. exact do_call_SideInv. Qed.

Lemma empty_SideInv : SideInv empty_state.
Proof. split; [intros c H; exfalso; apply H; reflexivity|intros a p f H; discriminate]. Qed.

Lemma sidecars_named_any_schedule sched st c :
  SideInv st -> s_side (run sched st) c <> None ->
  exists f, In f (s_log (run sched st)) /\ sid f = c.
Proof. intros H Hc. apply (proj1 (run_SideInv sched st H) c Hc). Qed.

Lemma sidecars_named_any_history ks c :
  s_side (snd (run_calls empty_state ks)) c <> None ->
  exists f, In f (s_log (snd (run_calls empty_state ks))) /\ sid f = c.
Proof. intros Hc. apply (proj1 (run_calls_SideInv ks empty_state empty_SideInv) c Hc). Qed.

Lemma unguarded_rebuild_refuted :
  snd (replay_events_unguarded empty_state 7) 7 <> None /\ ~ (exists f, In f (s_log empty_state) /\ sid f = 7).
Proof. split; [vm_compute; discriminate|]. intros (f & Hin & _). exact Hin. Qed.

(* non-vacuity: after a create + a read the default thread has a sidecar and is named by the log; the read of
   thread 99, an ordinal the log does not have, goes to nth_thread's default id 4294967295 and leaves none *)
Lemma sidecar_demo :
  let st := snd (run_calls empty_state [KCap CapEnsureDefault 0 fact_ok; KCap CapReplay 0 fact_ok; KCap CapReplay 99 fact_ok]) in
  s_side st 0 <> None /\ s_side st 4294967295 = None /\ map sid (s_log st) = [0].
Proof. vm_compute. split; [discriminate|split; reflexivity]. Qed.
