(* C17 — proofs about Model/Capture.v, in this order: take/drop; the UTF-8 automaton and truncate_utf8; the log
   writer (the stored log is the capped prefix of what was written, for EVERY chunking; the append ranges tile it);
   capture_stream and the shell preview; the output pump (frame ranges, delta previews); range reads and pages.
   Model/Capture.v decodes with its own byte-at-a-time automaton (`ustep`; its state holds the bytes of the
   character in progress, which `incomplete_tail` reads off), not with Base/Utf8.v's `from_utf8` / `lossy`, which
   look ahead from the front and yield code points: `lossy`, `utf8_ok`, `incomplete_tail` below are Capture.v's,
   the lemmas of the other automaton are in Proofs/Utf8Proofs.v, and nothing here relates the two. *)
From RipV Require Import Base.Prelude Model.TaskLifecycle Model.Capture.

Lemma nlen_nil {A} : nlen (@nil A) = 0.
Proof. reflexivity. Qed.

Lemma nlen_take n (l : bytes) : nlen (take n l) = N.min n (nlen l).
Proof. unfold nlen, take. rewrite firstn_length. lia. Qed.

Lemma nlen_drop n (l : bytes) : nlen (drop n l) = nlen l - n.
Proof. unfold nlen, drop. rewrite skipn_length. lia. Qed.

Lemma take_0 (l : bytes) : take 0 l = [].
Proof. reflexivity. Qed.

Lemma take_nil n : take n [] = [].
Proof. unfold take. apply firstn_nil. Qed.

Lemma take_all n (l : bytes) : nlen l <= n -> take n l = l.
Proof. unfold take, nlen. intros H. apply firstn_all2. lia. Qed.

Lemma take_min n (l : bytes) : take (N.min n (nlen l)) l = take n l.
Proof.
  destruct (N.leb_spec n (nlen l)) as [H|H].
  - rewrite N.min_l by assumption. reflexivity.
  - rewrite N.min_r by lia. rewrite !take_all by lia. reflexivity.
Qed.

Lemma take_app n (a b : bytes) : take n (a ++ b) = take n a ++ take (n - nlen a) b.
Proof.
  unfold take, nlen. rewrite firstn_app. f_equal. f_equal. lia.
Qed.

Lemma take_take n m (l : bytes) : take n (take m l) = take (N.min n m) l.
Proof.
  unfold take. rewrite firstn_firstn. f_equal. lia.
Qed.

Lemma take_drop (n : N) (l : bytes) : take n l ++ drop n l = l.
Proof. unfold take, drop. apply firstn_skipn. Qed.

Lemma drop_app_exact (a b : bytes) : drop (nlen a) (a ++ b) = b.
Proof.
  unfold drop, nlen. rewrite Nat2N.id. rewrite skipn_app, skipn_all, Nat.sub_diag. reflexivity.
Qed.

Lemma drop_0 (l : bytes) : drop 0 l = l.
Proof. reflexivity. Qed.

Lemma drop_drop n m (l : bytes) : drop n (drop m l) = drop (m + n) l.
Proof. unfold drop. rewrite skipn_skipn_add. f_equal. lia. Qed.

Lemma take_self_len n (l : bytes) : take (nlen (take n l)) l = take n l.
Proof. rewrite nlen_take. apply take_min. Qed.

(* the capped prefix grows chunk by chunk exactly as both writers grow their file *)
Lemma take_snoc_chunk cap (content c : bytes) :
  take cap (content ++ c)
  = take cap content ++ take (N.min (cap - nlen (take cap content)) (nlen c)) c.
Proof.
  rewrite take_app, take_min, nlen_take. f_equal. f_equal. lia.
Qed.

(* the bytes of the character in progress *)
Definition pend_acc (st : ust) : bytes := match st with UIdle => [] | UPend acc _ _ _ => acc end.

Lemma ustart_cases b :
  ustart b = ([b], true, UIdle) \/ ustart b = (REPL, false, UIdle)
  \/ exists n lo hi, ustart b = ([], true, UPend [b] n lo hi) /\ 1 <= n <= 3.
Proof.
  unfold ustart.
  repeat match goal with |- context [if ?c then _ else _] => destruct c end;
    auto; right; right; do 3 eexists; (split; [reflexivity|lia]).
Qed.

Lemma ustart_ok b o st : ustart b = (o, true, st) -> o ++ pend_acc st = [b].
Proof.
  destruct (ustart_cases b) as [-> | [-> | (n & lo & hi & -> & _)]]; intros E; inversion E; reflexivity.
Qed.

Lemma ustart_pend b o ok acc n lo hi :
  ustart b = (o, ok, UPend acc n lo hi) -> acc = [b] /\ 1 <= n /\ n <= 3.
Proof.
  destruct (ustart_cases b) as [-> | [-> | (n' & lo' & hi' & -> & Hn)]]; intros E; inversion E; subst.
  repeat split; lia.
Qed.

Lemma urun_valid_id bs : forall st,
  snd (urun st bs) = true -> fst (urun st bs) = pend_acc st ++ bs.
Proof.
  induction bs as [|b r IH]; intros st; cbn [urun].
  - destruct st; cbn [snd fst]; [intros _|discriminate]. reflexivity.
  - destruct (ustep st b) as [[o ok] st'] eqn:E.
    specialize (IH st'). destruct (urun st' r) as [o2 ok2] eqn:E2. cbn [snd fst] in *.
    intros Hok. apply andb_true_iff in Hok as [Hok1 Hok2]. subst ok ok2. specialize (IH eq_refl).
    subst o2. rewrite app_assoc.
    change (b :: r) with ([b] ++ r). rewrite (app_assoc (pend_acc st)). f_equal.
    destruct st as [|acc need lo hi]; cbn [ustep] in E.
    + apply ustart_ok in E. exact E.
    + cbn [pend_acc]. destruct (inr lo hi b).
      * destruct (need =? 1); inversion E; subst; cbn [pend_acc app]; [rewrite app_nil_r|]; reflexivity.
      * destruct (ustart b) as [[o' ok'] st'']. inversion E.
Qed.

Lemma lossy_valid bs : utf8_ok bs = true -> lossy bs = bs.
Proof. unfold utf8_ok, lossy. intros H. apply (urun_valid_id bs UIdle H). Qed.

Lemma utf8_ok_nil : utf8_ok [] = true.
Proof. reflexivity. Qed.

(* no byte was rejected; the input may still end inside a character (`is_idle` of the final state says it does not) *)
Fixpoint steps_ok (st : ust) (bs : bytes) : bool :=
  match bs with
  | [] => true
  | b :: r => let '(_, ok, st') := ustep st b in ok && steps_ok st' r
  end.

Definition is_idle (st : ust) : bool := match st with UIdle => true | _ => false end.

Lemma urun_ok bs : forall st, snd (urun st bs) = steps_ok st bs && is_idle (ufinal st bs).
Proof.
  induction bs as [|b r IH]; intros st; cbn [urun steps_ok ufinal].
  - destruct st; reflexivity.
  - destruct (ustep st b) as [[o ok] st'] eqn:E. specialize (IH st').
    destruct (urun st' r) as [o2 ok2]. cbn [snd] in *. rewrite IH. apply andb_assoc.
Qed.

Lemma utf8_ok_iff bs : utf8_ok bs = true <-> steps_ok UIdle bs = true /\ ufinal UIdle bs = UIdle.
Proof.
  unfold utf8_ok. rewrite urun_ok, andb_true_iff.
  destruct (ufinal UIdle bs); cbn [is_idle]; split; intros [H1 H2]; (split; [exact H1|]); (reflexivity || discriminate H2).
Qed.

Lemma ufinal_app a : forall st b, ufinal st (a ++ b) = ufinal (ufinal st a) b.
Proof.
  induction a as [|x a IH]; intros st b; cbn [app ufinal]; [reflexivity|].
  destruct (ustep st x) as [[o ok] st']. apply IH.
Qed.

Lemma steps_ok_app a : forall st b, steps_ok st (a ++ b) = steps_ok st a && steps_ok (ufinal st a) b.
Proof.
  induction a as [|x a IH]; intros st b; cbn [app steps_ok ufinal]; [reflexivity|].
  destruct (ustep st x) as [[o ok] st']. rewrite IH. apply andb_assoc.
Qed.

Lemma steps_ok_prefix a b : steps_ok UIdle (a ++ b) = true -> steps_ok UIdle a = true.
Proof. rewrite steps_ok_app. intros H. apply andb_true_iff in H. apply H. Qed.

Lemma utf8_ok_suffix a b : utf8_ok (a ++ b) = true -> ufinal UIdle a = UIdle -> utf8_ok b = true.
Proof.
  intros [Hs Hi]%utf8_ok_iff E. rewrite steps_ok_app, E in Hs. rewrite ufinal_app, E in Hi.
  apply andb_true_iff in Hs. apply utf8_ok_iff. split; [apply Hs|exact Hi].
Qed.

(* the pending bytes are always the end of the input, from the last character boundary on *)
Lemma ok_prefix_decomp bs : steps_ok UIdle bs = true ->
  exists pre, bs = pre ++ pend_acc (ufinal UIdle bs)
              /\ steps_ok UIdle pre = true /\ ufinal UIdle pre = UIdle.
Proof.
  induction bs as [|b bs IH] using rev_ind; intros Hok.
  - exists []. repeat split.
  - rewrite steps_ok_app in Hok. apply andb_true_iff in Hok as [Hok1 Hok2].
    destruct (IH Hok1) as (pre & Hbs & Hpre & Hfin). rewrite ufinal_app.
    cbn [steps_ok ufinal] in *.
    destruct (ustep (ufinal UIdle bs) b) as [[o ok] st'] eqn:E.
    rewrite andb_true_r in Hok2. subst ok.
    assert (Hwhole : steps_ok UIdle (bs ++ [b]) = true /\ ufinal UIdle (bs ++ [b]) = st').
    { rewrite steps_ok_app, ufinal_app, Hok1. cbn [steps_ok ufinal]. rewrite E. split; reflexivity. }
    destruct Hwhole as [Hw1 Hw2].
    destruct st' as [|acc' n' lo' hi'].
    + exists (bs ++ [b]). cbn [pend_acc]. rewrite app_nil_r. repeat split; assumption.
    + exists pre. split; [|split; assumption]. cbn [pend_acc].
      destruct (ufinal UIdle bs) as [|acc need lo hi] eqn:Est; cbn [ustep pend_acc] in *.
      * apply ustart_pend in E as [-> _]. rewrite app_nil_r in Hbs. subst pre. reflexivity.
      * destruct (inr lo hi b).
        -- destruct (need =? 1); inversion E; subst. rewrite <- app_assoc. reflexivity.
        -- destruct (ustart b) as [[o' ok'] st'']. inversion E.
Qed.

Lemma incomplete_tail_pend bs : incomplete_tail bs = nlen (pend_acc (ufinal UIdle bs)).
Proof. unfold incomplete_tail. destruct (ufinal UIdle bs); reflexivity. Qed.

(* a character in progress has at most 4 bytes in all, the widest UTF-8 encoding *)
Definition ust_wf (st : ust) : Prop :=
  match st with UIdle => True | UPend acc need _ _ => nlen acc + need <= 4 /\ 1 <= need /\ 1 <= nlen acc end.

Lemma ustep_wf st b : ust_wf st -> ust_wf (snd (ustep st b)).
Proof.
  assert (Hs : forall b, ust_wf (snd (ustart b))).
  { intros x. destruct (ustart x) as [[o ok] st'] eqn:E. cbn [snd]. destruct st'; [exact I|].
    apply ustart_pend in E as (-> & H1 & H2). cbn. lia. }
  destruct st as [|acc need lo hi]; intros Hw; cbn [ustep].
  - apply Hs.
  - destruct (inr lo hi b).
    + destruct (N.eqb_spec need 1); cbn [snd]; [exact I|]. cbn in *. rewrite nlen_app. cbn. lia.
    + specialize (Hs b). destruct (ustart b) as [[o ok] st']. exact Hs.
Qed.

Lemma ufinal_wf bs : forall st, ust_wf st -> ust_wf (ufinal st bs).
Proof.
  induction bs as [|b r IH]; intros st Hw; cbn [ufinal]; [exact Hw|].
  pose proof (ustep_wf st b Hw) as H. destruct (ustep st b) as [[o ok] st']. apply IH, H.
Qed.

Lemma incomplete_tail_le3 bs : incomplete_tail bs <= 3.
Proof.
  unfold incomplete_tail. pose proof (ufinal_wf bs UIdle I) as H.
  destruct (ufinal UIdle bs); [lia|]. cbn in H. lia.
Qed.

(* a prefix of valid text, with its incomplete last character removed, is valid text *)
Lemma valid_prefix_trim buf :
  steps_ok UIdle buf = true ->
  let pre := take (nlen buf - incomplete_tail buf) buf in
  utf8_ok pre = true /\ ufinal UIdle pre = UIdle
  /\ buf = pre ++ pend_acc (ufinal UIdle buf) /\ nlen pre = nlen buf - incomplete_tail buf.
Proof.
  intros Hok. destruct (ok_prefix_decomp buf Hok) as (pre & Hbuf & Hpre & Hfin).
  cbv zeta. rewrite incomplete_tail_pend.
  remember (pend_acc (ufinal UIdle buf)) as acc eqn:Eacc.
  assert (Hpre' : take (nlen buf - nlen acc) buf = pre).
  { rewrite Hbuf. rewrite nlen_app. replace (nlen pre + nlen acc - nlen acc) with (nlen pre) by lia.
    rewrite take_app, N.sub_diag, take_0, app_nil_r. apply take_all. lia. }
  rewrite Hpre'. split; [|split; [exact Hfin|split; [exact Hbuf|]]].
  - apply utf8_ok_iff. split; assumption.
  - rewrite Hbuf at 1. rewrite nlen_app. lia.
Qed.

Lemma trim_valid_spec bs : forall e,
  (trim_valid e bs <= e)%nat /\ utf8_ok (firstn (trim_valid e bs) bs) = true.
Proof.
  induction e as [|e IH]; cbn [trim_valid].
  - split; [lia|reflexivity].
  - destruct (utf8_ok (firstn (S e) bs)) eqn:E.
    + split; [lia|exact E].
    + destruct IH as [IH1 IH2]. split; [lia|exact IH2].
Qed.

Lemma truncate_utf8_fits bs m : nlen bs <= m -> truncate_utf8 bs m = (lossy bs, false, nlen bs).
Proof. intros H. unfold truncate_utf8. rewrite (proj2 (N.leb_le _ _) H). reflexivity. Qed.

(* truncate_utf8: the text is the decoding of a byte prefix within the limit; whenever something was
   cut, or the input is valid UTF-8 that fits, the text IS that byte prefix *)
Lemma truncate_utf8_spec bs m :
  let '(t, tr, used) := truncate_utf8 bs m in
  tr = (m <? nlen bs) /\ used <= nlen bs /\ (tr = true -> used <= m) /\ (tr = false -> used = nlen bs)
  /\ t = lossy (take used bs)
  /\ (tr = true -> t = take used bs)
  /\ (utf8_ok (take used bs) = true -> t = take used bs).
Proof.
  destruct (N.leb_spec (nlen bs) m) as [H|H].
  - rewrite (truncate_utf8_fits bs m H), (take_all (nlen bs) bs (N.le_refl _)).
    split; [symmetry; apply N.ltb_ge; exact H|].
    split; [lia|]. split; [discriminate|]. split; [reflexivity|]. split; [reflexivity|].
    split; [discriminate|]. intros Hv. apply lossy_valid. exact Hv.
  - unfold truncate_utf8. rewrite (proj2 (N.leb_gt _ _) H).
    destruct (trim_valid_spec bs (N.to_nat m)) as [H1 H2].
    unfold take. rewrite Nat2N.id.
    split; [symmetry; apply N.ltb_lt; exact H|].
    split; [unfold nlen in *; lia|]. split; [lia|]. split; [discriminate|]. split; [reflexivity|].
    split; intros _; apply lossy_valid; exact H2.
Qed.

(* the state of a writer that has been fed `content` in any chunking *)
Definition lw_inv (cap : N) (content : bytes) (w : lw) : Prop :=
  lw_cap w = cap /\ lw_file w = take cap content /\ lw_nstored w = nlen (lw_file w)
  /\ lw_total w = nlen content /\ lw_trunc w = (cap <? nlen content).

Lemma lw_inv_new cap : lw_inv cap [] (lw_new cap).
Proof.
  unfold lw_inv, lw_new; cbn [lw_cap lw_file lw_nstored lw_total lw_trunc].
  rewrite take_nil. repeat split. symmetry. apply N.ltb_ge. cbn. lia.
Qed.

Lemma lw_inv_append cap content w c :
  lw_inv cap content w -> lw_inv cap (content ++ c) (fst (lw_append w c)).
Proof.
  intros (Hc & Hf & Hn & Ht & Htr).
  unfold lw_inv, lw_append; cbn [fst lw_cap lw_file lw_nstored lw_total lw_trunc].
  rewrite Hc, Hn, Hf, Ht, Htr.
  split; [reflexivity|]. split; [symmetry; apply take_snoc_chunk|].
  rewrite !nlen_app, !nlen_take. split; [lia|]. split; [reflexivity|lia].
Qed.

Lemma lw_run_fst_app w a b :
  fst (lw_run w (a ++ b)) = fst (lw_run (fst (lw_run w a)) b).
Proof.
  revert w; induction a as [|c a IH]; intros w; cbn [lw_run app fst]; [reflexivity|].
  destruct (lw_append w c) as [w1 i] eqn:E1.
  specialize (IH w1).
  destruct (lw_run w1 (a ++ b)) as [w2 is2] eqn:E2.
  destruct (lw_run w1 a) as [w3 is3] eqn:E3. cbn [fst] in *. exact IH.
Qed.

Lemma lw_inv_run cap chunks : forall content w,
  lw_inv cap content w -> lw_inv cap (content ++ concat chunks) (fst (lw_run w chunks)).
Proof.
  induction chunks as [|c r IH]; intros content w Hw; cbn [lw_run concat fst].
  - rewrite app_nil_r. exact Hw.
  - apply (lw_inv_append _ _ _ c) in Hw. destruct (lw_append w c) as [w1 i]. cbn [fst] in Hw.
    apply IH in Hw. destruct (lw_run w1 r) as [w2 is2]. rewrite app_assoc. exact Hw.
Qed.

Theorem log_stored_is_prefix : forall (cap : N) (chunks : list bytes),
  let w := fst (lw_run (lw_new cap) chunks) in
  lw_file w = take cap (concat chunks)
  /\ lw_nstored w = nlen (lw_file w)
  /\ lw_total w = nlen (concat chunks)
  /\ lw_trunc w = (cap <? nlen (concat chunks)).
Proof.
  intros cap chunks w.
  destruct (lw_inv_run cap chunks [] (lw_new cap) (lw_inv_new cap)) as (_ & Hf & Hn & Ht & Htr).
  cbn [app] in *. subst w. auto.
Qed.

(* where ranges of these lengths, laid end to end from at_, end (the offsets are not looked at): together with
   `consecutive` it says that the ranges cover [at_, tiles at_ rs) without gap or overlap *)
Fixpoint tiles (at_ : N) (rs : list (N * N)) : N :=    (* end of the tiling, or a hole is an inequality *)
  match rs with [] => at_ | (o, n) :: r => tiles (at_ + n) r end.

Fixpoint consecutive (at_ : N) (rs : list (N * N)) : Prop :=
  match rs with [] => True | (o, n) :: r => o = at_ /\ consecutive (at_ + n) r end.

Definition range_of (i : apinfo) : N * N := (ap_off i, ap_bytes i).

(* each append's range holds, in the final file, exactly the stored part of its chunk *)
Fixpoint ranges_hold (file : bytes) (is_ : list apinfo) (chunks : list bytes) : Prop :=
  match is_, chunks with
  | [], [] => True
  | i :: ir, c :: cr =>
    take (ap_bytes i) (drop (ap_off i) file) = take (ap_bytes i) c /\ ranges_hold file ir cr
  | _, _ => False
  end.

Lemma lw_append_info w c :
  let '(w1, i) := lw_append w c in
  ap_off i = lw_nstored w /\ ap_bytes i <= nlen c /\ lw_nstored w1 = lw_nstored w + ap_bytes i
  /\ ap_stored i = lw_nstored w1 /\ ap_total i = lw_total w1 /\ ap_trunc i = lw_trunc w1
  /\ lw_file w1 = lw_file w ++ take (ap_bytes i) c.
Proof.
  unfold lw_append; cbn [ap_off ap_bytes ap_stored ap_total ap_trunc lw_nstored lw_total lw_trunc lw_file].
  repeat split; lia.
Qed.

(* from a writer whose count is the length of its file: the ranges continue at that length, end at the new one,
   and each holds the stored part of its chunk in the final file, whatever is written after it *)
Lemma lw_run_ranges chunks : forall w, lw_nstored w = nlen (lw_file w) ->
  let '(w2, is_) := lw_run w chunks in
  consecutive (lw_nstored w) (map range_of is_)
  /\ tiles (lw_nstored w) (map range_of is_) = nlen (lw_file w2)
  /\ (exists tail, lw_file w2 = lw_file w ++ tail)
  /\ forall tail, ranges_hold (lw_file w2 ++ tail) is_ chunks.
Proof.
  induction chunks as [|c r IH]; intros w Hn; cbn [lw_run].
  - cbn [map consecutive tiles ranges_hold]. repeat split; [exact Hn|]. exists []. symmetry. apply app_nil_r.
  - pose proof (lw_append_info w c) as HA. destruct (lw_append w c) as [w1 i].
    destruct HA as (Ho & Hb & Hs & _ & _ & _ & Hfile).
    assert (Hn1 : lw_nstored w1 = nlen (lw_file w1)) by (rewrite Hfile, nlen_app, nlen_take; lia).
    specialize (IH w1 Hn1). destruct (lw_run w1 r) as [w2 is2]. destruct IH as (Hc & Ht & (tl & Htl) & Hr).
    cbn [map consecutive tiles range_of ranges_hold]. rewrite <- Hs.
    split; [exact (conj Ho Hc)|]. split; [exact Ht|]. split.
    + exists (take (ap_bytes i) c ++ tl). rewrite Htl, Hfile, app_assoc. reflexivity.
    + intros tail. split; [|apply Hr].
      rewrite Htl, Hfile, Ho, Hn, <- !app_assoc, drop_app_exact.
      rewrite take_app, take_take, N.min_id, nlen_take, (N.min_l _ _ Hb), N.sub_diag, take_0. apply app_nil_r.
Qed.

Theorem log_ranges_tile : forall (cap : N) (chunks : list bytes),
  let '(w, is_) := lw_run (lw_new cap) chunks in
  consecutive 0 (map range_of is_)
  /\ tiles 0 (map range_of is_) = nlen (lw_file w)
  /\ ranges_hold (lw_file w) is_ chunks.
Proof.
  intros cap chunks. pose proof (lw_run_ranges chunks (lw_new cap) eq_refl) as H.
  destruct (lw_run (lw_new cap) chunks) as [w is_]. destruct H as (Hc & Ht & _ & Hr).
  split; [exact Hc|]. split; [exact Ht|]. rewrite <- (app_nil_r (lw_file w)). apply Hr.
Qed.

Lemma tail_write_spec amax (content c : bytes) :
  amax <> 0 ->
  tail_write amax (take amax content) (nlen (take amax content)) c
  = (take amax (content ++ c), nlen (take amax (content ++ c))).
Proof.
  intros Ha. unfold tail_write.
  destruct (N.eqb_spec amax 0) as [E0|_]; [contradiction|].
  rewrite (take_snoc_chunk amax content c).
  set (n := nlen (take amax content)).
  destruct (N.eqb_spec (amax - n) 0) as [E1|E1].
  - rewrite E1. rewrite N.min_0_l, take_0, app_nil_r. reflexivity.
  - destruct (N.eqb_spec (N.min (amax - n) (nlen c)) 0) as [E2|E2].
    + rewrite E2, take_0, app_nil_r. reflexivity.
    + f_equal. rewrite nlen_app. fold n. rewrite (nlen_take (N.min (amax - n) (nlen c)) c). lia.
Qed.

Lemma shell_preview_le p tr : nlen (shell_preview p tr) <= nlen p.
Proof. unfold shell_preview. destruct tr; [rewrite nlen_take; apply N.le_min_r|apply N.le_refl]. Qed.

(* the state of capture_stream after `content` in any chunking; no spill file means the preview is not full yet
   or the cap is 0, the two ways cs_step leaves cs_file at None *)
Definition cs_inv (pmax amax : N) (content : bytes) (s : cs) : Prop :=
  cs_total s = nlen content
  /\ cs_prev s = take pmax content /\ cs_nprev s = nlen (cs_prev s)
  /\ (cs_full s = false -> nlen content <= pmax /\ cs_file s = None)
  /\ (cs_full s = true -> pmax <= nlen content)
  /\ match cs_file s with
     | Some f => amax <> 0 /\ f = take amax content /\ cs_nfile s = nlen f
     | None => cs_full s = false \/ amax = 0
     end.

Lemma cs_inv0 pmax amax : cs_inv pmax amax [] cs0.
Proof.
  unfold cs_inv, cs0; cbn [cs_total cs_prev cs_nprev cs_full cs_file cs_nfile].
  rewrite take_nil. repeat split; auto; try discriminate. cbn. lia.
Qed.

(* The state is taken apart into its fields and the cases of cs_step are split first; what the invariant says of
   the fields is used in each case on the one record that is left. *)
Lemma cs_inv_step pmax amax content s c :
  cs_inv pmax amax content s -> cs_inv pmax amax (content ++ c) (cs_step pmax amax s c).
Proof.
  destruct s as [prev nprev total full file nfile]. unfold cs_step, cs_inv.
  cbn [cs_prev cs_nprev cs_total cs_full cs_file cs_nfile].
  intros (Ht & Hp & Hnp & Hnf & Hfl & Hfile).
  assert (Htot : total + nlen c = nlen (content ++ c)) by (rewrite nlen_app, Ht; reflexivity).
  destruct full.
  - (* the preview is full: only the spill file can grow *)
    specialize (Hfl eq_refl).
    assert (Hp' : prev = take pmax (content ++ c)).
    { rewrite take_app, <- Hp, (proj2 (N.sub_0_le _ _) Hfl), take_0. symmetry. apply app_nil_r. }
    assert (Hfl' : pmax <= nlen (content ++ c)).
    { rewrite nlen_app. apply (N.le_trans _ _ _ Hfl), N.le_add_r. }
    destruct file as [f|].
    + destruct Hfile as (Ha & Hf & Hn). rewrite Hn, Hf, (tail_write_spec amax content c Ha).
      cbn [cs_prev cs_nprev cs_total cs_full cs_file cs_nfile]. repeat split; auto; congruence.
    + destruct Hfile as [E|Ea]; [discriminate E|]. cbn [negb]. rewrite (proj2 (N.eqb_eq _ _) Ea).
      cbn [cs_prev cs_nprev cs_total cs_full cs_file cs_nfile]. repeat split; auto; congruence.
  - (* everything so far is in the preview *)
    destruct (Hnf eq_refl) as [Hle ->]. clear Hnf Hfl Hfile.
    rewrite (take_all pmax content Hle) in Hp. set (tk := N.min (pmax - nprev) (nlen c)).
    assert (Hn : nprev = nlen content) by (rewrite Hnp, Hp; reflexivity).
    assert (Htk : tk <= nlen c) by apply N.le_min_r.
    assert (Hp' : prev ++ take tk c = take pmax (content ++ c)).
    { rewrite take_app, (take_all pmax content Hle), Hp. f_equal. subst tk. rewrite Hn. exact (take_min _ c). }
    assert (Hnp' : nprev + tk = nlen (prev ++ take tk c)) by (rewrite nlen_app, nlen_take, (N.min_l _ _ Htk), Hnp; reflexivity).
    destruct (N.leb_spec pmax (nprev + tk)) as [Hf|Hf]; cbn [negb].
    + assert (Hfl' : pmax <= nlen (content ++ c)).
      { rewrite nlen_app, <- Hn. apply (N.le_trans _ _ _ Hf), N.add_le_mono_l, Htk. }
      destruct (N.eqb_spec amax 0) as [Ea|Ea].
      * cbn [cs_prev cs_nprev cs_total cs_full cs_file cs_nfile]. repeat split; auto; congruence.
      * (* hand-over: the preview becomes the head of the spill file *)
        rewrite (N.add_comm nprev), N.add_sub, (N.min_l _ _ Htk), (N.add_comm tk).
        rewrite Hnp', N.min_comm, take_min, <- (nlen_take amax), (tail_write_spec amax _ _ Ea).
        cbn [cs_prev cs_nprev cs_total cs_full cs_file cs_nfile].
        rewrite <- app_assoc, take_drop, Hp. repeat split; auto; congruence.
    + cbn [cs_prev cs_nprev cs_total cs_full cs_file cs_nfile].
      assert (nlen (content ++ c) <= pmax) by (rewrite nlen_app; subst tk; lia).
      repeat split; auto; congruence.
Qed.

Lemma cs_inv_fold pmax amax chunks : forall content s,
  cs_inv pmax amax content s ->
  cs_inv pmax amax (content ++ concat chunks) (fold_left (cs_step pmax amax) chunks s).
Proof.
  induction chunks as [|c r IH]; intros content s Hs; cbn [fold_left concat].
  - rewrite app_nil_r. exact Hs.
  - rewrite app_assoc. apply IH. apply cs_inv_step. exact Hs.
Qed.

Theorem capture_stored_is_prefix : forall (H : bytes -> N) (pmax amax : N) (chunks : list bytes),
  let c := capture_stream H pmax amax chunks in
  let out := concat chunks in
  cp_bytes_total c = nlen out
  /\ cp_truncated c = (pmax <? nlen out)
  /\ (let pv := shell_preview (take pmax out) (pmax <? nlen out) in
      cp_bytes_preview c = nlen pv /\ cp_lines c = lines (lossy pv) /\ nlen pv <= pmax)
  /\ match cp_artifact c with
     | Some a => pmax < nlen out /\ amax <> 0
                 /\ cp_blob c = take amax out /\ a_id a = H (take amax out)
                 /\ a_bytes a = nlen (take amax out) /\ a_trunc a = (amax <? nlen out)
     | None => nlen out <= pmax \/ amax = 0
     end.
Proof.
  intros H pmax amax chunks c out. subst c. unfold capture_stream, cs_finish.
  destruct (cs_inv_fold pmax amax chunks [] cs0 (cs_inv0 pmax amax)) as (Ht & Hp & _ & Hnf & _ & Hfile).
  cbn [app] in *. fold out in Ht, Hp, Hnf, Hfile.
  set (s := fold_left (cs_step pmax amax) chunks cs0) in *. rewrite Ht, Hp.
  assert (Hpv : nlen (shell_preview (take pmax out) (pmax <? nlen out)) <= pmax).
  { apply (N.le_trans _ _ _ (shell_preview_le _ _)). rewrite nlen_take. apply N.le_min_l. }
  rewrite (truncate_utf8_fits _ _ Hpv). cbn [cp_bytes_total cp_truncated cp_bytes_preview cp_lines cp_artifact cp_blob].
  split; [reflexivity|]. split; [reflexivity|].
  split; [split; [reflexivity|split; [reflexivity|exact Hpv]]|].
  destruct (N.ltb_spec pmax (nlen out)) as [Hlt|Hge]; cbn [negb]; [|left; exact Hge].
  destruct (cs_file s) as [f|].
  - destruct Hfile as (Ha & -> & Hn). cbn [a_id a_bytes a_trunc]. rewrite Hn, nlen_take.
    repeat split; auto. lia.
  - destruct Hfile as [Hff|Hz]; [|right; exact Hz].
    destruct (Hnf Hff) as [Hle _]. lia.
Qed.

(* S19 repaired: the shell preview of valid UTF-8 output is exactly a byte prefix of it *)
Theorem shell_preview_exact : forall (pmax : N) (out : bytes),
  utf8_ok out = true ->
  let pv := shell_preview (take pmax out) (pmax <? nlen out) in
  lossy pv = pv /\ exists rest, out = pv ++ rest.
Proof.
  intros pmax out Hv pv. subst pv. unfold shell_preview.
  pose proof Hv as [Hs _]%utf8_ok_iff.
  destruct (N.ltb_spec pmax (nlen out)) as [Hlt|Hge].
  - rewrite <- (take_drop pmax out) in Hs.
    destruct (valid_prefix_trim _ (steps_ok_prefix _ _ Hs)) as (Hok & _ & Hbuf & _).
    split; [apply lossy_valid, Hok|].
    eexists. rewrite <- (take_drop pmax out) at 1. rewrite Hbuf at 1. rewrite <- app_assoc. reflexivity.
  - rewrite take_all by exact Hge. split; [|exists []; rewrite app_nil_r; reflexivity].
    apply lossy_valid, Hv.
Qed.

Definition s19_out : bytes := [195; 169; 195; 169; 195; 169].

Lemma shell_preview_example :
  utf8_ok s19_out = true /\ shell_preview (take 3 s19_out) (3 <? nlen s19_out) = [195; 169].
Proof. vm_compute. split; reflexivity. Qed.

Lemma pump_step_proj plimit st c :
  ps_w (pump_step plimit st c) = fst (lw_append (ps_w st) c)
  /\ map df_info (ps_frames (pump_step plimit st c))
     = map df_info (ps_frames st) ++ [snd (lw_append (ps_w st) c)].
Proof.
  unfold pump_step. destruct (lw_append (ps_w st) c) as [w1 i].
  destruct (pump_text (ps_carry st) c) as [text carry'].
  destruct (truncate_utf8 text (N.min plimit OUTPUT_EVENT_MAX_BYTES)) as [[pv tr] used].
  cbn [ps_w ps_frames fst snd]. rewrite map_app. split; reflexivity.
Qed.

Lemma pump_fold plimit chunks : forall st,
  ps_w (fold_left (pump_step plimit) chunks st) = fst (lw_run (ps_w st) chunks)
  /\ map df_info (ps_frames (fold_left (pump_step plimit) chunks st))
     = map df_info (ps_frames st) ++ snd (lw_run (ps_w st) chunks).
Proof.
  induction chunks as [|c r IH]; intros st; cbn [fold_left lw_run].
  - cbn [fst snd]. rewrite app_nil_r. split; reflexivity.
  - destruct (IH (pump_step plimit st c)) as [IH1 IH2].
    destruct (pump_step_proj plimit st c) as [P1 P2].
    rewrite IH1, IH2, P1, P2.
    destruct (lw_append (ps_w st) c) as [w1 i]. cbn [fst snd].
    destruct (lw_run w1 r) as [w2 is2]. cbn [fst snd].
    rewrite <- app_assoc. split; reflexivity.
Qed.

(* the pump stores what the log writer stores, and its frames carry exactly the append ranges, one per
   chunk, in order: so the ranges named by the output frames tile the stored log *)
Theorem pump_frames_tile : forall (cap plimit : N) (chunks : list bytes),
  let '(w, fs) := pump cap plimit chunks in
  w = fst (lw_run (lw_new cap) chunks)
  /\ map df_info fs = snd (lw_run (lw_new cap) chunks)
  /\ consecutive 0 (map range_of (map df_info fs))
  /\ tiles 0 (map range_of (map df_info fs)) = nlen (lw_file w)
  /\ ranges_hold (lw_file w) (map df_info fs) chunks.
Proof.
  intros cap plimit chunks. unfold pump, pump_run.
  destruct (pump_fold plimit chunks {| ps_w := lw_new cap; ps_carry := []; ps_frames := [] |}) as [H1 H2].
  cbn [ps_w ps_frames map app] in H1, H2. rewrite H1, H2.
  pose proof (log_ranges_tile cap chunks) as HT.
  destruct (lw_run (lw_new cap) chunks) as [w is_]. cbn [fst snd].
  destruct HT as (T1 & T2 & T3). repeat split; assumption.
Qed.

(* S17, the code before the repair: with preview limit 0 no frame references the stored bytes *)
Definition s17_chunks : list bytes := [[104; 101]; [108; 108; 111]].

Lemma pump_unfixed_ranges_refuted :
  exists cap plimit chunks,
    let '(w, fs) := pump_unfixed cap plimit chunks in
    tiles 0 (map range_of (map df_info fs)) <> nlen (lw_file w).
Proof. exists 100, 0, s17_chunks. vm_compute. discriminate. Qed.

(* what the previews emitted so far and the carried bytes are, for valid UTF-8 output; the carry is at most 3
   bytes (incomplete_tail_le3), which is the 3 that the reads must leave below the preview limit *)
Definition pump_inv (content : bytes) (st : pst) : Prop :=
  concat (map df_preview (ps_frames st)) ++ ps_carry st = content
  /\ ufinal UIdle (concat (map df_preview (ps_frames st))) = UIdle
  /\ ps_carry st = pend_acc (ufinal UIdle content).

Lemma pump_step_exact plimit st c content :
  pump_inv content st -> steps_ok UIdle (content ++ c) = true ->
  nlen c + 3 <= N.min plimit OUTPUT_EVENT_MAX_BYTES ->
  pump_inv (content ++ c) (pump_step plimit st c).
Proof.
  intros (Hcat & Hidle & Hcarry) Hok Hsmall.
  set (P := concat (map df_preview (ps_frames st))) in *.
  set (text := ps_carry st ++ c).
  assert (Hok' : steps_ok UIdle text = true).
  { rewrite <- Hcat, <- app_assoc, steps_ok_app, Hidle in Hok. apply andb_true_iff in Hok. apply Hok. }
  destruct (valid_prefix_trim text Hok') as (Hv & Hfin & Htext & Hnpre).
  set (pre := take (nlen text - incomplete_tail text) text) in *.
  assert (Hc3 : nlen (ps_carry st) <= 3).
  { rewrite Hcarry, <- incomplete_tail_pend. apply incomplete_tail_le3. }
  assert (Hlen : nlen pre <= N.min plimit OUTPUT_EVENT_MAX_BYTES).
  { rewrite Hnpre. subst text. rewrite nlen_app. lia. }
  unfold pump_step. destruct (lw_append (ps_w st) c) as [w1 i].
  unfold pump_text. fold text. fold pre.
  rewrite (truncate_utf8_fits _ _ Hlen), (lossy_valid pre Hv). unfold pump_inv. cbn [ps_frames ps_carry].
  rewrite map_app, concat_app. cbn [map concat df_preview]. rewrite app_nil_r. fold P.
  assert (Hdrop : drop (nlen text - incomplete_tail text) text = pend_acc (ufinal UIdle text)).
  { apply (app_inv_head pre). unfold pre at 1. rewrite take_drop. exact Htext. }
  split; [|split].
  - rewrite <- app_assoc. unfold pre. rewrite take_drop. subst text. rewrite app_assoc, Hcat. reflexivity.
  - rewrite ufinal_app, Hidle. exact Hfin.
  - rewrite Hdrop. rewrite <- Hcat, <- app_assoc. fold text. rewrite ufinal_app, Hidle. reflexivity.
Qed.

Lemma pump_fold_exact plimit chunks : forall st content,
  pump_inv content st -> steps_ok UIdle (content ++ concat chunks) = true ->
  Forall (fun c => nlen c + 3 <= N.min plimit OUTPUT_EVENT_MAX_BYTES) chunks ->
  pump_inv (content ++ concat chunks) (fold_left (pump_step plimit) chunks st).
Proof.
  induction chunks as [|c r IH]; intros st content Hinv Hok Hall; cbn [fold_left concat] in *.
  - rewrite app_nil_r. exact Hinv.
  - inversion Hall as [|c' r' Hc Hr]; subst. rewrite app_assoc in *.
    apply IH; [|exact Hok|exact Hr].
    exact (pump_step_exact plimit st c content Hinv (steps_ok_prefix _ _ Hok) Hc).
Qed.

(* valid UTF-8 output, every read at least 3 bytes below the per-frame preview limit: the previews of the
   delta frames concatenate to the output exactly, however the reads split the characters *)
Theorem delta_previews_exact : forall (cap plimit : N) (chunks : list bytes),
  utf8_ok (concat chunks) = true ->
  Forall (fun c => nlen c + 3 <= N.min plimit OUTPUT_EVENT_MAX_BYTES) chunks ->
  concat (map df_preview (snd (pump cap plimit chunks))) = concat chunks.
Proof.
  intros cap plimit chunks [Hs Hi]%utf8_ok_iff Hall.
  unfold pump, pump_run. cbn [snd].
  pose proof (pump_fold_exact plimit chunks {| ps_w := lw_new cap; ps_carry := []; ps_frames := [] |} []
                              (conj eq_refl (conj eq_refl eq_refl)) Hs Hall) as HI. cbn [app] in HI.
  destruct HI as (Hcat & _ & Hcarry).
  rewrite Hi in Hcarry. rewrite Hcarry, app_nil_r in Hcat. exact Hcat.
Qed.

(* S20, the pump before the repair (every read decoded on its own): "éé" read as 1 + 3 bytes *)
Definition s20_chunks : list bytes := [[195]; [169; 195; 169]].

Lemma delta_previews_perchunk_refuted :
  exists cap plimit chunks,
    utf8_ok (concat chunks) = true
    /\ Forall (fun c => nlen c + 3 <= N.min plimit OUTPUT_EVENT_MAX_BYTES) chunks
    /\ concat (map df_preview (snd (pump_perchunk cap plimit chunks))) <> concat chunks.
Proof.
  exists 100, 64, s20_chunks. split; [reflexivity|]. split.
  - repeat constructor; vm_compute; discriminate.
  - vm_compute. discriminate.
Qed.

Example delta_previews_fixed_s20 :
  map df_preview (snd (pump 100 64 s20_chunks)) = [[]; [195; 169; 195; 169]].
Proof. vm_compute. reflexivity. Qed.

(* what one page is, for every file: the bytes [offset, offset + pg_bytes) decoded, never more than
   max_bytes, `truncated` iff more bytes follow *)
Lemma read_range_page file off maxb :
  let buf := take maxb (drop off file) in
  let more := off + nlen buf <? nlen file in
  let p := read_range file off maxb in
  pg_content p = lossy (trim_page buf more) /\ pg_bytes p = nlen (trim_page buf more)
  /\ pg_trunc p = more /\ pg_total p = nlen file /\ pg_bytes p <= maxb
  /\ trim_page buf more = take (pg_bytes p) (drop off file).
Proof.
  intros buf more p. subst p. unfold read_range. fold buf. fold more.
  assert (Hle : nlen (trim_page buf more) <= nlen buf).
  { unfold trim_page. destruct more; [|lia]. destruct (incomplete_tail buf <? nlen buf); [|lia].
    rewrite nlen_take. lia. }
  assert (Hb : nlen buf <= maxb) by (subst buf; rewrite nlen_take; lia).
  rewrite (truncate_utf8_fits _ _ (N.le_trans _ _ _ Hle Hb)). cbn [pg_content pg_bytes pg_trunc pg_total orb].
  repeat (split; [reflexivity || lia|]).
  unfold trim_page. clear Hle Hb. destruct more.
  - destruct (incomplete_tail buf <? nlen buf).
    + generalize (nlen buf - incomplete_tail buf). intros k. unfold buf.
      rewrite take_take, take_self_len. reflexivity.
    + unfold buf. symmetry. apply take_self_len.
  - unfold buf. symmetry. apply take_self_len.
Qed.

Lemma read_range_progress file off maxb :
  1 <= maxb -> pg_trunc (read_range file off maxb) = true -> 1 <= pg_bytes (read_range file off maxb).
Proof.
  intros Hm. destruct (read_range_page file off maxb) as (_ & Hb & Ht & _).
  rewrite Hb, Ht. clear Hb Ht. intros Hmore. rewrite Hmore.
  apply N.ltb_lt in Hmore. rewrite nlen_take, nlen_drop in Hmore.
  unfold trim_page. set (buf := take maxb (drop off file)).
  assert (Hbuf : 1 <= nlen buf) by (subst buf; rewrite nlen_take, nlen_drop; lia).
  destruct (N.ltb_spec (incomplete_tail buf) (nlen buf)); [rewrite nlen_take|]; lia.
Qed.

(* a page never runs past the end; it reaches it exactly when `truncated` is off *)
Lemma read_range_extent file off maxb : off <= nlen file ->
  let p := read_range file off maxb in
  if pg_trunc p then off + pg_bytes p < nlen file else off + pg_bytes p = nlen file.
Proof.
  intros Hoff. destruct (read_range_page file off maxb) as (_ & Hb & Ht & _).
  cbv zeta. rewrite Hb, Ht. unfold trim_page. set (buf := take maxb (drop off file)).
  assert (Hn : nlen buf = N.min maxb (nlen file - off)) by (subst buf; rewrite nlen_take, nlen_drop; reflexivity).
  destruct (N.ltb_spec (off + nlen buf) (nlen file)); [|lia].
  destruct (incomplete_tail buf <? nlen buf); [rewrite nlen_take|]; lia.
Qed.

(* the page walk tiles the file, for EVERY file (binary included) and every max_bytes >= 1 *)
Lemma page_walk_tiles file maxb : 1 <= maxb -> forall fuel off,
  off <= nlen file -> nlen file - off < N.of_nat fuel ->
  let ps := page_walk read_range fuel file off maxb in
  sumN (map pg_bytes ps) = nlen file - off.
Proof.
  intros Hm. induction fuel as [|f IH]; intros off Hoff Hfuel; [lia|].
  cbn [page_walk].
  pose proof (read_range_extent file off maxb Hoff) as He.
  pose proof (read_range_progress file off maxb Hm) as Hprog. cbv zeta in He.
  destruct (pg_trunc (read_range file off maxb)); cbn [andb].
  - specialize (Hprog eq_refl). rewrite (proj2 (N.ltb_lt _ _)) by lia.
    cbn [map sumN]. rewrite IH by lia. lia.
  - cbn [map sumN]. lia.
Qed.

(* valid UTF-8 from a character boundary on, pages of at least 4 bytes (the widest character): each page is
   whole characters, so the next one starts on a boundary again, and the page texts concatenate to the rest *)
Lemma page_walk_text file maxb : 4 <= maxb -> forall fuel off,
  off <= nlen file -> utf8_ok (drop off file) = true -> nlen file - off < N.of_nat fuel ->
  concat (map pg_content (page_walk read_range fuel file off maxb)) = drop off file.
Proof.
  intros Hm. induction fuel as [|f IH]; intros off Hoff Hv Hfuel; [lia|].
  cbn [page_walk].
  pose proof (read_range_page file off maxb) as (Hc & Hb & Ht & _ & Hle & Hrange).
  pose proof (read_range_extent file off maxb Hoff) as He. cbv zeta in He.
  set (p := read_range file off maxb) in *. set (rest := drop off file) in *.
  set (buf := take maxb rest) in *.
  destruct (pg_trunc p); cbn [andb]; rewrite <- Ht in *.
  - (* more bytes follow: the page is buf without its incomplete last character *)
    assert (Hnb : nlen buf = maxb).
    { symmetry in Ht. apply N.ltb_lt in Ht. subst buf rest. rewrite nlen_take, nlen_drop in *. lia. }
    pose proof (incomplete_tail_le3 buf) as H3.
    assert (Hs : steps_ok UIdle (buf ++ drop maxb rest) = true).
    { unfold buf. rewrite take_drop. apply utf8_ok_iff, Hv. }
    destruct (valid_prefix_trim buf (steps_ok_prefix _ _ Hs)) as (Hok & Hfin & _ & Hnpre).
    assert (Htrim : trim_page buf true = take (nlen buf - incomplete_tail buf) buf).
    { unfold trim_page. rewrite (proj2 (N.ltb_lt _ _)) by lia. reflexivity. }
    rewrite Htrim in *. rewrite Hrange in Hok, Hfin, Hc.
    rewrite (proj2 (N.ltb_lt 0 (pg_bytes p))) by lia.
    cbn [map concat]. rewrite Hc, (lossy_valid _ Hok), IH; [|lia| |lia].
    + unfold rest. rewrite <- drop_drop. apply take_drop.
    + rewrite <- drop_drop. fold rest. apply (utf8_ok_suffix (take (pg_bytes p) rest)); [|exact Hfin].
      rewrite take_drop. exact Hv.
  - (* last page: everything that is left *)
    assert (Hall : buf = rest).
    { apply take_all. unfold rest. rewrite nlen_drop. lia. }
    cbn [map concat]. rewrite Hc, app_nil_r. unfold trim_page. rewrite Hall. apply lossy_valid, Hv.
Qed.

Theorem pages_reassemble : forall (file : bytes) (maxb : N) (fuel : nat),
  utf8_ok file = true -> 4 <= maxb -> nlen file < N.of_nat fuel ->
  let ps := page_walk read_range fuel file 0 maxb in
  concat (map pg_content ps) = file /\ sumN (map pg_bytes ps) = nlen file.
Proof.
  intros file maxb fuel Hv Hm Hf ps. subst ps. split.
  - rewrite (page_walk_text file maxb Hm fuel 0); [reflexivity|lia|exact Hv|lia].
  - rewrite (page_walk_tiles file maxb ltac:(lia) fuel 0); lia.
Qed.

Theorem pages_tile_any_file : forall (file : bytes) (maxb : N) (fuel : nat),
  1 <= maxb -> nlen file < N.of_nat fuel ->
  sumN (map pg_bytes (page_walk read_range fuel file 0 maxb)) = nlen file.
Proof.
  intros file maxb fuel Hm Hf. rewrite (page_walk_tiles file maxb Hm fuel 0); lia.
Qed.

(* S12, the code before the repair: "aééé" read in pages of 4 bytes *)
Definition s12_file : bytes := [97; 195; 169; 195; 169; 195; 169].

Lemma pages_unfixed_refuted :
  exists file maxb fuel,
    utf8_ok file = true /\ 4 <= maxb
    /\ concat (map pg_content (page_walk read_range_unfixed fuel file 0 maxb)) <> file.
Proof. exists s12_file, 4, 20%nat. vm_compute. repeat split; discriminate. Qed.

Example pages_fixed_s12 :
  concat (map pg_content (page_walk read_range 20 s12_file 0 4)) = s12_file.
Proof. vm_compute. reflexivity. Qed.

(* non-vacuity: the S12 witness meets the hypotheses of pages_reassemble, and the byte limit of its first
   page, offset 4, falls inside the third character (the page stops at 3) *)
Lemma pages_hyp_example :
  utf8_ok s12_file = true /\ 4 <= 4 /\ nlen s12_file < N.of_nat 20
  /\ map pg_bytes (page_walk read_range 20 s12_file 0 4) = [3; 4].
Proof. vm_compute. repeat split; try reflexivity; discriminate. Qed.
