(* C12 — the patch format is complete and unambiguous on rendered documents: every sequence of
   operations with clean payload has a document, and the parser returns exactly that sequence. *)
From RipV Require Import Base.Prelude Base.Fs Model.Patch Proofs.FsProofs Proofs.PatchText Proofs.PatchProofs.
Open Scope N_scope.
Open Scope list_scope.

(* an operation as a document shows it: an Add carries its `+` lines, not the joined content *)
Inductive sop :=
| SAdd (p : list N) (ls : list line)
| SDel (p : list N)
| SUpd (p : list N) (mv : option (list N)) (hs : list hunk).

Definition to_op (o : sop) : op :=
  match o with
  | SAdd p ls => Add p (add_content ls)
  | SDel p => Del p
  | SUpd p mv hs => Upd p mv hs
  end.

(* `@@`, then the before lines with `-` (45) and the after lines with `+` (43); never a context line (` `) *)
Definition render_hunk (h : hunk) : list line :=
  [64; 64] :: map (cons 45) (h_before h) ++ map (cons 43) (h_after h).
Definition render_sop (o : sop) : list line :=
  match o with
  | SAdd p ls => (H_ADD ++ p) :: map (cons 43) ls
  | SDel p => [H_DEL ++ p]
  | SUpd p mv hs =>
    (H_UPD ++ p) :: match mv with Some q => [H_MOVE ++ q] | None => [] end ++ concat (map render_hunk hs)
  end.
Definition render_lines (ops : list sop) : list line := H_BEGIN :: concat (map render_sop ops) ++ [H_END].
Definition render (ops : list sop) : list N := intercalate [10] (render_lines ops).

(* a line str::lines hands back unchanged: no LF, and no CR at the end (lines strips one) *)
Definition line_ok (l : line) : Prop := ~ In 10 l /\ last l 0 <> 13.
Definition path_ok (p : list N) : Prop := parse_rel_path p = Some p /\ line_ok p.
Definition hunk_ok (h : hunk) : Prop :=
  h_before h ++ h_after h <> [] /\ Forall line_ok (h_before h) /\ Forall line_ok (h_after h).
Definition sop_ok (o : sop) : Prop :=
  match o with
  | SAdd p ls => path_ok p /\ Forall line_ok ls
  | SDel p => path_ok p
  | SUpd p mv hs => path_ok p /\ match mv with Some q => path_ok q | None => True end /\ hs <> [] /\ Forall hunk_ok hs
  end.

(* a and b differ at a common position, so neither is a prefix of the other *)
Fixpoint conflict (a b : list N) : bool :=
  match a, b with
  | x :: a', y :: b' => negb (x =? y) || conflict a' b'
  | _, _ => false
  end.

Lemma strip_prefix_app a s : strip_prefix a (a ++ s) = Some s.
Proof. induction a as [|x a IH]; cbn [strip_prefix app]; [reflexivity|]. rewrite N.eqb_refl. exact IH. Qed.

Lemma conflict_strip a : forall b s, conflict a b = true -> strip_prefix a (b ++ s) = None.
Proof.
  induction a as [|x a IH]; intros [|y b] s; cbn [conflict strip_prefix app]; try discriminate.
  destruct (x =? y); cbn [negb orb]; [apply IH|reflexivity].
Qed.

Lemma conflict_neq a : forall b s, conflict a b = true -> lN_eqb (b ++ s) a = false.
Proof.
  unfold lN_eqb. induction a as [|x a IH]; intros [|y b] s; cbn [conflict list_eqb app]; try discriminate.
  rewrite (N.eqb_sym y x). destruct (x =? y); cbn [negb orb andb]; [apply IH|reflexivity].
Qed.

Lemma starts_with_more a : forall s t, starts_with a s = true -> starts_with a (s ++ t) = true.
Proof.
  unfold starts_with. induction a as [|x a IH]; intros [|y s] t; cbn [strip_prefix app]; try reflexivity; try discriminate.
  destruct (x =? y); [apply IH|discriminate].
Qed.

Lemma H_END_stars : H_END = H_STARS ++ skipn 4 H_END. Proof. reflexivity. Qed.

Lemma no_stars c l : c <> 42 -> starts_with H_STARS (c :: l) = false.
Proof.
  intros H. unfold starts_with. change H_STARS with [42; 42; 42; 32]. cbn [strip_prefix].
  destruct (42 =? c) eqn:E; [lia|reflexivity].
Qed.
Lemma no_atat c l : c <> 64 -> starts_with [64; 64] (c :: l) = false.
Proof. intros H. unfold starts_with. cbn [strip_prefix]. destruct (64 =? c) eqn:E; [lia|reflexivity]. Qed.

Lemma step_top_add acc p : parse_rel_path p = Some p -> step_top acc (H_ADD ++ p) = PAdd acc p [].
Proof.
  intros P. unfold step_top. rewrite (conflict_neq H_END H_ADD p eq_refl).
  rewrite strip_prefix_app, P. reflexivity.
Qed.
Lemma step_top_del acc p : parse_rel_path p = Some p -> step_top acc (H_DEL ++ p) = PTop (acc ++ [Del p]).
Proof.
  intros P. unfold step_top. rewrite (conflict_neq H_END H_DEL p eq_refl).
  rewrite (conflict_strip H_ADD H_DEL p eq_refl). rewrite strip_prefix_app, P. reflexivity.
Qed.
Lemma step_top_upd acc p : parse_rel_path p = Some p -> step_top acc (H_UPD ++ p) = PUpd0 acc p.
Proof.
  intros P. unfold step_top. rewrite (conflict_neq H_END H_UPD p eq_refl).
  rewrite (conflict_strip H_ADD H_UPD p eq_refl), (conflict_strip H_DEL H_UPD p eq_refl).
  rewrite strip_prefix_app, P. reflexivity.
Qed.
Lemma step_top_end acc : step_top acc H_END = PDone acc.
Proof. reflexivity. Qed.

Lemma add_lines acc p tail : forall ls content,
  fold_left pstep (map (cons 43) ls ++ tail) (PAdd acc p content) = fold_left pstep tail (PAdd acc p (content ++ ls)).
Proof.
  induction ls as [|l ls IH]; intros content; cbn [map app fold_left].
  - rewrite app_nil_r. reflexivity.
  - cbn [pstep]. rewrite no_stars by discriminate. rewrite IH, <- app_assoc. reflexivity.
Qed.

Lemma hunk_lines acc p mv hs tail (c : N) : c = 45 \/ c = 43 -> forall ls cur,
  fold_left pstep (map (cons c) ls ++ tail) (PUpd acc p mv hs cur) =
  fold_left pstep tail (PUpd acc p mv hs (cur ++ map (pair c) ls)).
Proof.
  intros Hc. induction ls as [|l ls IH]; intros cur; cbn [map app fold_left].
  - rewrite app_nil_r. reflexivity.
  - cbn [pstep]. unfold step_upd. rewrite no_stars by lia. rewrite no_atat by lia.
    assert ((c =? 32) || (c =? 43) || (c =? 45) = true) as -> by (destruct Hc; subst; reflexivity).
    rewrite IH, <- app_assoc. reflexivity.
Qed.

Definition enc_hunk (h : hunk) : list (N * line) := map (pair 45) (h_before h) ++ map (pair 43) (h_after h).

Lemma filter_map_const {A B} (f : A -> B) (P : B -> bool) (b : bool) (l : list A) :
  (forall x, P (f x) = b) -> filter P (map f l) = if b then map f l else [].
Proof.
  intros H. induction l as [|x l IH]; cbn [map filter]; [destruct b; reflexivity|]. rewrite H, IH. destruct b; reflexivity.
Qed.

Lemma mk_hunk_enc h : mk_hunk (enc_hunk h) = h.
Proof.
  destruct h as [b a]. unfold mk_hunk, enc_hunk. cbn [h_before h_after]. rewrite !filter_app.
  rewrite (filter_map_const (pair 45) _ true), (filter_map_const (pair 43) (fun pl => negb (fst pl =? 43)) false),
    (filter_map_const (pair 45) (fun pl => negb (fst pl =? 45)) false), (filter_map_const (pair 43) _ true)
    by reflexivity.
  rewrite app_nil_r. cbn [app]. rewrite !map_map. cbn [snd]. rewrite !map_id. reflexivity.
Qed.

Lemma enc_hunk_nonnil h : h_before h ++ h_after h <> [] -> enc_hunk h <> [].
Proof.
  unfold enc_hunk. destruct (h_before h); destruct (h_after h); cbn; try discriminate. congruence.
Qed.

Lemma one_hunk acc p mv hs cur h tail :
  fold_left pstep (render_hunk h ++ tail) (PUpd acc p mv hs cur) =
  fold_left pstep tail (PUpd acc p mv (flush_cur hs cur) (enc_hunk h)).
Proof.
  unfold render_hunk. cbn [app fold_left pstep]. unfold step_upd at 1.
  rewrite no_stars by discriminate. change (starts_with [64; 64] [64; 64]) with true. cbn iota.
  rewrite <- app_assoc. rewrite hunk_lines by (left; reflexivity). rewrite hunk_lines by (right; reflexivity).
  reflexivity.
Qed.

Lemma flush_enc hs h : hunk_ok h -> flush_cur hs (enc_hunk h) = hs ++ [h].
Proof.
  intros [NE _]. unfold flush_cur. pose proof (enc_hunk_nonnil h NE) as N.
  destruct (enc_hunk h) eqn:E; [congruence|]. rewrite <- E, mk_hunk_enc. reflexivity.
Qed.

Lemma all_hunks acc p mv tail : forall hs hs0 cur0, Forall hunk_ok hs ->
  exists hsf curf,
    fold_left pstep (concat (map render_hunk hs) ++ tail) (PUpd acc p mv hs0 cur0) =
    fold_left pstep tail (PUpd acc p mv hsf curf) /\
    flush_cur hsf curf = flush_cur hs0 cur0 ++ hs.
Proof.
  induction hs as [|h hs IH]; intros hs0 cur0 F.
  - exists hs0, cur0. split; [reflexivity|rewrite app_nil_r; reflexivity].
  - inversion F as [|? ? Fh Fr]; subst. cbn [map concat]. rewrite <- app_assoc. rewrite one_hunk.
    destruct (IH (flush_cur hs0 cur0) (enc_hunk h) Fr) as [hsf [curf [E1 E2]]].
    exists hsf, curf. split; [exact E1|]. rewrite E2, (flush_enc _ _ Fh), <- app_assoc. reflexivity.
Qed.

(* the first "@@" of an update without a move is read in state PUpd0; it has the same effect *)
Lemma upd0_first_hunk acc p h rest :
  fold_left pstep (render_hunk h ++ rest) (PUpd0 acc p) = fold_left pstep (render_hunk h ++ rest) (PUpd acc p None [] []).
Proof. unfold render_hunk. cbn [app fold_left]. reflexivity. Qed.

Lemma op_step o acc l rest : sop_ok o -> starts_with H_STARS l = true ->
  fold_left pstep (render_sop o ++ l :: rest) (PTop acc) = fold_left pstep rest (step_top (acc ++ [to_op o]) l).
Proof.
  intros OK ST. destruct o as [p ls|p|p mv hs]; cbn [render_sop to_op sop_ok] in *.
  - destruct OK as [[P _] _]. cbn [app fold_left pstep]. rewrite (step_top_add acc p P).
    rewrite add_lines. cbn [fold_left pstep app]. rewrite ST. reflexivity.
  - destruct OK as [P _]. cbn [app fold_left pstep]. rewrite (step_top_del acc p P). reflexivity.
  - destruct OK as [[P _] [MV [NE F]]]. cbn [app fold_left pstep]. rewrite (step_top_upd acc p P).
    assert (G : forall mv', fold_left pstep (concat (map render_hunk hs) ++ l :: rest) (PUpd acc p mv' [] []) =
                           fold_left pstep rest (step_top (acc ++ [Upd p mv' hs]) l)).
    { intros mv'. destruct (all_hunks acc p mv' (l :: rest) hs [] [] F) as [hsf [curf [E1 E2]]].
      rewrite E1. cbn [fold_left pstep]. unfold step_upd. rewrite ST. rewrite E2. cbn [flush_cur app].
      destruct hs as [|h0 hs']; [congruence|reflexivity]. }
    destruct mv as [q|].
    + destruct MV as [Q _]. cbn [app fold_left pstep]. rewrite strip_prefix_app, Q.
      apply G.
    + cbn [app]. destruct hs as [|h hs']; [congruence|]. cbn [map concat]. rewrite <- app_assoc.
      rewrite upd0_first_hunk. rewrite app_assoc. change (render_hunk h ++ concat (map render_hunk hs')) with (concat (map render_hunk (h :: hs'))).
      apply G.
Qed.

Lemma next_header ops : exists l rest,
  concat (map render_sop ops) ++ [H_END] = l :: rest /\ starts_with H_STARS l = true.
Proof.
  destruct ops as [|o ops]; [exists H_END, []; split; reflexivity|].
  cbn [map concat]. destruct o as [p ls|p|p mv hs]; cbn [render_sop app]; eexists; eexists; (split; [reflexivity|]).
  all: apply starts_with_more; reflexivity.
Qed.

Lemma body_fold : forall ops acc, Forall sop_ok ops ->
  fold_left pstep (concat (map render_sop ops) ++ [H_END]) (PTop acc) = PDone (acc ++ map to_op ops).
Proof.
  induction ops as [|o ops IH]; intros acc F.
  - cbn [map concat app fold_left pstep]. rewrite step_top_end, app_nil_r. reflexivity.
  - inversion F as [|? ? Fo Fr]; subst. cbn [map concat]. rewrite <- app_assoc.
    destruct (next_header ops) as [l [rest [E ST]]]. rewrite E.
    transitivity (fold_left pstep rest (step_top (acc ++ [to_op o]) l)); [apply op_step; assumption|].
    change (fold_left pstep rest (step_top (acc ++ [to_op o]) l)) with (fold_left pstep (l :: rest) (PTop (acc ++ [to_op o]))).
    rewrite <- E. rewrite (IH _ Fr). rewrite <- app_assoc. reflexivity.
Qed.

Lemma lines_aux_line : forall l cur rest, ~ In 10 l ->
  lines_aux cur (l ++ 10 :: rest) = strip_cr (rev cur ++ l) :: lines_aux [] rest.
Proof.
  induction l as [|x l IH]; intros cur rest NI; cbn [app lines_aux].
  - change (10 =? 10) with true. cbn iota. rewrite app_nil_r. reflexivity.
  - destruct (x =? 10) eqn:E; [exfalso; apply NI; left; lia|].
    rewrite IH by (intros I; apply NI; right; exact I). cbn [rev]. rewrite <- app_assoc. reflexivity.
Qed.

Lemma lines_aux_end : forall l cur, ~ In 10 l -> rev cur ++ l <> [] -> lines_aux cur l = [rev cur ++ l].
Proof.
  induction l as [|x l IH]; intros cur NI NE; cbn [lines_aux].
  - rewrite app_nil_r in *. destruct cur; [cbn in NE; congruence|reflexivity].
  - destruct (x =? 10) eqn:E; [exfalso; apply NI; left; lia|].
    rewrite IH; [cbn [rev]; rewrite <- app_assoc; reflexivity|intros I; apply NI; right; exact I|].
    cbn [rev]. rewrite <- app_assoc. cbn [app]. intros Z. apply app_eq_nil in Z. destruct Z; discriminate.
Qed.

Lemma str_lines_intercalate lst : ~ In 10 lst -> lst <> [] -> forall ls,
  Forall line_ok ls -> str_lines (intercalate [10] (ls ++ [lst])) = ls ++ [lst].
Proof.
  intros NL NE. unfold str_lines. induction ls as [|x ls IH]; intros F.
  - cbn [app intercalate]. rewrite lines_aux_end; [reflexivity|exact NL|exact NE].
  - inversion F as [|? ? [N10 N13] Fr]; subst. cbn [app].
    destruct (ls ++ [lst]) as [|y r] eqn:E; [destruct ls; discriminate|].
    change (intercalate [10] (x :: y :: r)) with (x ++ 10 :: intercalate [10] (y :: r)).
    rewrite lines_aux_line by exact N10. cbn [rev app]. rewrite (strip_cr_id x N13). f_equal. apply IH. exact Fr.
Qed.

Lemma line_ok_cons c l : c <> 10 -> c <> 13 -> line_ok l -> line_ok (c :: l).
Proof.
  intros Hc Hc' [N10 N13]. split.
  - intros [E|I]; [congruence|contradiction].
  - destruct l as [|y r]; [exact Hc'|exact N13].
Qed.

Lemma line_ok_header (h p : list N) : ~ In 10 h -> p <> [] -> line_ok p -> line_ok (h ++ p).
Proof.
  intros NH NE [N10 N13]. split.
  - intros I. apply in_app_or in I. destruct I; contradiction.
  - destruct (exists_last NE) as [p' [z ->]]. rewrite app_assoc, last_last. rewrite last_last in N13. exact N13.
Qed.

Lemma path_nonnil p : parse_rel_path p = Some p -> p <> [].
Proof. intros H. exact (proj1 (parse_rel_path_safe p p H)). Qed.

Lemma notin10 h : existsb (N.eqb 10) h = false -> ~ In 10 h.
Proof.
  intros H I. discriminate (existsb_false _ _ _ H I).
Qed.

Lemma Forall_map_cons c ls : c <> 10 -> c <> 13 -> Forall line_ok ls -> Forall line_ok (map (cons c) ls).
Proof.
  intros H1 H2 F. induction F as [|l ls Hl F IH]; cbn [map]; constructor; [apply line_ok_cons; assumption|exact IH].
Qed.

Lemma header_ok h p : existsb (N.eqb 10) h = false -> path_ok p -> line_ok (h ++ p).
Proof. intros H [P L]. apply line_ok_header; [apply notin10; exact H|apply path_nonnil; exact P|exact L]. Qed.

Lemma atat_ok : line_ok [64; 64].
Proof. split; [apply notin10; reflexivity|cbn; discriminate]. Qed.

Lemma render_hunk_ok h : hunk_ok h -> Forall line_ok (render_hunk h).
Proof.
  intros [_ [B A]]. unfold render_hunk. constructor; [exact atat_ok|]. apply Forall_app. split.
  - apply Forall_map_cons; [discriminate|discriminate|exact B].
  - apply Forall_map_cons; [discriminate|discriminate|exact A].
Qed.

Lemma Forall_concat_map {A} (P : line -> Prop) (g : A -> list line) (l : list A) (Q : A -> Prop) :
  (forall x, Q x -> Forall P (g x)) -> Forall Q l -> Forall P (concat (map g l)).
Proof.
  intros H F. induction F as [|x l Hx F IH]; cbn [map concat]; [constructor|].
  apply Forall_app. split; [apply H; exact Hx|exact IH].
Qed.

Lemma render_sop_ok o : sop_ok o -> Forall line_ok (render_sop o).
Proof.
  destruct o as [p ls|p|p mv hs]; cbn [sop_ok render_sop].
  - intros [P F]. constructor; [apply header_ok; [reflexivity|exact P]|].
    apply Forall_map_cons; [discriminate|discriminate|exact F].
  - intros P. constructor; [apply header_ok; [reflexivity|exact P]|constructor].
  - intros [P [MV [_ F]]]. constructor; [apply header_ok; [reflexivity|exact P]|].
    apply Forall_app. split.
    + destruct mv as [q|]; [constructor; [apply header_ok; [reflexivity|exact MV]|constructor]|constructor].
    + eapply Forall_concat_map; [apply render_hunk_ok|exact F].
Qed.

Theorem parse_render ops : Forall sop_ok ops -> parse_patch (render ops) = Some (map to_op ops).
Proof.
  intros F. unfold parse_patch, render, render_lines.
  rewrite app_comm_cons.
  rewrite str_lines_intercalate.
  - cbn [app]. assert (lN_eqb H_BEGIN H_BEGIN = true) as -> by reflexivity.
    rewrite (body_fold ops [] F). reflexivity.
  - apply notin10. reflexivity.
  - discriminate.
  - constructor.
    + split; [apply notin10; reflexivity|vm_compute; discriminate].
    + eapply Forall_concat_map; [apply render_sop_ok|exact F].
Qed.

(* a concrete document: add, update with move and two hunks, delete *)
Require Import Coq.Strings.String.
Definition demo_ops : list sop :=
  [SAdd (bs "dir/new.txt") [bs "first"; []; bs "  third "];
   SUpd (bs "a.txt") (Some (bs "b/c.txt")) [{| h_before := [bs "one"]; h_after := [bs "ONE"; bs "one and a half"] |};
                                             {| h_before := []; h_after := [bs "tail"] |}];
   SDel (bs "old.txt")].
Lemma demo_ok : Forall sop_ok demo_ops.
Proof.
  repeat constructor; try (apply notin10; reflexivity); try (vm_compute; discriminate); try discriminate.
Qed.
