(* Lemmas about the shared log model: the validator decides `Valid`, appending one frame, byte view. *)
From RipV Require Import Base.Prelude Model.Frames Model.Log.

Lemma skind_eqb_spec a b : skind_eqb a b = true <-> a = b.
Proof. destruct a, b; cbn; split; intros H; try reflexivity; try discriminate. Qed.

Lemma skind_eqb_refl a : skind_eqb a a = true.
Proof. destruct a; reflexivity. Qed.

Lemma in_stream_self f : in_stream (fkind f) (sid f) f = true.
Proof. unfold in_stream. rewrite skind_eqb_refl, N.eqb_refl. reflexivity. Qed.

Lemma in_stream_true k s f : in_stream k s f = true <-> fkind f = k /\ sid f = s.
Proof. unfold in_stream. rewrite andb_true_iff, skind_eqb_spec, N.eqb_eq. tauto. Qed.

Lemma in_stream_other k s f : (fkind f, sid f) <> (k, s) -> in_stream k s f = false.
Proof.
  intros H. destruct (in_stream k s f) eqn:E; [|reflexivity].
  apply in_stream_true in E. destruct E as [<- <-]. congruence.
Qed.

Lemma stream_app k s a b : stream k s (a ++ b) = stream k s a ++ stream k s b.
Proof. unfold stream. apply filter_app. Qed.

Lemma stream_snoc_same f l : stream (fkind f) (sid f) (l ++ [f]) = stream (fkind f) (sid f) l ++ [f].
Proof. rewrite stream_app. unfold stream at 2. cbn [filter]. rewrite in_stream_self. reflexivity. Qed.

Lemma stream_snoc_other k s f l :
  (fkind f, sid f) <> (k, s) -> stream k s (l ++ [f]) = stream k s l.
Proof.
  intros H. rewrite stream_app. unfold stream at 2. cbn [filter].
  rewrite in_stream_other by exact H. apply app_nil_r.
Qed.

Lemma stream_In k s l f : In f (stream k s l) <-> In f l /\ fkind f = k /\ sid f = s.
Proof. unfold stream. rewrite filter_In, in_stream_true. tauto. Qed.

Lemma nseq_length st n : length (nseq st n) = n.
Proof. revert st; induction n as [|n IH]; intros st; cbn [nseq length]; [reflexivity|]. rewrite IH. reflexivity. Qed.

Lemma nseq_app a n m : nseq a (n + m) = nseq a n ++ nseq (a + N.of_nat n) m.
Proof.
  revert a; induction n as [|n IH]; intros a.
  - cbn [Nat.add nseq app]. f_equal. lia.
  - cbn [Nat.add nseq app]. f_equal. rewrite IH. do 2 f_equal. lia.
Qed.

Lemma nseq_snoc st n : nseq st (S n) = nseq st n ++ [st + N.of_nat n].
Proof. rewrite <- Nat.add_1_r. apply nseq_app. Qed.

Lemma nseq_nth st n i : (i < n)%nat -> nth_error (nseq st n) i = Some (st + N.of_nat i).
Proof.
  revert st i; induction n as [|n IH]; intros st i Hi; [lia|].
  destruct i as [|i]; cbn [nseq nth_error].
  - f_equal. lia.
  - rewrite IH by lia. f_equal. lia.
Qed.

Lemma nseq_In st n x : In x (nseq st n) <-> st <= x < st + N.of_nat n.
Proof.
  revert st; induction n as [|n IH]; intros st; cbn [nseq In].
  - split; [tauto|lia].
  - rewrite IH. lia.
Qed.

Lemma nseq_NoDup st n : NoDup (nseq st n).
Proof.
  revert st; induction n as [|n IH]; intros st; cbn [nseq]; constructor.
  - rewrite nseq_In. lia.
  - apply IH.
Qed.

(* a numbered list and one more frame at its end *)
Lemma numbered_snoc (fs : list frame) f a :
  map seq (fs ++ [f]) = nseq a (length (fs ++ [f])) <-> map seq fs = nseq a (length fs) /\ seq f = a + nlen fs.
Proof.
  rewrite map_app, app_length, Nat.add_1_r, nseq_snoc. unfold nlen. cbn [map]. split.
  - intros H. apply app_inj_tail in H. exact H.
  - intros [-> ->]. reflexivity.
Qed.

Lemma validate_from_spec l : forall m,
  validate_from m l = true <->
  (forall k s, map seq (stream k s l) = nseq (m k s) (length (stream k s l))).
Proof.
  induction l as [|f r IH]; intros m.
  - cbn. split; [intros _ k s; reflexivity | reflexivity].
  - cbn [validate_from]. destruct (seq f =? m (fkind f) (sid f)) eqn:E.
    + apply N.eqb_eq in E. rewrite IH.
      (* stream by stream, the expectations after `f` are met by `r` iff those before it are met by `f :: r` *)
      assert (Hks : forall k s,
        map seq (stream k s r) = nseq (exp_bump m (fkind f) (sid f) k s) (length (stream k s r))
        <-> map seq (stream k s (f :: r)) = nseq (m k s) (length (stream k s (f :: r)))).
      { intros k s. unfold stream, exp_bump. cbn [filter].
        change (skind_eqb (fkind f) k && (sid f =? s)) with (in_stream k s f).
        destruct (in_stream k s f) eqn:Ei; [|reflexivity].
        apply in_stream_true in Ei. destruct Ei as [<- <-]. cbn [map length nseq]. rewrite E.
        split; [intros ->; reflexivity|intros H; injection H; auto]. }
      split; intros H k s; apply Hks, H.
    + split; [discriminate|]. intros H. specialize (H (fkind f) (sid f)). unfold stream in H.
      cbn [filter] in H. rewrite in_stream_self in H. cbn [map length nseq] in H. injection H as H0 _.
      apply N.eqb_neq in E. congruence.
Qed.

Theorem validate_spec l : validate l = true <-> Valid l.
Proof. unfold validate, Valid. rewrite validate_from_spec. unfold exp0. reflexivity. Qed.

Lemma Valid_nil : Valid [].
Proof. intros k s. reflexivity. Qed.

(* appending one frame at the end of the file keeps every stream gap-free iff the frame carries
   the number of frames its own stream already has *)
Lemma Valid_snoc l f :
  Valid (l ++ [f]) <-> Valid l /\ seq f = next_of (fkind f) (sid f) l.
Proof.
  unfold Valid, next_of. split.
  - intros H. split.
    + intros k s. specialize (H k s). rewrite stream_app in H. change (stream k s [f]) with (if in_stream k s f then [f] else []) in H.
      destruct (in_stream k s f); [apply numbered_snoc in H; tauto|rewrite app_nil_r in H; exact H].
    + specialize (H (fkind f) (sid f)). rewrite stream_snoc_same in H. apply numbered_snoc in H. apply H.
  - intros [H Hs] k s. rewrite stream_app. change (stream k s [f]) with (if in_stream k s f then [f] else []).
    destruct (in_stream k s f) eqn:Ei.
    + apply in_stream_true in Ei. destruct Ei as [<- <-]. apply numbered_snoc. split; [apply H|exact Hs].
    + rewrite app_nil_r. apply H.
Qed.

Lemma Valid_stream_nth l k s i f :
  Valid l -> nth_error (stream k s l) i = Some f -> seq f = N.of_nat i.
Proof.
  intros H Hn. pose proof (map_nth_error seq _ _ Hn) as Hm. rewrite (H k s) in Hm.
  assert (Hi : (i < length (stream k s l))%nat) by (apply nth_error_Some; congruence).
  rewrite nseq_nth in Hm by exact Hi. inversion Hm. lia.
Qed.

Lemma Valid_seq_lt l k s f : Valid l -> In f (stream k s l) -> seq f < next_of k s l.
Proof.
  intros H Hin. apply (in_map seq) in Hin. rewrite (H k s), nseq_In in Hin.
  unfold next_of, nlen. lia.
Qed.

Lemma Valid_no_duplicate l k s : Valid l -> NoDup (map seq (stream k s l)).
Proof. intros H. rewrite (H k s). apply nseq_NoDup. Qed.

Lemma last_seq_snoc fs f : last_seq (fs ++ [f]) = Some (seq f).
Proof. unfold last_seq. rewrite rev_app_distr. reflexivity. Qed.

Lemma last_seq_nil : last_seq [] = None.
Proof. reflexivity. Qed.

(* on a valid log the tail of a non-empty stream names the next seq *)
Lemma Valid_last_seq l k s q :
  Valid l -> last_seq (stream k s l) = Some q -> q + 1 = next_of k s l.
Proof.
  intros H Hl. specialize (H k s). unfold next_of, nlen.
  destruct (stream k s l) as [|x r] using rev_ind; [discriminate|].
  rewrite last_seq_snoc in Hl. injection Hl as <-. apply numbered_snoc in H. destruct H as [_ ->].
  rewrite app_length. unfold nlen. cbn [length]. lia.
Qed.

Lemma last_seq_none_iff fs : last_seq fs = None <-> fs = [].
Proof.
  destruct fs as [|x r] using rev_ind; [split; reflexivity|].
  rewrite last_seq_snoc. split; [discriminate|]. intros E. destruct r; discriminate.
Qed.

Lemma log_bytes_app enc a b : log_bytes enc (a ++ b) = log_bytes enc a ++ log_bytes enc b.
Proof. unfold log_bytes. rewrite map_app, concat_app. reflexivity. Qed.

Lemma log_bytes_prefix enc a b : is_prefix_of (log_bytes enc a) (log_bytes enc (a ++ b)).
Proof. exists (log_bytes enc b). apply log_bytes_app. Qed.

Lemma split_lines_aux_line cur ln rest :
  ~ In 10 ln ->
  split_lines_aux cur (ln ++ 10 :: rest) =
  let '(ls, t) := split_lines_aux [] rest in ((rev cur ++ ln) :: ls, t).
Proof.
  revert cur; induction ln as [|x ln IH]; intros cur Hn.
  - cbn [app split_lines_aux]. rewrite N.eqb_refl. rewrite app_nil_r. reflexivity.
  - cbn [app split_lines_aux]. destruct (x =? 10) eqn:E.
    + apply N.eqb_eq in E. subst. exfalso. apply Hn. left. reflexivity.
    + rewrite IH by (intros Hin; apply Hn; right; exact Hin).
      cbn [rev]. rewrite <- app_assoc. reflexivity.
Qed.

(* the file splits back into exactly the printed frames, nothing left over: every line of the
   log is a whole, newline-terminated frame *)
Lemma split_lines_log_bytes enc l :
  (forall f, ~ In 10 (enc f)) -> split_lines (log_bytes enc l) = (map enc l, []).
Proof.
  intros Hn. unfold split_lines. induction l as [|f r IH]; [reflexivity|].
  unfold log_bytes. cbn [map concat]. unfold encode_line at 1. rewrite <- app_assoc.
  cbn [app]. rewrite split_lines_aux_line by apply Hn.
  change (concat (map (encode_line enc) r)) with (log_bytes enc r). rewrite IH. reflexivity.
Qed.
