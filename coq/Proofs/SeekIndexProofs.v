(* C04 — the seek-index lookup and the full-sidecar window read through it (Model/SeekIndex.v). *)
From RipV Require Import Base.Prelude Model.Compile Proofs.CompileProofs Model.CacheCompile Proofs.CacheCompileProofs Model.SeekIndex.

Lemma best_entry_some : forall es t b e, best_entry es t b = Some e -> b = Some e \/ In e es.
Proof.
  induction es as [|a r IH]; intros t b e H; cbn [best_entry] in H.
  - left; exact H.
  - destruct (fst a <=? t) eqn:E.
    + apply IH in H. destruct H as [H|H]; [right; left; congruence | right; right; exact H].
    + left; exact H.
Qed.

Lemma best_entry_acc_some : forall es t a, exists e, best_entry es t (Some a) = Some e.
Proof.
  induction es as [|x r IH]; intros t a; cbn [best_entry].
  - eauto.
  - destruct (fst x <=? t); [apply IH | eauto].
Qed.

Lemma best_entry_le : forall es t b e,
  best_entry es t b = Some e -> (forall e0, b = Some e0 -> fst e0 <= t) -> fst e <= t.
Proof.
  induction es as [|a r IH]; intros t b e H Hb; cbn [best_entry] in H.
  - apply Hb; exact H.
  - destruct (fst a <=? t) eqn:E.
    + eapply IH; [exact H|]. intros e0 He0. inversion He0; subst. lia.
    + apply Hb; exact H.
Qed.

Lemma sorted_from_ge : forall es lo e, sorted_from lo es = true -> In e es -> lo <= fst e.
Proof.
  induction es as [|a r IH]; intros lo e Hs Hin; [destruct Hin|].
  cbn [sorted_from] in Hs. apply andb_true_iff in Hs. destruct Hs as [H1 H2].
  destruct Hin as [->|Hin]; [lia|]. specialize (IH _ _ H2 Hin). lia.
Qed.

Lemma sorted_from_weaken : forall es lo lo', lo' <= lo -> sorted_from lo es = true -> sorted_from lo' es = true.
Proof.
  destruct es as [|a r]; intros lo lo' Hle Hs; [reflexivity|].
  cbn [sorted_from] in *. apply andb_true_iff in Hs. destruct Hs as [H1 H2].
  apply andb_true_iff; split; [lia | exact H2].
Qed.

(* the entry found is the GREATEST with seq <= target: every entry at or below the target is at or below it *)
Lemma best_entry_greatest : forall es lo t b e',
  sorted_from lo es = true -> In e' es -> fst e' <= t ->
  exists e, best_entry es t b = Some e /\ In e es /\ fst e' <= fst e.
Proof.
  induction es as [|a r IH]; intros lo t b e' Hs Hin Hle; [destruct Hin|].
  cbn [sorted_from] in Hs. apply andb_true_iff in Hs. destruct Hs as [H1 H2].
  cbn [best_entry].
  destruct Hin as [->|Hin].
  - replace (fst e' <=? t) with true by lia.
    destruct (best_entry_acc_some r t e') as [e He]. exists e. split; [exact He|].
    apply best_entry_some in He. destruct He as [He|He].
    + inversion He; subst. split; [left; reflexivity | lia].
    + split; [right; exact He|]. pose proof (sorted_from_ge _ _ _ H2 He). lia.
  - pose proof (sorted_from_ge _ _ _ H2 Hin) as Hge.
    replace (fst a <=? t) with true by lia.
    destruct (IH (fst a + 1) t (Some a) e' H2 Hin Hle) as [e [He [Hi Hl]]].
    exists e. split; [exact He|]. split; [right; exact Hi | exact Hl].
Qed.

Lemma best_entry_none : forall es lo t e',
  sorted_from lo es = true -> best_entry es t None = None -> In e' es -> t < fst e'.
Proof.
  intros es lo t e' Hs Hn Hin.
  destruct (N.le_gt_cases (fst e') t) as [Hle|Hgt]; [|exact Hgt].
  destruct (best_entry_greatest es lo t None e' Hs Hin Hle) as [e [He _]]. congruence.
Qed.

(* on a contiguous log position = seq, so a seek to a line and a read up to a line are filters by seq *)
Lemma contig_split : forall k l c, contig_from c l = true ->
  firstn k l = filter (fun f => fseq f <? c + N.of_nat k) l
  /\ skipn k l = filter (fun f => c + N.of_nat k <=? fseq f) l
  /\ contig_from (c + N.of_nat k) (skipn k l) = true.
Proof.
  induction k as [|k IH]; intros l c Hc.
  - cbn [N.of_nat firstn skipn]. rewrite N.add_0_r. pose proof (contig_bounds _ _ Hc) as B. rewrite Forall_forall in B.
    split; [|split; [|exact Hc]]; symmetry.
    + apply filter_none. intros f F. apply N.ltb_ge, B, F.
    + apply filter_all. intros f F. apply N.leb_le, B, F.
  - destruct l as [|x r]; [now repeat split|]. apply contig_cons in Hc. destruct Hc as [H1 H2].
    replace (c + N.of_nat (S k)) with (c + 1 + N.of_nat k) by lia.
    destruct (IH r (c + 1) H2) as (Hf & Hs & Hk). cbn [firstn skipn filter]. rewrite H1.
    replace (c <? c + 1 + N.of_nat k) with true by lia. replace (c + 1 + N.of_nat k <=? c) with false by lia.
    now rewrite <- Hf.
Qed.

Lemma index_from_in : forall l stride pos b s o,
  contig_from b l = true -> In (s, o) (index_from stride pos l) -> b <= s /\ o = pos + (s - b).
Proof.
  induction l as [|x r IH]; intros stride pos b s o Hc Hin; [destruct Hin|].
  apply contig_cons in Hc. destruct Hc as [H1 H2].
  cbn [index_from] in Hin. apply in_app_or in Hin. destruct Hin as [Hin|Hin].
  - destruct (fseq x mod stride =? 0); [|destruct Hin].
    destruct Hin as [Hin|[]]. inversion Hin; subst. split; lia.
  - destruct (IH _ _ _ _ _ H2 Hin) as [Ha Hb]. split; lia.
Qed.

Lemma index_from_sorted : forall l stride pos b, contig_from b l = true -> sorted_from b (index_from stride pos l) = true.
Proof.
  induction l as [|x r IH]; intros stride pos b Hc; [reflexivity|].
  apply contig_cons in Hc. destruct Hc as [H1 H2].
  cbn [index_from]. specialize (IH stride (pos + 1) (b + 1) H2).
  destruct (fseq x mod stride =? 0); cbn [app].
  - cbn [sorted_from fst]. apply andb_true_iff. split; [lia|].
    replace (fseq x + 1) with (b + 1) by lia. exact IH.
  - eapply sorted_from_weaken; [|exact IH]. lia.
Qed.

(* the lookup of the code never starts beyond the target.  An OFFSET is compared with a SEQ here: the index is built from
   line 0 of a valid stream, where the frame with seq s stands on line s (index_from_in; `snd e = fst e` in
   seek_lookup_spec) *)
Lemma best_offset_le : forall stride l t, valid_log l = true -> best_offset (seek_index stride l) t <= t.
Proof.
  intros stride l t Hv. unfold best_offset, seek_index.
  destruct (best_entry (index_from stride 0 l) t None) as [[s o]|] eqn:E; cbn [offset_of snd]; [|lia].
  pose proof (best_entry_le _ _ _ _ E) as Hle. cbn [fst] in Hle.
  assert (Hs : s <= t) by (apply Hle; intros e0 He0; discriminate).
  apply best_entry_some in E. destruct E as [E|E]; [discriminate|].
  destruct (index_from_in _ _ _ _ _ _ Hv E) as [_ Ho]. lia.
Qed.

(* boundary_pos_for_seq_v1's forward scan stops in front of the first frame beyond the cut *)
Lemma lines_upto_spec from : forall l c f, contig_from c l = true -> In f l ->
  (fseq f <? c + lines_upto from l) = (fseq f <=? from).
Proof.
  induction l as [|x r IH]; intros c f Hc Hin; [destruct Hin|].
  pose proof (contig_bounds _ _ Hc) as B. rewrite Forall_forall in B. specialize (B f Hin). cbv beta in B.
  apply contig_cons in Hc. destruct Hc as [H1 H2]. cbn [lines_upto].
  destruct (from <? fseq x) eqn:E; [lia|].
  destruct Hin as [->|Hin]; [lia|]. rewrite N.add_assoc. exact (IH (c + 1) f H2 Hin).
Qed.

(* the forward read: the frames from s to the cut that lie in front of the boundary *)
Lemma collect_spec : forall l pos b s from, contig_from pos l = true ->
  collect pos b s from l
  = filter mr_keep (filter (fun f => (fseq f <? b) && (s <=? fseq f) && (fseq f <=? from)) l).
Proof.
  induction l as [|x r IH]; intros pos b s from Hc; [reflexivity|].
  pose proof (contig_bounds _ _ Hc) as B. rewrite Forall_forall in B.
  apply contig_cons in Hc. destruct Hc as [H1 H2]. cbn [collect].
  rewrite (N.leb_antisym pos b), (N.ltb_antisym s (fseq x)), (N.ltb_antisym (fseq x) from), (IH _ b s from H2), <- H1.
  cbn [filter]. destruct (fseq x <? b) eqn:E1; cbn [negb andb].
  - destruct (s <=? fseq x); [|reflexivity]. destruct (fseq x <=? from) eqn:E3; cbn [negb andb filter]; [now destruct (mr_keep x)|].
    (* beyond the cut, and so is the rest *)
    rewrite (filter_none _ r); [reflexivity|]. intros f F. specialize (B f (or_intror F)).
    replace (fseq f <=? from) with false by lia. apply andb_false_r.
  - rewrite (filter_none _ r); [reflexivity|]. intros f F. specialize (B f (or_intror F)).
    now replace (fseq f <? b) with false by lia.
Qed.

(* THE WINDOW READ: on an intact full sidecar, with ANY lookup that never starts beyond its target, for every stride,
   limit and cut, the window is the specified one *)
Theorem seek_window_sound : forall (look : list entry -> N -> N) stride limit l from,
  valid_log l = true ->
  (forall t, look (seek_index stride l) t <= t) ->
  seek_window look stride limit l from = window_spec limit l from.
Proof.
  intros look stride limit l from Hv Hlook.
  unfold seek_window, window_spec, boundary_pos, start_seq, from_offset.
  set (es := seek_index stride l). set (o1 := look es from). pose proof (Hlook from : o1 <= from) as Ho1.
  set (b := o1 + lines_upto from (skipn (N.to_nat o1) l)).
  (* the boundary separates the frames at or before the cut from the others *)
  assert (Hb : forall f, In f l -> (fseq f <? b) = (fseq f <=? from)).
  { intros f Hin. destruct (contig_split (N.to_nat o1) l 0 Hv) as (_ & Hs & Hc). rewrite N.add_0_l, N2Nat.id in Hs, Hc.
    destruct (o1 <=? fseq f) eqn:E.
    - apply (lines_upto_spec from _ o1 f Hc). rewrite Hs. apply filter_In. split; assumption.
    - unfold b. lia. }
  replace (firstn (N.to_nat b) l) with (upto from l).
  2:{ destruct (contig_split (N.to_nat b) l 0 Hv) as (-> & _). rewrite N.add_0_l, N2Nat.id.
      symmetry. apply filter_ext_in, Hb. }
  set (s := start_seq_rev from (rev (upto from l)) limit). set (o2 := look es s). pose proof (Hlook s : o2 <= s) as Ho2.
  destruct (contig_split (N.to_nat o2) l 0 Hv) as (_ & Hs & Hc). rewrite N.add_0_l, N2Nat.id in Hs, Hc.
  rewrite (collect_spec _ o2 b s from Hc), Hs. f_equal. rewrite filter_filter_and. apply filter_ext_in. intros f Hin.
  rewrite (Hb f Hin). destruct (s <=? fseq f) eqn:E; [|now rewrite !andb_false_r].
  replace (o2 <=? fseq f) with true by lia. now destruct (fseq f <=? from).
Qed.

Theorem seek_window_correct : forall stride limit l from,
  valid_log l = true -> seek_window best_offset stride limit l from = window_spec limit l from.
Proof.
  intros stride limit l from Hv. apply seek_window_sound; [exact Hv|].
  intros t. apply best_offset_le. exact Hv.
Qed.

(* the lookup, stated on its own: on the index of an intact sidecar the entry used is at or below the target, and every entry
   at or below the target is at or below it (so the NEXT entry is beyond the target: the forward read is shorter than a stride) *)
Theorem seek_lookup_spec : forall stride l t,
  valid_log l = true ->
  match best_entry (seek_index stride l) t None with
  | Some e => In e (seek_index stride l) /\ fst e <= t /\ snd e = fst e
              /\ forall e', In e' (seek_index stride l) -> fst e' <= t -> fst e' <= fst e
  | None => forall e', In e' (seek_index stride l) -> t < fst e'
  end.
Proof.
  intros stride l t Hv. unfold seek_index.
  pose proof (index_from_sorted l stride 0 0 Hv) as Hs.
  destruct (best_entry (index_from stride 0 l) t None) as [e|] eqn:E.
  - pose proof (best_entry_some _ _ _ _ E) as Hin. destruct Hin as [Hin|Hin]; [discriminate|].
    split; [exact Hin|]. split.
    + eapply best_entry_le; [exact E|]. intros e0 He0; discriminate.
    + split.
      * destruct e as [s o]. destruct (index_from_in _ _ _ _ _ _ Hv Hin) as [_ Ho]. cbn [fst snd]. lia.
      * intros e' Hin' Hle'.
        destruct (best_entry_greatest _ 0 t None e' Hs Hin' Hle') as [e2 [He2 [_ Hl]]].
        rewrite E in He2. inversion He2; subst. exact Hl.
  - intros e' Hin'. eapply best_entry_none; [exact Hs | exact E | exact Hin'].
Qed.

(* Witnesses: stride 4, thread of 11 messages, entries 0, 4, 8. *)
Definition seqs (l : log) : list N := map fseq l.

(* every offset class relative to the stride: entry - 1, entry, entry + 1, mid-stride, last entry +- 1, the tail *)
Lemma seek_window_positions :
  seek_index 4 sw_thread = [(0, 0); (4, 4); (8, 8)]
  /\ map (fun from => seqs (seek_window best_offset 4 2 sw_thread from)) [3; 4; 5; 6; 7; 8; 9; 10]
     = [[2; 3]; [3; 4]; [4; 5]; [5; 6]; [6; 7]; [7; 8]; [8; 9]; [9; 10]]
  /\ map (fun from => seqs (window_spec 2 sw_thread from)) [3; 4; 5; 6; 7; 8; 9; 10]
     = [[2; 3]; [3; 4]; [4; 5]; [5; 6]; [6; 7]; [7; 8]; [8; 9]; [9; 10]].
Proof. vm_compute. repeat split; reflexivity. Qed.

(* the off-by-one lookup (seed C04-11): for a cut that is not an entry and lies below the last entry the read starts at
   the NEXT entry: the window is empty although the thread holds the two messages (cuts 3, 6, 7); when the cut is an entry
   or just behind one the window's first frame is looked up one entry too far instead and the older message is missing
   (cuts 4, 5, 8); only cuts whose whole window lies beyond the last entry come out right (9, 10) *)
Lemma seek_window_next_entry_refuted :
  valid_log sw_thread = true
  /\ best_offset (seek_index 4 sw_thread) 6 = 4 /\ best_offset_next (seek_index 4 sw_thread) 6 = 8
  /\ seqs (seek_window best_offset_next 4 2 sw_thread 6) = []
  /\ seqs (window_spec 2 sw_thread 6) = [5; 6]
  /\ map (fun from => seqs (seek_window best_offset_next 4 2 sw_thread from)) [3; 4; 5; 7; 8; 9; 10]
     = [[]; [4]; [4; 5]; []; [8]; [8; 9]; [9; 10]].
Proof. vm_compute. repeat split; reflexivity. Qed.

Lemma seek_window_next_entry_exists :
  exists stride limit l from, valid_log l = true
    /\ seek_window best_offset_next stride limit l from <> window_spec limit l from.
Proof.
  destruct seek_window_next_entry_refuted as (V & _ & _ & Es & Ew & _).
  exists 4, 2%nat, sw_thread, 6. split; [exact V|]. intros H. rewrite H, Ew in Es. discriminate Es.
Qed.

(* The specified window is the mr seek window: window_spec first finds the seq of the limit-th message at or below the cut
   and then filters, Compile.mr_window collects while it counts; `need` here is `limit - found` there. *)
Lemma start_seq_rev_le from b : forall rl need,
  (forall g, In g rl -> fseq g <= b) -> start_seq_rev from rl need <= b.
Proof.
  induction rl as [|f r IH]; intros need H; [apply N.le_0_l|]. cbn [start_seq_rev].
  assert (Hr : forall g, In g r -> fseq g <= b) by (intros g G; apply H; now right).
  destruct (from <? fseq f); [now apply IH|]. destruct (is_msg f); [|now apply IH].
  destruct need as [|[|n]]; [apply H; now left | apply H; now left | now apply IH].
Qed.

Lemma start_seq_rev_upto from : forall rl need,
  start_seq_rev from (filter (fun f => fseq f <=? from) rl) need = start_seq_rev from rl need.
Proof.
  induction rl as [|f r IH]; intros need; [reflexivity|]. cbn [filter start_seq_rev].
  rewrite (N.ltb_antisym (fseq f) from). destruct (fseq f <=? from) eqn:E; cbn [negb start_seq_rev]; [|apply IH].
  rewrite (N.ltb_antisym (fseq f) from), E. cbn [negb]. destruct (is_msg f); [|apply IH].
  destruct need as [|[|n]]; [reflexivity|reflexivity|apply IH].
Qed.

Lemma leb_succ_sub a b : (a <=? S b)%nat = match (a - b)%nat with S (S _) => false | _ => true end.
Proof.
  destruct (a - b)%nat as [|[|n]] eqn:D; [apply Nat.leb_le; lia | apply Nat.leb_le; lia | apply Nat.leb_gt; lia].
Qed.

Lemma window_rev_start from limit : forall l, incr l -> forall found acc,
  window_rev from (rev (filter mr_keep l)) limit found acc
  = filter mr_keep (filter (fun g => (start_seq_rev from (rev l) (limit - found) <=? fseq g) && (fseq g <=? from)) l) ++ acc.
Proof.
  induction l as [|f l IH] using rev_ind; intros Hi found acc; [reflexivity|].
  destruct (incr_app_inv _ _ Hi) as (Sl & _ & Lt). specialize (IH Sl).
  assert (Below : forall g, In g (rev l) -> fseq g <= fseq f).
  { intros g G. apply in_rev in G. apply N.lt_le_incl, (Lt g f G). now left. }
  rewrite rev_unit, !filter_app, rev_app_distr, <- app_assoc. cbn [start_seq_rev filter].
  pose proof (N.ltb_antisym (fseq f) from) as C. rewrite C. destruct (fseq f <=? from); cbn [negb] in *.
  2:{ (* beyond the cut: skipped by both *)
      rewrite andb_false_r. cbn [filter app]. destruct (mr_keep f); cbn [rev app window_rev]; rewrite ?C; apply IH. }
  rewrite andb_true_r. destruct (is_msg f) eqn:M.
  - rewrite (mr_keep_msg f M). cbn [rev app window_rev]. rewrite C, M, leb_succ_sub, IH, Nat.sub_succ_r.
    (* at the limit-th message the window starts: every older frame lies below it *)
    assert (Stop : f :: acc = filter mr_keep (filter (fun g => (fseq f <=? fseq g) && (fseq g <=? from)) l)
                              ++ filter mr_keep (if fseq f <=? fseq f then [f] else []) ++ acc).
    { rewrite N.leb_refl, (filter_none _ l).
      - cbn [filter app]. now rewrite (mr_keep_msg f M).
      - intros g G. now rewrite (proj2 (N.leb_gt _ _) (Lt g f G (or_introl eq_refl))). }
    destruct (limit - found)%nat as [|[|n]]; cbn [Nat.pred]; [exact Stop | exact Stop |].
    rewrite (proj2 (N.leb_le _ _) (start_seq_rev_le from (fseq f) (rev l) (S n) Below)).
    cbn [filter app]. now rewrite (mr_keep_msg f M).
  - rewrite (proj2 (N.leb_le _ _) (start_seq_rev_le from (fseq f) (rev l) (limit - found) Below)). cbn [filter].
    destruct (mr_keep f); cbn [rev app window_rev]; rewrite ?C, ?M; now rewrite IH.
Qed.

Lemma window_spec_mr_window limit l from : incr l -> window_spec limit l from = mr_window limit l from.
Proof.
  intros Hi. unfold window_spec, mr_window, upto.
  now rewrite (window_rev_start from limit l Hi 0 []), app_nil_r, Nat.sub_0_r, <- filter_rev, start_seq_rev_upto.
Qed.

Theorem window_spec_admissible : forall limit l from,
  incr l -> admissible_input mr_keep limit l from (window_spec limit l from).
Proof. intros limit l from Hi. rewrite (window_spec_mr_window limit l from Hi). apply mr_window_admissible. Qed.

(* the full-sidecar window with the lookup of the code meets the hypothesis the compile-input theorem makes about its window *)
Lemma full_sidecar_window_spec : forall stride limit l a,
  valid_log l = true -> WindowSpec limit l a (full_sidecar_window best_offset stride limit l a).
Proof.
  intros stride limit l a Hv evs from H. unfold full_sidecar_window in H.
  destruct (cut_point l a) as [fr|] eqn:C; [|discriminate].
  inversion H; subst evs from. clear H. split; [reflexivity|]. exists mr_keep.
  rewrite (seek_window_correct stride limit l fr Hv).
  apply window_spec_admissible. apply valid_incr. exact Hv.
Qed.

(* THE COMPILE INPUT THROUGH THE CACHES AS FOUND, with the full-sidecar window read over the seek index as the window: no
   hypothesis about the window is left *)
Theorem compile_input_transparent_seek_window (r : tail_count) (P : params) (texts : N -> N) (l : log) (a : N)
        (ks : list nat) (mr full : cfile) (stride : N) :
  tail_count_sound r = true -> valid_log l = true -> wf_refs l = true ->
  MrFaithful l mr full -> HeadFaithful l full ->
  compile_fast r P texts ks mr full (full_sidecar_window best_offset stride (p_limit P) l a) l a = compile P texts l a.
Proof.
  intros R V W Fm Fh.
  exact (compile_input_transparent r P texts l a R (valid_incr l V) W ks mr full _ Fm Fh
           (full_sidecar_window_spec stride (p_limit P) l a V)).
Qed.

(* ... and with the off-by-one lookup the loader hands the compiler an empty input where the replay has two messages *)
Lemma full_sidecar_window_next_entry_refuted :
  option_map (fun w => seqs (fst w)) (full_sidecar_window best_offset_next 4 2 sw_thread 6) = Some []
  /\ option_map (fun w => seqs (fst w)) (full_sidecar_window best_offset 4 2 sw_thread 6) = Some [5; 6]
  /\ cut_point sw_thread 6 = Some 6.
Proof. vm_compute. repeat split; reflexivity. Qed.
