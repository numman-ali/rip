(* C09 — proofs about Model/Compaction.v *)
From RipV Require Import Base.Prelude Model.Compaction.
From Coq Require Import Sorting.Sorted Sorting.Permutation.

Lemma map_flat_map_single {A B C} (f : A -> list B) (g : B -> C) (h : A -> C) (l : list A) :
  Forall (fun x => exists c, f x = [c] /\ g c = h x) l -> map g (flat_map f l) = map h l.
Proof.
  induction 1 as [|x l [c [Hf Hg]] _ IH]; cbn [flat_map map]; [reflexivity|].
  rewrite map_app, Hf, IH. cbn [map app]. rewrite Hg. reflexivity.
Qed.

Lemma in_flat_map_single {A B} (f : A -> list B) (l : list A) (c : B) :
  In c (flat_map f l) -> exists x, In x l /\ In c (f x).
Proof. intros H. apply in_flat_map in H. exact H. Qed.

(* a projection that keeps at most one element per entry, with its key, keeps the keys strictly increasing *)
Lemma sorted_flat_map {A B} (f : A -> list B) (g : A -> N) (h : B -> N) (l : list A) :
  (forall a b, In b (f a) -> f a = [b] /\ h b = g a) ->
  StronglySorted N.lt (map g l) -> StronglySorted N.lt (map h (flat_map f l)).
Proof.
  intros Hf. induction l as [|a l IH]; cbn [map flat_map]; intros H; [constructor|].
  inversion H as [|? ? Hs Ha]; subst. specialize (IH Hs).
  destruct (f a) as [|b r] eqn:E; [exact IH|].
  destruct (Hf a b) as [E' Hb]; [rewrite E; left; reflexivity|]. rewrite E in E'. injection E' as ->. cbn [app map].
  constructor; [exact IH|]. rewrite Hb. apply Forall_forall. intros y Hy.
  apply in_map_iff in Hy. destruct Hy as [b' [<- Hy]]. apply in_flat_map in Hy. destruct Hy as [a' [Ha' Hb']].
  destruct (Hf a' b' Hb') as [_ ->]. rewrite Forall_forall in Ha. apply Ha, in_map, Ha'.
Qed.

(* insertion sort, as the model spells it for plans and for histograms *)
Definition insert {A} (leb : A -> A -> bool) : A -> list A -> list A :=
  fix ins x l := match l with [] => [x] | y :: r => if leb x y then x :: l else y :: ins x r end.

Lemma insert_perm {A} (leb : A -> A -> bool) x l : Permutation (insert leb x l) (x :: l).
Proof.
  induction l as [|y l IH]; cbn [insert]; [apply Permutation_refl|].
  destruct (leb x y); [apply Permutation_refl|]. eapply perm_trans; [apply perm_skip, IH | apply perm_swap].
Qed.
Lemma isort_perm {A} (leb : A -> A -> bool) l : Permutation (fold_right (insert leb) [] l) l.
Proof.
  induction l as [|x l IH]; cbn [fold_right]; [constructor|].
  eapply perm_trans; [apply insert_perm | apply perm_skip, IH].
Qed.
Lemma isort_sorted {A} (leb : A -> A -> bool) (le : A -> A -> Prop) :
  (forall x y, if leb x y then le x y else le y x) -> (forall x y z, le x y -> le y z -> le x z) ->
  forall l, StronglySorted le (fold_right (insert leb) [] l).
Proof.
  intros Hleb Htrans. induction l as [|x l IH]; cbn [fold_right]; [constructor|].
  induction IH as [|y r Hs IHr Hy]; cbn [insert]; [constructor; constructor|].
  pose proof (Hleb x y) as E. destruct (leb x y).
  - constructor; [constructor; assumption|]. constructor; [exact E|].
    eapply Forall_impl; [|exact Hy]. intros z. apply Htrans, E.
  - constructor; [exact IHr|]. eapply Permutation_Forall; [apply Permutation_sym, insert_perm|].
    constructor; [exact E | exact Hy].
Qed.

(* the multipliers K, K-1, … , at most n of them, all >= 1 *)
Fixpoint ks (n : nat) (k : N) : list N :=
  match n with
  | O => []
  | S n' => if k =? 0 then [] else k :: ks n' (k - 1)
  end.

Lemma cut_ords_ks n : forall k stride, stride <> 0 ->
  cut_ords n (k * stride) stride = map (fun j => j * stride) (ks n k).
Proof.
  induction n as [|n IH]; intros k stride Hs; cbn [cut_ords ks map]; [reflexivity|].
  destruct (k =? 0) eqn:Ek.
  - apply N.eqb_eq in Ek. subst k. rewrite N.mul_0_l. cbn. reflexivity.
  - apply N.eqb_neq in Ek.
    assert (Hne : k * stride <> 0) by nia.
    apply N.eqb_neq in Hne. rewrite Hne. cbn [map]. f_equal.
    replace (k * stride - stride) with ((k - 1) * stride) by nia.
    apply IH, Hs.
Qed.

Lemma ks_range n : forall k j, In j (ks n k) -> 1 <= j /\ j <= k.
Proof.
  induction n as [|n IH]; intros k j H; cbn [ks] in H; [contradiction|].
  destruct (k =? 0) eqn:Ek; [contradiction|]. apply N.eqb_neq in Ek.
  destruct H as [<-|H]; [lia|]. apply IH in H. lia.
Qed.

Lemma ks_length n : forall k, length (ks n k) = Nat.min n (N.to_nat k).
Proof.
  induction n as [|n IH]; intros k; cbn [ks]; [reflexivity|].
  destruct (k =? 0) eqn:Ek.
  - apply N.eqb_eq in Ek. subst k. cbn. lia.
  - apply N.eqb_neq in Ek. cbn [length]. rewrite IH. lia.
Qed.

Lemma ks_nth n : forall k i, (i < Nat.min n (N.to_nat k))%nat -> nth_error (ks n k) i = Some (k - N.of_nat i).
Proof.
  induction n as [|n IH]; intros k i Hi; [lia|]. cbn [ks].
  destruct (k =? 0) eqn:Ek.
  - apply N.eqb_eq in Ek. subst k. cbn in Hi. lia.
  - apply N.eqb_neq in Ek. destruct i as [|i]; cbn [nth_error].
    + f_equal. lia.
    + rewrite IH by lia. f_equal. lia.
Qed.

Lemma nlen_nth_some {A} (l : list A) (i : N) : i < nlen l -> exists x, nth_error l (N.to_nat i) = Some x.
Proof.
  unfold nlen. intros H. destruct (nth_error l (N.to_nat i)) as [x|] eqn:E; [eauto|].
  apply nth_error_None in E. lia.
Qed.

(* k does not beat b in a scan: not a larger to_seq, nor the same to_seq at a later frame *)
Definition not_better (k b : ck) : Prop := ck_to k <= ck_to b /\ (ck_to k = ck_to b -> ck_seq k <= ck_seq b).

Lemma ck_better_false k b : ck_better k b = false <-> not_better k b.
Proof.
  unfold ck_better, not_better. rewrite orb_false_iff, andb_false_iff, N.ltb_ge, N.eqb_neq, N.ltb_ge. lia.
Qed.
Lemma ck_better_true k b : ck_better k b = true -> ck_to b <= ck_to k /\ ~ not_better k b.
Proof.
  unfold ck_better, not_better. rewrite orb_true_iff, andb_true_iff, N.ltb_lt, N.eqb_eq, N.ltb_lt. lia.
Qed.

Definition best_step (m : N) (best : option ck) (c : ck) : option ck :=
  if m <? ck_to c then best
  else match best with None => Some c | Some b => if ck_better c b then Some c else best end.

(* invariant of every checkpoint scan with bound m: P is the list scanned so far, acc the best frame at or below m in it *)
Definition BestInv (m : N) (P : list ck) (acc : option ck) : Prop :=
  match acc with
  | None => forall k, In k P -> m < ck_to k
  | Some b => In b P /\ ck_to b <= m /\ forall k, In k P -> ck_to k <= m -> not_better k b
  end.

Lemma best_step_inv m P acc c : BestInv m P acc -> BestInv m (P ++ [c]) (best_step m acc c).
Proof.
  unfold best_step. intros H.
  destruct (m <? ck_to c) eqn:E.
  - apply N.ltb_lt in E. destruct acc as [b|]; cbn [BestInv] in *.
    + destruct H as [Hi [Hm Hb]]. split; [apply in_or_app; auto|]. split; [exact Hm|].
      intros k Hk Hkm. apply in_app_or in Hk. destruct Hk as [Hk|[<-|[]]]; [auto | lia].
    + intros k Hk. apply in_app_or in Hk. destruct Hk as [Hk|[<-|[]]]; auto.
  - apply N.ltb_ge in E. destruct acc as [b|]; cbn [BestInv] in *.
    + destruct H as [Hi [Hm Hb]].
      destruct (ck_better c b) eqn:Eb; cbn [BestInv].
      * apply ck_better_true in Eb. split; [apply in_or_app; right; left; reflexivity|]. split; [exact E|].
        intros k Hk Hkm. apply in_app_or in Hk. destruct Hk as [Hk|[<-|[]]].
        -- specialize (Hb k Hk Hkm). unfold not_better in *. lia.
        -- unfold not_better. lia.
      * apply ck_better_false in Eb. split; [apply in_or_app; auto|]. split; [exact Hm|].
        intros k Hk Hkm. apply in_app_or in Hk. destruct Hk as [Hk|[<-|[]]]; auto.
    + split; [apply in_or_app; right; left; reflexivity|]. split; [exact E|].
      intros k Hk Hkm. apply in_app_or in Hk. destruct Hk as [Hk|[<-|[]]]; [specialize (H k Hk); lia|].
      unfold not_better. lia.
Qed.

Lemma best_fold_inv m L : forall P acc, BestInv m P acc -> BestInv m (P ++ L) (fold_left (best_step m) L acc).
Proof.
  induction L as [|c L IH]; intros P acc H; cbn [fold_left]; [rewrite app_nil_r; exact H|].
  replace (P ++ c :: L) with ((P ++ [c]) ++ L) by (rewrite <- app_assoc; reflexivity).
  apply IH, best_step_inv, H.
Qed.

Lemma best_le_spec L m : BestInv m L (best_le L m).
Proof.
  unfold best_le. change (fold_left _ L None) with (fold_left (best_step m) L None).
  apply (best_fold_inv m L [] None). cbn. intros k [].
Qed.

(* a cut point is "done" iff a checkpoint for exactly its seq is among the scanned checkpoints *)
Lemma best_le_done L s :
  (match best_le L s with Some c => ck_to c =? s | None => false end) = true
  <-> exists k, In k L /\ ck_to k = s.
Proof.
  pose proof (best_le_spec L s) as H. destruct (best_le L s) as [b|]; cbn [BestInv] in H.
  - destruct H as [Hi [Hm Hb]]. rewrite N.eqb_eq. split.
    + intros E. exists b. auto.
    + intros [k [Hk Hs]]. specialize (Hb k Hk). unfold not_better in Hb. lia.
  - split; [discriminate|]. intros [k [Hk Hs]]. specialize (H k Hk). lia.
Qed.

(* the look-up used by every cut point: bounded backward scan when it covered the whole sidecar, truth otherwise;
   either way it is best_le over a permutation of all checkpoint frames *)
Definition cut_lookup (K : consts) (l : list ev) (s : N) : option ck :=
  match ck_lookup K (ckpts l) s with Some b => b | None => best_le (ckpts l) s end.

Lemma cut_lookup_inv K l s : BestInv s (ckpts l) (cut_lookup K l s).
Proof.
  unfold cut_lookup, ck_lookup. destruct (nlen (ckpts l) <=? k_ck_window K).
  - pose proof (best_le_spec (rev (ckpts l)) s) as H.
    destruct (best_le (rev (ckpts l)) s) as [b|]; cbn [BestInv] in *.
    + destruct H as [Hi [Hm Hb]]. split; [apply in_rev; exact Hi|]. split; [exact Hm|].
      intros k Hk. apply Hb. apply in_rev in Hk. exact Hk.
    + intros k Hk. apply H. apply in_rev in Hk. exact Hk.
  - apply best_le_spec.
Qed.

(* cut points as a map over targets (which depend on the messages only) *)
Definition target_at (ms : list (N * N)) (ord : N) : list (N * N * N) :=
  if (ord =? 0) || (nlen ms <? ord) then []
  else match nth_error ms (N.to_nat (ord - 1)) with None => [] | Some (s, id) => [(ord, s, id)] end.
Definition targets (K : consts) (stride lim : N) (ms : list (N * N)) : list (N * N * N) :=
  flat_map (target_at ms)
           (cut_ords (N.to_nat (clamp (k_limit_lo K) (k_limit_hi K) lim)) ((nlen ms / stride) * stride) stride).
Definition t_seq (t : N * N * N) : N := snd (fst t).
Definition cut_of (K : consts) (l : list ev) (t : N * N * N) : cutpt :=
  let '(ord, s, id) := t in mk_cut ord s id (cut_lookup K l s).
Definition plan_of (t : N * N * N) : plan := let '(ord, s, id) := t in {| pl_ord := ord; pl_seq := s; pl_mid := id |}.

Lemma cut_point_at_targets K l ord : cut_point_at K l ord = map (cut_of K l) (target_at (msgs l) ord).
Proof.
  unfold cut_point_at, target_at. destruct ((ord =? 0) || (nlen (msgs l) <? ord)); [reflexivity|].
  destruct (nth_error (msgs l) (N.to_nat (ord - 1))) as [[s id]|]; reflexivity.
Qed.

Lemma cut_points_targets K stride lim l :
  cut_points K stride lim l = map (cut_of K l) (targets K stride lim (msgs l)).
Proof.
  unfold cut_points, targets.
  induction (cut_ords (N.to_nat (clamp (k_limit_lo K) (k_limit_hi K) lim)) (nlen (msgs l) / stride * stride) stride)
    as [|o r IH]; cbn [flat_map map]; [reflexivity|].
  rewrite map_app, IH, cut_point_at_targets. reflexivity.
Qed.

(* the range test of target_at is implied by the look-up *)
Lemma target_at_eq ms ord :
  target_at ms ord = match nth_error ms (N.to_nat (ord - 1)) with
                     | Some (s, id) => if ord =? 0 then [] else [(ord, s, id)]
                     | None => []
                     end.
Proof.
  unfold target_at. destruct (ord =? 0) eqn:E0; cbn [orb]; [destruct (nth_error _ _) as [[s id]|]; reflexivity|].
  destruct (nlen ms <? ord) eqn:E1; [|reflexivity]. apply N.eqb_neq in E0. apply N.ltb_lt in E1.
  destruct (nth_error ms (N.to_nat (ord - 1))) as [[s id]|] eqn:En; [|reflexivity].
  assert (H : (N.to_nat (ord - 1) < length ms)%nat) by (apply nth_error_Some; rewrite En; discriminate).
  unfold nlen in E1. lia.
Qed.

Lemma target_at_in ms ord t :
  In t (target_at ms ord) ->
  exists s id, t = (ord, s, id) /\ ord <> 0 /\ nth_error ms (N.to_nat (ord - 1)) = Some (s, id).
Proof.
  rewrite target_at_eq. destruct (nth_error _ _) as [[s id]|]; [|intros []].
  destruct (ord =? 0) eqn:E0; [intros []|]. apply N.eqb_neq in E0. intros [<-|[]]. exists s, id. auto.
Qed.

Lemma target_at_single ms ord :
  1 <= ord -> ord <= nlen ms ->
  exists s id, nth_error ms (N.to_nat (ord - 1)) = Some (s, id) /\ target_at ms ord = [(ord, s, id)].
Proof.
  intros H1 H2. destruct (nlen_nth_some ms (ord - 1)) as [[s id] Hn]; [lia|]. exists s, id. split; [exact Hn|].
  rewrite target_at_eq, Hn. destruct (ord =? 0) eqn:E0; [apply N.eqb_eq in E0; lia | reflexivity].
Qed.

Lemma targets_in K stride lim ms t :
  In t (targets K stride lim ms) -> exists ord s id, t = (ord, s, id) /\ nth_error ms (N.to_nat (ord - 1)) = Some (s, id).
Proof.
  unfold targets. intros H. apply in_flat_map in H. destruct H as [o [_ H]].
  apply target_at_in in H. destruct H as (s & id & -> & _ & Hn). eauto.
Qed.

Definition limit_of (K : consts) (lim : N) : nat := N.to_nat (clamp (k_limit_lo K) (k_limit_hi K) lim).

Theorem cut_points_exact K stride lim l :
  stride <> 0 ->
  map (fun c => (cp_ord c, Some (cp_seq c, cp_mid c))) (cut_points K stride lim l)
  = map (fun k => (k * stride, nth_error (msgs l) (N.to_nat (k * stride - 1))))
        (ks (limit_of K lim) (nlen (msgs l) / stride)).
Proof.
  intros Hs. rewrite cut_points_targets, map_map. unfold targets, limit_of. rewrite cut_ords_ks by exact Hs.
  rewrite flat_map_concat_map, map_map, <- flat_map_concat_map.
  apply map_flat_map_single. apply Forall_forall. intros k Hk.
  apply ks_range in Hk. destruct Hk as [Hk1 Hk2].
  assert (Hle : k * stride <= nlen (msgs l)).
  { pose proof (N.mul_div_le (nlen (msgs l)) stride Hs). nia. }
  destruct (target_at_single (msgs l) (k * stride)) as (s & id & Hn & Ht); [nia | exact Hle |].
  exists (k * stride, s, id). split; [exact Ht|]. rewrite Hn. reflexivity.
Qed.

Lemma cut_points_mk K stride lim l c :
  In c (cut_points K stride lim l) -> exists ord s id, c = mk_cut ord s id (cut_lookup K l s).
Proof.
  rewrite cut_points_targets. intros H. apply in_map_iff in H. destruct H as [[[ord s] id] [<- _]].
  exists ord, s, id. reflexivity.
Qed.

Lemma to_plan_cut_of K l t : to_plan (cut_of K l t) = plan_of t.
Proof. destruct t as [[ord s] id]. reflexivity. Qed.
Lemma cp_seq_cut_of K l t : cp_seq (cut_of K l t) = t_seq t.
Proof. destruct t as [[ord s] id]. reflexivity. Qed.
Lemma pl_seq_plan_of t : pl_seq (plan_of t) = t_seq t.
Proof. destruct t as [[ord s] id]. reflexivity. Qed.

(* what "checkpointed, the latest such frame (by stream order) winning" means for one cut point *)
Definition latest_for (cks : list ck) (s : N) (b : ck) : Prop :=
  In b cks /\ ck_to b = s /\ forall k, In k cks -> ck_to k = s -> ck_seq k <= ck_seq b.

Lemma mk_cut_spec cks ord s id acc :
  BestInv s cks acc ->
  let c := mk_cut ord s id acc in
  (cp_done c = true <-> exists k, In k cks /\ ck_to k = s)
  /\ (forall (f : ck -> N) i, (if cp_done c then option_map f acc else None) = Some i
                              <-> exists b, latest_for cks s b /\ f b = i /\ acc = Some b)
  /\ (cp_done c = false -> cp_ck c = None).
Proof.
  intros H. cbn zeta. unfold mk_cut. cbn [cp_done cp_ck]. destruct acc as [b|]; cbn [BestInv option_map] in *.
  - destruct H as [Hi [Hm Hb]]. destruct (ck_to b =? s) eqn:E.
    + apply N.eqb_eq in E. split; [|split].
      * split; [intros _; exists b; auto | reflexivity].
      * intros f i. split.
        -- intros Hc. injection Hc as <-. exists b. split; [|auto]. split; [exact Hi|]. split; [exact E|].
           intros k Hk Hs. specialize (Hb k Hk). unfold not_better in Hb. lia.
        -- intros [b' [_ [Hid Hacc]]]. injection Hacc as <-. rewrite Hid. reflexivity.
      * discriminate.
    + apply N.eqb_neq in E. split; [|split].
      * split; [discriminate|]. intros [k [Hk Hs]]. specialize (Hb k Hk). unfold not_better in Hb. lia.
      * intros f i. split; [discriminate|]. intros [b' [[_ [Hs _]] [_ Hacc]]]. injection Hacc as <-. congruence.
      * reflexivity.
  - split; [|split].
    + split; [discriminate|]. intros [k [Hk Hs]]. specialize (H k Hk). lia.
    + intros f i. split; [discriminate|]. intros [b' [_ [_ Hacc]]]. discriminate.
    + reflexivity.
Qed.

(* the latest frame for a cut point's seq, under any projection of it (its id for C09, its frame seq for C04) *)
Lemma cut_points_latest K stride lim l c (f : ck -> N) :
  In c (cut_points K stride lim l) ->
  forall i, (if cp_done c then option_map f (cut_lookup K l (cp_seq c)) else None) = Some i
            <-> exists b, latest_for (ckpts l) (cp_seq c) b /\ f b = i /\ cut_lookup K l (cp_seq c) = Some b.
Proof.
  intros H. apply cut_points_mk in H. destruct H as (ord & s & id & ->).
  exact (proj1 (proj2 (mk_cut_spec (ckpts l) ord s id _ (cut_lookup_inv K l s))) f).
Qed.

Theorem checkpointed_iff_ck K stride lim l c :
  In c (cut_points K stride lim l) ->
  (cp_done c = true <-> exists k, In k (ckpts l) /\ ck_to k = cp_seq c).
Proof.
  intros H. apply cut_points_mk in H. destruct H as (ord & s & id & ->).
  exact (proj1 (mk_cut_spec (ckpts l) ord s id _ (cut_lookup_inv K l s))).
Qed.

Lemma in_ckpts l k :
  In k (ckpts l) <-> exists e, In e l /\ ebody e = BCkpt (ck_rule k) (ck_art k) (ck_to k) (ck_mid k)
                               /\ ck_seq k = eseq e /\ ck_id k = eid e.
Proof.
  unfold ckpts. rewrite in_flat_map. split.
  - intros [e [He Hk]]. exists e. split; [exact He|].
    destruct (ebody e); try contradiction. destruct Hk as [<-|[]]. cbn. auto.
  - intros [e [He [Hb [Hs Hi]]]]. exists e. split; [exact He|]. rewrite Hb. left.
    destruct k; cbn in *. subst. reflexivity.
Qed.

(* the property's wording: checkpointed exactly when a checkpoint frame for that seq exists *)
Theorem checkpointed_iff K stride lim l c :
  In c (cut_points K stride lim l) ->
  (cp_done c = true <-> exists e r a m, In e l /\ ebody e = BCkpt r a (cp_seq c) m).
Proof.
  intros Hc. rewrite (checkpointed_iff_ck K stride lim l c Hc). split.
  - intros [k [Hk Hs]]. apply in_ckpts in Hk. destruct Hk as [e [He [Hb _]]].
    exists e, (ck_rule k), (ck_art k), (ck_mid k). rewrite <- Hs. auto.
  - intros [e [r [a [m [He Hb]]]]].
    exists {| ck_to := cp_seq c; ck_seq := eseq e; ck_id := eid e; ck_art := a; ck_rule := r; ck_mid := m |}.
    split; [|reflexivity]. apply in_ckpts. exists e. cbn. auto.
Qed.

(* … the latest such frame (largest frame seq = latest in stream order) winning *)
Theorem checkpointed_latest_wins K stride lim l c :
  In c (cut_points K stride lim l) ->
  (forall i, cp_ck c = Some i <-> exists b, latest_for (ckpts l) (cp_seq c) b /\ ck_id b = i
                                          /\ cut_lookup K l (cp_seq c) = Some b)
  /\ (cp_done c = false -> cp_ck c = None).
Proof.
  intros H. apply cut_points_mk in H. destruct H as (ord & s & id & ->).
  destruct (mk_cut_spec (ckpts l) ord s id _ (cut_lookup_inv K l s)) as (_ & Hw & Hn).
  split; [exact (Hw ck_id) | exact Hn].
Qed.

(* the behaviour before the repair (bounded scan trusted even when it stopped at the event cap) *)
Definition unfixed_log : list ev :=
  [ {| eseq := 0; eid := 1; ebody := BOther |};
    {| eseq := 1; eid := 2; ebody := BMsg 0 0 |}; {| eseq := 2; eid := 3; ebody := BMsg 0 1 |};
    {| eseq := 3; eid := 4; ebody := BCkpt 0 1 1 (Some 2) |};
    {| eseq := 4; eid := 5; ebody := BCkpt 0 1 2 (Some 3) |}; {| eseq := 5; eid := 6; ebody := BCkpt 0 1 2 (Some 3) |} ].
Definition small_window : consts :=
  {| k_default_stride := 10000; k_limit_lo := 1; k_limit_hi := 32; k_plan_limit := 32;
     k_maxnew_lo := 1; k_maxnew_hi := 32; k_ck_window := 2; k_inflight_window := 512 |}.
Lemma unfixed_refuted :
  map (fun c => (cp_seq c, cp_done c)) (cut_points_unfixed small_window 1 2 unfixed_log) = [(2, true); (1, false)]
  /\ map (fun c => (cp_seq c, cp_done c)) (cut_points small_window 1 2 unfixed_log) = [(2, true); (1, true)]
  /\ In {| eseq := 3; eid := 4; ebody := BCkpt 0 1 1 (Some 2) |} unfixed_log.
Proof. split; [|split]; vm_compute; auto. Qed.

Theorem stride_zero_rejected K s :
  (forall lim, step K s (OCut (Some 0) lim) = (s, [1; 10]))
  /\ step K s (OStatus (Some 0)) = (s, [1; 10])
  /\ (forall mx d, step K s (OAuto (Some 0) mx d) = (s, [1; 10]))
  /\ (forall mx b e d, step K s (OSched (Some 0) mx b e d) = (s, [1; 10])).
Proof. repeat split; intros; reflexivity. Qed.

Theorem manual_stride_zero_rejected K s md art :
  msgs (log s) <> [] -> (md <> None \/ art <> None) ->
  manual K {| mr_md := md; mr_art := art; mr_to_mid := None; mr_to_seq := None; mr_stride := Some 0 |} s = (s, Err 6).
Proof.
  intros Hm Hs. unfold manual, manual_target. cbn [mr_md mr_art mr_to_mid mr_to_seq mr_stride].
  destruct (msgs (log s)) as [|x r] eqn:E; [congruence|].
  destruct md, art; try reflexivity. destruct Hs; congruence.
Qed.

(* five messages and two manual checkpoints for seq 2: cut 2 counts as checkpointed and reports the later frame (id 9) *)
Definition demo_ops : list op :=
  [OMsg 0 1; OMsg 1 2; OOther; OMsg 0 3; OMsg 1 4; OMsg 0 5;
   OManual {| mr_md := Some 0; mr_art := None; mr_to_mid := None; mr_to_seq := Some 2; mr_stride := None |};
   OManual {| mr_md := Some 0; mr_art := None; mr_to_mid := None; mr_to_seq := Some 2; mr_stride := None |}].
Definition demo_log : list ev := log (fst (run_ops real_consts st0 demo_ops [])).

Lemma demo_cut_points :
  map (fun c => (cp_ord c, cp_seq c, cp_mid c, cp_done c, cp_ck c)) (cut_points real_consts 2 32 demo_log)
  = [(4, 5, 6, false, None); (2, 2, 3, true, Some 9)]
  /\ map eid (filter (fun e => match ebody e with BCkpt _ _ 2 _ => true | _ => false end) demo_log) = [8; 9].
Proof. split; vm_compute; reflexivity. Qed.

(* "a checkpoint frame for seq s exists", as a boolean *)
Definition has_ck (l : list ev) (s : N) : bool := existsb (fun k => ck_to k =? s) (ckpts l).

Lemma cp_done_cut_of K l t : cp_done (cut_of K l t) = has_ck l (t_seq t).
Proof.
  destruct t as [[ord s] id]. unfold cut_of, t_seq. cbn [fst snd].
  pose proof (proj1 (mk_cut_spec (ckpts l) ord s id _ (cut_lookup_inv K l s))) as H. cbn zeta in H.
  apply eq_true_iff_eq. rewrite H. unfold has_ck. rewrite existsb_exists.
  split; intros [k [Hk Hs]]; exists k; (split; [exact Hk|]); [apply N.eqb_eq; exact Hs | apply N.eqb_eq in Hs; exact Hs].
Qed.

(* the undone targets, latest first: what auto / schedule plan from *)
Definition undone (K : consts) (stride : N) (l : list ev) : list (N * N * N) :=
  filter (fun t => negb (has_ck l (t_seq t))) (targets K stride (k_plan_limit K) (msgs l)).

Lemma filter_map_comm {A B} (f : A -> B) (p : B -> bool) (l : list A) :
  filter p (map f l) = map f (filter (fun x => p (f x)) l).
Proof.
  induction l as [|x l IH]; cbn [map filter]; [reflexivity|]. destruct (p (f x)); cbn [map]; rewrite IH; reflexivity.
Qed.

Lemma undone_cuts K stride l :
  map to_plan (filter (fun c => negb (cp_done c)) (cut_points K stride (k_plan_limit K) l)) = map plan_of (undone K stride l).
Proof.
  unfold undone. rewrite cut_points_targets, filter_map_comm, map_map.
  erewrite map_ext by (intros t; apply to_plan_cut_of).
  f_equal. apply filter_ext. intros t. rewrite cp_done_cut_of. reflexivity.
Qed.

Lemma plan_cuts_undone K stride maxnew l :
  plan_cuts K stride maxnew l = firstn (N.to_nat maxnew) (map plan_of (undone K stride l)).
Proof. unfold plan_cuts. rewrite undone_cuts. reflexivity. Qed.

(* valid streams: frame seqs strictly increase (C01 gives seq = position) *)
Definition valid (l : list ev) : Prop := StronglySorted N.lt (map eseq l).

Lemma ssorted_app_one (l : list N) (x : N) :
  StronglySorted N.lt l -> Forall (fun y => y < x) l -> StronglySorted N.lt (l ++ [x]).
Proof.
  induction l as [|a l IH]; intros Hs Hf; cbn [app].
  - constructor; constructor.
  - inversion Hs as [|a' l' Hs' Ha]; subst. inversion Hf as [|a' l' Hax Hf']; subst.
    constructor; [apply IH; assumption|]. apply Forall_app. split; [exact Ha|]. constructor; [exact Hax|constructor].
Qed.

Lemma ssorted_last_max (l : list N) (x : N) :
  StronglySorted N.lt (l ++ [x]) -> Forall (fun y => y < x) l.
Proof.
  induction l as [|a l IH]; intros Hs; [constructor|]. cbn [app] in Hs.
  inversion Hs as [|a' l' Hs' Ha]; subst. constructor; [|apply IH; exact Hs'].
  apply Forall_app in Ha. destruct Ha as [_ Ha]. inversion Ha; assumption.
Qed.

Lemma next_seq_bound l : valid l -> Forall (fun y => y < next_seq l) (map eseq l).
Proof.
  unfold valid, next_seq. intros H. destruct (rev l) as [|e r] eqn:E.
  - apply (f_equal (@rev ev)) in E. rewrite rev_involutive in E. subst l. constructor.
  - apply (f_equal (@rev ev)) in E. rewrite rev_involutive in E. cbn [rev] in E. subst l.
    rewrite map_app in *. cbn [map] in *. apply Forall_app. split.
    + apply ssorted_last_max in H. eapply Forall_impl; [|exact H]. cbn. intros; lia.
    + constructor; [lia|constructor].
Qed.

Lemma valid_app_next l e : valid l -> eseq e = next_seq l -> valid (l ++ [e]).
Proof.
  intros H E. unfold valid. rewrite map_app. cbn [map]. rewrite E.
  apply ssorted_app_one; [exact H | apply next_seq_bound, H].
Qed.
Lemma valid_append s b : valid (log s) -> valid (log (append s b)).
Proof. intros H. unfold append. cbn [log]. apply valid_app_next; [exact H | reflexivity]. Qed.

Lemma valid_st0 : valid (log st0).
Proof. unfold valid. cbn. constructor; constructor. Qed.

Lemma msgs_app a b : msgs (a ++ b) = msgs a ++ msgs b.
Proof. unfold msgs. apply flat_map_app. Qed.
Lemma msg_full_app a b : msg_full (a ++ b) = msg_full a ++ msg_full b.
Proof. unfold msg_full. apply flat_map_app. Qed.
Lemma ckpts_app a b : ckpts (a ++ b) = ckpts a ++ ckpts b.
Proof. unfold ckpts. apply flat_map_app. Qed.

Definition is_msg (b : body) : bool := match b with BMsg _ _ => true | _ => false end.

Lemma msgs_append_nonmsg s b : is_msg b = false -> msgs (log (append s b)) = msgs (log s).
Proof.
  intros H. unfold append. cbn [log]. rewrite msgs_app. cbn. destruct b; try discriminate; cbn; apply app_nil_r.
Qed.

Lemma msgs_of_full l : map fst (msg_full l) = msgs l.
Proof.
  induction l as [|e l IH]; [reflexivity|]. unfold msg_full, msgs in *. cbn [flat_map].
  rewrite map_app, IH. destruct (ebody e); reflexivity.
Qed.

(* full messages (seq, id, (actor, content)), keyed by seq; `msorted snap` is `sorted_ms (msg_full snap)` *)
Definition mfull := list (N * N * (N * N)).
Definition sorted_ms (ms : mfull) : Prop := StronglySorted N.lt (map (fun m => fst (fst m)) ms).
Definition msorted (snap : list ev) : Prop := StronglySorted N.lt (map (fun m => fst (fst m)) (msg_full snap)).

(* message seqs and checkpoint frame seqs are subsequences of the frame seqs *)
Lemma valid_msgs_sorted l : valid l -> msorted l.
Proof.
  apply sorted_flat_map. intros e b. destruct (ebody e); cbn; intros H; try contradiction. destruct H as [<-|[]]. auto.
Qed.
Lemma valid_msgs_fst_sorted l : valid l -> StronglySorted N.lt (map fst (msgs l)).
Proof. intros H. apply valid_msgs_sorted in H. unfold msorted in H. rewrite <- msgs_of_full, map_map. exact H. Qed.
Lemma ckpts_seq_sorted l : valid l -> StronglySorted N.lt (map ck_seq (ckpts l)).
Proof.
  apply sorted_flat_map. intros e b. destruct (ebody e); cbn; intros H; try contradiction. destruct H as [<-|[]]. auto.
Qed.

Lemma upper_bound_nth (ms : mfull) : forall i m,
  sorted_ms ms -> nth_error ms i = Some m -> upper_bound ms (fst (fst m)) = S i.
Proof.
  unfold upper_bound, sorted_ms. induction ms as [|x ms IH]; intros i m Hs Hn; [destruct i; discriminate|].
  cbn [map] in Hs. inversion Hs as [|a l' Hs' Ha]; subst.
  destruct i as [|i]; cbn [nth_error] in Hn.
  - injection Hn as ->. cbn [filter]. rewrite N.leb_refl. cbn [length]. f_equal.
    assert (E : filter (fun m0 => fst (fst m0) <=? fst (fst m)) ms = []).
    { clear IH Hs Hs'. induction ms as [|y ms IHm]; [reflexivity|]. cbn [map] in Ha.
      inversion Ha as [|a l' Hy Ha']; subst. cbn [filter].
      destruct (fst (fst y) <=? fst (fst m)) eqn:E; [apply N.leb_le in E; lia|]. apply IHm, Ha'. }
    rewrite E. reflexivity.
  - cbn [filter].
    assert (Hlt : fst (fst x) < fst (fst m)).
    { rewrite Forall_forall in Ha. apply Ha. apply in_map_iff. exists m. split; [reflexivity|].
      eapply nth_error_In, Hn. }
    destruct (fst (fst x) <=? fst (fst m)) eqn:E; [|apply N.leb_gt in E; lia].
    cbn [length]. f_equal. apply IH; assumption.
Qed.

Definition ck_frame (stride : N) (a : N) (p : plan) : body := BCkpt (rule_stride stride) a (pl_seq p) (Some (pl_mid p)).
Definition covers (v : summ) (p : plan) : Prop :=
  su_to_seq v = pl_seq p /\ su_to_mid v = Some (pl_mid p) /\ su_present v = true /\ su_kind v = 2.
Definition mk_created (s2 : st) (a : N) (p : plan) : created :=
  {| cr_ck := last_id s2; cr_art := a; cr_seq := pl_seq p; cr_mid := pl_mid p |}.
Definition plan_ok (pl : list plan) (l : list ev) : Prop :=
  forall p, In p pl -> exists x, In (pl_seq p, pl_mid p, x) (msg_full l).

(* what cut_read makes of the base checkpoint found: base id, bootstrap, note, base text used *)
Definition basis_of (rd : N -> option summ) (b : option ck) : option N * bool * N * bool :=
  match option_map ck_art b with
  | None => (None, true, 0, false)
  | Some a => match rd a with
              | Some v => if su_kind v =? 1 then (Some a, true, 1, false) else (Some a, false, 0, true)
              | None => (Some a, true, 2, false)
              end
  end.

(* the summary written for cut p on that basis, base_to being the base's to_seq *)
Definition summ_of (basis : option N * bool * N * bool) (base_to : N) (ms : mfull) (p : plan) : summ :=
  let '(base_id, bootstrap, note, used) := basis in
  {| su_to_seq := pl_seq p; su_to_mid := Some (pl_mid p); su_base := base_id; su_note := note; su_kind := 2;
     su_slice := map snd (skipn (upper_bound ms (if bootstrap then 0 else base_to)) (firstn (upper_bound ms (pl_seq p)) ms));
     su_base_used := used; su_present := true |}.

(* normal form of cut_read: the look-ups enter through the base found and the artifact reader only *)
Definition cut_read_g (sb : option ck * N) (rd : N -> option summ) (ms : mfull) (p : plan) : res summ :=
  match nth_error ms (upper_bound ms (pl_seq p) - 1) with
  | None => Err 20
  | Some (ls, lid, _) =>
    if (ls =? pl_seq p) && (lid =? pl_mid p) then Ok (summ_of (basis_of rd (fst sb)) (snd sb) ms p) else Err 21
  end.

Lemma cut_read_is_g K snap s p :
  cut_read K snap s p = cut_read_g (select_base K (log s) snap (pl_seq p)) (art_read s) (msg_full snap) p.
Proof.
  unfold cut_read, cut_read_g, summ_of, basis_of. destruct (select_base K (log s) snap (pl_seq p)) as [b base_to].
  cbn [fst snd]. destruct (option_map ck_art b) as [a|]; [|reflexivity].
  destruct (art_read s a) as [w|]; [|reflexivity]. destruct (su_kind w =? 1); reflexivity.
Qed.

Lemma cut_read_g_ok sb rd ms p v :
  cut_read_g sb rd ms p = Ok v ->
  (exists x, In (pl_seq p, pl_mid p, x) ms) /\ v = summ_of (basis_of rd (fst sb)) (snd sb) ms p.
Proof.
  unfold cut_read_g.
  destruct (nth_error ms (upper_bound ms (pl_seq p) - 1)) as [[[ls lid] x]|] eqn:En; [|discriminate].
  destruct ((ls =? pl_seq p) && (lid =? pl_mid p)) eqn:E; [|discriminate]. intros H. injection H as <-.
  apply andb_true_iff in E. destruct E as [E1 E2]. apply N.eqb_eq in E1, E2. subst ls lid.
  split; [exists x; eapply nth_error_In, En | reflexivity].
Qed.

Lemma cut_read_in K snap s p v : cut_read K snap s p = Ok v -> exists x, In (pl_seq p, pl_mid p, x) (msg_full snap).
Proof. rewrite cut_read_is_g. intros H. apply cut_read_g_ok in H. apply H. Qed.

Lemma cut_read_covers K snap s p v : cut_read K snap s p = Ok v -> covers v p.
Proof.
  rewrite cut_read_is_g. intros H. apply cut_read_g_ok in H. destruct H as [_ ->].
  unfold summ_of. destruct (basis_of _ _) as [[[base_id bootstrap] note] used]. repeat split.
Qed.

Lemma cut_read_ok K snap s p :
  msorted snap -> (exists x, In (pl_seq p, pl_mid p, x) (msg_full snap)) -> exists v, cut_read K snap s p = Ok v.
Proof.
  intros Hs [x Hin]. apply In_nth_error in Hin. destruct Hin as [i Hn].
  pose proof (upper_bound_nth (msg_full snap) i _ Hs Hn) as Hub. cbn [fst] in Hub.
  rewrite cut_read_is_g. unfold cut_read_g.
  rewrite Hub. replace (S i - 1)%nat with i by lia. rewrite Hn, !N.eqb_refl. eexists. reflexivity.
Qed.

Lemma run_cut_split K snap stride s p :
  run_cut K snap stride s p =
  match cut_read K snap s p with
  | Err e => Err e
  | Ok v => let '(s1, a) := put_art s v in
            let s2 := append s1 (BCkpt (rule_stride stride) a (pl_seq p) (Some (pl_mid p))) in
            Ok (s2, {| cr_ck := last_id s2; cr_art := a; cr_seq := pl_seq p; cr_mid := pl_mid p |})
  end.
Proof.
  unfold run_cut, cut_read. destruct (select_base K (log s) snap (pl_seq p)) as [b base_to].
  destruct (option_map ck_art b) as [a|]; [destruct (art_read s a) as [w|]; [destruct (su_kind w =? 1)|]|];
    (destruct (nth_error _ _) as [[[ls lid] x]|]; [destruct (_ && _)|]; reflexivity).
Qed.

(* the write half of a cut: store the summary under a fresh id, append the checkpoint frame that references it *)
Definition write_cut (stride : N) (s : st) (p : plan) (v : summ) : st :=
  append {| log := log s; arts := arts s ++ [(fresh_art s, v)] |} (ck_frame stride (fresh_art s) p).

Lemma run_cuts_cons K snap stride s p ps acc :
  run_cuts K snap stride s (p :: ps) acc =
  match cut_read K snap s p with
  | Err e => (s, acc, Some e)
  | Ok v => run_cuts K snap stride (write_cut stride s p v) ps (acc ++ [mk_created (write_cut stride s p v) (fresh_art s) p])
  end.
Proof. cbn [run_cuts]. rewrite run_cut_split. destruct (cut_read K snap s p); reflexivity. Qed.


(* planned.sort_by(to_seq, to_message_id) is `plan_sort`; of its order the theorems use the to_seq part *)
Definition le_seq (a b : plan) : Prop := pl_seq a <= pl_seq b.

Lemma plan_leb_spec a b : if plan_leb a b then le_seq a b else le_seq b a.
Proof.
  unfold plan_leb, le_seq. destruct (N.ltb_spec (pl_seq a) (pl_seq b)); cbn [orb]; [lia|].
  destruct (N.eqb_spec (pl_seq a) (pl_seq b)); cbn [andb]; [destruct (pl_mid a <=? pl_mid b)|]; lia.
Qed.
(* plan_insert is convertible with `insert plan_leb` *)
Lemma plan_sort_perm l : Permutation (plan_sort l) l.
Proof. apply (isort_perm plan_leb). Qed.
Lemma plan_sort_sorted l : StronglySorted le_seq (plan_sort l).
Proof. apply (isort_sorted plan_leb le_seq plan_leb_spec). unfold le_seq. intros x y z. apply N.le_trans. Qed.

Lemma maxN_ge l k : In k l -> k <= maxN l.
Proof.
  induction l as [|x l IH]; intros H; [contradiction|]. cbn [maxN fold_right]. fold (maxN l).
  destruct H as [->|H]; [lia|]. apply IH in H. lia.
Qed.
Lemma art_get_app_fresh m a v rest :
  (forall k, In k (map fst m) -> k <> a) -> art_get a (m ++ (a, v) :: rest) = Some v.
Proof.
  induction m as [|[k w] m IH]; intros H; cbn [app art_get].
  - rewrite N.eqb_refl. reflexivity.
  - destruct (k =? a) eqn:E; [apply N.eqb_eq in E; exfalso; apply (H k); [left; reflexivity | exact E]|].
    apply IH. intros k' Hk'. apply H. right. exact Hk'.
Qed.
Lemma art_get_app_some a m extra v : art_get a m = Some v -> art_get a (m ++ extra) = Some v.
Proof.
  induction m as [|[k w] m IH]; [discriminate|]. cbn [app art_get]. destruct (k =? a); [exact (fun H => H) | exact IH].
Qed.
Lemma fresh_art_not_key s k : In k (map fst (arts s)) -> k <> fresh_art s.
Proof. intros H. apply maxN_ge in H. unfold fresh_art. lia. Qed.

(* what a finished sequence of cuts looks like in the stream and in the artifact store *)
Definition ck_for (stride : N) (s' : st) (e : ev) (p : plan) : Prop :=
  exists a v, ebody e = ck_frame stride a p /\ art_read s' a = Some v /\ covers v p.
Definition created_for (c : created) (e : ev) : Prop :=
  cr_ck c = eid e /\ exists r, ebody e = BCkpt r (cr_art c) (cr_seq c) (Some (cr_mid c)).

Lemma last_id_append s b : last_id (append s b) = fresh_id (log s).
Proof. unfold last_id, append. cbn [log]. rewrite rev_app_distr. reflexivity. Qed.

Lemma run_cuts_spec K snap stride : forall ps s acc,
  msorted snap -> plan_ok ps snap ->
  exists s' made frames extra,
    run_cuts K snap stride s ps acc = (s', acc ++ made, None)
    /\ log s' = log s ++ frames /\ arts s' = arts s ++ extra
    /\ Forall2 (ck_for stride s') frames ps /\ Forall2 created_for made frames
    /\ (valid (log s) -> valid (log s')).
Proof.
  induction ps as [|p ps IH]; intros s acc Hs Hin.
  - exists s, [], [], []. rewrite !app_nil_r. repeat split; auto; constructor.
  - destruct (cut_read_ok K snap s p Hs (Hin p (or_introl eq_refl))) as [v Hr].
    rewrite run_cuts_cons, Hr. set (s2 := write_cut stride s p v).
    destruct (IH s2 (acc ++ [mk_created s2 (fresh_art s) p]) Hs) as (s' & made & frames & extra & Hrun & Hl & Ha & Hf & Hm & Hv).
    { intros q Hq. apply Hin. right. exact Hq. }
    assert (Ha' : arts s' = arts s ++ (fresh_art s, v) :: extra).
    { rewrite Ha. unfold s2, write_cut, append. cbn [arts]. rewrite <- app_assoc. reflexivity. }
    exists s', (mk_created s2 (fresh_art s) p :: made),
           ({| eseq := next_seq (log s); eid := fresh_id (log s); ebody := ck_frame stride (fresh_art s) p |} :: frames),
           ((fresh_art s, v) :: extra).
    split; [rewrite <- app_assoc in Hrun; exact Hrun|].
    split; [rewrite Hl; unfold s2, write_cut, append; cbn [log]; rewrite <- app_assoc; reflexivity|].
    split; [exact Ha'|]. apply cut_read_covers in Hr. split; [|split].
    + constructor; [|exact Hf]. exists (fresh_art s), v. split; [reflexivity|]. split; [|exact Hr].
      unfold art_read. rewrite Ha', art_get_app_fresh by (apply fresh_art_not_key).
      destruct Hr as [_ [_ [-> _]]]. reflexivity.
    + constructor; [|exact Hm]. split; [apply last_id_append|]. exists (rule_stride stride). reflexivity.
    + intros Hval. apply Hv, (valid_append {| log := log s; arts := arts s ++ [(fresh_art s, v)] |}), Hval.
Qed.

Lemma plan_cuts_in K stride maxnew l p :
  In p (plan_cuts K stride maxnew l) ->
  exists t, In t (undone K stride l) /\ p = plan_of t.
Proof.
  rewrite plan_cuts_undone. intros H. apply In_firstn in H. apply in_map_iff in H.
  destruct H as [t [<- Ht]]. exists t. auto.
Qed.

Lemma plan_cuts_ok K stride maxnew l : plan_ok (plan_cuts K stride maxnew l) l.
Proof.
  intros p H. apply plan_cuts_in in H. destruct H as [[[ord s] id] [Ht ->]].
  unfold undone in Ht. apply filter_In in Ht. destruct Ht as [Ht _].
  apply targets_in in Ht. destruct Ht as (o & s' & id' & [= -> -> ->] & Hn). apply nth_error_In in Hn.
  rewrite <- msgs_of_full in Hn. apply in_map_iff in Hn. destruct Hn as [[[s2 id2] x] [E Hin]].
  cbn [fst] in E. injection E as -> ->. exists x. exact Hin.
Qed.

Lemma plan_ok_perm pl pl' l : Permutation pl' pl -> plan_ok pl l -> plan_ok pl' l.
Proof. intros Hp H p Hin. apply H. eapply Permutation_in; [exact Hp | exact Hin]. Qed.
Lemma plan_ok_mono pl l fr : plan_ok pl l -> plan_ok pl (l ++ fr).
Proof. intros H p Hp. destruct (H p Hp) as [x Hx]. exists x. rewrite msg_full_app. apply in_or_app. left. exact Hx. Qed.

Lemma run_job_spec K j stride planned s :
  valid (log s) -> plan_ok planned (log s) ->
  exists s' made frames e_end,
    run_job K j stride planned s = (s', made, None)
    /\ log s' = log s ++ frames ++ [e_end] /\ ebody e_end = BJobEnded j 0 made
    /\ Forall2 (ck_for stride s') frames (plan_sort planned) /\ Forall2 created_for made frames
    /\ valid (log s').
Proof.
  intros Hv Hin. unfold run_job.
  destruct (run_cuts_spec K (log s) stride (plan_sort planned) s []) as (sn & made & frames & extra & Hr & Hl & _ & Hf & Hm & Hvn).
  - apply valid_msgs_sorted, Hv.
  - eapply plan_ok_perm; [apply plan_sort_perm | exact Hin].
  - rewrite Hr. cbn [app]. do 4 eexists. split; [reflexivity|].
    split; [unfold append; cbn [log]; rewrite Hl, <- app_assoc; reflexivity|].
    split; [reflexivity|]. split; [exact Hf|]. split; [exact Hm | apply valid_append, Hvn, Hv].
Qed.

Record auto_outcome (K : consts) (stride : N) (planned : list plan) (s s' : st) (j : N) (made : list created) : Prop := {
  ao_log : exists e_sp frames e_end,
      log s' = log s ++ [e_sp] ++ frames ++ [e_end]
      /\ ebody e_sp = BJobSpawned j planned stride
      /\ ebody e_end = BJobEnded j 0 made
      /\ Forall2 (ck_for stride s') frames (plan_sort planned)
      /\ Forall2 created_for made frames;
  ao_sorted : StronglySorted le_seq (plan_sort planned) /\ Permutation (plan_sort planned) planned;
  ao_fresh : ~ In j (job_ids (log s));
  ao_valid : valid (log s') }.

Lemma fresh_job_not_in l : ~ In (fresh_job l) (job_ids l).
Proof. intros H. apply maxN_ge in H. unfold fresh_job in H. lia. Qed.

Theorem auto_creates_planned K ostride omax odry s :
  let stride := opt_or ostride (k_default_stride K) in
  let maxnew := clamp (k_maxnew_lo K) (k_maxnew_hi K) (opt_or omax 1) in
  valid (log s) ->
  stride <> 0 ->
  opt_orb odry false = false ->
  plan_cuts K stride maxnew (log s) <> [] ->
  exists s' r,
    auto K ostride omax odry s = (s', Ok r)
    /\ ar_status r = 2 /\ ar_err r = None /\ ar_job r = Some (fresh_job (log s))
    /\ ar_planned r = plan_cuts K stride maxnew (log s)
    /\ auto_outcome K stride (ar_planned r) s s' (fresh_job (log s)) (ar_result r).
Proof.
  intros stride maxnew Hv Hs Hd Hp. unfold auto. fold stride maxnew.
  apply N.eqb_neq in Hs. rewrite Hs, Hd. unfold auto_spawn.
  set (planned := plan_cuts K stride maxnew (log s)) in *.
  destruct planned as [|p0 pr] eqn:Ep; [congruence|]. rewrite <- Ep. cbn [ar_job ar_planned ar_count].
  set (j := fresh_job (log s)).
  destruct (run_job_spec K j stride planned (append s (BJobSpawned j planned stride)))
    as (s' & made & frames & e_end & Hr & Hl & Hend & Hf & Hm & Hv').
  { apply valid_append, Hv. }
  { apply plan_ok_mono, plan_cuts_ok. }
  rewrite Hr. do 2 eexists. split; [reflexivity|]. cbn [ar_status ar_err ar_job ar_planned ar_result].
  repeat (split; [reflexivity|]).
  constructor.
  - eexists. exists frames, e_end. split; [rewrite Hl; unfold append; cbn [log]; rewrite <- app_assoc; reflexivity|].
    split; [reflexivity|]. auto.
  - split; [apply plan_sort_sorted | apply plan_sort_perm].
  - apply fresh_job_not_in.
  - exact Hv'.
Qed.

Lemma cut_ords_le n : forall o stride x, In x (cut_ords n o stride) -> x <= o /\ x <> 0.
Proof.
  induction n as [|n IH]; intros o stride x H; cbn [cut_ords] in H; [contradiction|].
  destruct (o =? 0) eqn:E; [contradiction|]. apply N.eqb_neq in E.
  destruct H as [<-|H]; [lia|]. apply IH in H. lia.
Qed.
Lemma cut_ords_desc n : forall o stride, stride <> 0 -> StronglySorted (fun a b => b < a) (cut_ords n o stride).
Proof.
  induction n as [|n IH]; intros o stride Hs; cbn [cut_ords]; [constructor|].
  destruct (o =? 0) eqn:E; [constructor|]. apply N.eqb_neq in E.
  constructor; [apply IH, Hs|]. apply Forall_forall. intros x Hx. apply cut_ords_le in Hx. lia.
Qed.

Lemma sorted_nth_lt (ms : list (N * N)) : forall i j a b,
  StronglySorted N.lt (map fst ms) -> nth_error ms i = Some a -> nth_error ms j = Some b -> (i < j)%nat -> fst a < fst b.
Proof.
  induction ms as [|x ms IH]; intros i j a b Hs Hi Hj Hlt; [destruct i; discriminate|].
  cbn [map] in Hs. inversion Hs as [|x' l' Hs' Hx]; subst.
  destruct j as [|j]; [lia|]. cbn [nth_error] in Hj. destruct i as [|i]; cbn [nth_error] in Hi.
  - injection Hi as ->. rewrite Forall_forall in Hx. apply Hx. apply in_map. eapply nth_error_In, Hj.
  - eapply IH; eauto. lia.
Qed.

Lemma targets_desc ms ords :
  StronglySorted N.lt (map fst ms) -> StronglySorted (fun a b => b < a) ords ->
  StronglySorted (fun a b => t_seq b < t_seq a) (flat_map (target_at ms) ords).
Proof.
  intros Hm. induction 1 as [|o r Hr IH Ho]; cbn [flat_map]; [constructor|].
  rewrite target_at_eq. destruct (nth_error ms (N.to_nat (o - 1))) as [[s id]|] eqn:En; [|exact IH].
  destruct (o =? 0); [exact IH|]. cbn [app]. constructor; [exact IH|]. apply Forall_forall. intros t Ht.
  apply in_flat_map in Ht. destruct Ht as [o' [Ho' Ht]].
  apply target_at_in in Ht. destruct Ht as (s' & id' & -> & E0 & En'). unfold t_seq. cbn [fst snd].
  rewrite Forall_forall in Ho. specialize (Ho o' Ho').
  change s' with (fst (s', id')). change s with (fst (s, id)).
  eapply (sorted_nth_lt ms _ _ _ _ Hm En' En). lia.
Qed.

Lemma desc_nodup {A} (f : A -> N) (l : list A) :
  StronglySorted (fun a b => f b < f a) l -> NoDup (map f l).
Proof.
  induction 1 as [|x l Hs IH Hx]; cbn [map]; constructor; [|exact IH].
  intros Hin. apply in_map_iff in Hin. destruct Hin as [y [Hy Hin]].
  rewrite Forall_forall in Hx. specialize (Hx y Hin). lia.
Qed.

Lemma undone_nodup K stride l : valid l -> stride <> 0 -> NoDup (map t_seq (undone K stride l)).
Proof.
  intros Hv Hs. unfold undone. apply nodup_map_filter. apply desc_nodup. unfold targets.
  apply targets_desc; [apply valid_msgs_fst_sorted, Hv | apply cut_ords_desc, Hs].
Qed.

(* removing the keys of the first m entries of a duplicate-free list leaves `skipn m`: what makes `undone_after` go through *)
Lemma filter_not_firstn {A} (f : A -> N) : forall m (U : list A),
  NoDup (map f U) ->
  filter (fun t => negb (existsb (N.eqb (f t)) (map f (firstn m U)))) U = skipn m U.
Proof.
  induction m as [|m IH]; intros U Hn.
  - cbn [firstn map existsb negb skipn]. induction U as [|x U IHU]; [reflexivity|]. cbn [filter]. f_equal.
    apply IHU. cbn [map] in Hn. inversion Hn; assumption.
  - destruct U as [|x U]; [reflexivity|]. cbn [firstn map skipn filter existsb].
    rewrite N.eqb_refl. cbn [orb negb]. cbn [map] in Hn. inversion Hn as [|x' l' Hx Hd]; subst.
    rewrite <- (IH U Hd). apply filter_ext_in. intros t Ht.
    destruct (f t =? f x) eqn:E; [|reflexivity]. apply N.eqb_eq in E. exfalso. apply Hx. rewrite <- E. apply in_map, Ht.
Qed.

Lemma msgs_nonmsg l : Forall (fun e => is_msg (ebody e) = false) l -> msgs l = [].
Proof.
  induction 1 as [|e l He _ IH]; [reflexivity|]. unfold msgs in *. cbn [flat_map]. rewrite IH.
  destruct (ebody e); try discriminate; reflexivity.
Qed.

Lemma frames_ckpts stride s' frames ps :
  Forall2 (ck_for stride s') frames ps ->
  map ck_to (ckpts frames) = map pl_seq ps /\ Forall (fun e => is_msg (ebody e) = false) frames.
Proof.
  induction 1 as [|e p frames ps [a [v [Hb _]]] _ [IH1 IH2]]; [split; [reflexivity|constructor]|].
  unfold ckpts in *. cbn [flat_map]. rewrite Hb. unfold ck_frame at 1. cbn [app map ck_to]. rewrite IH1.
  split; [reflexivity|]. constructor; [rewrite Hb; reflexivity | exact IH2].
Qed.

Lemma existsb_iff {A B} (p : A -> bool) (q : B -> bool) (l : list A) (m : list B) :
  ((exists x, In x l /\ p x = true) <-> (exists y, In y m /\ q y = true)) -> existsb p l = existsb q m.
Proof. intros H. apply eq_true_iff_eq. rewrite !existsb_exists. exact H. Qed.

Lemma auto_outcome_after K stride planned s s' j made :
  auto_outcome K stride planned s s' j made ->
  msgs (log s') = msgs (log s)
  /\ forall x, has_ck (log s') x = has_ck (log s) x || existsb (N.eqb x) (map pl_seq planned).
Proof.
  intros [[e_sp [frames [e_end [Hl [Hsp [Hend [Hf Hm]]]]]]] [_ Hperm] _ _].
  apply frames_ckpts in Hf. destruct Hf as [Hck Hnm]. split.
  - rewrite Hl, !msgs_app. rewrite (msgs_nonmsg frames Hnm).
    unfold msgs at 2 3. cbn [flat_map]. rewrite Hsp, Hend. cbn [app]. rewrite !app_nil_r. reflexivity.
  - intros x. unfold has_ck. rewrite Hl, !ckpts_app.
    unfold ckpts at 2 4. cbn [flat_map]. rewrite Hsp, Hend. cbn [app]. rewrite app_nil_r.
    rewrite existsb_app. f_equal. apply existsb_iff. split.
    + intros [k [Hk Hx]]. apply N.eqb_eq in Hx. exists x. split; [|apply N.eqb_refl].
      eapply Permutation_in; [apply Permutation_map, Hperm|]. rewrite <- Hck, <- Hx. apply in_map, Hk.
    + intros [y [Hy Hx]]. apply N.eqb_eq in Hx. subst y.
      assert (Hin : In x (map ck_to (ckpts frames))).
      { rewrite Hck. eapply Permutation_in; [apply Permutation_sym, Permutation_map, Hperm | exact Hy]. }
      apply in_map_iff in Hin. destruct Hin as [k [Hk Hin]]. exists k. split; [exact Hin | apply N.eqb_eq, Hk].
Qed.

(* after a completed run over `planned = first maxnew undone`, exactly the remaining undone cut points are left *)
Theorem undone_after K stride maxnew s s' j made :
  valid (log s) -> stride <> 0 ->
  auto_outcome K stride (plan_cuts K stride maxnew (log s)) s s' j made ->
  undone K stride (log s') = skipn (N.to_nat maxnew) (undone K stride (log s)).
Proof.
  intros Hv Hs Ho. apply auto_outcome_after in Ho. destruct Ho as [Hm Hck].
  rewrite <- (filter_not_firstn t_seq (N.to_nat maxnew) (undone K stride (log s))) by (apply undone_nodup; assumption).
  unfold undone at 1 3. rewrite Hm.
  set (T := targets K stride (k_plan_limit K) (msgs (log s))).
  assert (E : map pl_seq (plan_cuts K stride maxnew (log s)) = map t_seq (firstn (N.to_nat maxnew) (undone K stride (log s)))).
  { rewrite plan_cuts_undone, <- !firstn_map, map_map. f_equal. apply map_ext. intros t. apply pl_seq_plan_of. }
  rewrite <- E.
  induction T as [|t T IH]; [reflexivity|]. cbn [filter]. rewrite Hck, negb_orb.
  destruct (negb (has_ck (log s) (t_seq t))); cbn [andb filter]; [|exact IH].
  destruct (negb (existsb (N.eqb (t_seq t)) (map pl_seq (plan_cuts K stride maxnew (log s))))); [f_equal|]; exact IH.
Qed.

(* nothing planned: the call answers noop and leaves the state untouched *)
Lemma auto_nothing_planned K ostride omax odry s :
  opt_or ostride (k_default_stride K) <> 0 ->
  plan_cuts K (opt_or ostride (k_default_stride K)) (clamp (k_maxnew_lo K) (k_maxnew_hi K) (opt_or omax 1)) (log s) = [] ->
  exists r, auto K ostride omax odry s = (s, Ok r) /\ ar_status r = 0 /\ ar_job r = None /\ ar_planned r = [] /\ ar_result r = [].
Proof.
  intros Hs Hp. unfold auto, auto_spawn. apply N.eqb_neq in Hs. rewrite Hs, Hp. cbn [ar_job].
  eexists. split; [reflexivity|]. cbn. auto.
Qed.

Theorem auto_noop K ostride omax odry s :
  opt_or ostride (k_default_stride K) <> 0 ->
  undone K (opt_or ostride (k_default_stride K)) (log s) = [] ->
  exists r, auto K ostride omax odry s = (s, Ok r) /\ ar_status r = 0 /\ ar_job r = None /\ ar_planned r = [] /\ ar_result r = [].
Proof.
  intros Hs Hu. apply auto_nothing_planned; [exact Hs|]. rewrite plan_cuts_undone, Hu. apply firstn_nil.
Qed.

Theorem sched_noop K ostride omax oblock oexec odry s :
  opt_or ostride (k_default_stride K) <> 0 ->
  undone K (opt_or ostride (k_default_stride K)) (log s) = [] ->
  exists r, sched K ostride omax oblock oexec odry s = (s, Ok r) /\ sr_decision r = 0 /\ sr_job r = None /\ sr_planned r = [].
Proof.
  intros Hs Hu. unfold sched. apply N.eqb_neq in Hs. rewrite Hs.
  rewrite plan_cuts_undone, Hu. cbn [map]. rewrite firstn_nil.
  eexists. split; [reflexivity|]. cbn. auto.
Qed.

Theorem auto_second_plan K ostride omax odry s :
  valid (log s) ->
  opt_or ostride (k_default_stride K) <> 0 ->
  opt_orb odry false = false ->
  plan_cuts K (opt_or ostride (k_default_stride K))
            (clamp (k_maxnew_lo K) (k_maxnew_hi K) (opt_or omax 1)) (log s) <> [] ->
  forall maxnew2,
  plan_cuts K (opt_or ostride (k_default_stride K)) maxnew2 (log (fst (auto K ostride omax odry s)))
  = firstn (N.to_nat maxnew2)
           (map plan_of (skipn (N.to_nat (clamp (k_maxnew_lo K) (k_maxnew_hi K) (opt_or omax 1)))
                               (undone K (opt_or ostride (k_default_stride K)) (log s)))).
Proof.
  intros Hv Hs Hd Hp maxnew2.
  destruct (auto_creates_planned K ostride omax odry s Hv Hs Hd Hp) as [s' [r [Ha [_ [_ [_ [Hpl Ho]]]]]]].
  rewrite Ha. cbn [fst]. rewrite plan_cuts_undone. rewrite Hpl in Ho.
  rewrite (undone_after K _ _ s s' _ _ Hv Hs Ho). reflexivity.
Qed.

Theorem auto_idempotent K ostride omax odry s :
  valid (log s) ->
  opt_or ostride (k_default_stride K) <> 0 ->
  opt_orb odry false = false ->
  (length (undone K (opt_or ostride (k_default_stride K)) (log s))
   <= N.to_nat (clamp (k_maxnew_lo K) (k_maxnew_hi K) (opt_or omax 1)))%nat ->
  let s' := fst (auto K ostride omax odry s) in
  exists r', auto K ostride omax odry s' = (s', Ok r') /\ ar_status r' = 0 /\ ar_job r' = None /\ ar_result r' = [].
Proof.
  intros Hv Hs Hd Hlen. cbn zeta.
  destruct (plan_cuts K (opt_or ostride (k_default_stride K))
                      (clamp (k_maxnew_lo K) (k_maxnew_hi K) (opt_or omax 1)) (log s)) as [|p0 pr] eqn:Ep.
  - destruct (auto_nothing_planned K ostride omax odry s Hs Ep) as (r & E & H1 & H2 & _ & H4).
    rewrite E. exists r. auto.
  - destruct (auto_creates_planned K ostride omax odry s Hv Hs Hd) as (s' & r & Ha & _ & _ & _ & Hpl & Ho);
      [rewrite Ep; discriminate|].
    rewrite Ha. cbn [fst]. rewrite Hpl in Ho.
    destruct (auto_noop K ostride omax odry s' Hs) as (r' & E & H1 & H2 & _ & H4); [|exists r'; auto].
    rewrite (undone_after K _ _ s s' _ _ Hv Hs Ho). apply skipn_all2, Hlen.
Qed.

(* an accepted target is a message of the thread: the one the selector names, when one is given *)
Lemma manual_target_spec K r l ts tm rule :
  manual_target K r l = Ok (ts, tm, rule) ->
  In (ts, tm) (msgs l)
  /\ match mr_to_mid r, mr_to_seq r with Some m, _ => tm = m | None, Some q => ts = q | None, None => True end.
Proof.
  unfold manual_target. intros H.
  destruct (mr_md r), (mr_art r); try discriminate.
  all: destruct (mr_to_mid r) as [m|], (mr_to_seq r) as [q|]; try discriminate.
  all: destruct (msgs l) as [|x ms] eqn:Em; try discriminate; rewrite <- Em in *.
  (* for each way a summary is given: to_message_id, to_seq, or the stride's latest boundary *)
  1,4,7: destruct (find (fun p => snd p =? m) (msgs l)) as [[s0 m0]|] eqn:Ef; [|discriminate];
         apply find_some in Ef; destruct Ef as [Hin Hq]; cbn [snd] in Hq; apply N.eqb_eq in Hq; subst m0;
         injection H as <- <- _; split; [exact Hin | reflexivity].
  1,3,5: destruct (find (fun p => fst p =? q) (msgs l)) as [[s0 m0]|] eqn:Ef; [|discriminate];
         apply find_some in Ef; destruct Ef as [Hin Hq]; cbn [fst] in Hq; apply N.eqb_eq in Hq; subst s0;
         injection H as <- <- _; split; [exact Hin | reflexivity].
  all: destruct (_ =? 0); [discriminate|]; destruct (_ =? 0); [discriminate|];
       destruct (nth_error (msgs l) _) as [[s0 m0]|] eqn:En; [|discriminate];
       injection H as <- <- _; split; [eapply nth_error_In, En | exact I].
Qed.

Theorem manual_boundary K r s :
  match manual K r s with
  | (s', Err _) => s' = s
  | (s', Ok (ck, a, ts, tm, rule)) =>
      In (ts, tm) (msgs (log s))
      /\ log s' = log s ++ [{| eseq := next_seq (log s); eid := ck; ebody := BCkpt rule a ts (Some tm) |}]
      /\ exists v, art_read s' a = Some v /\ su_to_seq v = ts
  end.
Proof.
  unfold manual. destruct (manual_target K r (log s)) as [[[ts tm] rule]|e] eqn:Et; [|reflexivity].
  pose proof (proj1 (manual_target_spec K r (log s) ts tm rule Et)) as Hin.
  destruct (mr_art r) as [a|].
  - destruct (art_read s a) as [v|] eqn:Ea; [|reflexivity].
    destruct (su_to_seq v =? ts) eqn:Ev; [|reflexivity]. apply N.eqb_eq in Ev.
    split; [exact Hin|]. split; [rewrite last_id_append; reflexivity|]. exists v. split; [exact Ea | exact Ev].
  - cbv beta iota zeta delta [put_art]. split; [exact Hin|]. split; [rewrite last_id_append; reflexivity|].
    eexists. split.
    + unfold art_read, append. cbn [arts].
      rewrite art_get_app_fresh by (apply fresh_art_not_key). cbn [su_present]. reflexivity.
    + reflexivity.
Qed.

(* a to_seq that is not the seq of a message / a to_message_id that is not the id of a message is refused *)
Theorem manual_non_boundary_rejected K r s :
  (forall q, mr_to_seq r = Some q -> ~ In q (map fst (msgs (log s)))) ->
  (forall m, mr_to_mid r = Some m -> ~ In m (map snd (msgs (log s)))) ->
  (mr_to_seq r <> None \/ mr_to_mid r <> None) ->
  exists e, manual K r s = (s, Err e).
Proof.
  intros Hq Hm Hsel. unfold manual.
  destruct (manual_target K r (log s)) as [[[ts tm] rule]|e] eqn:Et; [|eauto].
  exfalso. apply manual_target_spec in Et. destruct Et as [Hin Ht].
  destruct (mr_to_mid r) as [m|]; [subst tm; apply (Hm m eq_refl), (in_map snd _ _ Hin)|].
  destruct (mr_to_seq r) as [q|]; [subst ts; apply (Hq q eq_refl), (in_map fst _ _ Hin) | destruct Hsel; congruence].
Qed.

(* Invariants of the stream that are kept frame by frame: a frame with the next seq may be appended, a checkpoint
   frame provided its to_seq is the seq of a message of the stream.  Every operation keeps such an invariant, so it
   holds in every reachable state; `valid` is one. *)
Definition frame_inv (I : list ev -> Prop) : Prop :=
  forall l e, I l -> eseq e = next_seq l ->
    (forall r a t m, ebody e = BCkpt r a t m -> In t (map fst (msgs l))) -> I (l ++ [e]).

Lemma valid_frame_inv : frame_inv valid.
Proof. intros l e H E _. apply valid_app_next; assumption. Qed.

Lemma inv_append I s b :
  frame_inv I -> I (log s) -> (forall r a t m, b = BCkpt r a t m -> In t (map fst (msgs (log s)))) -> I (log (append s b)).
Proof. intros HI H Hb. unfold append. cbn [log]. apply HI; [exact H | reflexivity | exact Hb]. Qed.

Lemma run_cuts_inv I K snap stride : frame_inv I -> forall ps s acc s' made err,
  run_cuts K snap stride s ps acc = (s', made, err) -> incl (msgs snap) (msgs (log s)) -> I (log s) -> I (log s').
Proof.
  intros HI. induction ps as [|p ps IH]; intros s acc s' made err H Hsub Hs; [injection H as <- _ _; exact Hs|].
  rewrite run_cuts_cons in H. destruct (cut_read K snap s p) as [v|e] eqn:E; [|injection H as <- _ _; exact Hs].
  apply IH in H; [exact H | |].
  - unfold write_cut, append. cbn [log]. rewrite msgs_app. apply incl_appl, Hsub.
  - apply (inv_append I {| log := log s; arts := arts s ++ [(fresh_art s, v)] |}); [exact HI | exact Hs|].
    intros r a t m [= _ _ <- _]. destruct (cut_read_in _ _ _ _ _ E) as [x Hx].
    apply (in_map fst _ (pl_seq p, pl_mid p)), Hsub. rewrite <- msgs_of_full. exact (in_map fst _ _ Hx).
Qed.

Lemma run_job_inv I K j stride planned s s' made err :
  frame_inv I -> run_job K j stride planned s = (s', made, err) -> I (log s) -> I (log s').
Proof.
  intros HI. unfold run_job. destruct (run_cuts K (log s) stride s (plan_sort planned) []) as [[s1 made1] err1] eqn:E.
  intros [= <- _ _] Hs. apply inv_append; [exact HI | | discriminate].
  eapply run_cuts_inv; [exact HI | exact E | apply incl_refl | exact Hs].
Qed.

Lemma auto_inv I K ostride omax odry s : frame_inv I -> I (log s) -> I (log (fst (auto K ostride omax odry s))).
Proof.
  intros HI Hs. unfold auto, auto_spawn. destruct (_ =? 0); [exact Hs|].
  destruct (plan_cuts K _ _ (log s)); [exact Hs|]. destruct (opt_orb odry false); [exact Hs|]. cbn [ar_job ar_planned].
  destruct (run_job K _ _ _ _) as [[s2 made] err] eqn:E. eapply run_job_inv; [exact HI | exact E|].
  apply inv_append; [exact HI | exact Hs | discriminate].
Qed.

Lemma sched_inv I K ostride omax oblock oexec odry s :
  frame_inv I -> I (log s) -> I (log (fst (sched K ostride omax oblock oexec odry s))).
Proof.
  intros HI Hs. unfold sched, auto_spawn. destruct (_ =? 0); [exact Hs|].
  destruct (plan_cuts K _ _ (log s)); [exact Hs|]. destruct (opt_orb odry false); [exact Hs|].
  destruct (if opt_orb oblock true then find_inflight K (log s) else None); cbn [fst ar_job].
  - apply inv_append; [exact HI | exact Hs | discriminate].
  - assert (H2 : forall b1 b2, (forall r a t m, b1 <> BCkpt r a t m) -> (forall r a t m, b2 <> BCkpt r a t m) ->
                               I (log (append (append s b1) b2))).
    { intros b1 b2 H1 H2. apply inv_append; [exact HI | apply inv_append; [exact HI | exact Hs|] |];
        intros r a t m E; [destruct (H1 _ _ _ _ E) | destruct (H2 _ _ _ _ E)]. }
    destruct (opt_orb oexec true); [|apply H2; discriminate].
    destruct (run_job K _ _ _ _) as [[s3 made] err] eqn:E. eapply run_job_inv; [exact HI | exact E|]. apply H2; discriminate.
Qed.

Lemma step_inv I K s o : frame_inv I -> I (log s) -> I (log (fst (step K s o))).
Proof.
  intros HI Hs. destruct o; cbn [step fst]; try exact Hs; try (apply inv_append; [exact HI | exact Hs | discriminate]).
  - pose proof (manual_boundary K r s) as H. destruct (manual K r s) as [s' [[[[[ck a] ts] tm] rule]|e]]; cbn [fst].
    + destruct H as [Hin [Hl _]]. rewrite Hl. apply HI; [exact Hs | reflexivity|].
      intros r0 a0 t m [= _ _ <- _]. exact (in_map fst _ _ Hin).
    + subst s'. exact Hs.
  - pose proof (auto_inv I K stride maxnew dry s HI Hs) as H. destruct (auto K stride maxnew dry s). exact H.
  - pose proof (sched_inv I K stride maxnew block exec dry s HI Hs) as H. destruct (sched K stride maxnew block exec dry s). exact H.
Qed.

Lemma run_ops_inv I K : frame_inv I -> forall ops s acc, I (log s) -> I (log (fst (run_ops K s ops acc))).
Proof.
  intros HI. induction ops as [|o ops IH]; intros s acc Hs; cbn [run_ops]; [exact Hs|].
  pose proof (step_inv I K s o HI Hs) as H. destruct (step K s o) as [s' out]. apply IH, H.
Qed.

Theorem reachable_valid K : forall ops s acc, valid (log s) -> valid (log (fst (run_ops K s ops acc))).
Proof. apply run_ops_inv, valid_frame_inv. Qed.

(* non-vacuity for auto / idempotence / manual *)
Definition demo7_ops : list op := [OMsg 0 1; OMsg 1 2; OOther; OMsg 0 3; OMsg 1 4; OMsg 0 5; OMsg 1 6; OMsg 0 7].
Definition demo7 : st := fst (run_ops real_consts st0 demo7_ops []).
Definition demo7_plan2 : list plan :=
  [{| pl_ord := 6; pl_seq := 7; pl_mid := 8 |}; {| pl_ord := 4; pl_seq := 5; pl_mid := 6 |}].

Lemma demo7_valid : valid (log demo7).
Proof. apply reachable_valid, valid_st0. Qed.

(* max_new 2 plans two of the three undone cuts, and one is left after the run; max_new 32 covers all three, which is
   the hypothesis of auto_idempotent *)
Lemma demo7_facts :
  plan_cuts real_consts 2 (clamp 1 32 2) (log demo7) = demo7_plan2
  /\ map plan_of (undone real_consts 2 (log demo7)) = demo7_plan2 ++ [{| pl_ord := 2; pl_seq := 2; pl_mid := 3 |}]
  /\ map (fun e => enc_body (ebody e)) (skipn 9 (log (fst (auto real_consts (Some 2) (Some 2) None demo7))))
     = [ [3; 1; 2; 2; 6; 7; 8; 4; 5; 6]; [2; 3; 1; 5; 1; 6]; [2; 3; 2; 7; 1; 8]; [4; 1; 0; 2; 11; 1; 5; 6; 12; 2; 7; 8] ]
  /\ plan_cuts real_consts 2 (clamp 1 32 2) (log (fst (auto real_consts (Some 2) (Some 2) None demo7)))
     = [{| pl_ord := 2; pl_seq := 2; pl_mid := 3 |}]
  /\ (length (undone real_consts 2 (log demo7)) <= N.to_nat (clamp 1 32 32))%nat.
Proof. repeat split; vm_compute; try reflexivity. lia. Qed.

Definition demo_manual_req : manual_req :=
  {| mr_md := Some 0; mr_art := None; mr_to_mid := None; mr_to_seq := Some 3; mr_stride := None |}.
Lemma demo_manual_non_boundary :
  (forall q, mr_to_seq demo_manual_req = Some q -> ~ In q (map fst (msgs (log demo7))))
  /\ manual real_consts demo_manual_req demo7 = (demo7, Err 5).
Proof.
  split; [|vm_compute; reflexivity]. intros q H. injection H as <-. vm_compute. intuition discriminate.
Qed.

Definition ended_ids (l : list ev) : list N :=
  flat_map (fun e => match ebody e with BJobEnded j _ _ => [j] | _ => [] end) l.
(* the job an actor has spawned and has not yet ended *)
Definition holds (a : astate) : list N :=
  match a with
  | ADecide _ _ _ j | ASnap _ _ j | ACut _ j _ _ _ | AWrite _ j _ _ _ _ _ | AEnd _ j _ _ _ => [j]
  | _ => []
  end.
Definition held (acts : list astate) : list N := flat_map holds acts.

(* job_ended only after the job_spawned of the same job *)
Definition ended_after_spawned (l : list ev) : Prop :=
  forall a e b j st m, l = a ++ e :: b -> ebody e = BJobEnded j st m -> In j (job_ids a).

Definition bracket_ok (l : list ev) : Prop :=
  NoDup (job_ids l) /\ NoDup (ended_ids l) /\ ended_after_spawned l.

(* a spawned job id is held by exactly one actor or already ended, never both, and never twice *)
Definition cinv (s : st) (acts : list astate) : Prop :=
  valid (log s) /\ NoDup (job_ids (log s)) /\ NoDup (held acts ++ ended_ids (log s))
  /\ incl (held acts ++ ended_ids (log s)) (job_ids (log s)) /\ ended_after_spawned (log s).

Lemma job_ids_app a b : job_ids (a ++ b) = job_ids a ++ job_ids b.
Proof. unfold job_ids. apply flat_map_app. Qed.
Lemma ended_ids_app a b : ended_ids (a ++ b) = ended_ids a ++ ended_ids b.
Proof. unfold ended_ids. apply flat_map_app. Qed.

Lemma split_last {A} (a : list A) x b l e :
  a ++ x :: b = l ++ [e] -> (b = [] /\ a = l /\ x = e) \/ exists b', b = b' ++ [e] /\ l = a ++ x :: b'.
Proof.
  intros H. induction b as [|y b' _] using rev_ind.
  - left. apply app_inj_tail in H. tauto.
  - right. exists b'. rewrite app_comm_cons, app_assoc in H. apply app_inj_tail in H. destruct H as [<- <-]. auto.
Qed.

(* the five kinds of atomic step: a read; an append that concerns no job and no checkpoint; job_spawned with a fresh
   id; the write half of a cut; job_ended for the job the actor holds *)
Definition plain (b : body) : Prop := match b with BMsg _ _ | BDecided _ _ _ _ _ _ _ _ => True | _ => False end.

Inductive step_kind (s : st) (a : astate) (s' : st) (a' : astate) : Prop :=
| sk_read : s' = s -> (holds a' = holds a \/ holds a' = []) -> step_kind s a s' a'
| sk_plain b : plain b -> s' = append s b -> (holds a' = holds a \/ holds a' = []) -> step_kind s a s' a'
| sk_spawn p st : s' = append s (BJobSpawned (fresh_job (log s)) p st) -> holds a = [] -> holds a' = [fresh_job (log s)] ->
                  step_kind s a s' a'
| sk_write c j snap p v rest made :
    a = AWrite c j snap p v rest made ->
    s' = write_cut (c_stride c) s p v ->
    holds a' = [j] -> step_kind s a s' a'
| sk_end c j stt m err : a = AEnd c j stt m err -> s' = append s (BJobEnded j stt m) -> holds a' = [] -> step_kind s a s' a'.

Lemma astep_kind K s a : step_kind s a (fst (astep K s a)) (snd (astep K s a)).
Proof.
  destruct a; unfold astep; cbn [astep_gen].
  - (* AStart *) destruct (c_sched c); [destruct (plan_cuts K (c_stride c) (c_maxnew c) (log s))|]; apply sk_read; auto.
  - (* ACheck *) destruct (if c_block c then find_inflight K (log s) else None); apply sk_read; auto.
  - (* ASkip *) eapply sk_plain; [|reflexivity | auto]. exact I.
  - (* APlan *) destruct (plan_cuts K (c_stride c) (c_maxnew c) (log s)); apply sk_read; auto.
  - (* ASpawn *) destruct (c_sched c); eapply sk_spawn; reflexivity.
  - (* ADecide *) destruct (c_exec c); (eapply sk_plain; [|reflexivity | auto]); exact I.
  - (* ASnap *) apply sk_read; auto.
  - (* ACut *) destruct todo as [|p rest]; [apply sk_read; auto|]. destruct (cut_read K snap s p); apply sk_read; auto.
  - (* AWrite *) eapply sk_write; reflexivity.
  - (* AEnd *) eapply sk_end; reflexivity.
  - (* AMsgStart *) apply sk_read; [reflexivity|]. destruct ms; auto.
  - (* AMsgs *) destruct ms as [|[ac co] rest]; [apply sk_read; auto|]. eapply sk_plain; [|reflexivity|]; [exact I | destruct rest; auto].
  - (* ADone *) apply sk_read; auto.
Qed.

Lemma astep_valid K s a : valid (log s) -> valid (log (fst (astep K s a))).
Proof.
  intros Hv. destruct (astep_kind K s a) as [-> _ | b _ -> _ | p st -> _ _ | c j snap p v rest made _ -> _ | c j stt m err _ -> _];
    [exact Hv | apply valid_append, Hv ..].
Qed.

Lemma astep_log K s a : exists fr, log (fst (astep K s a)) = log s ++ fr.
Proof.
  destruct (astep_kind K s a) as [-> _ | b _ -> _ | p st -> _ _ | c j snap p v rest made _ -> _ | c j stt m err _ -> _];
    [exists []; symmetry; apply app_nil_r | eexists; reflexivity ..].
Qed.

(* a property of the actors that survives growth of the stream needs checking for the stepping actor only *)
Lemma Forall_astep (P : list ev -> astate -> Prop) K s pre a post :
  (forall l fr x, P l x -> P (l ++ fr) x) ->
  Forall (P (log s)) (pre ++ a :: post) -> P (log (fst (astep K s a))) (snd (astep K s a)) ->
  Forall (P (log (fst (astep K s a)))) (pre ++ snd (astep K s a) :: post).
Proof.
  intros Hmono Hf Ha. destruct (astep_log K s a) as [fr E]. rewrite E in *.
  apply Forall_app in Hf. destruct Hf as [Hpre Hf]. apply Forall_app. split; [|constructor; [exact Ha|]];
    (eapply Forall_impl; [intros x; apply Hmono|]); [exact Hpre | exact (Forall_inv_tail Hf)].
Qed.

Lemma held_split pre a post : held (pre ++ a :: post) = held pre ++ holds a ++ held post.
Proof. unfold held. rewrite flat_map_app. reflexivity. Qed.

Lemma job_ids_append s b :
  job_ids (log (append s b)) = job_ids (log s) ++ match b with BJobSpawned j _ _ => [j] | _ => [] end.
Proof. unfold append. cbn [log]. rewrite job_ids_app. cbn. rewrite app_nil_r. reflexivity. Qed.
Lemma ended_ids_append s b :
  ended_ids (log (append s b)) = ended_ids (log s) ++ match b with BJobEnded j _ _ => [j] | _ => [] end.
Proof. unfold append. cbn [log]. rewrite ended_ids_app. cbn. rewrite app_nil_r. reflexivity. Qed.
Lemma eas_append s b :
  ended_after_spawned (log s) -> (forall j st m, b = BJobEnded j st m -> In j (job_ids (log s))) ->
  ended_after_spawned (log (append s b)).
Proof.
  intros H He a x y j st m Hd Hb. symmetry in Hd. apply split_last in Hd.
  destruct Hd as [[_ [-> ->]]|[b' [_ Hl]]]; [eapply He; exact Hb|]. eapply H; [exact Hl | exact Hb].
Qed.

Lemma nodup_drop_mid {A} (x y z w : list A) : NoDup (x ++ y ++ z ++ w) -> NoDup (x ++ z ++ w).
Proof.
  induction y as [|a y IH]; intros H; [exact H|]. apply IH. cbn [app] in H. eapply NoDup_remove_1. exact H.
Qed.
Lemma incl_drop_mid {A} (x y z w t : list A) : incl (x ++ y ++ z ++ w) t -> incl (x ++ z ++ w) t.
Proof.
  intros H u Hu. apply H. apply in_app_or in Hu. apply in_or_app. destruct Hu as [Hu|Hu]; [left; exact Hu|].
  right. apply in_or_app. right. exact Hu.
Qed.

(* the invariant, one lemma per kind of step *)
Lemma cinv_release s pre a a' post :
  (holds a' = holds a \/ holds a' = []) -> cinv s (pre ++ a :: post) -> cinv s (pre ++ a' :: post).
Proof.
  intros Hh (Hv & Hj & Hn & Hi & He). unfold cinv. rewrite held_split in *. destruct Hh as [->| ->]; [auto|].
  rewrite <- !app_assoc in *. cbn [app].
  split; [exact Hv|]. split; [exact Hj|]. split; [eapply nodup_drop_mid, Hn|]. split; [eapply incl_drop_mid, Hi | exact He].
Qed.

Lemma cinv_quiet s b acts :
  match b with BJobSpawned _ _ _ | BJobEnded _ _ _ => False | _ => True end -> cinv s acts -> cinv (append s b) acts.
Proof.
  intros Hb (Hv & Hj & Hn & Hi & He). unfold cinv. rewrite job_ids_append, ended_ids_append.
  split; [apply valid_append, Hv|].
  assert (Heas : ended_after_spawned (log (append s b))) by (apply eas_append; [exact He | intros j st m ->; contradiction]).
  destruct b; try contradiction; rewrite !app_nil_r; auto.
Qed.

Lemma cinv_spawn s p st pre a a' post :
  holds a = [] -> holds a' = [fresh_job (log s)] ->
  cinv s (pre ++ a :: post) -> cinv (append s (BJobSpawned (fresh_job (log s)) p st)) (pre ++ a' :: post).
Proof.
  intros Hh Hh' (Hv & Hj & Hn & Hi & He). unfold cinv. rewrite held_split, job_ids_append, ended_ids_append, Hh', app_nil_r in *.
  rewrite Hh in Hn, Hi. cbn [app] in Hn, Hi.
  set (j := fresh_job (log s)) in *.
  assert (Hfresh : ~ In j (job_ids (log s))) by apply fresh_job_not_in.
  split; [apply valid_append, Hv|]. split; [|split; [|split]].
  - eapply Permutation_NoDup; [apply Permutation_cons_append|]. constructor; assumption.
  - rewrite <- app_assoc. cbn [app].
    eapply Permutation_NoDup; [apply Permutation_middle|]. constructor; [|rewrite <- app_assoc in Hn; exact Hn].
    intros Hin. apply Hfresh, Hi. rewrite <- app_assoc. exact Hin.
  - intros u Hu. specialize (Hi u). rewrite !in_app_iff in *. cbn [In] in *. intuition.
  - apply eas_append; [exact He | discriminate].
Qed.

Lemma cinv_end s j st m pre a a' post :
  holds a = [j] -> holds a' = [] ->
  cinv s (pre ++ a :: post) -> cinv (append s (BJobEnded j st m)) (pre ++ a' :: post).
Proof.
  intros Hh Hh' (Hv & Hj & Hn & Hi & He). unfold cinv. rewrite held_split, job_ids_append, ended_ids_append, Hh', app_nil_r in *.
  rewrite Hh in Hn, Hi. cbn [app] in *.
  assert (Hjin : In j (job_ids (log s))) by (apply Hi; rewrite !in_app_iff; cbn [In]; tauto).
  split; [apply valid_append, Hv|]. split; [exact Hj|]. split; [|split].
  - rewrite <- app_assoc in *. cbn [app] in *. eapply Permutation_NoDup; [|exact Hn].
    apply Permutation_app_head. rewrite app_assoc. apply Permutation_cons_append.
  - intros u Hu. specialize (Hi u). rewrite !in_app_iff in *. cbn [In] in *. intuition.
  - apply eas_append; [exact He|]. intros j' st' m' [= <- _ _]. exact Hjin.
Qed.

Lemma cinv_step K s pre a post :
  cinv s (pre ++ a :: post) -> cinv (fst (astep K s a)) (pre ++ snd (astep K s a) :: post).
Proof.
  intros H.
  destruct (astep_kind K s a) as [-> Hh | b Hb -> Hh | p st -> Hh Hh' | c j snap p v rest made -> -> Hh' | c j stt m err -> -> Hh'].
  - eapply cinv_release; eassumption.
  - apply cinv_quiet; [destruct b; try contradiction; exact I | eapply cinv_release; eassumption].
  - exact (cinv_spawn s p st pre a _ post Hh Hh' H).
  - apply (cinv_quiet {| log := log s; arts := arts s ++ [(fresh_art s, v)] |}); [exact I|].
    exact (cinv_release s pre (AWrite c j snap p v rest made) _ post (or_introl Hh') H).
  - exact (cinv_end s j stt m pre (AEnd c j stt m err) _ post eq_refl Hh' H).
Qed.

(* the system: any actor may take its next atomic step at any time *)
Inductive sys_step (K : consts) : st * list astate -> st * list astate -> Prop :=
| sys_step_at s pre a post :
    sys_step K (s, pre ++ a :: post) (fst (astep K s a), pre ++ snd (astep K s a) :: post).
Inductive sys_steps (K : consts) : st * list astate -> st * list astate -> Prop :=
| sys_refl x : sys_steps K x x
| sys_cons x y z : sys_step K x y -> sys_steps K y z -> sys_steps K x z.

Lemma sys_steps_trans K x y z : sys_steps K x y -> sys_steps K y z -> sys_steps K x z.
Proof. induction 1 as [|x y' z' H1 H2 IH]; intros H; [exact H|]. econstructor; [exact H1 | apply IH, H]. Qed.

(* an invariant of the single actor steps is an invariant of every interleaving *)
Lemma sys_steps_inv K (I : st -> list astate -> Prop) :
  (forall s pre a post, I s (pre ++ a :: post) -> I (fst (astep K s a)) (pre ++ snd (astep K s a) :: post)) ->
  forall x y, sys_steps K x y -> I (fst x) (snd x) -> I (fst y) (snd y).
Proof.
  intros Hstep x y H. induction H as [|x y z H1 H2 IH]; intros H; [exact H|]. apply IH. destruct H1. apply Hstep, H.
Qed.

Lemma valid_steps K x y : sys_steps K x y -> valid (log (fst x)) -> valid (log (fst y)).
Proof. apply (sys_steps_inv K (fun s _ => valid (log s))). intros s pre a post. apply astep_valid. Qed.

Lemma ended_in_spawned l : ended_after_spawned l -> incl (ended_ids l) (job_ids l).
Proof.
  intros H j Hj. unfold ended_ids in Hj. apply in_flat_map in Hj. destruct Hj as [e [He Hj]].
  destruct (ebody e) eqn:Eb; try contradiction. destruct Hj as [<-|[]].
  apply in_split in He. destruct He as [a [b ->]]. rewrite job_ids_app. apply in_or_app. left.
  eapply H; [reflexivity | exact Eb].
Qed.

Lemma cinv_init s acts : valid (log s) -> bracket_ok (log s) -> held acts = [] -> cinv s acts.
Proof.
  intros Hv [Hj [He Ha]] Hh. unfold cinv. rewrite Hh. cbn [app].
  repeat split; try assumption. apply ended_in_spawned, Ha.
Qed.
Lemma cinv_bracket s acts : cinv s acts -> valid (log s) /\ bracket_ok (log s).
Proof.
  intros [Hv [Hj [Hn [_ He]]]]. split; [exact Hv|]. split; [exact Hj|]. split; [|exact He].
  clear -Hn. induction (held acts) as [|x l IH]; [exact Hn|]. apply IH. cbn [app] in Hn. inversion Hn; assumption.
Qed.

(* an actor that has not started satisfies what every actor invariant asks of AStart and AMsgStart *)
Lemma Forall_start (P : astate -> Prop) calls :
  (forall c, P (AStart c)) -> (forall ms, P (AMsgStart ms)) -> Forall P (map start_of calls).
Proof. intros H1 H2. apply Forall_map, Forall_forall. intros [c|ms] _; [apply H1 | apply H2]. Qed.

Lemma held_start calls : held (map start_of calls) = [].
Proof. induction calls as [|c r IH]; [reflexivity|]. destruct c; exact IH. Qed.

(* every interleaving of the atomic steps of any number of schedule / auto calls *)
Theorem concurrent_bracket K s calls s' acts' :
  valid (log s) -> bracket_ok (log s) ->
  sys_steps K (s, map start_of calls) (s', acts') ->
  valid (log s') /\ bracket_ok (log s').
Proof.
  intros Hv Hb H. apply (cinv_bracket s' acts').
  apply (sys_steps_inv K cinv (cinv_step K) _ _ H). cbn [fst snd]. apply cinv_init; [exact Hv | exact Hb | apply held_start].
Qed.

(* the executable scheduler used by the correspondence is one such interleaving *)
Lemma set_nth_split {A} (l : list A) : forall n a x, nth_error l n = Some a ->
  exists pre post, l = pre ++ a :: post /\ set_nth n x l = pre ++ x :: post.
Proof.
  induction l as [|y l IH]; intros n a x H; [destruct n; discriminate|].
  destruct n as [|n]; cbn [nth_error set_nth] in *.
  - injection H as ->. exists [], l. split; reflexivity.
  - destruct (IH n a x H) as [pre [post [-> E]]]. exists (y :: pre), post. cbn [app]. rewrite E. split; reflexivity.
Qed.

Lemma astep_steps K s pre a post :
  sys_steps K (s, pre ++ a :: post) (fst (astep K s a), pre ++ snd (astep K s a) :: post).
Proof. econstructor; [apply sys_step_at | apply sys_refl]. Qed.

Lemma reads_steps K fuel : forall s pre a post,
  sys_steps K (s, pre ++ a :: post) (fst (reads K fuel s a), pre ++ snd (reads K fuel s a) :: post).
Proof.
  induction fuel as [|f IH]; intros s pre a post; cbn [reads]; [apply sys_refl|].
  destruct (is_park a || is_done a); [apply sys_refl|].
  pose proof (astep_steps K s pre a post) as H1. destruct (astep K s a) as [s1 a1]. cbn [fst snd] in H1.
  eapply sys_steps_trans; [exact H1 | apply IH].
Qed.

Lemma quantum_steps K s pre a post :
  sys_steps K (s, pre ++ a :: post) (fst (quantum K s a), pre ++ snd (quantum K s a) :: post).
Proof.
  unfold quantum. destruct (is_park a); [|apply reads_steps].
  pose proof (astep_steps K s pre a post) as H1. destruct (astep K s a) as [s1 a1]. cbn [fst snd] in H1.
  eapply sys_steps_trans; [exact H1 | apply reads_steps].
Qed.

Lemma run_fine_steps K step :
  (forall s pre a post, sys_steps K (s, pre ++ a :: post) (fst (step s a), pre ++ snd (step s a) :: post)) ->
  forall schedule s acts, sys_steps K (s, acts) (run_fine step s acts schedule).
Proof.
  intros Hstep. induction schedule as [|i rest IH]; intros s acts; cbn [run_fine]; [apply sys_refl|].
  destruct (nth_error acts (N.to_nat i)) as [a|] eqn:E; [|apply IH].
  destruct (set_nth_split acts (N.to_nat i) a (snd (step s a)) E) as [pre [post [-> Es]]].
  pose proof (Hstep s pre a post) as H1. destruct (step s a) as [s1 a1]. cbn [fst snd] in *.
  rewrite Es. eapply sys_steps_trans; [exact H1 | apply IH].
Qed.

Lemma run_sched_fine K : forall schedule s acts, run_sched K s acts schedule = run_fine (quantum K) s acts schedule.
Proof.
  induction schedule as [|i rest IH]; intros s acts; cbn [run_sched run_fine]; [reflexivity|].
  destruct (nth_error acts (N.to_nat i)); [destruct (quantum K s a)|]; apply IH.
Qed.

Lemma run_sched_steps K : forall schedule s acts,
  sys_steps K (s, acts) (run_sched K s acts schedule).
Proof. intros. rewrite run_sched_fine. apply run_fine_steps, quantum_steps. Qed.

Theorem run_sched_bracket K s calls schedule :
  valid (log s) -> bracket_ok (log s) ->
  valid (log (fst (run_sched K s (map start_of calls) schedule)))
  /\ bracket_ok (log (fst (run_sched K s (map start_of calls) schedule))).
Proof.
  intros Hv Hb. pose proof (run_sched_steps K schedule s (map start_of calls)) as H.
  destruct (run_sched K s (map start_of calls) schedule) as [s' acts']. cbn [fst].
  eapply concurrent_bracket; eassumption.
Qed.

(* observed, not excluded: two racing schedule calls both pass the in-flight check, both spawn a job and both
   create a checkpoint for the same cut point (docs/03_contracts/compaction.md calls this replay-safe: latest wins) *)
Definition race_call : call := {| c_sched := true; c_stride := 2; c_maxnew := 1; c_block := true; c_exec := true |}.
Definition race_state : st := fst (run_ops real_consts st0 [OMsg 0 1; OMsg 1 2] []).
Definition race_end : st := fst (run_sched real_consts race_state [AStart race_call; AStart race_call] [0; 1; 0; 1; 0; 0; 0; 0; 1; 1; 1; 1]).
Lemma race_facts :
  valid (log race_state) /\ bracket_ok (log race_state)
  /\ job_ids (log race_end) = [1; 2] /\ ended_ids (log race_end) = [1; 2]
  /\ map ck_to (ckpts (log race_end)) = [2; 2]
  /\ map (fun c => (cp_seq c, cp_done c, cp_ck c)) (cut_points real_consts 2 32 (log race_end)) = [(2, true, Some 10)].
Proof.
  split; [apply reachable_valid, valid_st0|]. split.
  - split; [vm_compute; constructor|]. split; [vm_compute; constructor|].
    intros a e b j stt m Hd Hb. exfalso.
    assert (Hin : In e (log race_state)) by (rewrite Hd; apply in_or_app; right; left; reflexivity).
    vm_compute in Hin. destruct Hin as [<-|[<-|[<-|[]]]]; discriminate.
  - repeat split; vm_compute; reflexivity.
Qed.

(* "latest by stream order": on a valid stream the winning frame is the last one for that seq *)
Lemma sorted_split_after {A} (f : A -> N) (x : list A) : forall b y,
  StronglySorted N.lt (map f (x ++ b :: y)) -> Forall (fun k => f b < f k) y.
Proof.
  induction x as [|a x IH]; intros b y H; cbn [app map] in H; inversion H as [|a' l' Hs Ha]; subst.
  - rewrite Forall_forall in *. intros k Hk. apply Ha. apply in_map, Hk.
  - apply IH, Hs.
Qed.

Theorem latest_is_last l s b x y :
  valid l -> latest_for (ckpts l) s b -> ckpts l = x ++ b :: y -> Forall (fun k => ck_to k <> s) y.
Proof.
  intros Hs [Hin [Hto Hmax]] Hsplit. apply ckpts_seq_sorted in Hs.
  rewrite Hsplit in Hs. apply sorted_split_after in Hs. rewrite Forall_forall in *.
  intros k Hk Hks. specialize (Hs k Hk). specialize (Hmax k).
  assert (Hkin : In k (ckpts l)) by (rewrite Hsplit; apply in_or_app; right; right; exact Hk).
  specialize (Hmax Hkin Hks). lia.
Qed.

(* the announced and the created seqs, job by job (for the witness below) *)
Definition spawn_plans (l : list ev) : list (N * list N) :=
  flat_map (fun e => match ebody e with BJobSpawned j p _ => [(j, map pl_seq p)] | _ => [] end) l.
Definition ended_made (l : list ev) : list (N * N * list N) :=
  flat_map (fun e => match ebody e with BJobEnded j st m => [(j, st, map cr_seq m)] | _ => [] end) l.

(* before the fix (S20): the scheduler handed its own earlier plan to the job.  A schedule call plans cut 2, an auto
   call checkpoints cut 2 meanwhile, the schedule call's spawn_job re-plans (cut 1, announced in job_spawned) but the
   job runs the stale plan: it checkpoints cut 2 again and never creates cut 1 *)
Definition mm_state : st := fst (run_ops real_consts st0 [OMsg 0 1; OMsg 1 2] []).
Definition mm_actors : list astate :=
  [AStart {| c_sched := true; c_stride := 1; c_maxnew := 1; c_block := false; c_exec := true |};
   AStart {| c_sched := false; c_stride := 1; c_maxnew := 1; c_block := false; c_exec := true |}].
Definition mm_schedule : list N := [0; 0; 1; 1; 1; 1; 1; 1; 1; 1; 0; 0; 0; 0; 0; 0; 0; 0].
Definition mm_unfixed : list ev := log (fst (run_fine (astep_unfixed real_consts) mm_state mm_actors mm_schedule)).
Definition mm_fixed : list ev := log (fst (run_fine (astep real_consts) mm_state mm_actors mm_schedule)).
Lemma mm_facts :
  spawn_plans mm_unfixed = [(1, [2]); (2, [1])] /\ ended_made mm_unfixed = [(1, 0, [2]); (2, 0, [2])]
  /\ spawn_plans mm_fixed = [(1, [2]); (2, [1])] /\ ended_made mm_fixed = [(1, 0, [2]); (2, 0, [1])].
Proof. repeat split; vm_compute; reflexivity. Qed.

(* concurrent calls: every job completes and creates precisely what its job_spawned announced *)
Definition pkey (p : plan) : N * N := (pl_seq p, pl_mid p).
Definition ckey (c : created) : N * N := (cr_seq c, cr_mid c).
Definition spawned_with (l : list ev) (j : N) (pl : list plan) : Prop :=
  exists e stride, In e l /\ ebody e = BJobSpawned j pl stride.
Definition made_in (l : list ev) (made : list created) : Prop :=
  forall c, In c made -> exists e r, In e l /\ eid e = cr_ck c /\ ebody e = BCkpt r (cr_art c) (cr_seq c) (Some (cr_mid c)).

(* every checkpoint frame of `l` references a readable summary of matching coverage *)
Definition good_ckpts (s : st) (l : list ev) : Prop :=
  forall e r a ts tm, In e l -> ebody e = BCkpt r a ts (Some tm) ->
    exists v, art_read s a = Some v /\ su_to_seq v = ts /\ su_to_mid v = Some tm.


(* what a finished job looks like in the stream *)
Definition ended_ok (l : list ev) (j st : N) (made : list created) : Prop :=
  st = 0 /\ exists planned, (spawned_with l j planned /\ plan_ok planned l)
                             /\ map ckey made = map pkey (plan_sort planned) /\ made_in l made.
Definition job_consistent (l : list ev) : Prop :=
  forall e j st made, In e l -> ebody e = BJobEnded j st made -> ended_ok l j st made.

(* a job between two cuts: `made` and `todo` together are the sorted plan it was spawned with *)
Definition job_ok (l : list ev) (j : N) (snap : list ev) (todo : list plan) (made : list created) : Prop :=
  exists planned, (spawned_with l j planned /\ plan_ok planned l)
                  /\ map ckey made ++ map pkey todo = map pkey (plan_sort planned)
                  /\ msorted snap /\ plan_ok todo snap /\ made_in l made.

Definition actor_ok (l : list ev) (a : astate) : Prop :=
  match a with
  | ASpawn _ _ plan2 _ _ => plan_ok plan2 l
  | ADecide _ pl _ j | ASnap _ pl j => plan_ok pl l /\ spawned_with l j pl
  | ACut _ j snap todo made => job_ok l j snap todo made
  | AWrite _ j snap p _ rest made => job_ok l j snap (p :: rest) made
  | AEnd _ j status made _ => ended_ok l j status made
  | _ => True
  end.

Lemma spawned_with_mono l fr j pl : spawned_with l j pl -> spawned_with (l ++ fr) j pl.
Proof. intros [e [st [Hi Hb]]]. exists e, st. split; [apply in_or_app; left; exact Hi | exact Hb]. Qed.
Lemma made_in_mono l fr made : made_in l made -> made_in (l ++ fr) made.
Proof.
  intros H c Hc. destruct (H c Hc) as [e [r [Hi [H1 H2]]]]. exists e, r. split; [apply in_or_app; left; exact Hi | auto].
Qed.
Lemma ended_ok_mono l fr j st made : ended_ok l j st made -> ended_ok (l ++ fr) j st made.
Proof.
  intros [H0 [pl [H1 [H2 H3]]]]. split; [exact H0|]. exists pl.
  split; [split; [apply spawned_with_mono, H1 | apply plan_ok_mono, H1]|]. split; [exact H2 | apply made_in_mono, H3].
Qed.
Lemma job_ok_mono l fr j snap todo made : job_ok l j snap todo made -> job_ok (l ++ fr) j snap todo made.
Proof.
  intros [pl [H1 [H2 [H3 [H4 H5]]]]]. exists pl.
  split; [split; [apply spawned_with_mono, H1 | apply plan_ok_mono, H1]|]. split; [exact H2|].
  split; [exact H3|]. split; [exact H4 | apply made_in_mono, H5].
Qed.
Lemma actor_ok_mono l fr a : actor_ok l a -> actor_ok (l ++ fr) a.
Proof.
  destruct a; cbn [actor_ok]; try exact (fun H => H).
  - apply plan_ok_mono.
  - intros [H1 H2]. split; [apply plan_ok_mono, H1 | apply spawned_with_mono, H2].
  - intros [H1 H2]. split; [apply plan_ok_mono, H1 | apply spawned_with_mono, H2].
  - apply job_ok_mono.
  - apply job_ok_mono.
  - apply ended_ok_mono.
Qed.

(* one step of one actor leaves it well-formed with respect to the stream it has extended *)
Lemma actor_next K s a :
  valid (log s) -> actor_ok (log s) a -> actor_ok (log (fst (astep K s a))) (snd (astep K s a)).
Proof.
  intros Hv Ha. destruct a; unfold astep; cbn [astep_gen]; cbn [actor_ok] in Ha.
  - (* AStart *) destruct (c_sched c); [destruct (plan_cuts K (c_stride c) (c_maxnew c) (log s))|]; exact I.
  - (* ACheck *) destruct (if c_block c then find_inflight K (log s) else None); exact I.
  - (* ASkip *) exact I.
  - (* APlan *) pose proof (plan_cuts_ok K (c_stride c) (c_maxnew c) (log s)) as Hp.
    destruct (plan_cuts K (c_stride c) (c_maxnew c) (log s)); [exact I | exact Hp].
  - (* ASpawn *) destruct (c_sched c); cbn [fst snd actor_ok append log]; (split; [apply plan_ok_mono, Ha|]);
      eexists; eexists; (split; [apply in_or_app; right; left; reflexivity | reflexivity]).
  - (* ADecide *) destruct Ha as [H1 H2]. destruct (c_exec c); cbn [fst snd actor_ok append log]; [|exact I].
    split; [apply plan_ok_mono, H1 | apply spawned_with_mono, H2].
  - (* ASnap *) destruct Ha as [H1 H2]. exists todo. split; [split; [exact H2 | exact H1]|]. split; [reflexivity|].
    split; [apply valid_msgs_sorted, Hv|]. split; [eapply plan_ok_perm; [apply plan_sort_perm | exact H1] | intros c0 []].
  - (* ACut *) destruct Ha as [pl [H1 [H2 [H3 [H4 H5]]]]]. destruct todo as [|p rest].
    + split; [reflexivity|]. exists pl. cbn [map] in H2. rewrite app_nil_r in H2. auto.
    + destruct (cut_read_ok K snap s p H3 (H4 p (or_introl eq_refl))) as [v Hr]. rewrite Hr. exists pl. auto.
  - (* AWrite *) (* the checkpoint frame just appended is the one the new `created` entry names *)
    destruct Ha as [pl [H1 [H2 [H3 [H4 H5]]]]]. cbv beta iota zeta delta [put_art]. cbn [fst snd actor_ok append log].
    exists pl. split; [split; [apply spawned_with_mono, H1 | apply plan_ok_mono, H1]|].
    split; [rewrite map_app, <- app_assoc; exact H2|].
    split; [exact H3|]. split; [intros q Hq; apply H4; right; exact Hq|].
    intros c0 Hc0. apply in_app_or in Hc0. destruct Hc0 as [Hc0|[<-|[]]]; [exact (made_in_mono _ _ _ H5 c0 Hc0)|].
    eexists. exists (rule_stride (c_stride c)). split; [apply in_or_app; right; left; reflexivity|].
    split; [symmetry; apply last_id_append | reflexivity].
  - (* AEnd *) exact I.
  - (* AMsgStart *) destruct ms; exact I.
  - (* AMsgs *) destruct ms as [|[ac co] rest]; [exact I|]. destruct rest; exact I.
  - (* ADone *) exact I.
Qed.

Lemma job_consistent_append s b :
  job_consistent (log s) -> (forall j st m, b = BJobEnded j st m -> ended_ok (log s) j st m) ->
  job_consistent (log (append s b)).
Proof.
  intros Hj Hb e j st made Hin He. unfold append in *. cbn [log] in *. apply ended_ok_mono.
  apply in_app_or in Hin. destruct Hin as [Hin|[<-|[]]]; [eapply Hj; eassumption | apply Hb; exact He].
Qed.

Definition sys_ok (s : st) (acts : list astate) : Prop :=
  valid (log s) /\ Forall (actor_ok (log s)) acts /\ job_consistent (log s).

Lemma sys_ok_step K s pre a post :
  sys_ok s (pre ++ a :: post) -> sys_ok (fst (astep K s a)) (pre ++ snd (astep K s a) :: post).
Proof.
  intros [Hv [Hf Hj]]. pose proof (Forall_inv (proj2 (proj1 (Forall_app _ _ _) Hf))) as Ha.
  split; [apply astep_valid, Hv|].
  split; [apply (Forall_astep actor_ok); [apply actor_ok_mono | exact Hf | apply actor_next; assumption]|].
  (* what is left is the job_ended frame, if one was appended *)
  destruct (astep_kind K s a) as [-> _ | b Hb -> _ | p st -> _ _ | c j snap p v rest made _ -> _ | c j stt m err -> -> _].
  - exact Hj.
  - apply job_consistent_append; [exact Hj | intros j st m ->; contradiction].
  - apply job_consistent_append; [exact Hj | discriminate].
  - apply (job_consistent_append {| log := log s; arts := arts s ++ [(fresh_art s, v)] |}); [exact Hj | discriminate].
  - apply job_consistent_append; [exact Hj|]. intros j0 st m0 [= <- <- <-]. exact Ha.
Qed.

Lemma actor_ok_start l calls : Forall (actor_ok l) (map start_of calls).
Proof. apply Forall_start; intros; exact I. Qed.

(* every interleaving: each job that ends is `completed`, and its created list is, in ascending to_seq order, exactly
   the plan of the job_spawned frame of the same job, every entry naming a checkpoint frame of the stream *)
Theorem concurrent_jobs_create_announced K s calls s' acts' :
  valid (log s) -> job_consistent (log s) ->
  sys_steps K (s, map start_of calls) (s', acts') ->
  job_consistent (log s').
Proof.
  intros Hv Hj H. apply (sys_steps_inv K sys_ok (sys_ok_step K) _ _ H). cbn [fst snd].
  split; [exact Hv|]. split; [apply actor_ok_start | exact Hj].
Qed.

(* non-vacuity: the race of mm_fixed starts from a valid, job-consistent state and ends with two ended jobs *)
Lemma mm_start_ok : valid (log mm_state) /\ job_consistent (log mm_state).
Proof.
  split; [apply reachable_valid, valid_st0|].
  intros e j st made Hin Hb. exfalso. vm_compute in Hin. destruct Hin as [<-|[<-|[<-|[]]]]; discriminate.
Qed.

Lemma mm_fixed_consistent : job_consistent mm_fixed /\ length (ended_made mm_fixed) = 2%nat.
Proof.
  split; [|vm_compute; reflexivity]. unfold mm_fixed.
  pose proof (run_fine_steps real_consts _ (astep_steps real_consts) mm_schedule mm_state mm_actors) as H.
  destruct (run_fine (astep real_consts) mm_state mm_actors mm_schedule) as [s' acts'] eqn:E. cbn [fst].
  destruct mm_start_ok as [Hv Hj].
  exact (concurrent_jobs_create_announced real_consts mm_state
           [SCall {| c_sched := true; c_stride := 1; c_maxnew := 1; c_block := false; c_exec := true |};
            SCall {| c_sched := false; c_stride := 1; c_maxnew := 1; c_block := false; c_exec := true |}] s' acts' Hv Hj H).
Qed.

Lemma find_map_filter {A B} (f : A -> B) (p : A -> bool) (l : list A) :
  option_map f (find p l) = hd_error (map f (filter p l)).
Proof.
  induction l as [|x l IH]; [reflexivity|]. cbn [find filter]. destruct (p x); [reflexivity | exact IH].
Qed.

Theorem status_next_first_undone K ostride s r :
  status K ostride s = Ok r ->
  ss_next r = hd_error (map plan_of (undone K (opt_or ostride (k_default_stride K)) (log s)))
  /\ ss_count r = nlen (msgs (log s)) /\ ss_inflight r = find_inflight K (log s).
Proof.
  unfold status. destruct (opt_or ostride (k_default_stride K) =? 0); [discriminate|].
  intros H. injection H as <-. cbn [ss_next ss_count ss_inflight]. split; [|auto].
  rewrite find_map_filter, undone_cuts. reflexivity.
Qed.

Lemma sched_skipped K ostride omax oblock oexec odry s j0 :
  let stride := opt_or ostride (k_default_stride K) in
  let maxnew := clamp (k_maxnew_lo K) (k_maxnew_hi K) (opt_or omax 1) in
  stride <> 0 ->
  opt_orb odry false = false ->
  plan_cuts K stride maxnew (log s) <> [] ->
  opt_orb oblock true = true -> find_inflight K (log s) = Some j0 ->
  exists s' r e,
    sched K ostride omax oblock oexec odry s = (s', Ok r) /\ sr_decision r = 2 /\ sr_job r = None /\ sr_result r = []
    /\ log s' = log s ++ [e]
    /\ ebody e = BDecided 2 None (sr_planned r) (sr_stride r) (sr_maxnew r) true (sr_exec r) (nlen (msgs (log s)))
    /\ sr_planned r = plan_cuts K stride maxnew (log s).
Proof.
  intros stride maxnew Hs Hd Hp Hb Hi. unfold sched. fold stride maxnew. apply N.eqb_neq in Hs. rewrite Hs, Hd, Hb, Hi.
  destruct (plan_cuts K stride maxnew (log s)) as [|p0 pr]; [congruence|].
  do 3 eexists. split; [reflexivity|]. cbn. repeat split; reflexivity.
Qed.

Record sched_outcome (stride : N) (planned : list plan) (exec : bool) (s s' : st) (j : N) (made : list created)
                     (dec : body) : Prop := {
  so_log : exists e_sp e_dec frames tail_,
      log s' = log s ++ [e_sp; e_dec] ++ frames ++ tail_
      /\ ebody e_sp = BJobSpawned j planned stride /\ ebody e_dec = dec
      /\ (if exec then exists e_end, tail_ = [e_end] /\ ebody e_end = BJobEnded j 0 made
                                     /\ Forall2 (ck_for stride s') frames (plan_sort planned)
                                     /\ Forall2 created_for made frames
          else tail_ = [] /\ frames = [] /\ made = []);
  so_fresh : ~ In j (job_ids (log s));
  so_valid : valid (log s') }.

Theorem sched_creates_planned K ostride omax oblock oexec odry s :
  let stride := opt_or ostride (k_default_stride K) in
  let maxnew := clamp (k_maxnew_lo K) (k_maxnew_hi K) (opt_or omax 1) in
  valid (log s) ->
  stride <> 0 ->
  opt_orb odry false = false ->
  plan_cuts K stride maxnew (log s) <> [] ->
  (if opt_orb oblock true then find_inflight K (log s) else None) = None ->
  exists s' r,
    sched K ostride omax oblock oexec odry s = (s', Ok r)
    /\ sr_decision r = (if opt_orb oexec true then 4 else 3) /\ sr_err r = None /\ sr_job r = Some (fresh_job (log s))
    /\ sr_planned r = plan_cuts K stride maxnew (log s)
    /\ sched_outcome stride (sr_planned r) (opt_orb oexec true) s s' (fresh_job (log s)) (sr_result r)
                     (BDecided 3 (Some (fresh_job (log s))) (sr_planned r) stride maxnew (opt_orb oblock true)
                               (opt_orb oexec true) (nlen (msgs (log s)))).
Proof.
  intros stride maxnew Hv Hs Hd Hp Hi. unfold sched. fold stride maxnew.
  apply N.eqb_neq in Hs. rewrite Hs, Hd, Hi. unfold auto_spawn.
  set (planned := plan_cuts K stride maxnew (log s)) in *.
  destruct planned as [|p0 pr] eqn:Ep; [congruence|]. rewrite <- Ep. cbn [ar_job].
  set (j := fresh_job (log s)).
  set (dec := BDecided 3 (Some j) planned stride maxnew (opt_orb oblock true) (opt_orb oexec true) (nlen (msgs (log s)))).
  set (s2 := append (append s (BJobSpawned j planned stride)) dec).
  assert (Hv2 : valid (log s2)) by (do 2 apply valid_append; exact Hv).
  assert (Hl2 : log s2 = log s ++ [_; _]) by (unfold s2, append; cbn [log]; rewrite <- app_assoc; reflexivity).
  destruct (opt_orb oexec true).
  - destruct (run_job_spec K j stride planned s2 Hv2) as (s' & made & frames & e_end & Hr & Hl & Hend & Hf & Hm & Hv').
    { rewrite Hl2. apply plan_ok_mono, plan_cuts_ok. }
    rewrite Hr. do 2 eexists. split; [reflexivity|]. cbn [sr_decision sr_err sr_job sr_planned sr_result].
    repeat (split; [reflexivity|]).
    constructor; [|apply fresh_job_not_in | exact Hv'].
    do 2 eexists. exists frames, [e_end]. split; [rewrite Hl, Hl2, <- app_assoc; reflexivity|].
    split; [reflexivity|]. split; [reflexivity|]. exists e_end. auto.
  - do 2 eexists. split; [reflexivity|]. cbn [sr_decision sr_err sr_job sr_planned sr_result].
    repeat (split; [reflexivity|]).
    constructor; [|apply fresh_job_not_in | exact Hv2].
    do 2 eexists. exists [], []. split; [exact Hl2|]. auto.
Qed.

(* non-vacuity for sched_skipped: after schedule(execute=false) job 1 is in flight and something is planned *)
Definition demo_inflight : st :=
  fst (sched real_consts (Some 1) (Some 1) (Some true) (Some false) None (fst (run_ops real_consts st0 [OMsg 0 1; OMsg 1 2] []))).
Lemma demo_sched_facts :
  valid (log demo_inflight)
  /\ find_inflight real_consts (log demo_inflight) = Some 1
  /\ plan_cuts real_consts 1 (clamp 1 32 1) (log demo_inflight) = [{| pl_ord := 2; pl_seq := 2; pl_mid := 3 |}]
  /\ map (fun e => enc_body (ebody e)) (skipn 3 (log demo_inflight))
     = [[3; 1; 1; 1; 2; 2; 3]; [5; 3; 1; 1; 1; 2; 2; 3; 1; 1; 1; 0; 2]].
Proof.
  split; [unfold demo_inflight; apply (sched_inv valid), reachable_valid, valid_st0; apply valid_frame_inv|].
  repeat split; vm_compute; reflexivity.
Qed.

(* a call running alone is the sequential function (the two halves of the model agree) *)
Inductive solo_steps (K : consts) : st * astate -> st * astate -> Prop :=
| solo_refl x : solo_steps K x x
| solo_cons s a z : solo_steps K (astep K s a) z -> solo_steps K (s, a) z.

Lemma solo_trans K x y z : solo_steps K x y -> solo_steps K y z -> solo_steps K x z.
Proof. induction 1 as [|s a y' H IH]; intros H2; [exact H2|]. apply solo_cons, IH, H2. Qed.

(* one atomic step of the actor, computed *)
Ltac solo_step := apply solo_cons; unfold astep; cbn [astep_gen].

(* the job loop of an actor = run_cuts followed by job_ended *)
Lemma solo_job K c j snap : forall todo s made,
  exists resp,
    solo_steps K (s, ACut c j snap todo made)
      (let '(sn, made', err) := run_cuts K snap (c_stride c) s todo made in
       (append sn (BJobEnded j (match err with None => 0 | Some _ => 1 end) made'), ADone resp)).
Proof.
  induction todo as [|p rest IH]; intros s made.
  - eexists. solo_step. solo_step. apply solo_refl.
  - rewrite run_cuts_cons. destruct (cut_read K snap s p) as [v|e] eqn:E.
    + edestruct IH as [resp Hs]. exists resp. solo_step. rewrite E. solo_step. exact Hs.
    + eexists. solo_step. rewrite E. solo_step. apply solo_refl.
Qed.

Lemma solo_run_job K c j planned s s' made err :
  run_job K j (c_stride c) planned s = (s', made, err) -> exists resp, solo_steps K (s, ASnap c planned j) (s', ADone resp).
Proof.
  unfold run_job. intros E. destruct (solo_job K c j (log s) (plan_sort planned) s []) as [resp H].
  destruct (run_cuts K (log s) (c_stride c) s (plan_sort planned) []) as [[sn made1] err1]. injection E as <- _ _.
  exists resp. solo_step. exact H.
Qed.

Theorem solo_auto_is_auto K c s :
  c_sched c = false -> c_stride c <> 0 -> clamp (k_maxnew_lo K) (k_maxnew_hi K) (c_maxnew c) = c_maxnew c ->
  exists resp, solo_steps K (s, AStart c)
                 (fst (auto K (Some (c_stride c)) (Some (c_maxnew c)) None s), ADone resp).
Proof.
  intros Hsch Hs Hm. unfold auto. cbn [opt_or opt_orb]. apply N.eqb_neq in Hs. rewrite Hs, Hm. unfold auto_spawn.
  destruct (plan_cuts K (c_stride c) (c_maxnew c) (log s)) as [|p0 pr] eqn:Ep; cbn [ar_job ar_planned fst].
  - eexists. solo_step. rewrite Hsch. solo_step. rewrite Ep. apply solo_refl.
  - destruct (run_job K _ _ _ _) as [[s2 made] err] eqn:E. apply solo_run_job in E. destruct E as [resp H]. exists resp.
    solo_step. rewrite Hsch. solo_step. rewrite Ep. solo_step. rewrite Hsch. exact H.
Qed.

Theorem solo_sched_is_sched K c s :
  c_sched c = true -> c_stride c <> 0 -> clamp (k_maxnew_lo K) (k_maxnew_hi K) (c_maxnew c) = c_maxnew c ->
  exists resp, solo_steps K (s, AStart c)
                 (fst (sched K (Some (c_stride c)) (Some (c_maxnew c)) (Some (c_block c)) (Some (c_exec c)) None s), ADone resp).
Proof.
  intros Hsch Hs Hm. unfold sched. cbn [opt_or opt_orb]. apply N.eqb_neq in Hs. rewrite Hs, Hm.
  destruct (plan_cuts K (c_stride c) (c_maxnew c) (log s)) as [|p0 pr] eqn:Ep.
  - eexists. solo_step. rewrite Hsch, Ep. apply solo_refl.
  - destruct (if c_block c then find_inflight K (log s) else None) as [j0|] eqn:Ei.
    + eexists. solo_step. rewrite Hsch, Ep. solo_step. rewrite Ei. solo_step. apply solo_refl.
    + unfold auto_spawn. rewrite Ep. cbn [ar_job]. destruct (c_exec c) eqn:Ex.
      * destruct (run_job K _ _ _ _) as [[s3 made] err] eqn:E. apply solo_run_job in E. destruct E as [resp H]. exists resp.
        solo_step. rewrite Hsch, Ep. solo_step. rewrite Ei. solo_step. rewrite Ep. solo_step. rewrite Hsch.
        solo_step. unfold decided_body. rewrite Ex. exact H.
      * eexists. solo_step. rewrite Hsch, Ep. solo_step. rewrite Ei. solo_step. rewrite Ep. solo_step. rewrite Hsch.
        solo_step. unfold decided_body. rewrite Ex. apply solo_refl.
Qed.

Lemma solo_is_sys K x y : solo_steps K x y -> sys_steps K (fst x, [snd x]) (fst y, [snd y]).
Proof.
  induction 1 as [x|s a z H IH]; [apply sys_refl|]. cbn [fst snd] in *.
  eapply sys_cons; [exact (sys_step_at K s [] a [])|]. cbn [app]. destruct (astep K s a). exact IH.
Qed.
