(* C12 — proofs about Model/Patch.v: a patch applies exactly when the plain interpreter spec_ops succeeds, with
   the same file system; the changed-files list is sorted, duplicate free and names exactly the patch's paths;
   malformed documents touch nothing; every parsed path is relative and free of `..`; and the witness that the
   rollback before fix 6739939 loses a file.  The atomicity proof is in Proofs/PatchAtomic.v. *)
From RipV Require Import Base.Prelude Base.Fs Model.Patch.
Require Import Coq.Strings.String.
Open Scope N_scope.
Open Scope list_scope.

(* destruct the first match or if whose scrutinee occurs in H *)
Ltac dmh H :=
  match type of H with
  | context [match ?x with _ => _ end] => destruct x eqn:?
  | context [if ?x then _ else _] => destruct x eqn:?
  end.

Lemma record_undo_fs root s raw s1 : record_undo root s raw = Ok s1 -> s_fs s1 = s_fs s.
Proof.
  unfold record_undo. intros H.
  repeat dmh H; inversion H; subst; reflexivity.
Qed.

Lemma record_undo_err root s raw e : record_undo root s raw = Err e ->
  os_exists (s_fs s) (tg root raw) = true /\ os_read (s_fs s) (tg root raw) = Err e.
Proof.
  unfold record_undo. intros H.
  repeat dmh H; inversion H; subst. split; reflexivity.
Qed.

Lemma os_remove_read f t :
  os_remove_file f t = match os_read f t with Ok _ => Ok (unset f (t_path t)) | Err e => Err e end.
Proof.
  unfold os_remove_file, os_read. destruct (pre_err f t); [reflexivity|].
  destruct (lookup f (t_path t)) as [[b|]|]; [|reflexivity|reflexivity]. destruct (t_trail t); reflexivity.
Qed.

(* exec and the plain interpreter succeed together, with the same file system; the undo list only rides along *)
Lemma exec_fs root s o :
  match exec root s o with
  | (s', None) => spec_op root (s_fs s) o = Ok (s_fs s')
  | (_, Some _) => exists e, spec_op root (s_fs s) o = Err e
  end.
Proof.
  destruct o as [p content|p|p mv hs]; cbn [exec spec_op].
  - destruct (os_exists (s_fs s) (tg root p)) eqn:X; [eexists; reflexivity|].
    destruct (record_undo root s p) as [s1|e] eqn:R; [|apply record_undo_err in R; destruct R; congruence].
    apply record_undo_fs in R. rewrite R.
    destruct (mk_parent_dirs (s_fs s) (tg root p)) as [f2 [e|]]; [eexists; reflexivity|].
    destruct (os_write f2 (tg root p) content) as [f3|e]; [reflexivity|eexists; reflexivity].
  - destruct (os_exists (s_fs s) (tg root p)); cbn [negb]; [|eexists; reflexivity].
    rewrite os_remove_read.
    destruct (record_undo root s p) as [s1|e] eqn:R; [|apply record_undo_err in R; destruct R as [_ ->]; eexists; reflexivity].
    apply record_undo_fs in R. rewrite os_remove_read, R.
    destruct (os_read (s_fs s) (tg root p)); [reflexivity|eexists; reflexivity].
  - destruct (os_exists (s_fs s) (tg root p)); cbn [negb]; [|eexists; reflexivity].
    destruct (record_undo root s p) as [s1|e] eqn:R; [|apply record_undo_err in R; destruct R as [_ ->]; eexists; reflexivity].
    pose proof (record_undo_fs _ _ _ _ R) as ->.
    destruct (os_read (s_fs s) (tg root p)) as [b|e]; [|eexists; reflexivity].
    destruct (utf8_ok b); cbn [negb]; [|eexists; reflexivity].
    destruct (apply_hunks_to_text b hs) as [b'|]; [|eexists; reflexivity].
    destruct (os_write (s_fs s) (tg root p) b') as [f2|e]; [|eexists; reflexivity].
    destruct mv as [q|]; [|reflexivity].
    destruct (os_exists f2 (tg root q)) eqn:XQ; [eexists; reflexivity|].
    destruct (record_undo root (with_fs s1 f2) q) as [s3|e] eqn:R3; [|apply record_undo_err in R3; destruct R3; cbn [with_fs s_fs] in *; congruence].
    apply record_undo_fs in R3. cbn [with_fs s_fs] in R3. rewrite R3.
    destruct (mk_parent_dirs f2 (tg root q)) as [f4 [e|]]; [eexists; reflexivity|].
    destruct (os_rename_file f4 (tg root p) (tg root q)) as [f5|e]; [reflexivity|eexists; reflexivity].
Qed.

Lemma run_fs root ops : forall s,
  match run root s ops with
  | (s', None) => spec_ops root (s_fs s) ops = Ok (s_fs s')
  | (_, Some _) => exists e, spec_ops root (s_fs s) ops = Err e
  end.
Proof.
  induction ops as [|o r IH]; intros s; cbn [run spec_ops]; [reflexivity|].
  pose proof (exec_fs root s o) as E. destruct (exec root s o) as [s1 [e|]].
  - destruct E as [e' ->]. eexists; reflexivity.
  - rewrite E. apply IH.
Qed.

Theorem success_spec fixed root f ops f' changed :
  apply_ops fixed root f ops = Applied f' changed ->
  spec_ops root f ops = Ok f' /\ changed = sort_dedup (map normalize_rel (affected_paths ops)).
Proof.
  unfold apply_ops. pose proof (run_fs root ops {| s_fs := f; s_undo := [] |}) as R.
  destruct (run root _ ops) as [s [e|]]; [discriminate|].
  intros H; inversion H; subst. split; [exact R|reflexivity].
Qed.

Theorem success_complete fixed root f ops f' :
  spec_ops root f ops = Ok f' -> apply_ops fixed root f ops = Applied f' (changed_files ops).
Proof.
  intros H. unfold apply_ops. pose proof (run_fs root ops {| s_fs := f; s_undo := [] |}) as R.
  destruct (run root _ ops) as [s [e|]]; cbn [s_fs] in R; [destruct R; congruence|].
  rewrite H in R. inversion R; subst. reflexivity.
Qed.

Theorem fails_iff_spec_fails fixed root f ops :
  (exists g e, apply_ops fixed root f ops = Failed g e) <-> (exists e, spec_ops root f ops = Err e).
Proof.
  split.
  - intros [g [e H]]. destruct (spec_ops root f ops) as [f'|e'] eqn:S; [|eexists; reflexivity].
    rewrite (success_complete fixed _ _ _ _ S) in H. discriminate.
  - intros [e S]. destruct (apply_ops fixed root f ops) as [f' c|g e'] eqn:A; [|do 2 eexists; reflexivity].
    apply success_spec in A. destruct A as [A _]. congruence.
Qed.

Lemma bytes_ltb_irrefl a : bytes_ltb a a = false.
Proof. induction a as [|x a IH]; cbn [bytes_ltb]; [reflexivity|]. rewrite N.ltb_irrefl. exact IH. Qed.

Lemma bytes_ltb_total a : forall b, bytes_ltb a b = false -> bytes_ltb b a = false -> a = b.
Proof.
  induction a as [|x a IH]; intros [|y b]; cbn [bytes_ltb]; try congruence.
  destruct (x <? y) eqn:L1; [discriminate|]. destruct (y <? x) eqn:L2; [discriminate|].
  intros H1 H2. assert (x = y) by lia. subst. f_equal. apply IH; assumption.
Qed.

Lemma insert_sorted_in x l y : In y (insert_sorted x l) <-> y = x \/ In y l.
Proof.
  induction l as [|z r IH]; cbn [insert_sorted In]; [intuition|].
  destruct (bytes_ltb x z) eqn:L1; cbn [In]; [intuition|].
  destruct (bytes_ltb z x) eqn:L2; cbn [In].
  - rewrite IH. intuition.
  - assert (x = z) by (apply bytes_ltb_total; assumption). subst. intuition.
Qed.

Theorem sort_dedup_in l y : In y (sort_dedup l) <-> In y l.
Proof.
  induction l as [|x r IH]; cbn [sort_dedup fold_right In]; [reflexivity|].
  rewrite insert_sorted_in. fold (sort_dedup r). rewrite IH. intuition.
Qed.

Fixpoint strictly_sorted (l : list (list N)) : Prop :=
  match l with
  | [] => True
  | x :: r => match r with [] => True | y :: _ => bytes_ltb x y = true end /\ strictly_sorted r
  end.

Lemma bytes_ltb_trans a : forall b c, bytes_ltb a b = true -> bytes_ltb b c = true -> bytes_ltb a c = true.
Proof.
  induction a as [|x a IH]; intros [|y b] [|z c]; cbn [bytes_ltb]; try congruence.
  destruct (x <? y) eqn:L1.
  - intros _. destruct (y <? z) eqn:L2.
    + intros _. assert (x <? z = true) as -> by lia. reflexivity.
    + destruct (z <? y) eqn:L3; [discriminate|]. intros _. assert (y = z) by lia. subst. rewrite L1. reflexivity.
  - destruct (y <? x) eqn:L1'; [discriminate|]. assert (x = y) by lia. subst.
    intros H1. destruct (y <? z) eqn:L2; [reflexivity|]. destruct (z <? y); [discriminate|].
    apply IH. exact H1.
Qed.

Lemma bytes_ltb_asym a b : bytes_ltb a b = true -> bytes_ltb b a = false.
Proof.
  intros H. destruct (bytes_ltb b a) eqn:E; [|reflexivity].
  pose proof (bytes_ltb_trans _ _ _ H E) as T. rewrite bytes_ltb_irrefl in T. discriminate.
Qed.

Lemma insert_sorted_sorted x l : strictly_sorted l -> strictly_sorted (insert_sorted x l).
Proof.
  induction l as [|z r IH]; cbn [insert_sorted]; intros S; [cbn; auto|].
  destruct (bytes_ltb x z) eqn:L1; [cbn [strictly_sorted]; split; [exact L1|exact S]|].
  destruct (bytes_ltb z x) eqn:L2; [|exact S].
  destruct S as [S1 S2]. specialize (IH S2).
  cbn [strictly_sorted]. split; [|exact IH].
  destruct r as [|w r']; cbn [insert_sorted]; [exact L2|].
  destruct (bytes_ltb x w); [exact L2|]. destruct (bytes_ltb w x); exact S1.
Qed.

Theorem sort_dedup_sorted l : strictly_sorted (sort_dedup l).
Proof.
  induction l as [|x r IH]; cbn [sort_dedup fold_right]; [exact I|].
  apply insert_sorted_sorted. exact IH.
Qed.

Theorem malformed_untouched fixed root f input :
  parse_patch input = None -> apply_patch fixed root f input = Failed f EINVALDATA.
Proof. unfold apply_patch. intros ->. reflexivity. Qed.

(* every path a parsed patch names is non-empty, relative and free of `..` *)
Definition safe_rel (p : list N) : Prop := p <> [] /\ starts_slash p = false /\ has_parent_dir p = false.
Definition op_safe (o : op) : Prop := forall p, In p (op_paths o) -> safe_rel p.

Lemma parse_rel_path_safe raw p : parse_rel_path raw = Some p -> safe_rel p.
Proof.
  unfold parse_rel_path. destruct (trim raw) as [|c t] eqn:T; [discriminate|].
  destruct (starts_slash (c :: t)) eqn:S; [discriminate|].
  destruct (has_parent_dir (c :: t)) eqn:P; [discriminate|].
  intros H; inversion H; subst. repeat split; [discriminate|exact S|exact P].
Qed.

Definition ops_of (s : pstate) : list op :=
  match s with
  | PTop ops | PAdd ops _ _ | PUpd0 ops _ | PUpd ops _ _ _ _ | PDone ops => ops
  | PErr => []
  end.
Definition pending_safe (s : pstate) : Prop :=
  match s with
  | PAdd _ p _ | PUpd0 _ p => safe_rel p
  | PUpd _ p mv _ _ => safe_rel p /\ match mv with Some q => safe_rel q | None => True end
  | _ => True
  end.
Definition pst_safe (s : pstate) : Prop := Forall op_safe (ops_of s) /\ pending_safe s.

Lemma err_safe : pst_safe PErr.
Proof. split; [constructor|exact I]. Qed.

Lemma step_top_safe ops l : Forall op_safe ops -> pst_safe (step_top ops l).
Proof.
  intros F. unfold step_top.
  destruct (lN_eqb l H_END); [split; [exact F|exact I]|].
  destruct (strip_prefix H_ADD l) as [r|].
  { destruct (parse_rel_path r) as [p|] eqn:P; [|exact err_safe].
    split; [exact F|]. exact (parse_rel_path_safe _ _ P). }
  destruct (strip_prefix H_DEL l) as [r|].
  { destruct (parse_rel_path r) as [p|] eqn:P; [|exact err_safe].
    split; [|exact I]. cbn [ops_of]. apply Forall_app. split; [exact F|].
    constructor; [|constructor]. intros q [<-|[]]. exact (parse_rel_path_safe _ _ P). }
  destruct (strip_prefix H_UPD l) as [r|].
  { destruct (parse_rel_path r) as [p|] eqn:P; [|exact err_safe].
    split; [exact F|]. exact (parse_rel_path_safe _ _ P). }
  exact err_safe.
Qed.

Lemma step_upd_safe ops p mv hs cur l :
  Forall op_safe ops -> safe_rel p -> match mv with Some q => safe_rel q | None => True end ->
  pst_safe (step_upd ops p mv hs cur l).
Proof.
  intros F Sp Sq. unfold step_upd.
  destruct (starts_with H_STARS l).
  { destruct (flush_cur hs cur) as [|h hs']; [exact err_safe|].
    apply step_top_safe. apply Forall_app. split; [exact F|]. constructor; [|constructor].
    intros q. destruct mv as [m|]; cbn [op_paths In]; intuition (subst; assumption). }
  destruct (starts_with [64; 64] l); [split; [exact F|split; assumption]|].
  destruct l as [|c rest]; [exact err_safe|].
  destruct ((c =? 32) || (c =? 43) || (c =? 45)); [split; [exact F|split; assumption]|exact err_safe].
Qed.

Lemma pstep_add ops p content l : starts_with H_STARS l = false ->
  pstep (PAdd ops p content) l =
  match l with c :: rest => if c =? 43 then PAdd ops p (content ++ [rest]) else PErr | [] => PErr end.
Proof.
  (* the model's `43 :: rest` is a nested match on the bits of c *)
  intros ST. cbn [pstep]. rewrite ST. destruct l as [|[|c] rest]; try reflexivity.
  repeat (destruct c as [c|c|]; try reflexivity).
Qed.

Lemma pstep_safe s l : pst_safe s -> pst_safe (pstep s l).
Proof.
  intros [F P]. destruct s as [ops|ops p content|ops p|ops p mv hs cur|ops|]; cbn [ops_of pending_safe] in *.
  - apply step_top_safe. exact F.
  - destruct (starts_with H_STARS l) eqn:ST.
    { cbn [pstep]. rewrite ST. apply step_top_safe. apply Forall_app. split; [exact F|]. constructor; [|constructor].
      intros q [<-|[]]. exact P. }
    rewrite pstep_add by exact ST. destruct l as [|c rest]; [exact err_safe|].
    destruct (c =? 43); [split; [exact F|exact P]|exact err_safe].
  - cbn [pstep]. destruct (strip_prefix H_MOVE l) as [d|].
    { destruct (parse_rel_path d) as [q|] eqn:Q; [|exact err_safe].
      split; [exact F|]. split; [exact P|]. exact (parse_rel_path_safe _ _ Q). }
    apply step_upd_safe; [exact F|exact P|exact I].
  - destruct P as [P1 P2]. apply step_upd_safe; assumption.
  - split; [exact F|exact I].
  - exact err_safe.
Qed.

Theorem parse_paths_safe input ops : parse_patch input = Some ops -> Forall op_safe ops.
Proof.
  unfold parse_patch. destruct (str_lines input) as [|l0 rest]; [discriminate|].
  destruct (lN_eqb l0 H_BEGIN); [|discriminate].
  destruct (fold_left pstep rest (PTop [])) as [| | | |ops'|] eqn:E; try discriminate.
  intros H; inversion H; subst.
  pose proof (fold_left_inv pstep pst_safe pstep_safe rest (PTop []) (conj (Forall_nil _) I)) as S. rewrite E in S. exact (proj1 S).
Qed.

(* the rollback before fix 6739939 loses a file: delete a; add a/b; fail *)
Definition nl_join (ls : list (list N)) : list N := intercalate [10] ls.
Definition wit_fs : fs := [([bs "a"], File (bs "keep"))].
Definition wit_patch : list N :=
  nl_join [bs "*** Begin Patch"; bs "*** Delete File: a"; bs "*** Add File: a/b"; bs "+new";
           bs "*** Delete File: missing"; bs "*** End Patch"].
Definition wit_after_unfixed : fs := [([bs "a"], Dir)].

Lemma wit_unfixed_run : apply_patch false [] wit_fs wit_patch = Failed wit_after_unfixed ENOENT.
Proof. vm_compute. reflexivity. Qed.
Lemma wit_fixed_run : apply_patch true [] wit_fs wit_patch = Failed wit_fs ENOENT.
Proof. vm_compute. reflexivity. Qed.

Theorem atomic_unfixed_refuted :
  exists f input g e p, apply_patch false [] f input = Failed g e /\ file_at f p <> file_at g p.
Proof.
  exists wit_fs, wit_patch, wit_after_unfixed, ENOENT, [bs "a"].
  split; [exact wit_unfixed_run|]. vm_compute. discriminate.
Qed.
