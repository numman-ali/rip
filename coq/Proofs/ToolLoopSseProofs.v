(* C16 on top of C15 — proofs, in this order.  The cpipe of Model/ToolLoopSse.v is C15's pipe with a ghost: erasing
   the second component gives Sse.pb_loop / run_chunks / run_pipe (any obs_flags).  With both feeds (OBS_BOTH = /repo)
   the collector has observed exactly the payloads of the event frames the pipe emitted — and by C15's frames_of_whole
   those are the events of the chunking-free specification of the BODY (lossy UTF-8 decoding, field rules over all
   lines incl. an unterminated last line, cut after [DONE]).  Hence a call in a frame of answer i is drained by
   iteration i (the loop theorems of ToolLoopProofs.v, from the body bytes).  Concrete bodies: which unterminated tails
   carry a call, and the pipe whose finish() does not feed the collector, refuted with a CRLF body cut between the CR
   and the LF of its final blank line.  Which tails Sse.events_spec dispatches, for any classification.  Last, the
   converse of the first half: every drained call id was carried by an item event of the same answer. *)
From Coq Require Import Strings.String.   (* before the rest: List's names win *)
From RipV Require Import Model.ToolLoopSse Proofs.ToolLoopProofs.
From RipV Require Import Base.Utf8 Proofs.Utf8Proofs.
From RipV Require Model.Sse Model.SseJson Proofs.SseProofs.
Import ListNotations.

Lemma frame_data_app a b : frame_data (a ++ b) = frame_data a ++ frame_data b.
Proof. unfold frame_data. apply flat_map_app. Qed.

Lemma frame_data_ev_frames s e : frame_data (Sse.ev_frames s e) = ev_data e.
Proof.
  unfold Sse.ev_frames, Sse.prov_frame, ev_data, frame_data.
  destruct (Sse.pe_delta e); destruct (Sse.pe_kind e =? 2) eqn:K; cbn [flat_map frame_data1 app];
    try (destruct (Sse.pe_data e); cbn [N.eqb Pos.eqb app]; reflexivity).
  all: rewrite ?K; reflexivity.
Qed.

Lemma frame_data_frames_from E : forall s, frame_data (Sse.frames_from s E) = evs_data E.
Proof.
  induction E as [|e r IH]; intros s; [reflexivity|].
  cbn [Sse.frames_from]. rewrite frame_data_app, frame_data_ev_frames, IH. reflexivity.
Qed.

(* a frame with status "event" and data is among the frames iff its data is among the observed payloads *)
Lemma in_frame_data fs d :
  In d (frame_data fs) <-> exists s ev raw errs rerrs, In (Sse.FProv s 2 ev raw (Some d) errs rerrs) fs.
Proof.
  unfold frame_data. rewrite in_flat_map. split.
  - intros (f & Hf & Hd).
    destruct f as [s st ev raw data errs rerrs|s dl]; cbn [frame_data1] in Hd; [|destruct Hd].
    destruct data as [j|]; [|destruct Hd]. destruct (st =? 2) eqn:E; [|destruct Hd].
    apply N.eqb_eq in E. subst st. destruct Hd as [Hd|[]]. subst j. exists s, ev, raw, errs, rerrs. exact Hf.
  - intros (s & ev & raw & errs & rerrs & H). eexists. split; [exact H|]. left. reflexivity.
Qed.

Section Pipe.
Variable classify : option str -> str -> Sse.cls.
Variable off : N.

Definition erase (r : list N * cpipe * bool) : list N * Sse.pipe * bool :=
  (fst (fst r), fst (snd (fst r)), snd r).

Lemma push_c_erase ob cp t :
  (fst (fst (push_sse_str_c classify ob off cp t)), snd (push_sse_str_c classify ob off cp t))
  = Sse.push_sse_str classify Sse.FIXED off (fst cp) t.
Proof.
  unfold push_sse_str_c, Sse.push_sse_str. cbn [Sse.fx_cut Sse.FIXED].
  destruct (Sse.dec_push classify (Sse.p_dec (fst cp)) t) as [d parsed]. reflexivity.
Qed.

Lemma finish_c_erase ob cp :
  (fst (fst (pipe_finish_c classify ob off cp)), snd (pipe_finish_c classify ob off cp))
  = Sse.pipe_finish classify Sse.FIXED off (fst cp).
Proof.
  unfold pipe_finish_c, Sse.pipe_finish. cbn [Sse.fx_cut Sse.FIXED].
  destruct (Sse.dec_finish classify (Sse.p_dec (fst cp))) as [d parsed]. reflexivity.
Qed.

(* The reader loop over a cpipe runs C15's loop in its first component, and keeps every property Inv of cpipes that
   push_sse_str_c (and, at the end of the stream, pipe_finish_c) keeps. *)
Section Sim.
Variable ob : obs_flags.
Variable Inv : cpipe -> Prop.
Hypothesis push_inv : forall cp t, Inv cp -> Inv (fst (push_sse_str_c classify ob off cp t)).

Lemma push_c_sim cp t : Inv cp ->
  exists p1 d1, push_sse_str_c classify ob off cp t = (p1, d1) /\
                Sse.push_sse_str classify Sse.FIXED off (fst cp) t = (fst p1, d1) /\ Inv p1.
Proof.
  intros H. pose proof (push_c_erase ob cp t) as P. pose proof (push_inv cp t H) as H1.
  destruct (push_sse_str_c classify ob off cp t) as [p1 d1]. exists p1, d1. rewrite <- P. auto.
Qed.

Lemma pb_loop_c_sim fuel : forall buf cp, Inv cp ->
  erase (pb_loop_c classify ob off fuel buf cp) = Sse.pb_loop classify Sse.FIXED off fuel buf (fst cp) /\
  Inv (snd (fst (pb_loop_c classify ob off fuel buf cp))).
Proof.
  induction fuel as [|f IH]; intros buf cp H; cbn [pb_loop_c Sse.pb_loop]; [split; [reflexivity | exact H]|].
  cbn [Sse.fx_drain0 Sse.FIXED].
  destruct (from_utf8 buf) as [text|text valid rest elen].
  - destruct (push_c_sim cp text H) as (p1 & d1 & -> & -> & H1). split; [reflexivity | exact H1].
  - destruct valid as [|v].
    + destruct elen as [k|]; [|split; [reflexivity | exact H]].
      destruct (push_c_sim cp [FFFD] H) as (p1 & d1 & -> & -> & H1).
      destruct d1; [split; [reflexivity | exact H1] | apply IH, H1].
    + destruct (push_c_sim cp text H) as (p1 & d1 & -> & -> & H1).
      destruct d1; [split; [reflexivity | exact H1]|].
      destruct elen as [k|]; [|split; [reflexivity | exact H1]].
      destruct (push_c_sim p1 [FFFD] H1) as (p2 & d2 & -> & -> & H2).
      destruct d2; [split; [reflexivity | exact H2] | apply IH, H2].
Qed.

Lemma run_chunks_c_sim cs : forall buf cp, Inv cp ->
  erase (run_chunks_c classify ob off buf cp cs) = Sse.run_chunks classify Sse.FIXED off buf (fst cp) cs /\
  Inv (snd (fst (run_chunks_c classify ob off buf cp cs))).
Proof.
  induction cs as [|c r IH]; intros buf cp H; cbn [run_chunks_c Sse.run_chunks]; [split; [reflexivity | exact H]|].
  unfold push_bytes_c, Sse.push_bytes.
  destruct (pb_loop_c_sim (S (length (buf ++ c))) (buf ++ c) cp H) as [P H1]. rewrite <- P.
  destruct (pb_loop_c classify ob off (S (length (buf ++ c))) (buf ++ c) cp) as [[b1 p1] d1].
  unfold erase. cbn [fst snd] in *. destruct d1; [split; [reflexivity | exact H1] | apply IH, H1].
Qed.

Hypothesis finish_inv : forall cp, Inv cp -> Inv (fst (pipe_finish_c classify ob off cp)).

Lemma run_pipe_c_sim cs : Inv (Sse.pipe_new, []) ->
  frames_c classify ob off cs = Sse.frames_of classify Sse.FIXED off cs /\ Inv (run_pipe_c classify ob off cs).
Proof.
  intros H0. unfold frames_c, run_pipe_c, Sse.frames_of, Sse.run_pipe.
  destruct (run_chunks_c_sim cs [] _ H0) as [P H1]. cbn [fst] in P. rewrite <- P.
  destruct (run_chunks_c classify ob off [] (Sse.pipe_new, []) cs) as [[b1 p1] d1].
  unfold erase. cbn [fst snd] in *. destruct d1; [split; [reflexivity | exact H1]|].
  pose proof (finish_c_erase ob p1) as F. specialize (finish_inv p1 H1). rewrite <- F.
  destruct (pipe_finish_c classify ob off p1) as [q1 e1]. split; [reflexivity | exact finish_inv].
Qed.
End Sim.

(* whatever feeds the collector, the frames are C15's frames: the events finish() flushes are logged as frames *)
Theorem frames_c_is_frames_of ob cs :
  frames_c classify ob off cs = Sse.frames_of classify Sse.FIXED off cs.
Proof. exact (proj1 (run_pipe_c_sim ob (fun _ => True) (fun _ _ _ => I) (fun _ _ => I) cs I)). Qed.

Lemma frame_data_emit_evs evs : forall p,
  frame_data (Sse.p_out (Sse.emit_evs off p evs)) = frame_data (Sse.p_out p) ++ evs_data evs.
Proof.
  induction evs as [|e r IH]; intros p; cbn [Sse.emit_evs fold_left]; [rewrite app_nil_r; reflexivity|].
  fold (Sse.emit_evs off (Sse.emit_ev off p e) r). rewrite IH. cbn [Sse.emit_ev Sse.p_out].
  rewrite frame_data_app, frame_data_ev_frames, <- app_assoc. reflexivity.
Qed.

(* the frames and the collector see the same events *)
Theorem seen_is_frame_data cs :
  seen_of classify OBS_BOTH off cs = frame_data (Sse.frames_of classify Sse.FIXED off cs).
Proof.
  destruct (run_pipe_c_sim OBS_BOTH (fun cp => snd cp = frame_data (Sse.p_out (fst cp)))) with (cs := cs)
    as [P H]; [| |reflexivity|unfold seen_of; rewrite H, <- P; reflexivity].
  - intros cp t H. unfold push_sse_str_c.
    destruct (Sse.dec_push classify (Sse.p_dec (fst cp)) t) as [d parsed]. cbn [fst snd ob_push OBS_BOTH].
    rewrite frame_data_emit_evs, H. reflexivity.
  - intros cp H. unfold pipe_finish_c.
    destruct (Sse.dec_finish classify (Sse.p_dec (fst cp))) as [d parsed]. cbn [fst snd ob_finish OBS_BOTH].
    rewrite frame_data_emit_evs, H. reflexivity.
Qed.

(* ... which are the events of the body, chunking-free *)
Theorem seen_is_body_events cs :
  seen_of classify OBS_BOTH off cs
  = evs_data (Sse.upto_done (Sse.events_spec classify (lossy_text (concat cs)))).
Proof.
  rewrite seen_is_frame_data, SseProofs.frames_of_whole. unfold Sse.frames_whole.
  apply frame_data_frames_from.
Qed.

End Pipe.

Theorem seen_chunk_invariant classify off1 off2 body cs1 cs2 :
  concat cs1 = body -> concat cs2 = body ->
  seen_of classify OBS_BOTH off1 cs1 = seen_of classify OBS_BOTH off2 cs2.
Proof. intros H1 H2. rewrite !seen_is_body_events, H1, H2. reflexivity. Qed.

(* a payload is in a provider-event frame of the answer (whatever the seq offset) iff the collector of the round the
   byte-level script is turned into has observed it *)
Lemma frame_seen A off b s ev raw d errs rerrs :
  In (Sse.FProv s 2 ev raw (Some d) errs rerrs) (Sse.frames_of (SseJson.jclassify A) Sse.FIXED off (bb_chunks b)) ->
  In d (r_events (round_of (SseJson.jclassify A) OBS_BOTH 0 b)).
Proof.
  intros H. cbn [round_of r_events].
  rewrite (seen_chunk_invariant _ 0 off _ _ _ eq_refl eq_refl), seen_is_frame_data. apply in_frame_data. eauto 6.
Qed.

(* a function call that appears in a provider-event FRAME of answer i (status event, data = a well-formed
   output_item.done of a function_call item) is among the calls iteration i drains — hence (answered_next_request,
   answered_by_call_id) executed at most once and answered exactly once, in order, in request i+1 *)
Theorem emitted_call_answered_body A g valid tool prompt init bodies pre it1 it2 post b off s ev raw d errs rerrs cid :
  res_iters (run_b A OBS_BOTH g valid tool prompt init bodies) = pre ++ it1 :: it2 :: post ->
  nth_error bodies (length pre) = Some b ->
  In (Sse.FProv s 2 ev raw (Some d) errs rerrs) (Sse.frames_of (SseJson.jclassify A) Sse.FIXED off (bb_chunks b)) ->
  wf_done d cid ->
  In cid (map c_id (it_calls it1)).
Proof.
  unfold run_b. intros E Hb Hin Hw.
  eapply emitted_call_answered; [exact E | | exact (frame_seen _ _ _ _ _ _ _ _ _ Hin) | exact Hw].
  rewrite nth_error_map, Hb. reflexivity.
Qed.

(* a run that ends "completed": no frame of its last answer carries a well-formed call *)
Theorem completed_no_call_in_last_frames A g valid tool prompt init bodies b off s ev raw d errs rerrs cid :
  res_reason (run_b A OBS_BOTH g valid tool prompt init bodies) = Completed ->
  nth_error bodies (pred (length (res_iters (run_b A OBS_BOTH g valid tool prompt init bodies)))) = Some b ->
  In (Sse.FProv s 2 ev raw (Some d) errs rerrs) (Sse.frames_of (SseJson.jclassify A) Sse.FIXED off (bb_chunks b)) ->
  wf_done d cid -> False.
Proof.
  unfold run_b. intros Hr Hb Hin Hw.
  destruct (completed_round _ _ _ _ _ _ Hr) as (pre & it & rd & E & _ & _ & Hn & _ & Hd).
  rewrite E, app_length, Nat.add_1_r in Hb. cbn [pred] in Hb.
  rewrite nth_error_map, Hb in Hn. inversion Hn; subst rd.
  pose proof (emitted_call_drained (g_fixed g) _ d cid (frame_seen _ _ _ _ _ _ _ _ _ Hin) Hw) as Hdr.
  rewrite Hd in Hdr. exact Hdr.
Qed.

(* nothing abstract is needed for these payloads: integers only, valid JSON, validators silent *)
Definition A0 : SseJson.absfns :=
  SseJson.abs_of {| SseJson.t_compat := false; SseJson.t_err := []; SseJson.t_num := []; SseJson.t_vs := []; SseJson.t_vr := [] |}.
Definition CR : N := 13.
Definition LF : N := 10.
Definition tx_created : str := lit "data: {""type"":""response.created"",""response"":{""id"":""resp_1""}}".
Definition tx_call : str :=
  lit "data: {""type"":""response.output_item.done"",""output_index"":0,""item"":{""type"":""function_call"",""id"":""fc_1"",""call_id"":""call_1"",""name"":""write"",""arguments"":""{}""}}".
Definition tx_text : str := lit "data: {""type"":""response.output_text.delta"",""delta"":""bye""}".
Definition tx_done : str := lit "data: [DONE]".
(* CRLF framing, no [DONE], the connection closes between the CR and the LF of the final blank line: the last event is
   still in the decoder when the stream ends and is handed out by finish() *)
Definition body_crlf_cut : list N := tx_created ++ [CR; LF; CR; LF] ++ tx_call ++ [CR; LF; CR].
(* LF framing, the final blank line is missing: the last event is never dispatched — the provider did not emit it *)
Definition body_lf_noblank : list N := tx_created ++ [LF; LF] ++ tx_call ++ [LF].
(* LF framing, the last line has no line end at all: finish() completes the line, still no blank line *)
Definition body_lf_noeol : list N := tx_created ++ [LF; LF] ++ tx_call.
(* a lone CR after a complete LF line is a blank line for finish() *)
Definition body_lf_cr : list N := tx_created ++ [LF; LF] ++ tx_call ++ [LF; CR].
(* [DONE] itself in the unterminated tail, the call before it properly terminated *)
Definition body_done_in_tail : list N := tx_created ++ [CR; LF; CR; LF] ++ tx_call ++ [CR; LF; CR; LF] ++ tx_done ++ [CR; LF; CR].
(* a call after [DONE] (unterminated tail): the stream ended at the marker, finish() is not reached *)
Definition body_call_after_done : list N := tx_created ++ [LF; LF] ++ tx_done ++ [LF; LF] ++ tx_call ++ [CR; LF; CR].
Definition body_end : list N := tx_text ++ [LF; LF] ++ tx_done ++ [LF; LF].

(* the payload of the call event as the frames and the collector see it (serde_json::Value: keys sorted) *)
Definition tail_call_data : json :=
  JObj [(K_item, JObj [(K_arguments, JStr (lit "{}")); (K_call_id, JStr (lit "call_1")); (K_id, JStr (lit "fc_1"));
                       (K_name, JStr (lit "write")); (K_type, JStr S_function_call)]);
        (K_output_index, JNum (lit "0")); (K_type, JStr S_item_done)].
Definition tail_call_frame : Sse.frame := Sse.FProv 1 2 None None (Some tail_call_data) [] [].

Lemma tail_call_wf : wf_done tail_call_data (lit "call_1").
Proof.
  unfold wf_done, tail_call_data. eexists _, _, (lit "write"). split; [reflexivity|].
  repeat split; try reflexivity. discriminate.
Qed.

Definition drained_ids (ob : obs_flags) (body : list N) : list str :=
  map c_id (drain (collect FIXED (seen_of (SseJson.jclassify A0) ob 0 [body]))).
Definition has_call_frame (body : list N) : bool :=
  existsb (json_eqb tail_call_data) (frame_data (Sse.frames_of (SseJson.jclassify A0) Sse.FIXED 0 [body])).

(* Both are functions of the payloads of the body's events by the chunking-free specification: the `let` has them
   evaluated once. *)
Lemma tail_example body b ids :
  (let d := evs_data (Sse.upto_done (Sse.events_spec (SseJson.jclassify A0) (lossy_text body))) in
   existsb (json_eqb tail_call_data) d = b /\ map c_id (drain (collect FIXED d)) = ids) ->
  has_call_frame body = b /\ drained_ids OBS_BOTH body = ids.
Proof.
  unfold has_call_frame, drained_ids.
  rewrite seen_is_body_events, SseProofs.frames_of_whole. unfold Sse.frames_whole. rewrite frame_data_frames_from.
  cbn [concat]. rewrite app_nil_r. exact (fun H => H).
Qed.

(* dispatched by finish(): in the frames AND drained *)
Lemma ex_crlf_cut : nth_error (Sse.frames_of (SseJson.jclassify A0) Sse.FIXED 0 [body_crlf_cut]) 1 = Some tail_call_frame
                    /\ drained_ids OBS_BOTH body_crlf_cut = [lit "call_1"].
Proof.
  unfold drained_ids. rewrite seen_is_body_events, SseProofs.frames_of_whole. unfold Sse.frames_whole.
  set (E := Sse.upto_done _). revert E. vm_compute. split; reflexivity.
Qed.
Lemma ex_lf_cr : has_call_frame body_lf_cr = true /\ drained_ids OBS_BOTH body_lf_cr = [lit "call_1"].
Proof. apply tail_example. vm_compute. split; reflexivity. Qed.
Lemma ex_done_in_tail : has_call_frame body_done_in_tail = true /\ drained_ids OBS_BOTH body_done_in_tail = [lit "call_1"].
Proof. apply tail_example. vm_compute. split; reflexivity. Qed.
(* not dispatched: no frame, no call — legitimately absent *)
Lemma ex_lf_noblank : has_call_frame body_lf_noblank = false /\ drained_ids OBS_BOTH body_lf_noblank = [].
Proof. apply tail_example. vm_compute. split; reflexivity. Qed.
Lemma ex_lf_noeol : has_call_frame body_lf_noeol = false /\ drained_ids OBS_BOTH body_lf_noeol = [].
Proof. apply tail_example. vm_compute. split; reflexivity. Qed.
Lemma ex_call_after_done : has_call_frame body_call_after_done = false /\ drained_ids OBS_BOTH body_call_after_done = [].
Proof. apply tail_example. vm_compute. split; reflexivity. Qed.

(* a whole run whose first answer is the cut CRLF body *)
Definition tail_cfg : cfg := {| g_stateless := false; g_choice := JStr (lit "auto"); g_followup := None; g_fixed := FIXED |}.
Definition tail_bodies : list bround :=
  [ {| bb_fail := false; bb_chunks := [body_crlf_cut] |}; {| bb_fail := false; bb_chunks := [body_end] |} ].
Definition tail_run (ob : obs_flags) : result :=
  run_b A0 ob tail_cfg (fun _ _ => true) (fun _ _ => lit "o") (lit "p") None tail_bodies.

(* /repo: the call is executed and the second request answers it *)
Lemma ex_tail_run_answered :
  let r := tail_run OBS_BOTH in
  res_reason r = Completed /\
  map (fun it => (q_kind (it_req it), out_ids (items_of (it_req it)), map c_id (it_calls it))) (res_iters r)
  = [(0, [], [lit "call_1"]); (3, [lit "call_1"], [])].
Proof. vm_compute. split; reflexivity. Qed.

(* the pipe whose finish() maps the flushed events to frames without feeding the collector: the call is in the
   frames of answer 0, nothing is drained, the run "completes" after one request *)
Lemma ex_tail_run_push_only :
  let r := run_b A0 OBS_PUSH_ONLY tail_cfg (fun _ _ => true) (fun _ _ => lit "o") (lit "p") None tail_bodies in
  res_reason r = Completed /\ length (res_iters r) = 1%nat /\ processed r = [].
Proof. vm_compute. repeat split. Qed.

Lemma finish_not_observed_refuted :
  exists A g valid tool prompt init bodies b fr d cid,
    nth_error bodies 0 = Some b /\
    In fr (frames_c (SseJson.jclassify A) OBS_PUSH_ONLY 0 (bb_chunks b)) /\
    fr = Sse.FProv 1 2 None None (Some d) [] [] /\ wf_done d cid /\
    res_reason (run_b A OBS_PUSH_ONLY g valid tool prompt init bodies) = Completed /\
    length (res_iters (run_b A OBS_PUSH_ONLY g valid tool prompt init bodies)) = 1%nat.
Proof.
  exists A0, tail_cfg, (fun _ _ => true), (fun _ _ => lit "o"), (lit "p"), None, tail_bodies,
         {| bb_fail := false; bb_chunks := [body_crlf_cut] |}, tail_call_frame, tail_call_data, (lit "call_1").
  split; [reflexivity|]. split.
  { rewrite frames_c_is_frames_of. eapply nth_error_In. exact (proj1 ex_crlf_cut). }
  split; [reflexivity|]. split; [exact tail_call_wf|].
  destruct ex_tail_run_push_only as (H1 & H2 & _). exact (conj H1 H2).
Qed.

(* About Sse.events_spec alone (C15's chunking-free specification, any classify; nothing of the tool loop): the text
   is the lossy UTF-8 decoding of the body.  After a complete line: a tail of one or more CRs is a blank line (the event before it IS dispatched — the body cut
   between the CR and the LF of its final blank line); any other unterminated non-blank tail dispatches nothing (an
   LF body missing its final blank line, a last line without line end: whatever data line is pending is dropped). *)
Lemma drop_while_all f (l : str) : forallb f l = true -> Sse.drop_while f l = [].
Proof.
  induction l as [|c r IH]; cbn [forallb Sse.drop_while]; [reflexivity|].
  intros H. apply andb_true_iff in H. destruct H as [H1 H2]. rewrite H1. apply IH; exact H2.
Qed.

Lemma trim_end_cr_crs k : Sse.trim_end_cr (repeat 13 k) = [].
Proof.
  unfold Sse.trim_end_cr. rewrite drop_while_all; [reflexivity|].
  apply forallb_forall. intros x Hx. apply in_rev in Hx. apply repeat_spec in Hx. subst x. reflexivity.
Qed.

Lemma no_nl_crs k : SseProofs.no_nl (repeat 13 k).
Proof. unfold SseProofs.no_nl. apply forallb_forall. intros x Hx. apply repeat_spec in Hx. subst x. reflexivity. Qed.

Lemma split_lines_nl_tail t b : SseProofs.no_nl b ->
  Sse.split_lines [] (t ++ Sse.NL :: b)
  = (fst (Sse.split_lines [] t) ++ [snd (Sse.split_lines [] t)], b).
Proof.
  intros Hb. rewrite SseProofs.split_lines_app.
  destruct (Sse.split_lines [] t) as [l1 t1]. cbn [Sse.split_lines fst snd].
  replace (Sse.NL =? Sse.NL) with true by reflexivity.
  pose proof (SseProofs.split_lines_nonl b [] [] Hb) as E. rewrite app_nil_r in E. cbn [app Sse.split_lines] in E.
  rewrite E. reflexivity.
Qed.

Lemma all_lines_nl_tail t b : SseProofs.no_nl b ->
  Sse.all_lines (t ++ Sse.NL :: b)
  = (fst (Sse.split_lines [] t) ++ [snd (Sse.split_lines [] t)]) ++ match b with [] => [] | _ :: _ => [b] end.
Proof.
  intros Hb. unfold Sse.all_lines. rewrite (split_lines_nl_tail t b Hb).
  destruct b; [rewrite app_nil_r|]; reflexivity.
Qed.

Lemma line_step_blank classify s l : Sse.trim_end_cr l = [] -> Sse.line_step classify s l = Sse.line_step classify s [].
Proof. intros H. unfold Sse.line_step. rewrite H. reflexivity. Qed.

Lemma nonblank_line_emits_nothing classify s l : Sse.trim_end_cr l <> [] -> snd (Sse.line_step classify s l) = [].
Proof.
  intros H. unfold Sse.line_step. destruct (Sse.trim_end_cr l) as [|c r] eqn:E; [contradiction|].
  destruct (Sse.strip_prefix Sse.S_EVENT (c :: r)); [reflexivity|].
  destruct (Sse.strip_prefix Sse.S_DATA (c :: r)); reflexivity.
Qed.

(* `<complete line>\n` followed by one or more CRs and the end of the stream = the same text with a blank line *)
Theorem cr_tail_is_blank_line classify t n :
  Sse.events_spec classify (t ++ Sse.NL :: repeat 13 (S n)) = Sse.events_spec classify (t ++ [Sse.NL; Sse.NL]).
Proof.
  unfold Sse.events_spec.
  rewrite (all_lines_nl_tail t (repeat 13 (S n)) (no_nl_crs (S n))).
  change (t ++ [Sse.NL; Sse.NL]) with (t ++ Sse.NL :: [Sse.NL]).
  replace (t ++ Sse.NL :: [Sse.NL]) with ((t ++ [Sse.NL]) ++ Sse.NL :: []) by (rewrite <- app_assoc; reflexivity).
  rewrite (all_lines_nl_tail (t ++ [Sse.NL]) [] eq_refl), app_nil_r.
  rewrite (split_lines_nl_tail t [] eq_refl). cbn [fst snd repeat].
  set (L := fst (Sse.split_lines [] t) ++ [snd (Sse.split_lines [] t)]).
  do 2 rewrite SseProofs.fold_lines_app.
  destruct (Sse.fold_lines classify (None, []) L) as [s1 e1].
  cbn [Sse.fold_lines]. rewrite (line_step_blank classify s1 (13 :: repeat 13 n) (trim_end_cr_crs (S n))). reflexivity.
Qed.

(* `<complete line>\n` followed by an unterminated line that is not blank: nothing more is dispatched *)
Theorem nonblank_tail_not_dispatched classify t l :
  SseProofs.no_nl l -> Sse.trim_end_cr l <> [] ->
  Sse.events_spec classify (t ++ Sse.NL :: l) = Sse.events_spec classify (t ++ [Sse.NL]).
Proof.
  intros Hn Hl. unfold Sse.events_spec.
  rewrite (all_lines_nl_tail t l Hn), (all_lines_nl_tail t [] eq_refl), app_nil_r.
  destruct l as [|c r]; [exfalso; apply Hl; reflexivity|].
  set (L := fst (Sse.split_lines [] t) ++ [snd (Sse.split_lines [] t)]).
  rewrite SseProofs.fold_lines_app.
  destruct (Sse.fold_lines classify (None, []) L) as [s1 e1].
  cbn [Sse.fold_lines snd]. pose proof (nonblank_line_emits_nothing classify s1 (c :: r) Hl) as E.
  destruct (Sse.line_step classify s1 (c :: r)) as [s2 e2]. cbn [snd] in E. subst e2.
  cbn [snd]. rewrite app_nil_r. reflexivity.
Qed.

(* Every call the collector completes carries a call id that a function_call item of an output_item.added / .done
   event of the SAME answer carries (the id may come from the done item itself or from an earlier added event of the
   same item): no call is drained — executed, answered — that the provider did not announce. *)
Definition carries (ev : json) (cid : str) : Prop :=
  exists obj item, ev = JObj obj /\
    (get_str K_type obj = Some S_item_added \/ get_str K_type obj = Some S_item_done) /\
    obind (jget K_item obj) as_obj = Some item /\
    get_str K_type item = Some S_function_call /\ get_str K_call_id item = Some cid.

(* the invariant behind it: every call id the collector holds, completed or still buffered, satisfies P *)
Definition ids_from (P : str -> Prop) (c : coll) : Prop :=
  (forall x, In x (k_done c) -> P (c_id x)) /\
  (forall k b cid, aget k (k_bufs c) = Some b -> b_call b = Some cid -> P cid).

Lemma ids_from_mono (P Q : str -> Prop) c : (forall x, P x -> Q x) -> ids_from P c -> ids_from Q c.
Proof. intros H [H1 H2]. split; [intros x Hx; apply H, H1, Hx | intros k b cid Ha Hb; apply H; eapply H2; eauto]. Qed.

Lemma in_push_done fx d y x : In x (push_done fx d y) -> In x d \/ x = y.
Proof.
  unfold push_done. destruct (fx && has_call_id (c_id y) d); [left; assumption|].
  intros H. apply in_app_or in H. destruct H as [H|[H|[]]]; [left; exact H | right; symmetry; exact H].
Qed.

Lemma aget_adel {V} k k' (l : list (str * V)) b : aget k (adel k' l) = Some b -> aget k l = Some b.
Proof.
  induction l as [|[k0 v0] r IH]; cbn [adel aget]; [discriminate|].
  destruct (str_eqb k' k0) eqn:E0.
  - intros H. specialize (IH H). destruct (str_eqb k k0) eqn:E1; [|exact IH].
    (* k = k0 = k': impossible, adel removed every k' *)
    exfalso. apply str_eqb_eq in E0. apply str_eqb_eq in E1. subst k0 k'.
    clear IH. revert H. induction r as [|[k1 v1] r IHr]; cbn [adel aget]; [discriminate|].
    destruct (str_eqb k k1) eqn:E2; [exact IHr|]. cbn [aget]. rewrite E2. exact IHr.
  - cbn [aget]. destruct (str_eqb k k0); [intros H; exact H | exact IH].
Qed.

Lemma nonempty_some o s : nonempty o = Some s -> o = Some s.
Proof. destruct o as [[|c r]|]; cbn [nonempty]; intros H; try discriminate; exact H. Qed.

Lemma orelse_some {A} (a b : option A) x : orelse a b = Some x -> a = Some x \/ b = Some x.
Proof. destruct a; cbn [orelse]; intros H; [left|right]; exact H. Qed.

Lemma ids_from_entry P c k cid :
  ids_from P c -> b_call (entry_or_default k (k_bufs c)) = Some cid -> P cid.
Proof.
  intros [_ Hb]. unfold entry_or_default. destruct (aget k (k_bufs c)) eqn:E; [|discriminate].
  intros H. eapply Hb; eauto.
Qed.

Lemma ids_from_obs_item fx (P : str -> Prop) c obj dn :
  ids_from P c ->
  (forall item cid, obind (jget K_item obj) as_obj = Some item -> get_str K_type item = Some S_function_call ->
                    get_str K_call_id item = Some cid -> P cid) ->
  ids_from P (obs_item fx c obj dn).
Proof.
  intros Hp Hev. unfold obs_item.
  destruct (obind (jget K_item obj) as_obj) as [item|] eqn:Ei; [|exact Hp].
  destruct (get_str K_type item) as [t|] eqn:Et; cbn [negb]; [|exact Hp].
  destruct (str_eqb t S_function_call) eqn:Ef; cbn [negb]; [|exact Hp].
  apply str_eqb_eq in Ef. subst t.
  assert (Hc : forall cid, get_str K_call_id item = Some cid -> P cid) by (intros cid H; eapply Hev; eauto).
  assert (Hcall : forall cid, nonempty (get_str K_call_id item) = Some cid -> P cid)
    by (intros cid H; apply Hc, nonempty_some, H).
  cbv zeta.
  match goal with |- context [match ?e with [] => c | _ :: _ => _ end] => destruct e as [|i0 ir] eqn:Eid end; [exact Hp|].
  set (iid := i0 :: ir) in *.
  assert (He1 : forall cid, orelse (nonempty (get_str K_call_id item)) (b_call (entry_or_default iid (k_bufs c))) = Some cid -> P cid).
  { intros cid H. apply orelse_some in H. destruct H as [H|H]; [apply Hcall, H | eapply ids_from_entry; eauto]. }
  destruct Hp as [Hd Hb]. destruct dn.
  - split; cbn [k_done k_bufs].
    + intros x Hx. cbn [b_call b_name b_args] in Hx.
      destruct (orelse (get_str K_call_id item) (orelse (nonempty (get_str K_call_id item)) (b_call (entry_or_default iid (k_bufs c))))) as [ci|] eqn:Ec;
        [|apply Hd, Hx].
      destruct (orelse (get_str K_name item) (orelse (get_str K_name item) (b_name (entry_or_default iid (k_bufs c))))) as [nm|];
        [|apply Hd, Hx].
      apply in_push_done in Hx. destruct Hx as [Hx|Hx]; [apply Hd, Hx|]. subst x. cbn [c_id].
      apply orelse_some in Ec. destruct Ec as [Ec|Ec]; [apply Hc, Ec | apply He1, Ec].
    + intros k b cid Ha Hbc. apply aget_adel in Ha. eapply Hb; eauto.
  - split; cbn [k_done k_bufs]; [exact Hd|].
    intros k b cid Ha Hbc. rewrite aget_aset in Ha. destruct (str_eqb k iid).
    + inversion Ha; subst b. cbn [b_call] in Hbc. apply He1, Hbc.
    + eapply Hb; eauto.
Qed.

Lemma ids_from_obs_args (P : str -> Prop) c obj dn : ids_from P c -> ids_from P (obs_args c obj dn).
Proof.
  intros Hp. unfold obs_args. destruct (get_str K_item_id obj) as [iid|]; [|exact Hp].
  pose proof (ids_from_entry P c iid) as He. destruct Hp as [Hd Hb].
  split; cbn [k_done k_bufs]; [exact Hd|].
  intros k b cid Ha Hbc. rewrite aget_aset in Ha. destruct (str_eqb k iid).
  - inversion Ha; subst b. destruct dn; cbn [b_call] in Hbc; apply He; [split; assumption | exact Hbc | split; assumption | exact Hbc].
  - eapply Hb; eauto.
Qed.

Lemma ids_from_observe fx (P : str -> Prop) c ev :
  ids_from P c -> (forall cid, carries ev cid -> P cid) -> ids_from P (observe fx c ev).
Proof.
  intros Hp Hev. destruct (observe_cases fx c ev) as (c1 & H1 & _ & H3 & Hcase).
  assert (Hp1 : ids_from P c1) by (destruct Hp as [Hd Hb]; split; [rewrite H3 | rewrite H1]; assumption).
  destruct Hcase as [->|(obj & -> & [(dn & Ht & ->)|(dn & ->)])].
  - exact Hp1.
  - apply ids_from_obs_item; [exact Hp1|].
    intros item cid I1 I2 I3. apply Hev. exists obj, item. repeat split; auto. destruct dn; auto.
  - apply ids_from_obs_args, Hp1.
Qed.

Definition announced_in (S : list json) (cid : str) : Prop := exists ev, In ev S /\ carries ev cid.

Lemma collect_announced fx evs x :
  In x (k_done (collect fx evs)) -> exists ev, In ev evs /\ carries ev (c_id x).
Proof.
  intros Hx. refine (proj1 (collect_ind fx (fun evs c => ids_from (announced_in evs) c) _ _ evs) x Hx).
  - split; [intros y [] | intros k b cid H; discriminate H].
  - intros evs0 c ev Hp. apply ids_from_observe.
    + eapply ids_from_mono; [|exact Hp]. intros y (e & He & Hc). exists e. split; [apply in_or_app; left; exact He | exact Hc].
    + intros cid Hc. exists ev. split; [apply in_or_app; right; left; reflexivity | exact Hc].
Qed.

(* every call an iteration drains was announced in the answer it belongs to *)
Lemma drained_call_was_announced g valid tool prompt init script i it c :
  nth_error (res_iters (run g valid tool prompt init script)) i = Some it -> In c (it_calls it) ->
  exists rd ev, nth_error script i = Some rd /\ In ev (r_events rd) /\ carries ev (c_id c).
Proof.
  intros Hi Hc.
  destruct (at_most_once _ _ _ _ _ _ _ _ Hi) as (_ & [H0|(rd & Hrd & _ & _ & Hperm & _)]).
  - rewrite H0 in Hc. destruct Hc.
  - destruct (collect_announced (g_fixed g) (r_events rd) c) as (ev & He & Hcar).
    { eapply Permutation.Permutation_in; [exact Hperm | exact Hc]. }
    exists rd, ev. auto.
Qed.

(* ... from the body: the call id is carried by a function_call item in a provider-event frame of that answer *)
Theorem drained_call_in_frames A g valid tool prompt init bodies i it c off :
  nth_error (res_iters (run_b A OBS_BOTH g valid tool prompt init bodies)) i = Some it -> In c (it_calls it) ->
  exists b s ev raw d errs rerrs,
    nth_error bodies i = Some b /\
    In (Sse.FProv s 2 ev raw (Some d) errs rerrs) (Sse.frames_of (SseJson.jclassify A) Sse.FIXED off (bb_chunks b)) /\
    carries d (c_id c).
Proof.
  unfold run_b. intros Hi Hc.
  destruct (drained_call_was_announced _ _ _ _ _ _ _ _ _ Hi Hc) as (rd & d & Hrd & Hd & Hcar).
  rewrite nth_error_map in Hrd. destruct (nth_error bodies i) as [b|] eqn:Eb; [|discriminate].
  cbn [option_map] in Hrd. inversion Hrd; subst rd. cbn [round_of r_events] in Hd.
  rewrite (seen_chunk_invariant _ 0 off _ _ _ eq_refl eq_refl), seen_is_frame_data in Hd.
  apply in_frame_data in Hd. destruct Hd as (s & ev & raw & errs & rerrs & Hf).
  exists b, s, ev, raw, d, errs, rerrs. auto.
Qed.
