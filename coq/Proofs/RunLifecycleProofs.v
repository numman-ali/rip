(* C07 — proofs about Model/RunLifecycle.v.
   The run is analysed once (run_calls_full, agent_loop_full, run_body_full, run_session_full): what it writes when every
   append succeeds has a fixed shape, and failing appends only delete thread frames from it.  The session-stream shape,
   the thread order, the request bound and the counts of thread frames are read off that; the store-level theorems add
   that the log filtered on something only one activity writes is that activity's own list (store_proj). *)
From RipV Require Import Base.Prelude Model.RunLifecycle.

Lemma seqs_from_app q n m : seqs_from q (n + m) = seqs_from q n ++ seqs_from (q + N.of_nat n) m.
Proof.
  revert q; induction n as [|n IH]; intro q; cbn [seqs_from Nat.add app].
  - f_equal. lia.
  - rewrite IH. do 3 f_equal. lia.
Qed.

Lemma flat_map_app' {A B} (f : A -> list B) a b : flat_map f (a ++ b) = flat_map f a ++ flat_map f b.
Proof. apply flat_map_app. Qed.

Lemma filter_weaker {A} (p q : A -> bool) l : (forall x, p x = true -> q x = true) -> filter q l = [] -> filter p l = [].
Proof.
  intros H. induction l as [|x l IH]; cbn [filter]; [auto|]. destruct (q x) eqn:Q; [discriminate|].
  destruct (p x) eqn:P; [rewrite (H _ P) in Q; discriminate | exact IH].
Qed.

Lemma sess_stream_app sid a b : sess_stream sid (a ++ b) = sess_stream sid a ++ sess_stream sid b.
Proof. apply flat_map_app. Qed.
Lemma conts_app a b : conts (a ++ b) = conts a ++ conts b.
Proof. apply flat_map_app. Qed.
Lemma nreq_app a b : nreq (a ++ b) = (nreq a + nreq b)%nat.
Proof. unfold nreq. rewrite filter_app, app_length. reflexivity. Qed.

Lemma sess_stream_cons_s sid q k l : sess_stream sid (ES sid q k :: l) = (q, k) :: sess_stream sid l.
Proof. unfold sess_stream; cbn [flat_map]. rewrite N.eqb_refl. reflexivity. Qed.

Lemma sess_stream_frames_at sid q ks :
  sess_stream sid (frames_at sid q ks) = combine (seqs_from q (length ks)) ks.
Proof.
  revert q; induction ks as [|k ks IH]; intro q; cbn [frames_at length seqs_from combine]; [reflexivity|].
  rewrite sess_stream_cons_s, IH. reflexivity.
Qed.
Lemma sess_stream_capp sid aok k : sess_stream sid (capp aok k) = [].
Proof. unfold capp. destruct (aok k); reflexivity. Qed.

Lemma sess_stream_ECs sid ks : sess_stream sid (map EC ks) = [].
Proof. induction ks; [reflexivity | assumption]. Qed.
Lemma conts_ECs ks : conts (map EC ks) = ks.
Proof. induction ks as [|k ks IH]; [reflexivity|]. change (conts (map EC (k :: ks))) with (k :: conts (map EC ks)). now rewrite IH. Qed.
Lemma nreq_ECs ks : nreq (map EC ks) = 0%nat.
Proof. induction ks; [reflexivity | assumption]. Qed.

Lemma conts_frames_at sid q ks : conts (frames_at sid q ks) = [].
Proof. revert q; induction ks as [|k ks IH]; intro q; [reflexivity | apply IH]. Qed.

Definition nreqk (ks : list sk) : nat := length (filter is_reqk ks).
Lemma nreqk_app a b : nreqk (a ++ b) = (nreqk a + nreqk b)%nat.
Proof. unfold nreqk. rewrite filter_app, app_length. reflexivity. Qed.
Lemma nreq_frames_at sid q ks : nreq (frames_at sid q ks) = nreqk ks.
Proof.
  revert q; induction ks as [|k ks IH]; intro q; [reflexivity|].
  cbn [frames_at]. unfold nreq, nreqk in *. cbn [filter is_req]. destruct (is_reqk k); cbn [length]; rewrite IH; reflexivity.
Qed.

(* failing appends: a thread frame is written iff its append succeeds *)
Lemma keeps_capp aok k : capp aok k = filter (keeps aok) [EC k].
Proof. unfold capp. cbn [filter keeps]. destruct (aok k); reflexivity. Qed.
Lemma keeps_ECs aok ks : filter (keeps aok) (map EC ks) = flat_map (capp aok) ks.
Proof. induction ks as [|k ks IH]; [reflexivity|]. cbn [map flat_map filter keeps]. unfold capp at 1. destruct (aok k); now rewrite IH. Qed.
Lemma keeps_side_effects aok sid link : side_effects sid link aok = filter (keeps aok) (side_effects sid link all_ok).
Proof. unfold side_effects. destruct link; [apply keeps_capp | reflexivity]. Qed.
Lemma keeps_frames_at aok sid q ks : filter (keeps aok) (frames_at sid q ks) = frames_at sid q ks.
Proof. revert q; induction ks as [|k ks IH]; intro q; cbn [frames_at filter keeps]; [reflexivity | now rewrite IH]. Qed.
Lemma keeps_all aok l : (forall k, aok k = true) -> filter (keeps aok) l = l.
Proof. intros Ok. induction l as [|[s q k|k] l IH]; cbn [filter keeps]; rewrite ?Ok, ?IH; reflexivity. Qed.

Lemma sess_stream_keeps aok sid l : sess_stream sid (filter (keeps aok) l) = sess_stream sid l.
Proof.
  induction l as [|[s q k|k] l IH]; cbn [filter keeps]; [reflexivity| |destruct (aok k); exact IH].
  unfold sess_stream in *. cbn [flat_map]. now rewrite IH.
Qed.
Lemma nreq_keeps aok l : nreq (filter (keeps aok) l) = nreq l.
Proof.
  unfold nreq. induction l as [|[s q k|k] l IH]; cbn [filter keeps is_req]; [reflexivity| |destruct (aok k); exact IH].
  destruct (is_reqk k); cbn [length]; now rewrite IH.
Qed.

(* Blk sid q l q': the session frames of `sid` in l are numbered q, q+1, …, q' is the seq after the last of them,
   and none of them is a start or end frame *)
Definition mid_kinds (ks : list sk) : bool := forallb (fun k => negb (is_start_or_end k)) ks.

Definition Blk (sid q : N) (l : list ev) (q' : N) : Prop :=
  map fst (sess_stream sid l) = seqs_from q (length (sess_stream sid l))
  /\ q' = q + nlen (sess_stream sid l)
  /\ mid_kinds (map snd (sess_stream sid l)) = true.

Lemma Blk_nosess sid q l : sess_stream sid l = [] -> Blk sid q l q.
Proof. intros E. unfold Blk. rewrite E, nlen_nil, N.add_0_r. repeat split. Qed.

Lemma Blk_app sid q a q1 b q2 : Blk sid q a q1 -> Blk sid q1 b q2 -> Blk sid q (a ++ b) q2.
Proof.
  intros (Ha1 & -> & Ha3) (Hb1 & -> & Hb3). unfold Blk. rewrite sess_stream_app.
  rewrite !map_app, app_length, nlen_app, seqs_from_app, Ha1, Hb1.
  repeat split.
  - symmetry. apply N.add_assoc.
  - unfold mid_kinds in *. rewrite forallb_app, Ha3, Hb3. reflexivity.
Qed.

Lemma Blk_frames_at sid q ks : mid_kinds ks = true -> Blk sid q (frames_at sid q ks) (q + nlen ks).
Proof.
  revert q; induction ks as [|k ks IH]; intros q M.
  - rewrite N.add_0_r. apply Blk_nosess. reflexivity.
  - apply andb_true_iff in M as [Mk M].
    rewrite nlen_cons, N.add_assoc.
    apply (Blk_app sid q [ES sid q k] (q + 1)); [|apply IH, M].
    unfold Blk. rewrite sess_stream_cons_s. cbn. rewrite Mk. auto.
Qed.

Lemma Blk_capp sid q aok k : Blk sid q (capp aok k) q.
Proof. apply Blk_nosess, sess_stream_capp. Qed.

(* the frames run `sid` writes before its terminal frame *)
Definition pre_ck (sid : N) (k : ck) : bool :=
  match k with
  | CSelection r _ | CCompiled r | CSideEffects r | CCursor r => r =? sid
  | _ => false
  end.
Definition pre_ev (sid : N) (e : ev) : bool := match e with ES s _ _ => s =? sid | EC k => pre_ck sid k end.

(* a stretch of what the provider loop or a tool round of run `sid` writes when every append succeeds: a block of
   session frames, and of thread frames only the run's side_effects *)
Definition Seg (sid q : N) (l : list ev) (q' : N) : Prop :=
  Blk sid q l q' /\ forallb (pre_ev sid) l = true /\ exists n, conts l = repeat (CSideEffects sid) n.

Lemma Seg_nil sid q : Seg sid q [] q.
Proof. split; [apply Blk_nosess; reflexivity|]. split; [reflexivity | exists 0%nat; reflexivity]. Qed.

Lemma Seg_app sid q a q1 b q2 : Seg sid q a q1 -> Seg sid q1 b q2 -> Seg sid q (a ++ b) q2.
Proof.
  intros (Ba & Fa & n & Ca) (Bb & Fb & m & Cb). split; [eapply Blk_app; eassumption|]. split.
  - rewrite forallb_app, Fa, Fb. reflexivity.
  - exists (n + m)%nat. rewrite conts_app, Ca, Cb. symmetry. apply repeat_app.
Qed.

Lemma Seg_frames_at sid q ks : mid_kinds ks = true -> Seg sid q (frames_at sid q ks) (q + nlen ks).
Proof.
  intros M. split; [apply Blk_frames_at, M|]. split; [|exists 0%nat; apply conts_frames_at].
  clear M. revert q; induction ks as [|k ks IH]; intro q; cbn [frames_at forallb pre_ev]; [reflexivity|].
  rewrite N.eqb_refl. apply IH.
Qed.

Lemma Seg_side_effects sid q link (b : bool) : Seg sid q (if b then side_effects sid link all_ok else []) q.
Proof.
  destruct b, link; try apply Seg_nil.
  split; [apply Blk_nosess; reflexivity|]. split; [cbn; now rewrite N.eqb_refl | exists 1%nat; reflexivity].
Qed.

(* the kinds a tool and a provider request emit: no start or end frame; requests only from the provider *)
Lemma mid_repN k n : is_start_or_end k = false -> mid_kinds (repN k n) = true.
Proof.
  intros H. unfold repN, mid_kinds. induction (N.to_nat n) as [|m IH]; cbn [repeat forallb]; auto.
  rewrite H, IH. reflexivity.
Qed.
Lemma nreqk_repN k n : is_reqk k = false -> nreqk (repN k n) = 0%nat.
Proof.
  intros H. unfold repN, nreqk. induction (N.to_nat n) as [|m IH]; cbn [repeat filter]; [reflexivity|]. rewrite H. exact IH.
Qed.

Lemma tool_kinds_ok t : mid_kinds (tool_kinds t) = true /\ nreqk (tool_kinds t) = 0%nat.
Proof.
  unfold tool_kinds, mid_kinds. rewrite forallb_app, nreqk_app.
  assert (A : mid_kinds (auto_kinds (t_auto t)) = true /\ nreqk (auto_kinds (t_auto t)) = 0%nat).
  { unfold auto_kinds. destruct (t_auto t =? 0); [split; reflexivity|]. destruct (t_auto t =? 1); split; reflexivity. }
  destruct A as [A1 A2]. fold (mid_kinds (auto_kinds (t_auto t))). rewrite A1, A2.
  change (nreqk (SToolStarted :: ?x)) with (nreqk x). cbn [forallb is_start_or_end negb andb Nat.add].
  destruct (t_res t) as [| |o e|file mx]; try (split; reflexivity).
  rewrite !forallb_app, !nreqk_app. fold (mid_kinds (repN SToolStdout o)). fold (mid_kinds (repN SToolStderr e)).
  rewrite !mid_repN, !nreqk_repN by reflexivity. split; reflexivity.
Qed.

Lemma prov_kinds_ok pf : mid_kinds (prov_kinds pf) = true /\ nreqk (prov_kinds pf) = 0%nat.
Proof.
  unfold mid_kinds, prov_kinds. induction pf as [|d pf [IH1 IH2]]; cbn [flat_map]; [split; reflexivity|].
  rewrite forallb_app, nreqk_app, IH1, IH2. destruct d; split; reflexivity.
Qed.

Lemma stream_kinds_ok r : mid_kinds (fst (stream_kinds r)) = true /\ (nreqk (fst (stream_kinds r)) <= 1)%nat.
Proof.
  destruct r as [| |hst hbody| | |pf|pf h c]; cbn [stream_kinds fst]; try (split; [reflexivity | cbv; lia]);
    destruct (prov_kinds_ok pf) as [M R].
  - change ([SReqStarted; SHeaders; SFirstByte] ++ prov_kinds pf ++ [SProvider]) with
      (SReqStarted :: SHeaders :: SFirstByte :: (prov_kinds pf ++ [SProvider])).
    change (nreqk (SReqStarted :: SHeaders :: SFirstByte :: ?x)) with (S (nreqk x)).
    unfold mid_kinds in *. cbn [forallb is_start_or_end negb andb]. rewrite forallb_app, nreqk_app, M, R. split; [reflexivity | cbv; lia].
  - change (nreqk ([SReqStarted; SHeaders; SFirstByte] ++ ?x)) with (S (nreqk x)). rewrite R. split; [exact M | lia].
Qed.

(* a tool round over `calls`, started with budget counter `count` at seq `seq`: F is what it writes when every append
   succeeds (a Seg from seq to s, without a request), c the counter after it (never smaller, larger when a non-empty
   round ran to its end) and ex whether the limit cut it short.  s, c and ex are the same whichever appends fail:
   failing appends only delete thread frames of F *)
Lemma run_calls_full sid link calls : forall count seq, exists F s c ex,
  Seg sid seq F s /\ nreq F = 0%nat /\ count <= c /\ (calls <> [] -> ex = false -> count < c)
  /\ forall aok, run_calls sid link aok calls count seq = (filter (keeps aok) F, s, c, ex).
Proof.
  induction calls as [|c rest IH]; intros count seq; cbn [run_calls].
  { exists [], seq, count, false. split; [apply Seg_nil|]. repeat split; [lia | contradiction]. }
  destruct (MAX_TOOL_CALLS <=? count).
  { exists [], seq, count, true. split; [apply Seg_nil|]. repeat split; [lia | discriminate]. }
  set (ks := if c_allowed c then tool_kinds (c_tool c) else rejected_kinds).
  assert (K : mid_kinds ks = true /\ nreqk ks = 0%nat).
  { unfold ks. destruct (c_allowed c); [apply tool_kinds_ok | split; reflexivity]. }
  destruct K as [Mk Rk].
  destruct (IH (count + 1) (seq + nlen ks)) as (F & s & c' & ex & S & R & Mono & _ & E).
  exists (frames_at sid seq ks ++ (if c_allowed c && c_lock c then side_effects sid link all_ok else []) ++ F), s, c', ex.
  split; [|split; [|split; [|split]]].
  - apply (Seg_app _ _ _ _ _ _ (Seg_frames_at sid seq ks Mk)). exact (Seg_app _ _ _ _ _ _ (Seg_side_effects _ _ _ _) S).
  - rewrite !nreq_app, nreq_frames_at, Rk, R. destruct (c_allowed c && c_lock c), link; reflexivity.
  - clear - Mono. lia.
  - intros _ _. clear - Mono. lia.
  - intros aok. rewrite (E aok), !filter_app, keeps_frames_at.
    destruct (c_allowed c && c_lock c); [rewrite <- keeps_side_effects|]; reflexivity.
Qed.

(* one turn of the provider loop on the answer r, with the tool round and the rest of the loop as parameters: past the
   two guards the answer either ends the loop or is followed by a round *)
Definition next_round (st prev : bool) (r : req_out) : option (bool * call * list call) :=
  match r with
  | ROk _ hid (c :: calls) => if negb (hid || prev) && negb st then None else Some (hid || prev, c, calls)
  | _ => None
  end.

Definition last_answer (prev : bool) (r : req_out) : N * bool :=
  match r with
  | ROk _ hid [] => (R_COMPLETED, hid || prev)
  | ROk _ hid _ => (R_PROVIDER_ERROR, hid || prev)
  | _ => (match snd (stream_kinds r) with Some x => x | None => R_PROVIDER_ERROR end, prev)
  end.

Definition loop_turn (round : list call -> N -> N -> list ev * N * N * bool) (next : N -> N -> bool -> list ev * N * N * bool)
           (sid : N) (st : bool) (r : req_out) (count seq : N) (prev fu : bool) : list ev * N * N * bool :=
  if MAX_TOOL_CALLS <=? count then ([], seq, R_MAX_TOOL_CALLS, prev)
  else if fu && negb st && negb prev then ([], seq, R_PROVIDER_ERROR, prev)
  else
    let ks := fst (stream_kinds r) in
    match next_round st prev r with
    | None => (frames_at sid seq ks, seq + nlen ks, fst (last_answer prev r), snd (last_answer prev r))
    | Some (prev', c, calls) =>
        let '(evs1, seq2, count', ex) := round (c :: calls) count (seq + nlen ks) in
        if ex then (frames_at sid seq ks ++ evs1, seq2, R_MAX_TOOL_CALLS, prev')
        else let '(evs2, seq3, reason, p) := next count' seq2 prev' in
             (frames_at sid seq ks ++ evs1 ++ evs2, seq3, reason, p)
    end.

(* agent_loop unfolded once (an exhausted list of answers is the answer "HTTP error").  The proof only names reqs and r
   and lets `reflexivity` compare the two sides by conversion, so the body of agent_loop never appears in a goal, except
   on the one answer that is followed by a round *)
Lemma agent_loop_turn sid link aok st reqs count seq prev fu :
  agent_loop sid link aok st reqs count seq prev fu
  = loop_turn (run_calls sid link aok) (fun c s p => agent_loop sid link aok st (tl reqs) c s p true)
              sid st (hd (RHttpErr [] []) reqs) count seq prev fu.
Proof.
  destruct reqs as [|[| |hst hbody| | |pf|pf hid [|c calls]] rest]; try reflexivity.
  unfold loop_turn. cbn [agent_loop hd tl next_round]. destruct (negb (hid || prev) && negb st); reflexivity.
Qed.

(* X aok = a provider loop started with budget counter `count` at seq `seq`, as a function of which appends succeed:
   F is what it writes when all do (a Seg from seq to s, with no more requests than budget is left: a request is only
   made with budget left and the round after it spends some); the next seq s, the reason r and the flag p are the same
   for every aok, which only deletes thread frames of F *)
Definition LoopFull (sid seq count : N) (X : (ck -> bool) -> list ev * N * N * bool) : Prop :=
  exists F s r p, Seg sid seq F s /\ N.of_nat (nreq F) <= MAX_TOOL_CALLS - count
                  /\ forall aok, X aok = (filter (keeps aok) F, s, r, p).

Lemma LoopFull_ext sid seq count X Y : (forall aok, X aok = Y aok) -> LoopFull sid seq count Y -> LoopFull sid seq count X.
Proof. intros E (F & s & r & p & S & R & EY). exists F, s, r, p. split; [exact S|]. split; [exact R|]. intros aok. now rewrite E. Qed.

(* one turn, whatever loop follows it: `next` is only asked for when a round follows the answer *)
Lemma loop_turn_full sid link st r count seq prev fu (next : (ck -> bool) -> N -> N -> bool -> list ev * N * N * bool) :
  (next_round st prev r <> None -> forall c s p, LoopFull sid s c (fun aok => next aok c s p)) ->
  LoopFull sid seq count (fun aok => loop_turn (run_calls sid link aok) (next aok) sid st r count seq prev fu).
Proof.
  assert (Stop : forall (r0 : N) (p : bool), LoopFull sid seq count (fun _ => ([], seq, r0, p))).
  { intros r0 p. exists [], seq, r0, p. split; [apply Seg_nil|]. split; [cbn; lia | reflexivity]. }
  intros Next. unfold loop_turn.
  destruct (MAX_TOOL_CALLS <=? count) eqn:Hc; [apply Stop|]. apply N.leb_gt in Hc.
  destruct (fu && negb st && negb prev); [apply Stop|].
  cbv zeta. destruct (stream_kinds_ok r) as [Mk Rk]. generalize (fst (stream_kinds r)) Mk Rk. clear Mk Rk. intros ks Mk Rk.
  destruct (next_round st prev r) as [[[prev' c] calls]|].
  2:{ exists (frames_at sid seq ks), (seq + nlen ks), (fst (last_answer prev r)), (snd (last_answer prev r)).
      split; [apply Seg_frames_at, Mk|]. split; [rewrite nreq_frames_at; clear - Rk Hc; lia|].
      intros aok. now rewrite keeps_frames_at. }
  specialize (Next ltac:(discriminate)).
  destruct (run_calls_full sid link (c :: calls) count (seq + nlen ks)) as (F1 & s2 & c' & ex & S1 & R1 & _ & Step & E1).
  destruct ex.
  { exists (frames_at sid seq ks ++ F1), s2, R_MAX_TOOL_CALLS, prev'. split; [|split].
    - exact (Seg_app _ _ _ _ _ _ (Seg_frames_at sid seq ks Mk) S1).
    - rewrite nreq_app, nreq_frames_at, R1. clear - Rk Hc. lia.
    - intros aok. rewrite (E1 aok), filter_app, keeps_frames_at. reflexivity. }
  specialize (Step ltac:(discriminate) eq_refl).
  destruct (Next c' s2 prev') as (F2 & s3 & r2 & p2 & S2 & R2 & E2).
  exists (frames_at sid seq ks ++ F1 ++ F2), s3, r2, p2. split; [|split].
  - exact (Seg_app _ _ _ _ _ _ (Seg_frames_at sid seq ks Mk) (Seg_app _ _ _ _ _ _ S1 S2)).
  - rewrite !nreq_app, nreq_frames_at, R1. clear - Rk Hc Step R2. lia.
  - intros aok. rewrite (E1 aok). cbv beta iota. rewrite (E2 aok), !filter_app, keeps_frames_at. reflexivity.
Qed.

Lemma agent_loop_full sid link st reqs : forall count seq prev fu,
  LoopFull sid seq count (fun aok => agent_loop sid link aok st reqs count seq prev fu).
Proof.
  induction reqs as [|r rest IH]; intros count seq prev fu.
  - apply (LoopFull_ext _ _ _ _ _ (fun aok => agent_loop_turn sid link aok st [] count seq prev fu)). cbn [hd tl].
    apply (loop_turn_full sid link st _ count seq prev fu (fun aok c s p => agent_loop sid link aok st [] c s p true)).
    intros H. now contradiction H.
  - apply (LoopFull_ext _ _ _ _ _ (fun aok => agent_loop_turn sid link aok st (r :: rest) count seq prev fu)). cbn [hd tl].
    apply (loop_turn_full sid link st r count seq prev fu (fun aok c s p => agent_loop sid link aok st rest c s p true)).
    intros _ c s p. apply IH.
Qed.

(* what a run writes between its start frame and its terminal frame when every append succeeds:
   [selection_decided; compiled]?, a Seg, cursor_updated? - and at most MAX_TOOL_CALLS requests *)
Definition Body (sid : N) (link : option N) (pre : list ev) (q : N) : Prop :=
  Blk sid 1 pre q /\ forallb (pre_ev sid) pre = true /\ (nreq pre <= N.to_nat MAX_TOOL_CALLS)%nat
  /\ exists sel n cur, conts pre = sel ++ repeat (CSideEffects sid) n ++ cur
       /\ (sel = [] \/ exists mid, link = Some mid /\ sel = [CSelection sid mid; CCompiled sid])
       /\ (cur = [] \/ cur = [CCursor sid]).

Lemma Body_wrap sid link sel F cur q :
  Seg sid 1 F q -> (nreq F <= N.to_nat MAX_TOOL_CALLS)%nat ->
  (sel = [] \/ exists mid, link = Some mid /\ sel = [CSelection sid mid; CCompiled sid]) -> (cur = [] \/ cur = [CCursor sid]) ->
  Body sid link (map EC sel ++ F ++ map EC cur) q.
Proof.
  intros (B & P & n & C) R Hsel Hcur. split; [|split; [|split]].
  - apply (Blk_app sid 1 _ 1); [apply Blk_nosess, sess_stream_ECs|].
    apply (Blk_app sid 1 _ q _ q B). apply Blk_nosess, sess_stream_ECs.
  - assert (Ps : forallb (pre_ev sid) (map EC sel) = true)
      by (destruct Hsel as [->|(mid & _ & ->)]; cbn; rewrite ?N.eqb_refl; reflexivity).
    assert (Pc : forallb (pre_ev sid) (map EC cur) = true)
      by (destruct Hcur as [->| ->]; cbn; rewrite ?N.eqb_refl; reflexivity).
    rewrite !forallb_app, P, Ps, Pc. reflexivity.
  - rewrite !nreq_app, !nreq_ECs. lia.
  - exists sel, n, cur. rewrite !conts_app, !conts_ECs, C. auto.
Qed.

Lemma Seg_Body sid link F q : Seg sid 1 F q -> nreq F = 0%nat -> Body sid link F q.
Proof.
  intros S R. rewrite <- (app_nil_r F). apply (Body_wrap sid link [] F [] q S); [rewrite R; lia | left; reflexivity..].
Qed.

Lemma run_body_full g sid link inp : exists pre q r,
  Body sid link pre q /\ forall aok, run_body g sid link aok inp = filter (keeps aok) pre ++ [ES sid q (SEnded r)].
Proof.
  destruct inp as [cok reqs | lock t | r]; unfold run_body; cbn [run_body_with].
  - destruct (g_provider g); cbn [negb].
    2:{ exists (frames_at sid 1 [SOutput]), 2, R_COMPLETED. split; [|reflexivity].
        apply Seg_Body; [apply (Seg_frames_at sid 1 [SOutput]) |]; reflexivity. }
    destruct (agent_loop_full sid link (g_stateless g) reqs 0 1 false false) as (F & s & r & p & S & R & E).
    set (sel := match link with Some mid => [CSelection sid mid; CCompiled sid] | None => [] end).
    set (cur := if (r =? R_COMPLETED) && p then match link with Some _ => [CCursor sid] | None => [] end else []).
    assert (B : Body sid link (map EC sel ++ F ++ map EC cur) s).
    { apply Body_wrap; [exact S | lia | |].
      - unfold sel. destruct link as [mid|]; [right; exists mid; auto | left; reflexivity].
      - unfold cur. destruct (_ && _); [|left; reflexivity]. destruct link; [right | left]; reflexivity. }
    destruct link as [mid|]; [destruct cok|].
    2:{ exists [], 1, R_COMPILE_FAILED. split; [apply Seg_Body; [apply Seg_nil | reflexivity] | reflexivity]. }
    all: exists (map EC sel ++ F ++ map EC cur), s, r; split; [exact B|]; intros aok.
    all: rewrite (E aok), !filter_app, !keeps_ECs; unfold sel, cur; destruct ((r =? R_COMPLETED) && p).
    all: cbn [flat_map app]; rewrite ?app_nil_r, <- ?app_assoc; reflexivity.
  - set (ks := tool_kinds t). destruct (tool_kinds_ok t) as [Mk Rk].
    exists (frames_at sid 1 ks ++ (if lock then side_effects sid link all_ok else []) ++ frames_at sid (1 + nlen ks) [SOutput]),
      (1 + nlen ks + 1), R_COMPLETED. split.
    + apply Seg_Body.
      * apply (Seg_app _ _ _ _ _ _ (Seg_frames_at sid 1 ks Mk)).
        exact (Seg_app _ _ _ _ _ _ (Seg_side_effects _ _ _ _) (Seg_frames_at sid _ [SOutput] eq_refl)).
      * fold ks in Rk. rewrite !nreq_app, nreq_frames_at, Rk. destruct lock, link; reflexivity.
    + intros aok. rewrite !filter_app, !keeps_frames_at, <- !app_assoc. do 2 f_equal.
      destruct lock; [rewrite <- keeps_side_effects|]; reflexivity.
  - exists (frames_at sid 1 [ck_kind r; SOutput]), 3, R_COMPLETED. split; [|reflexivity].
    apply Seg_Body; [apply (Seg_frames_at sid 1 [ck_kind r; SOutput]) |]; destruct r; reflexivity.
Qed.

Lemma last_reason_from_end sid pre q r acc : last_reason_from sid (pre ++ [ES sid q (SEnded r)]) acc = r.
Proof.
  revert acc; induction pre as [|e pre IH]; intro acc; cbn [app last_reason_from].
  - rewrite N.eqb_refl. reflexivity.
  - destruct e as [s q0 k|k]; [destruct k|]; apply IH.
Qed.

Lemma last_reason_keeps aok sid l : forall acc, last_reason_from sid (filter (keeps aok) l) acc = last_reason_from sid l acc.
Proof.
  induction l as [|e l IH]; intro acc; [reflexivity|]. destruct e as [s q k|k]; cbn [filter keeps].
  - destruct k; cbn [last_reason_from]; apply IH.
  - destruct (aok k); cbn [last_reason_from]; apply IH.
Qed.

Definition run_tail (sid : N) (link : option N) (r : N) : list ev :=
  match link with Some mid => [EC (CRunEnded sid mid r)] | None => [] end.

(* the whole run: start frame, body, terminal frame, then (linked) the thread's run_ended carrying the reason of that
   very frame - minus the thread frames whose append fails *)
Lemma run_session_full g sid link inp : exists pre q r,
  Body sid link pre q
  /\ forall aok, run_session g sid link aok inp
                 = filter (keeps aok) (ES sid 0 SStarted :: pre ++ ES sid q (SEnded r) :: run_tail sid link r).
Proof.
  destruct (run_body_full g sid link inp) as (pre & q & r & B & E). exists pre, q, r. split; [exact B|]. intros aok.
  unfold run_session. rewrite (E aok).
  replace (last_reason sid (ES sid 0 SStarted :: filter (keeps aok) pre ++ [ES sid q (SEnded r)])) with r
    by (symmetry; apply (last_reason_from_end sid _ q r)).
  cbn [filter keeps]. rewrite filter_app. cbn [filter keeps app]. rewrite <- app_assoc. cbn [app]. do 3 f_equal.
  destruct link; [apply keeps_capp | reflexivity].
Qed.

Theorem run_session_keeps g sid link aok inp :
  run_session g sid link aok inp = filter (keeps aok) (run_session g sid link all_ok inp).
Proof.
  destruct (run_session_full g sid link inp) as (pre & q & r & _ & E).
  rewrite (E aok), (E all_ok), (keeps_all all_ok) by reflexivity. reflexivity.
Qed.

Lemma run_session_shape g sid link aok inp : SessionShape (sess_stream sid (run_session g sid link aok inp)).
Proof.
  destruct (run_session_full g sid link inp) as (pre & q & r & ((B1 & B2 & B3) & _) & E).
  rewrite (E aok), sess_stream_keeps, sess_stream_cons_s, sess_stream_app, sess_stream_cons_s.
  replace (sess_stream sid (run_tail sid link r)) with (@nil (N * sk)) by (destruct link; reflexivity).
  exists (map snd (sess_stream sid pre)), r. repeat split.
  - cbn [map snd]. rewrite map_app. reflexivity.
  - exact B3.
  - cbn [map fst length seqs_from]. f_equal. rewrite map_app, app_length. cbn [map fst length].
    rewrite seqs_from_app, B1. cbn [seqs_from]. do 2 f_equal. unfold nlen in B2. lia.
Qed.

Definition owned (sid : N) (l : list ev) : Prop := Forall (fun e => ev_run e = Some sid) l.

Lemma run_session_owned g sid link aok inp : owned sid (run_session g sid link aok inp).
Proof.
  destruct (run_session_full g sid link inp) as (pre & q & r & (_ & P & _) & E). rewrite (E aok).
  apply (incl_Forall (incl_filter _ _)). constructor; [reflexivity|]. apply Forall_app. split.
  - apply Forall_forall. intros e He. apply (proj1 (forallb_forall _ _) P) in He.
    destruct e as [s q0 k|k]; cbn [pre_ev ev_run] in *; [apply N.eqb_eq in He; now subst|].
    destruct k; try discriminate He; apply N.eqb_eq in He; now subst.
  - constructor; [reflexivity|]. destruct link; repeat constructor.
Qed.

Lemma filter_owned_same sid l : owned sid l -> filter (of_run sid) l = l.
Proof.
  induction 1 as [|e l He _ IH]; cbn [filter]; auto. unfold of_run at 1. rewrite He, N.eqb_refl, IH. reflexivity.
Qed.
Lemma filter_owned_other sid s' l : owned s' l -> s' <> sid -> filter (of_run sid) l = [].
Proof.
  intros O Hne. induction O as [|e l He _ IH]; cbn [filter]; auto. unfold of_run at 1. rewrite He.
  destruct (s' =? sid) eqn:E; [apply N.eqb_eq in E; contradiction | exact IH].
Qed.

(* the thread frames of a run, seen through a predicate no body frame satisfies: at most its run_ended *)
Lemma run_session_cks p g sid link aok inp : (forall k, pre_ck sid k = true -> p k = false) ->
  exists r, filter (ckp p) (run_session g sid link aok inp) = filter (ckp p) (filter (keeps aok) (run_tail sid link r)).
Proof.
  intros Hp. destruct (run_session_full g sid link inp) as (pre & q & r & (_ & P & _) & E). exists r.
  rewrite (E aok). cbn [filter keeps ckp]. rewrite !filter_app. cbn [filter keeps ckp].
  replace (filter (ckp p) (filter (keeps aok) pre)) with (@nil ev); [reflexivity|].
  symmetry. apply (filter_excluded (pre_ev sid)); [intros [s q0 k|k] H; [reflexivity | exact (Hp k H)]|].
  apply forallb_forall. intros e He. apply filter_In in He. exact (proj1 (forallb_forall _ _) P e (proj1 He)).
Qed.

Lemma run_session_none p g sid link aok inp : (forall k, pre_ck sid k || is_end_of sid k = true -> p k = false) ->
  filter (ckp p) (run_session g sid link aok inp) = [].
Proof.
  intros Hp. destruct (run_session_cks p g sid link aok inp) as [r ->].
  { intros k H. apply Hp. rewrite H. reflexivity. }
  destruct link as [mid|]; [|reflexivity]. cbn [run_tail filter keeps]. destruct (aok _); [|reflexivity].
  cbn [filter ckp]. rewrite Hp; [reflexivity|]. cbn [is_end_of]. rewrite N.eqb_refl. apply orb_true_r.
Qed.

Lemma no_spawn_in_run mid g sid link aok inp : filter (ckp (is_spawn_of mid)) (run_session g sid link aok inp) = [].
Proof. apply run_session_none. intros [] H; try reflexivity; discriminate H. Qed.
Lemma no_message_in_run mid g sid link aok inp : filter (ckp (is_message_of mid)) (run_session g sid link aok inp) = [].
Proof. apply run_session_none. intros [] H; try reflexivity; discriminate H. Qed.
Lemma no_job_end_in_run j g sid link aok inp : filter (ckp (is_job_end_of j)) (run_session g sid link aok inp) = [].
Proof. apply run_session_none. intros [] H; try reflexivity; discriminate H. Qed.

Lemma count_end_of_run g sid mid aok inp :
  exists r, count_ck (is_end_of sid) (run_session g sid (Some mid) aok inp)
            = if aok (CRunEnded sid mid r) then 1%nat else 0%nat.
Proof.
  destruct (run_session_cks (is_end_of sid) g sid (Some mid) aok inp) as [r E].
  { intros k Hk. destruct k; try discriminate; reflexivity. }
  exists r. unfold count_ck. rewrite E. cbn [run_tail filter keeps].
  destruct (aok _); cbn [filter ckp is_end_of]; rewrite ?N.eqb_refl; reflexivity.
Qed.

Lemma filter_post_message (p : ev -> bool) g aok mid sid inp :
  p (EC (CMessage mid)) = false -> p (EC (CRunSpawned sid mid)) = false ->
  filter p (run_session g sid (Some mid) aok inp) = [] -> filter p (post_message g aok mid sid inp) = [].
Proof.
  intros A B C. unfold post_message. destruct (aok _); [|reflexivity]. cbn [filter]. rewrite A.
  destruct (aok _); [|reflexivity]. cbn [filter]. rewrite B. exact C.
Qed.

Lemma filter_checkpoints (p : ev -> bool) j n :
  p (EC (CCheckpoint j)) = false -> filter p (repN (EC (CCheckpoint j)) n) = [].
Proof. intros B. unfold repN. induction (N.to_nat n); cbn [repeat filter]; [reflexivity | rewrite B; assumption]. Qed.

Lemma filter_job (p : ev -> bool) aok j o :
  p (EC (CJobSpawned j)) = false -> p (EC (CCheckpoint j)) = false -> (forall st, p (EC (CJobEnded j st)) = false) ->
  filter p (job aok j o) = [].
Proof.
  intros A B C. unfold job. destruct (aok _); [|reflexivity]. cbn [filter]. rewrite A.
  destruct o as [|n|n]; cbn [job_run]; [reflexivity| |]; rewrite filter_app, (filter_checkpoints p j n B); unfold capp; destruct (aok _);
    cbn [filter app]; rewrite ?C; reflexivity.
Qed.

Lemma own_run_post g aok mid sid inp : aok (CMessage mid) = true -> aok (CRunSpawned sid mid) = true ->
  filter (of_run sid) (post_message g aok mid sid inp) = EC (CRunSpawned sid mid) :: run_session g sid (Some mid) aok inp.
Proof.
  intros O1 O2. unfold post_message. rewrite O1, O2.
  assert (F : of_run sid (EC (CRunSpawned sid mid)) = true) by apply N.eqb_refl.
  cbn [filter]. change (of_run sid (EC (CMessage mid))) with false. rewrite F. f_equal.
  apply filter_owned_same, run_session_owned.
Qed.

Lemma act_events_other_run aok a sid : ~ In sid (act_sids a) -> filter (of_run sid) (act_events aok a) = [].
Proof.
  intros Hn. destruct a as [g mid s inp | g s inp | j o]; cbn [act_events act_sids In] in *.
  - assert (Hs : s <> sid) by tauto. apply filter_post_message; [reflexivity | |].
    + unfold of_run. cbn [ev_run ck_run]. apply N.eqb_neq, Hs.
    + apply (filter_owned_other sid s); [apply run_session_owned | exact Hs].
  - assert (Hs : s <> sid) by tauto. apply (filter_owned_other sid s); [apply run_session_owned | exact Hs].
  - apply filter_job; reflexivity.
Qed.

Lemma act_events_other_mid aok b mid : ~ In mid (act_mids b) -> filter (ckp (is_spawn_of mid)) (act_events aok b) = [].
Proof.
  intros Hn. destruct b as [g m s inp | g s inp | j o]; cbn [act_events act_mids In] in *.
  - apply filter_post_message; [reflexivity | | apply no_spawn_in_run]. cbn [ckp is_spawn_of]. apply N.eqb_neq. tauto.
  - apply no_spawn_in_run.
  - apply filter_job; reflexivity.
Qed.

Lemma act_events_other_job aok b j : ~ In j (act_jobs b) -> filter (ckp (is_job_end_of j)) (act_events aok b) = [].
Proof.
  intros Hn. destruct b as [g m s inp | g s inp | j' o]; cbn [act_events act_jobs In] in *.
  - apply filter_post_message; [reflexivity.. | apply no_job_end_in_run].
  - apply no_job_end_in_run.
  - apply filter_job; [reflexivity.. |]. intros st. cbn [ckp is_job_end_of]. apply N.eqb_neq. tauto.
Qed.

Lemma merge_filter p a b l : Merge a b l -> Merge (filter p a) (filter p b) (filter p l).
Proof.
  induction 1 as [|x a b l _ IH|x a b l _ IH]; cbn [filter]; [constructor| |]; destruct (p x); try constructor; exact IH.
Qed.
Lemma merge_nil_r a l : Merge a [] l -> l = a.
Proof.
  remember [] as b eqn:Eb. induction 1 as [|x a b l _ IH|x a b l _ IH]; auto; [f_equal; auto | discriminate].
Qed.
Lemma merge_nil_l b l : Merge [] b l -> l = b.
Proof.
  remember [] as a eqn:Ea. induction 1 as [|x a b l _ IH|x a b l _ IH]; auto; [discriminate | f_equal; auto].
Qed.

Lemma interleave_filter_none p ls l :
  Interleave ls l -> Forall (fun a => filter p a = []) ls -> filter p l = [].
Proof.
  induction 1 as [|a ls m l _ IH M]; intros F; [reflexivity|].
  inversion F as [|? ? Fa Fr]; subst. apply (merge_filter p) in M. rewrite Fa, (IH Fr) in M.
  apply merge_nil_r in M. exact M.
Qed.

Lemma interleave_proj p ls l : Interleave ls l -> forall pre a post,
  ls = pre ++ a :: post ->
  Forall (fun b => filter p b = []) pre -> Forall (fun b => filter p b = []) post ->
  filter p l = filter p a.
Proof.
  induction 1 as [|a0 ls m l I IH M]; intros pre a post E Fpre Fpost.
  - destruct pre; discriminate.
  - apply (merge_filter p) in M. destruct pre as [|b pre]; cbn [app] in E; inversion E; subst.
    + rewrite (interleave_filter_none p _ _ I Fpost) in M. apply merge_nil_r in M. exact M.
    + inversion Fpre as [|? ? Fb Fr]; subst. rewrite Fb in M. apply merge_nil_l in M. rewrite M.
      eapply IH; [reflexivity | exact Fr | exact Fpost].
Qed.

(* the log of a store filtered on a predicate that, the keys of the activities being pairwise distinct, only the holder
   of key x can satisfy: that activity's own list *)
Lemma store_proj {T} (key : T -> list N) (p : ev -> bool) (f : T -> list ev) acts l a x :
  NoDup (flat_map key acts) -> Interleave (map f acts) l -> In a acts -> In x (key a) ->
  (forall b, ~ In x (key b) -> filter p (f b) = []) ->
  filter p l = filter p (f a).
Proof.
  intros ND I Ha Hx Other. apply in_split in Ha as (pre & post & ->).
  rewrite flat_map_app in ND. cbn [flat_map] in ND. rewrite map_app in I.
  apply (interleave_proj p _ l I (map f pre) (f a) (map f post) eq_refl); apply Forall_map, Forall_forall;
    intros b Hb; apply Other; intros Hin.
  - apply NoDup_app_inv in ND as (_ & _ & Dis).
    apply (Dis x); [apply in_flat_map; eauto | apply in_or_app; left; exact Hx].
  - apply NoDup_app_inv in ND as (_ & ND & _). apply NoDup_app_inv in ND as (_ & _ & Dis).
    apply (Dis x Hx). apply in_flat_map; eauto.
Qed.

Lemma run_projection aok acts l a sid :
  WfActs acts -> Interleave (map (act_events aok) acts) l -> In a acts -> In sid (act_sids a) ->
  filter (of_run sid) l = filter (of_run sid) (act_events aok a).
Proof.
  intros (NDs & _ & _) I Ha Hs. apply (store_proj act_sids _ _ acts l a sid NDs I Ha Hs).
  intros b. apply act_events_other_run.
Qed.

Lemma sess_stream_filter sid l : sess_stream sid (filter (of_run sid) l) = sess_stream sid l.
Proof.
  induction l as [|[s q k|k] l IH]; [reflexivity| |].
  - cbn [filter]. unfold of_run at 1; cbn [ev_run]. unfold sess_stream in *; cbn [flat_map].
    destruct (s =? sid) eqn:E; cbn [flat_map]; rewrite ?E, IH; reflexivity.
  - cbn [filter]. destruct (of_run sid (EC k)); exact IH.
Qed.

Theorem session_shape aok acts l a sid :
  WfActs acts -> Interleave (map (act_events aok) acts) l ->
  In a acts -> In sid (act_sids a) -> act_started aok a = true ->
  SessionShape (sess_stream sid l).
Proof.
  intros W I Ha Hs St. rewrite <- sess_stream_filter, (run_projection aok acts l a sid W I Ha Hs).
  destruct a as [g mid s inp | g s inp | j o]; cbn [act_sids In act_started act_events] in *; try discriminate;
    destruct Hs as [<-|[]].
  - apply andb_true_iff in St as [S1 S2]. rewrite (own_run_post g aok mid s inp S1 S2). apply run_session_shape.
  - rewrite (filter_owned_same s _ (run_session_owned g s None aok inp)). apply run_session_shape.
Qed.

(* thread order without AppendOk (= every continuity append succeeds, `forall k, aok k = true`): whichever appends of
   the run fail (the message and its run_spawned reached the thread),
   the run's projection of the log is the full, AppendOk-shaped sequence with exactly the frames whose append failed
   removed - the frames that are there keep their order, the session stream is untouched, and run_ended (when its append
   succeeds) is still the last frame, after the run's terminal session frame, with its reason *)
Theorem thread_order_faulted aok acts l g mid sid inp :
  WfActs acts -> Interleave (map (act_events aok) acts) l -> In (APost g mid sid inp) acts ->
  aok (CMessage mid) = true -> aok (CRunSpawned sid mid) = true ->
  exists pre q r,
    filter (of_run sid) l
    = filter (keeps aok)
        (EC (CRunSpawned sid mid) :: ES sid 0 SStarted :: pre ++ [ES sid q (SEnded r); EC (CRunEnded sid mid r)])
    /\ mid_kinds (map snd (sess_stream sid pre)) = true
    /\ ThreadShape sid mid
         (conts (EC (CRunSpawned sid mid) :: ES sid 0 SStarted :: pre ++ [ES sid q (SEnded r); EC (CRunEnded sid mid r)])) r.
Proof.
  intros W I Ha M1 M2. rewrite (run_projection aok acts l _ sid W I Ha (or_introl eq_refl)).
  cbn [act_events]. rewrite (own_run_post g aok mid sid inp M1 M2).
  destruct (run_session_full g sid (Some mid) inp) as (pre & q & r & ((_ & _ & B3) & _ & _ & sel & n & cur & C & Hsel & Hcur) & E).
  exists pre, q, r. split; [|split; [exact B3|]].
  - rewrite (E aok). cbn [filter keeps]. rewrite M2. reflexivity.
  - exists sel, n, cur. split; [|split; [|exact Hcur]].
    + change (conts (EC ?k :: ES ?s ?q0 ?x :: ?l)) with (k :: conts l).
      rewrite conts_app, C, <- !app_assoc. reflexivity.
    + destruct Hsel as [->|(m & Hm & ->)]; [left; reflexivity | right; now inversion Hm].
Qed.

Theorem thread_order aok acts l g mid sid inp :
  WfActs acts -> Interleave (map (act_events aok) acts) l -> In (APost g mid sid inp) acts ->
  (forall k, aok k = true) ->
  exists pre q r,
    filter (of_run sid) l
    = EC (CRunSpawned sid mid) :: ES sid 0 SStarted :: pre ++ [ES sid q (SEnded r); EC (CRunEnded sid mid r)]
    /\ mid_kinds (map snd (sess_stream sid pre)) = true
    /\ ThreadShape sid mid (conts (filter (of_run sid) l)) r.
Proof.
  intros W I Ha Ok. destruct (thread_order_faulted aok acts l g mid sid inp W I Ha (Ok _) (Ok _)) as (pre & q & r & E & M & T).
  rewrite (keeps_all aok _ Ok) in E. exists pre, q, r. rewrite E. auto.
Qed.

Theorem one_spawn_per_message aok acts l g mid sid inp :
  WfActs acts -> Interleave (map (act_events aok) acts) l -> In (APost g mid sid inp) acts ->
  aok (CMessage mid) = true -> aok (CRunSpawned sid mid) = true ->
  count_ck (is_spawn_of mid) l = 1%nat.
Proof.
  intros (_ & NDm & _) I Ha O1 O2. unfold count_ck.
  rewrite (store_proj act_mids _ _ acts l _ mid NDm I Ha (or_introl eq_refl) (fun b => act_events_other_mid aok b mid)).
  cbn [act_events]. unfold post_message. rewrite O1, O2. cbn [filter ckp is_spawn_of].
  rewrite N.eqb_refl, no_spawn_in_run. reflexivity.
Qed.

Lemma end_of_is_of_run sid e : ckp (is_end_of sid) e = true -> of_run sid e = true.
Proof. destruct e as [s q k|k]; cbn [ckp]; [discriminate|]. destruct k; cbn [is_end_of]; try discriminate. auto. Qed.

Lemma count_end_general aok acts l g mid sid inp :
  WfActs acts -> Interleave (map (act_events aok) acts) l -> In (APost g mid sid inp) acts ->
  aok (CMessage mid) = true -> aok (CRunSpawned sid mid) = true ->
  exists r, count_ck (is_end_of sid) l = if aok (CRunEnded sid mid r) then 1%nat else 0%nat.
Proof.
  intros (NDs & _ & _) I Ha O1 O2. destruct (count_end_of_run g sid mid aok inp) as [r Er]. exists r.
  unfold count_ck in *. rewrite (store_proj act_sids _ _ acts l _ sid NDs I Ha (or_introl eq_refl)).
  - cbn [act_events]. unfold post_message. rewrite O1, O2. exact Er.
  - intros b Hb. apply (filter_weaker _ (of_run sid)); [apply end_of_is_of_run | apply act_events_other_run, Hb].
Qed.

Theorem one_end_per_spawn aok acts l g mid sid inp :
  WfActs acts -> Interleave (map (act_events aok) acts) l -> In (APost g mid sid inp) acts ->
  aok (CMessage mid) = true -> aok (CRunSpawned sid mid) = true ->
  (forall r, aok (CRunEnded sid mid r) = true) ->
  count_ck (is_end_of sid) l = 1%nat.
Proof.
  intros W I Ha O1 O2 O3. destruct (count_end_general aok acts l g mid sid inp W I Ha O1 O2) as [r ->].
  rewrite O3. reflexivity.
Qed.

Theorem end_at_most_once aok acts l g mid sid inp :
  WfActs acts -> Interleave (map (act_events aok) acts) l -> In (APost g mid sid inp) acts ->
  aok (CMessage mid) = true -> aok (CRunSpawned sid mid) = true ->
  (count_ck (is_end_of sid) l <= 1)%nat.
Proof.
  intros W I Ha O1 O2. destruct (count_end_general aok acts l g mid sid inp W I Ha O1 O2) as [r ->].
  destruct (aok (CRunEnded sid mid r)); lia.
Qed.

Lemma count_job_end aok j o : (count_ck (is_job_end_of j) (job aok j o) <= 1)%nat.
Proof.
  unfold count_ck, job. destruct (aok (CJobSpawned j)); [|cbn [filter length]; lia]. cbn [filter ckp is_job_end_of].
  destruct o as [|n|n]; cbn [job_run]; [cbn [filter length]; lia| |];
    rewrite filter_app, filter_checkpoints by reflexivity; unfold capp; destruct (aok _); cbn [app filter ckp is_job_end_of];
    try (cbn [length]; lia); destruct (j =? j); cbn [length]; lia.
Qed.

Theorem job_ended_at_most_once aok acts l j :
  WfActs acts -> Interleave (map (act_events aok) acts) l -> (count_ck (is_job_end_of j) l <= 1)%nat.
Proof.
  intros (_ & _ & NDj) I. unfold count_ck.
  destruct (in_dec N.eq_dec j (flat_map act_jobs acts)) as [Hin|Hout].
  - apply in_flat_map in Hin as (a & Ha & Hj).
    rewrite (store_proj act_jobs _ _ acts l a j NDj I Ha Hj (fun b => act_events_other_job aok b j)).
    destruct a as [g m s inp | g s inp | j' o]; cbn [act_jobs In] in Hj; try contradiction.
    destruct Hj as [<-|[]]. apply count_job_end.
  - rewrite (interleave_filter_none _ _ _ I); [cbn; lia|].
    apply Forall_map, Forall_forall. intros b Hb. apply act_events_other_job.
    intros Hj. apply Hout, in_flat_map. eauto.
Qed.

(* with no suspension point between the two appends and the spawn, a dropped request is no activity at all … *)
Lemma post_hung_safe po g aok mid sid inp dropped : post_order_safe po = true ->
  post_message_hung po g aok mid sid inp dropped = if dropped then [] else post_message g aok mid sid inp.
Proof. intros H. destruct po; [reflexivity | discriminate]. Qed.

(* … so, dropped or not, a message that reached the thread has its run_spawned frame (when that append succeeds) *)
Theorem post_hung_message_has_run po g aok mid sid inp dropped : post_order_safe po = true ->
  aok (CRunSpawned sid mid) = true ->
  count_ck (is_spawn_of mid) (post_message_hung po g aok mid sid inp dropped)
  = count_ck (is_message_of mid) (post_message_hung po g aok mid sid inp dropped).
Proof.
  intros H O2. rewrite (post_hung_safe _ _ _ _ _ _ _ H). destruct dropped; [reflexivity|].
  unfold post_message, count_ck. destruct (aok (CMessage mid)); [|reflexivity]. rewrite O2.
  cbn [filter ckp is_spawn_of is_message_of]. rewrite N.eqb_refl, no_spawn_in_run, no_message_in_run. reflexivity.
Qed.

Lemma merge_nil_any m : Merge [] m m.
Proof. induction m; constructor; auto. Qed.
Lemma merge_concat a m : Merge a m (a ++ m).
Proof. induction a; cbn [app]; [apply merge_nil_any | constructor; auto]. Qed.
Lemma interleave_concat ls : Interleave ls (concat ls).
Proof. induction ls as [|a ls IH]; cbn [concat]; [constructor | econstructor; [exact IH | apply merge_concat]]. Qed.

(* a genuinely interleaved schedule: alternate between the components *)
Fixpoint zipm (a b : list ev) : list ev :=
  match a, b with
  | x :: a', y :: b' => x :: y :: zipm a' b'
  | [], _ => b
  | _, [] => a
  end.
Lemma merge_zipm a : forall b, Merge a b (zipm a b).
Proof.
  induction a as [|x a IH]; intros b; [destruct b; apply merge_nil_any|].
  destruct b as [|y b]; cbn [zipm].
  - clear IH. induction (x :: a); constructor; assumption.
  - constructor. constructor. apply IH.
Qed.
Lemma interleave_zip ls : Interleave ls (fold_right zipm [] ls).
Proof. induction ls as [|a ls IH]; cbn [fold_right]; [constructor | econstructor; [exact IH | apply merge_zipm]]. Qed.

Definition g_stub : cfg := {| g_provider := false; g_stateless := false |}.
Definition g_prov : cfg := {| g_provider := true; g_stateless := false |}.

(* REFUTED for PoAppendFirst (the message is appended before the lock is awaited): the message is logged, the request
   is dropped at the lock, no run *)
Lemma post_hung_unfixed_orphan :
  count_ck (is_message_of 7) (post_message_hung PoAppendFirst g_stub all_ok 7 1 (IPrompt true []) true) = 1%nat
  /\ count_ck (is_spawn_of 7) (post_message_hung PoAppendFirst g_stub all_ok 7 1 (IPrompt true []) true) = 0%nat.
Proof. split; reflexivity. Qed.

Definition demo_write : call :=
  {| c_allowed := true; c_lock := true; c_tool := {| t_auto := 1; t_res := TDone 1 0 |} |}.
Definition demo_acts : list act :=
  [ APost g_prov 200 100 (IPrompt true [ROk [false; true] true [demo_write]; ROk [true; false] true []]);
    APost g_stub 201 101 (ITool true {| t_auto := 0; t_res := TTimeout |});
    AInput g_prov 102 (IPrompt true [RMidErr [true]]);
    AJob 300 (JDone 2) ].
Definition demo_log : list ev := fold_right zipm [] (map (act_events all_ok) demo_acts).

Lemma demo_wf : WfActs demo_acts.
Proof.
  unfold WfActs, demo_acts. cbn [flat_map act_sids act_mids act_jobs app].
  repeat split; repeat (constructor; [cbn [In]; intros H; repeat (destruct H as [H|H]; try discriminate H); exact H|]);
    constructor.
Qed.
Lemma demo_interleave : Interleave (map (act_events all_ok) demo_acts) demo_log.
Proof. apply interleave_zip. Qed.

Lemma demo_facts :
  conts (filter (of_run 100) demo_log)
  = [CRunSpawned 100 200; CSelection 100 200; CCompiled 100; CSideEffects 100; CCursor 100; CRunEnded 100 200 0]
  /\ map snd (sess_stream 101 demo_log) = [SStarted; SToolStarted; SToolFailed; SOutput; SEnded 0]
  /\ map snd (sess_stream 102 demo_log)
     = [SStarted; SReqStarted; SHeaders; SFirstByte; SProvider; SOutput; SProvider; SEnded 1]
  /\ demo_log <> concat (map (act_events all_ok) demo_acts)
  /\ count_ck (is_job_end_of 300) demo_log = 1%nat.
Proof. repeat split; try (vm_compute; reflexivity). vm_compute. discriminate. Qed.

(* S6: two inputs on one session id = two run_session tasks writing one stream *)
Definition s6_runs : list (list ev) :=
  [run_session g_stub 1 None all_ok (IPrompt true []); run_session g_stub 1 None all_ok (IPrompt true [])].
Definition s6_log : list ev := concat s6_runs.

Lemma s6_stream : sess_stream 1 s6_log
  = [(0, SStarted); (1, SOutput); (2, SEnded 0); (0, SStarted); (1, SOutput); (2, SEnded 0)].
Proof. vm_compute. reflexivity. Qed.

Lemma s6_not_shape : ~ SessionShape (sess_stream 1 s6_log).
Proof. rewrite s6_stream. intros (mid & r & _ & _ & H). vm_compute in H. discriminate H. Qed.

Lemma double_input_refuted :
  exists g sid inp1 inp2 l,
    Interleave [run_session g sid None all_ok inp1; run_session g sid None all_ok inp2] l
    /\ ~ SessionShape (sess_stream sid l).
Proof.
  exists g_stub, 1, (IPrompt true []), (IPrompt true []), s6_log.
  split; [apply (interleave_concat s6_runs) | exact s6_not_shape].
Qed.

(* AppendOk is necessary: the result of append_run_ended is dropped (`let _ =`) *)
Definition aok_no_end (k : ck) : bool := match k with CRunEnded _ _ _ => false | _ => true end.
Definition drop_acts : list act := [APost g_stub 7 1 (IPrompt true [])].
Definition drop_log : list ev := concat (map (act_events aok_no_end) drop_acts).

Lemma drop_wf : WfActs drop_acts.
Proof. unfold WfActs, drop_acts. cbn. repeat split; repeat constructor; intros []. Qed.

Lemma end_dropped_refuted :
  exists aok acts l g mid sid inp,
    WfActs acts /\ Interleave (map (act_events aok) acts) l /\ In (APost g mid sid inp) acts
    /\ count_ck (is_spawn_of mid) l = 1%nat /\ count_ck (is_end_of sid) l = 0%nat.
Proof.
  exists aok_no_end, drop_acts, drop_log, g_stub, 7, 1, (IPrompt true []).
  split; [exact drop_wf|]. split; [apply interleave_concat|]. split; [left; reflexivity|].
  split; vm_compute; reflexivity.
Qed.

(* three of the five appends of a full run fail *)
Definition aok_demo (k : ck) : bool :=
  match k with CCompiled _ | CCursor _ | CRunEnded _ _ _ => false | _ => true end.
Lemma faulted_demo :
  conts (run_session g_prov 100 (Some 200) aok_demo
           (IPrompt true [ROk [false] true [{| c_allowed := true; c_lock := true; c_tool := {| t_auto := 1; t_res := TDone 0 0 |} |}]; ROk [true] true []]))
  = [CSelection 100 200; CSideEffects 100].
Proof. vm_compute. reflexivity. Qed.

(* every executed tool round spends tool-call budget, so the loop never looks beyond answer number
   MAX_TOOL_CALLS - count: whatever the provider would have answered after that is irrelevant (in particular the "HTTP
   error once the list is exhausted" convention of the model is never reached when the list is that long) *)
Lemma agent_loop_prefix sid link aok st reqs : forall extra count seq prev fu,
  (N.to_nat (MAX_TOOL_CALLS - count) < length reqs)%nat ->
  agent_loop sid link aok st (reqs ++ extra) count seq prev fu = agent_loop sid link aok st reqs count seq prev fu.
Proof.
  induction reqs as [|r rest IH]; intros extra count seq prev fu Hlen; [cbn [length] in Hlen; lia|].
  cbn [app]. rewrite (agent_loop_turn _ _ _ _ (r :: rest ++ extra)), (agent_loop_turn _ _ _ _ (r :: rest)).
  unfold loop_turn. cbn [hd tl].
  destruct (MAX_TOOL_CALLS <=? count) eqn:Hc; [reflexivity|]. destruct (fu && negb st && negb prev); [reflexivity|].
  cbv zeta. destruct (next_round st prev r) as [[[prev' c] calls]|]; [|reflexivity].
  destruct (run_calls_full sid link (c :: calls) count (seq + nlen (fst (stream_kinds r))))
    as (F1 & s2 & c' & ex & _ & _ & _ & Step & E1).
  rewrite (E1 aok). destruct ex; [reflexivity|]. specialize (Step ltac:(discriminate) eq_refl).
  rewrite IH; [reflexivity|]. cbn [length] in Hlen. apply N.leb_gt in Hc. clear - Hlen Hc Step. lia.
Qed.

Lemma run_session_prefix g sid link aok cok reqs extra :
  (N.to_nat MAX_TOOL_CALLS < length reqs)%nat ->
  run_session g sid link aok (IPrompt cok (reqs ++ extra)) = run_session g sid link aok (IPrompt cok reqs).
Proof.
  intros H. unfold run_session. unfold run_body; cbn [run_body_with]. rewrite agent_loop_prefix; [reflexivity|].
  replace (MAX_TOOL_CALLS - 0) with MAX_TOOL_CALLS by lia. exact H.
Qed.

(* whether the tool budget bounds the conversation depends on WHERE tool_call_count is incremented; at AcctEveryCall the
   parametrised loop is the loop of the model the correspondence runs *)
Lemma run_calls_a_every sid link aok calls : forall count seq,
  run_calls_a AcctEveryCall sid link aok calls count seq = run_calls sid link aok calls count seq.
Proof.
  induction calls as [|c rest IH]; intros count seq; cbn [run_calls_a run_calls]; [reflexivity|].
  destruct (MAX_TOOL_CALLS <=? count); [reflexivity|]. cbn [acct_counts]. rewrite IH. reflexivity.
Qed.

Lemma agent_loop_a_turn ac sid link aok st reqs count seq prev fu :
  agent_loop_a ac sid link aok st reqs count seq prev fu
  = loop_turn (run_calls_a ac sid link aok) (fun c s p => agent_loop_a ac sid link aok st (tl reqs) c s p true)
              sid st (hd (RHttpErr [] []) reqs) count seq prev fu.
Proof.
  destruct reqs as [|[| |hst hbody| | |pf|pf hid [|c calls]] rest]; try reflexivity.
  unfold loop_turn. cbn [agent_loop_a hd tl next_round]. destruct (negb (hid || prev) && negb st); reflexivity.
Qed.

Lemma agent_loop_a_every sid link aok st reqs : forall count seq prev fu,
  agent_loop_a AcctEveryCall sid link aok st reqs count seq prev fu = agent_loop sid link aok st reqs count seq prev fu.
Proof.
  induction reqs as [|r rest IH]; intros count seq prev fu; [reflexivity|].
  rewrite agent_loop_a_turn, agent_loop_turn. unfold loop_turn. cbn [hd tl].
  destruct (next_round st prev r) as [[[prev' c] calls]|]; [|reflexivity].
  rewrite run_calls_a_every. destruct (run_calls sid link aok (c :: calls) count _) as [[[evs1 s2] c'] ex].
  rewrite IH. reflexivity.
Qed.

Lemma run_session_a_every g sid link aok inp : run_session_a ACCT g sid link aok inp = run_session g sid link aok inp.
Proof.
  unfold run_session_a, run_session, run_body, ACCT.
  assert (E : run_body_with (agent_loop_a AcctEveryCall) g sid link aok inp = run_body_with agent_loop g sid link aok inp).
  { destruct inp as [cok reqs | lock t | r]; cbn [run_body_with]; try reflexivity.
    rewrite agent_loop_a_every. reflexivity. }
  rewrite E. reflexivity.
Qed.

(* every run, whatever the provider answers and however long it goes on answering, makes at most MAX_TOOL_CALLS
   requests - for an accounting that pays for every drained call *)
Theorem requests_bounded ac g sid link aok inp : acct_all ac = true ->
  (nreq (run_session_a ac g sid link aok inp) <= N.to_nat MAX_TOOL_CALLS)%nat.
Proof.
  intros Hall. destruct ac; [|discriminate]. change AcctEveryCall with ACCT. rewrite run_session_a_every.
  destruct (run_session_full g sid link inp) as (pre & q & r & (_ & _ & R & _) & E).
  rewrite (E aok), nreq_keeps. change (nreq (ES sid 0 SStarted :: ?x)) with (nreq x). rewrite nreq_app.
  change (nreq (ES sid q (SEnded r) :: ?x)) with (nreq x).
  replace (nreq (run_tail sid link r)) with 0%nat by (destruct link; reflexivity). lia.
Qed.

(* with that accounting the run never reads past provider answer MAX_TOOL_CALLS *)
Lemma run_session_a_prefix ac g sid link aok cok reqs extra : acct_all ac = true ->
  (N.to_nat MAX_TOOL_CALLS < length reqs)%nat ->
  run_session_a ac g sid link aok (IPrompt cok (reqs ++ extra)) = run_session_a ac g sid link aok (IPrompt cok reqs).
Proof.
  intros Hall H. destruct ac; [|discriminate]. change AcctEveryCall with ACCT.
  rewrite !run_session_a_every. apply run_session_prefix. exact H.
Qed.

(* REFUTED when a refused call is free: the stubborn provider (every answer = one refused call) is asked again after
   EVERY answer - for every n the run has consumed a script of n such answers and made request n+1; no finite prefix
   of the provider's answers determines the run, and against a provider that never stops the run never ends *)
Definition g_stateless_prov : cfg := {| g_provider := true; g_stateless := true |}.

Lemma nreq_capp aok k : nreq (capp aok k) = 0%nat.
Proof. unfold capp. destruct (aok k); reflexivity. Qed.

(* every turn against the stubborn provider: a request, the refused call's two frames for free, and the loop goes on *)
Lemma stubborn_loop sid link aok n : forall seq prev fu,
  let '(evs, _, reason, _) :=
    agent_loop_a AcctDispatchedOnly sid link aok true (repeat refused_answer n) 0 seq prev fu in
  nreq evs = S n /\ reason = R_PROVIDER_ERROR.
Proof.
  induction n as [|n IH]; intros seq prev fu; rewrite agent_loop_a_turn; unfold loop_turn; cbn [repeat hd tl negb].
  - change (MAX_TOOL_CALLS <=? 0) with false. rewrite andb_false_r. split; reflexivity.
  - change (MAX_TOOL_CALLS <=? 0) with false. rewrite andb_false_r.
    change (next_round true prev refused_answer) with (Some (true, refused_call, @nil call)). cbv beta iota zeta.
    set (ks := fst (stream_kinds refused_answer)).
    change (run_calls_a AcctDispatchedOnly sid link aok [refused_call] 0 (seq + nlen ks))
      with (frames_at sid (seq + nlen ks) rejected_kinds, seq + nlen ks + nlen rejected_kinds, 0, false).
    cbv beta iota. specialize (IH (seq + nlen ks + nlen rejected_kinds) true true).
    destruct (agent_loop_a AcctDispatchedOnly sid link aok true (repeat refused_answer n) 0 _ true true)
      as [[[evs2 s3] r2] p2].
    destruct IH as [N2 R2]. split; [|exact R2]. rewrite !nreq_app, !nreq_frames_at, N2. reflexivity.
Qed.

Lemma stubborn_nreq m :
  nreq (run_session_a AcctDispatchedOnly g_stateless_prov 1 (Some 2) all_ok (IPrompt true (repeat refused_answer m))) = S m.
Proof.
  unfold run_session_a. rewrite nreq_app. change (nreq (capp all_ok _)) with 0%nat.
  change (nreq (ES 1 0 SStarted :: ?x)) with (nreq x). rewrite Nat.add_0_r.
  cbn [run_body_with g_stateless_prov g_provider g_stateless negb].
  pose proof (stubborn_loop 1 (Some 2) all_ok m 1 false false) as L.
  destruct (agent_loop_a AcctDispatchedOnly 1 (Some 2) all_ok true (repeat refused_answer m) 0 1 false false)
    as [[[evs seq] reason] prev].
  destruct L as [N1 ->]. rewrite !nreq_app, N1, !nreq_capp. change (R_PROVIDER_ERROR =? R_COMPLETED) with false.
  cbn [andb]. change (nreq []) with 0%nat. change (nreq [ES 1 seq (SEnded R_PROVIDER_ERROR)]) with 0%nat. lia.
Qed.

Theorem requests_unbounded_dispatched_only : forall n : nat,
  exists reqs, length reqs = n /\ forallb is_refused_answer reqs = true
    /\ nreq (run_session_a AcctDispatchedOnly g_stateless_prov 1 (Some 2) all_ok (IPrompt true reqs)) = S n.
Proof.
  intro n. exists (repeat refused_answer n). split; [apply repeat_length|]. split; [|apply stubborn_nreq].
  induction n as [|n IH]; [reflexivity | cbn [repeat forallb]; rewrite IH; reflexivity].
Qed.

(* … so the prefix property fails for every length: one more answer changes the run *)
Theorem prefix_fails_dispatched_only : forall n : nat,
  run_session_a AcctDispatchedOnly g_stateless_prov 1 (Some 2) all_ok (IPrompt true (repeat refused_answer n ++ [refused_answer]))
  <> run_session_a AcctDispatchedOnly g_stateless_prov 1 (Some 2) all_ok (IPrompt true (repeat refused_answer n)).
Proof.
  intros n E. apply (f_equal nreq) in E.
  replace (repeat refused_answer n ++ [refused_answer]) with (repeat refused_answer (S n)) in E.
  2:{ clear. induction n as [|n IH]; [reflexivity | cbn [repeat app]; f_equal; exact IH]. }
  rewrite !stubborn_nreq in E. lia.
Qed.

(* the same stubborn provider against the accounting of the code: 32 requests, max_tool_calls_exceeded *)
Definition stubborn_run : list ev :=
  run_session g_stateless_prov 1 (Some 2) all_ok (IPrompt true (repeat refused_answer 64)).
Lemma stubborn_run_ends :
  nreq stubborn_run = 32%nat
  /\ last stubborn_run (EC (CMessage 0)) = EC (CRunEnded 1 2 R_MAX_TOOL_CALLS)
  /\ forallb is_refused_answer (repeat refused_answer 64) = true.
Proof. vm_compute. repeat split. Qed.

(* the callers whose spawn_session returned true *)
Definition is_acc (p : pc) : bool := match p with PcAccepted => true | _ => false end.
Definition nacc (pcs : list pc) : nat := length (filter is_acc pcs).

Lemma upd_length {A} (l : list A) : forall i x, length (upd l i x) = length l.
Proof. induction l as [|y r IH]; intros [|j] x; cbn [upd length]; auto. Qed.

Lemma upd_Forall {A} (P : A -> Prop) (l : list A) : forall i x, Forall P l -> P x -> Forall P (upd l i x).
Proof.
  induction l as [|y r IH]; intros [|j] x F Px; cbn [upd]; auto.
  - inversion F; subst. constructor; assumption.
  - inversion F; subst. constructor; [assumption | apply IH; assumption].
Qed.

Lemma nacc_upd (l : list pc) : forall i old x, nth_error l i = Some old ->
  (nacc (upd l i x) + (if is_acc old then 1 else 0) = nacc l + (if is_acc x then 1 else 0))%nat.
Proof.
  unfold nacc. induction l as [|y r IH]; intros [|j] old x E; cbn [nth_error] in E; try discriminate.
  - injection E as ->. cbn [upd filter]. destruct (is_acc old), (is_acc x); cbn [length]; lia.
  - cbn [upd filter]. specialize (IH j old x E). destruct (is_acc y); cbn [length]; lia.
Qed.

(* the atomic guard once the flag is set: exactly one caller was accepted, nobody stands between test and set *)
Definition GSet (st : bool * list pc) : Prop :=
  fst st = true /\ nacc (snd st) = 1%nat /\ Forall (fun p => p <> PcPassed) (snd st).

(* the first caller to take a step sets the flag and is accepted … *)
Lemma GSet_first n a : (a < n)%nat -> GSet (guard_step GAtomicRmw (false, repeat PcInit n) a).
Proof.
  intros L. unfold guard_step; cbn [fst snd]. pose proof (nth_error_repeat PcInit L) as E. rewrite E.
  split; [reflexivity|]. cbn [snd]. split.
  - pose proof (nacc_upd _ a PcInit PcAccepted E) as U. cbn [is_acc] in U.
    assert (Z : nacc (repeat PcInit n) = 0%nat) by (unfold nacc; clear; induction n; [reflexivity | assumption]).
    lia.
  - apply upd_Forall; [|discriminate]. apply Forall_forall. intros p Hp. apply repeat_spec in Hp. now subst.
Qed.

(* … and every later first step is refused *)
Lemma GSet_step st a : GSet st -> GSet (guard_step GAtomicRmw st a).
Proof.
  destruct st as [started pcs]. unfold GSet at 1. cbn [fst snd]. intros (-> & C & F). unfold guard_step; cbn [fst snd].
  destruct (nth_error pcs a) as [[]|] eqn:E; try (repeat split; assumption).
  - split; [reflexivity|]. cbn [snd]. split; [|apply upd_Forall; [assumption | discriminate]].
    pose proof (nacc_upd pcs a PcInit PcRefused E) as U. cbn [is_acc] in U. lia.
  - exfalso. apply nth_error_In in E. rewrite Forall_forall in F. exact (F _ E eq_refl).
Qed.

Lemma guard_step_length gk st a : length (snd (guard_step gk st a)) = length (snd st).
Proof.
  unfold guard_step. destruct (nth_error (snd st) a) as [p|]; [|reflexivity].
  destruct p; try reflexivity; [destruct (fst st); [|destruct gk] |]; cbn [snd]; apply upd_length.
Qed.

Lemma run_guard_length gk n sched : length (snd (run_guard gk n sched)) = n.
Proof.
  unfold run_guard. apply (fold_left_inv (guard_step gk) (fun st => length (snd st) = n)); [|apply repeat_length].
  intros st a <-. apply guard_step_length.
Qed.


Lemma accepted_length {A} (pcs : list pc) : forall (inps : list A), length pcs = length inps ->
  length (accepted_inputs pcs inps) = nacc pcs.
Proof.
  unfold nacc. induction pcs as [|p ps IH]; intros [|i r] L; cbn [length] in L; try discriminate; [reflexivity|].
  cbn [accepted_inputs filter]. rewrite app_length, (IH r) by lia. destruct p; reflexivity.
Qed.

Lemma accepted_incl {A} (pcs : list pc) : forall (inps : list A) x, In x (accepted_inputs pcs inps) -> In x inps.
Proof.
  induction pcs as [|p ps IH]; intros [|i r] x H; cbn [accepted_inputs] in H; try contradiction.
  apply in_app_or in H. destruct H as [H|H]; [|right; eapply IH; exact H].
  destruct p; cbn in H; try contradiction. destruct H as [->|[]]. left; reflexivity.
Qed.

(* exactly one of any number of concurrent inputs is accepted, under every schedule in which somebody steps *)
Lemma guard_one_accepted gk n a sched : guard_atomic gk = true -> (a < n)%nat ->
  nacc (snd (run_guard gk n (a :: sched))) = 1%nat.
Proof.
  intros G L. destruct gk; [|discriminate]. unfold run_guard. cbn [fold_left].
  apply (fold_left_inv _ GSet GSet_step sched _ (GSet_first n a L)).
Qed.

Lemma interleave_single a l : Interleave [a] l -> l = a.
Proof.
  intros H. inversion H as [|a' ls m l' Hm Mg]; subst. inversion Hm; subst. apply merge_nil_r. exact Mg.
Qed.

Theorem double_input_guarded gk g sid (inps : list input) a sched l :
  guard_atomic gk = true -> (a < length inps)%nat ->
  Interleave (map (run_session g sid None all_ok)
                  (accepted_inputs (snd (run_guard gk (length inps) (a :: sched))) inps)) l ->
  SessionShape (sess_stream sid l).
Proof.
  intros G L H.
  pose proof (guard_one_accepted gk (length inps) a sched G L) as One.
  rewrite <- (accepted_length _ inps (run_guard_length _ _ _)) in One.
  destruct (accepted_inputs (snd (run_guard gk (length inps) (a :: sched))) inps) as [|inp [|x r]]; cbn [length] in One; try discriminate.
  cbn [map] in H. apply interleave_single in H. subst l. apply run_session_shape.
Qed.

(* the schedule the harness forces (every caller takes its first step, then all are released): under the atomic guard one
   input is accepted whatever the number of callers; under check-then-set, with three callers, all three *)
Lemma race_accepted_atomic n : 0 < n -> race_accepted GAtomicRmw n = 1.
Proof.
  intros P. unfold race_accepted, nlen.
  destruct (N.to_nat n) as [|m] eqn:E; [lia|].
  assert (S1 : stepped_sched (S m) = 0%nat :: (seq 1 m ++ seq 0 (S m))) by reflexivity.
  rewrite accepted_length by (rewrite run_guard_length, repeat_length; reflexivity).
  rewrite S1, (guard_one_accepted GAtomicRmw (S m) 0 _ eq_refl) by lia. reflexivity.
Qed.

Lemma race_accepted_check_then_set_3 : race_accepted GCheckThenSet 3 = 3.
Proof. vm_compute. reflexivity. Qed.

(* check-then-set: two callers, schedule load/load/spawn/spawn: both accepted, two runs on one session id *)
Lemma s6_cts_accepted :
  accepted_inputs (snd (run_guard GCheckThenSet 2 [0; 1; 0; 1]%nat)) [IPrompt true []; IPrompt true []]
  = [IPrompt true []; IPrompt true []].
Proof. vm_compute. reflexivity. Qed.

Lemma double_input_check_then_set_refuted :
  exists g sid (inps : list input) sched l,
    Forall (fun a => (a < length inps)%nat) sched /\ sched <> []
    /\ Interleave (map (run_session g sid None all_ok)
                       (accepted_inputs (snd (run_guard GCheckThenSet (length inps) sched)) inps)) l
    /\ ~ SessionShape (sess_stream sid l).
Proof.
  exists g_stub, 1, [IPrompt true []; IPrompt true []], [0; 1; 0; 1]%nat, s6_log.
  split; [repeat constructor|]. split; [discriminate|]. split; [|exact s6_not_shape].
  cbn [length]. rewrite s6_cts_accepted. apply (interleave_concat s6_runs).
Qed.

Lemma cut_floor_prefix n l : exists rest, l = cut_floor n l ++ rest.
Proof.
  revert n. induction l as [|b r IH]; intros n; cbn [cut_floor]; [exists []; reflexivity|].
  destruct (is_cont b).
  - destruct (IH n) as [rest E]. exists rest. cbn [app]. f_equal. exact E.
  - destruct (char_len b <=? n).
    + destruct (IH (n - char_len b)) as [rest E]. exists rest. cbn [app]. f_equal. exact E.
    + exists (b :: r). reflexivity.
Qed.

(* é (2 bytes) at offsets 1..2 of "xé…": a cut at 2 keeps "x", never half a character *)
Example cut_floor_demo : cut_floor 2 (seg_bytes [(120, 1); (233, 3)]) = [120]
  /\ cut_floor 3 (seg_bytes [(120, 1); (233, 3)]) = [120; 195; 169]
  /\ read_cut 2 (seg_bytes [(120, 1); (233, 3)]) = [120; 239; 191; 189].
Proof. vm_compute. repeat split. Qed.

(* well-formed UTF-8 by shape: characters = a lead byte followed by char_len - 1 continuation bytes *)
Inductive WfU8 : list N -> Prop :=
| WfU8_nil : WfU8 []
| WfU8_char : forall b cs rest,
    is_cont b = false -> nlen cs + 1 = char_len b -> forallb is_cont cs = true -> WfU8 rest ->
    WfU8 (b :: cs ++ rest).

Lemma cut_floor_conts n cs rest : forallb is_cont cs = true -> cut_floor n (cs ++ rest) = cs ++ cut_floor n rest.
Proof.
  induction cs as [|c cs IH]; intros F; cbn [app]; [reflexivity|].
  cbn [forallb] in F. apply andb_true_iff in F. destruct F as [Fc F].
  cbn [cut_floor]. rewrite Fc, IH by exact F. reflexivity.
Qed.

(* the cut of a well-formed text is a well-formed text of at most n bytes: never half a character *)
Theorem cut_floor_wf l : WfU8 l -> forall n, WfU8 (cut_floor n l) /\ nlen (cut_floor n l) <= n.
Proof.
  induction 1 as [|b cs rest Hb Hl Hc Hr IH]; intros n; cbn [cut_floor].
  - split; [constructor | apply N.le_0_l].
  - rewrite Hb. destruct (char_len b <=? n) eqn:E.
    + apply N.leb_le in E. rewrite cut_floor_conts by exact Hc.
      destruct (IH (n - char_len b)) as [W L]. split.
      * constructor; assumption.
      * rewrite nlen_cons, nlen_app. lia.
    + split; [constructor | apply N.le_0_l].
Qed.

Lemma cont_ok x : x < 64 -> is_cont (128 + x) = true.
Proof.
  intros H. unfold is_cont. rewrite (proj2 (N.leb_le 128 (128 + x))), (proj2 (N.ltb_lt (128 + x) 192)) by lia. reflexivity.
Qed.

Lemma WfU8_app a b : WfU8 a -> WfU8 b -> WfU8 (a ++ b).
Proof.
  induction 1 as [|c cs rest Hb Hl Hc Hr IH]; intros Wb; cbn [app]; [exact Wb|].
  rewrite <- app_assoc. constructor; auto.
Qed.

(* a lead byte b of a w-byte character *)
Lemma lead_ok b w : w = 1 /\ b < 128 \/ w = 2 /\ 192 <= b < 224 \/ w = 3 /\ 224 <= b < 240 \/ w = 4 /\ 240 <= b ->
  is_cont b = false /\ char_len b = w.
Proof.
  unfold is_cont, char_len. intros [[-> H]|[[-> H]|[[-> H]|[-> H]]]].
  - rewrite (proj2 (N.leb_gt 128 b)), (proj2 (N.ltb_lt b 192)) by lia. split; reflexivity.
  - rewrite (proj2 (N.ltb_ge b 192)), (proj2 (N.ltb_lt b 224)), andb_false_r by lia. split; reflexivity.
  - rewrite (proj2 (N.ltb_ge b 192)), (proj2 (N.ltb_ge b 224)), (proj2 (N.ltb_lt b 240)), andb_false_r by lia. split; reflexivity.
  - rewrite (proj2 (N.ltb_ge b 192)), (proj2 (N.ltb_ge b 224)), (proj2 (N.ltb_ge b 240)), andb_false_r by lia. split; reflexivity.
Qed.

Lemma WfU8_one b w cs :
  is_cont b = false /\ char_len b = w -> nlen cs + 1 = w -> forallb is_cont cs = true -> WfU8 (b :: cs).
Proof. intros [A <-] L F. rewrite <- (app_nil_r cs). constructor; auto. constructor. Qed.

Lemma utf8_enc_wf cp : WfU8 (utf8_enc cp).
Proof.
  assert (M : forall y, y mod 64 < 64) by (intros y; apply N.mod_lt; discriminate).
  unfold utf8_enc.
  destruct (cp <? 128) eqn:H1; [apply N.ltb_lt in H1|].
  2: destruct (cp <? 2048) eqn:H2; [apply N.ltb_lt in H2|].
  3: destruct (cp <? 65536) eqn:H3; [apply N.ltb_lt in H3|].
  - apply (WfU8_one _ 1); [apply lead_ok; left; auto | reflexivity..].
  - assert (D : cp / 64 < 32) by (apply N.div_lt_upper_bound; [discriminate | exact H2]). revert D. generalize (cp / 64). intros d D.
    apply (WfU8_one _ 2); [apply lead_ok; clear - D; lia | reflexivity|]. cbn [forallb]. rewrite cont_ok by apply M. reflexivity.
  - assert (D : cp / 4096 < 16) by (apply N.div_lt_upper_bound; [discriminate | exact H3]). revert D. generalize (cp / 4096). intros d D.
    apply (WfU8_one _ 3); [apply lead_ok; clear - D; lia | reflexivity|]. cbn [forallb]. rewrite !cont_ok by apply M. reflexivity.
  - generalize (cp / 262144). intros d. apply (WfU8_one _ 4); [apply lead_ok; clear; lia | reflexivity|]. cbn [forallb]. rewrite !cont_ok by apply M. reflexivity.
Qed.

Lemma seg_bytes_wf sg : WfU8 (seg_bytes sg).
Proof.
  unfold seg_bytes. induction sg as [|[cp n] r IH]; cbn [flat_map]; [constructor|].
  apply WfU8_app; [|exact IH]. cbn [fst snd].
  induction (N.to_nat n) as [|m IHm]; cbn [rep_bytes]; [constructor | apply WfU8_app; [apply utf8_enc_wf | exact IHm]].
Qed.

(* whatever text the provider sends (given by code points), cutting it at ANY n gives a well-formed text of <= n bytes *)
Theorem cut_of_text_wf sg n : WfU8 (cut_floor n (seg_bytes sg)) /\ nlen (cut_floor n (seg_bytes sg)) <= n.
Proof. apply cut_floor_wf, seg_bytes_wf. Qed.

(* with nothing in the gate the failing side writes of a run change what it logs only through the outcomes they cause
   (inp_under: compile failure, failed auto checkpoint) - the run IS run_session on that input … *)
Lemma run_session_x_ungated gate f g sid link aok inp : gate_unconditional gate = true ->
  run_session_x gate f g sid link aok inp = run_session g sid link aok (inp_under f inp).
Proof. destruct gate; [reflexivity | discriminate]. Qed.

Lemma act_events_x_ungated gate swf aok a : gate_unconditional gate = true ->
  act_events_x gate swf aok a = act_events aok (act_under swf a).
Proof.
  intros G. destruct a as [g mid sid inp | g sid inp | j o]; cbn [act_events_x act_events act_under]; [| apply run_session_x_ungated, G | reflexivity].
  unfold post_message_x, post_message. rewrite (run_session_x_ungated gate (swf sid) g sid (Some mid) aok inp G). reflexivity.
Qed.

(* act_under keeps every id: freshness is preserved *)
Lemma act_under_sids swf a : act_sids (act_under swf a) = act_sids a.
Proof. destruct a; reflexivity. Qed.
Lemma act_under_mids swf a : act_mids (act_under swf a) = act_mids a.
Proof. destruct a; reflexivity. Qed.
Lemma act_under_jobs swf a : act_jobs (act_under swf a) = act_jobs a.
Proof. destruct a; reflexivity. Qed.
Lemma flat_map_map_ext {A B} (f : A -> list B) (h : A -> A) l : (forall a, f (h a) = f a) -> flat_map f (map h l) = flat_map f l.
Proof. intros H. induction l as [|a l IH]; cbn [map flat_map]; [reflexivity | now rewrite H, IH]. Qed.
(* a store whose activities write what the activities `act_under swf` write: it has their freshness, log and posts *)
Lemma store_under swf (f : act -> list ev) aok acts l g mid sid inp :
  (forall a, f a = act_events aok (act_under swf a)) ->
  WfActs acts -> Interleave (map f acts) l -> In (APost g mid sid inp) acts ->
  WfActs (map (act_under swf) acts) /\ Interleave (map (act_events aok) (map (act_under swf) acts)) l
  /\ In (APost g mid sid (inp_under (swf sid) inp)) (map (act_under swf) acts).
Proof.
  intros Hf W I Ha. split; [|split].
  - unfold WfActs. rewrite (flat_map_map_ext act_sids _ acts (act_under_sids swf)),
      (flat_map_map_ext act_mids _ acts (act_under_mids swf)), (flat_map_map_ext act_jobs _ acts (act_under_jobs swf)).
    exact W.
  - rewrite map_map, <- (map_ext _ _ Hf). exact I.
  - exact (in_map (act_under swf) _ _ Ha).
Qed.

(* … so every run announced on the thread is closed exactly once, whatever side writes fail in whichever runs … *)
Theorem one_end_per_spawn_x gate swf aok acts l g mid sid inp :
  gate_unconditional gate = true ->
  WfActs acts -> Interleave (map (act_events_x gate swf aok) acts) l -> In (APost g mid sid inp) acts ->
  aok (CMessage mid) = true -> aok (CRunSpawned sid mid) = true ->
  (forall r, aok (CRunEnded sid mid r) = true) ->
  count_ck (is_end_of sid) l = 1%nat.
Proof.
  intros G W I Ha.
  destruct (store_under swf _ aok acts l g mid sid inp (fun a => act_events_x_ungated gate swf aok a G) W I Ha) as (W' & I' & Ha').
  exact (one_end_per_spawn aok _ l g mid sid _ W' I' Ha').
Qed.

(* … right after its own terminal session frame, with that frame's reason *)
Theorem thread_order_x gate swf aok acts l g mid sid inp :
  gate_unconditional gate = true ->
  WfActs acts -> Interleave (map (act_events_x gate swf aok) acts) l -> In (APost g mid sid inp) acts ->
  (forall k, aok k = true) ->
  exists pre q r,
    filter (of_run sid) l
    = EC (CRunSpawned sid mid) :: ES sid 0 SStarted :: pre ++ [ES sid q (SEnded r); EC (CRunEnded sid mid r)]
    /\ mid_kinds (map snd (sess_stream sid pre)) = true
    /\ ThreadShape sid mid (conts (filter (of_run sid) l)) r.
Proof.
  intros G W I Ha.
  destruct (store_under swf _ aok acts l g mid sid inp (fun a => act_events_x_ungated gate swf aok a G) W I Ha) as (W' & I' & Ha').
  exact (thread_order aok _ l g mid sid _ W' I' Ha').
Qed.

(* the session stream keeps its shape under EVERY gate and failure pattern (the gate only concerns the thread frame) *)
Lemma sess_stream_run_session_x gate f g sid link aok inp :
  sess_stream sid (run_session_x gate f g sid link aok inp) = sess_stream sid (run_session g sid link aok (inp_under f inp)).
Proof.
  unfold run_session_x, run_session. cbn zeta. rewrite !sess_stream_app. f_equal.
  destruct link as [mid|]; [|reflexivity]. destruct (gate_open gate f); [reflexivity|].
  rewrite sess_stream_capp. reflexivity.
Qed.

(* a run whose gated side write fails behaves exactly as if its run_ended append failed *)
Definition never_end (aok : ck -> bool) (k : ck) : bool :=
  match k with CRunEnded _ _ _ => false | _ => aok k end.

Lemma run_session_x_closed gate f g sid link aok inp : gate_open gate f = false ->
  run_session_x gate f g sid link aok inp = run_session g sid link (never_end aok) (inp_under f inp).
Proof.
  intros G. unfold run_session_x, run_session. cbn zeta. rewrite G.
  destruct (run_body_full g sid link (inp_under f inp)) as (pre & q & r & (_ & P & _) & E).
  rewrite (E aok), (E (never_end aok)).
  replace (filter (keeps (never_end aok)) pre) with (filter (keeps aok) pre).
  2:{ apply filter_ext_in. intros [s q0 k|k] He; [reflexivity|].
      apply (proj1 (forallb_forall _ _) P) in He. destruct k; try reflexivity. discriminate He. }
  destruct link as [mid|]; reflexivity.
Qed.

Lemma run_session_x_no_end gate f g sid mid aok inp : gate_open gate f = false ->
  count_ck (is_end_of sid) (run_session_x gate f g sid (Some mid) aok inp) = 0%nat.
Proof.
  intros G. rewrite (run_session_x_closed gate f g sid (Some mid) aok inp G).
  destruct (count_end_of_run g sid mid (never_end aok) (inp_under f inp)) as [r ->]. reflexivity.
Qed.

(* every non-empty gate can be closed by ONE failing side write (its first member) *)
Lemma side_write_eqb_refl w : side_write_eqb w w = true.
Proof. destruct w; reflexivity. Qed.
Lemma gate_closable gate : gate_unconditional gate = false ->
  exists w, In w gate /\ gate_open gate (side_write_eqb w) = false.
Proof.
  destruct gate as [|w rest]; [discriminate|]. intros _. exists w. split; [left; reflexivity|].
  unfold gate_open. cbn [existsb]. rewrite side_write_eqb_refl. reflexivity.
Qed.

(* REFUTATION witness for a gate holding the snapshot (trial patch C07-9: append_run_ended under `if let (Some(link),
   Ok(_)) = (continuity_run, snapshot)`): a `bash` envelope replaces <data>/snapshots by a regular file, so write_snapshot fails in
   that run and in every later run of the store; the next post is a plain prompt.  Both runs are announced on the thread,
   both write their terminal session frame, neither is ever closed. *)
Definition swf_snapshot_dir_damaged : N -> side_write -> bool := fun _ w => side_write_eqb w SwSnapshot.
Definition gated_acts : list act :=
  [APost g_stub 7 1 (ITool true {| t_auto := 0; t_res := TDone 0 0 |}); APost g_stub 8 2 (IPrompt true [])].
Definition gated_log : list ev := concat (map (act_events_x [SwSnapshot] swf_snapshot_dir_damaged all_ok) gated_acts).
Lemma gated_wf : WfActs gated_acts.
Proof. unfold WfActs, gated_acts. cbn. repeat split; repeat constructor; cbn; intuition discriminate. Qed.
Lemma gated_facts :
  count_ck (is_spawn_of 7) gated_log = 1%nat /\ count_ck (is_end_of 1) gated_log = 0%nat
  /\ count_ck (is_spawn_of 8) gated_log = 1%nat /\ count_ck (is_end_of 2) gated_log = 0%nat
  /\ map snd (sess_stream 1 gated_log) = [SStarted; SToolStarted; SToolEnded; SOutput; SEnded R_COMPLETED]
  /\ map snd (sess_stream 2 gated_log) = [SStarted; SOutput; SEnded R_COMPLETED].
Proof. vm_compute. repeat split; reflexivity. Qed.
Lemma end_lost_when_snapshot_gates_refuted :
  exists swf acts l g1 mid1 sid1 inp1 g2 mid2 sid2 inp2,
    WfActs acts /\ Interleave (map (act_events_x [SwSnapshot] swf all_ok) acts) l
    /\ In (APost g1 mid1 sid1 inp1) acts /\ In (APost g2 mid2 sid2 inp2) acts /\ sid1 <> sid2
    /\ count_ck (is_spawn_of mid1) l = 1%nat /\ count_ck (is_end_of sid1) l = 0%nat
    /\ count_ck (is_spawn_of mid2) l = 1%nat /\ count_ck (is_end_of sid2) l = 0%nat.
Proof.
  exists swf_snapshot_dir_damaged, gated_acts, gated_log, g_stub, 7, 1, (ITool true {| t_auto := 0; t_res := TDone 0 0 |}), g_stub, 8, 2, (IPrompt true []).
  split; [exact gated_wf|]. split; [apply interleave_concat|]. split; [left; reflexivity|]. split; [right; left; reflexivity|].
  split; [discriminate|]. destruct gated_facts as (A & B & C & D & _). repeat split; assumption.
Qed.

(* the same store under the gate the code has: both runs are closed (non-vacuity of one_end_per_spawn_x) *)
Definition ungated_log : list ev := concat (map (act_events_x EXIT_GATE swf_snapshot_dir_damaged all_ok) gated_acts).
Lemma ungated_facts :
  Interleave (map (act_events_x EXIT_GATE swf_snapshot_dir_damaged all_ok) gated_acts) ungated_log
  /\ conts ungated_log = [CMessage 7; CRunSpawned 1 7; CSideEffects 1; CRunEnded 1 7 R_COMPLETED; CMessage 8; CRunSpawned 2 8; CRunEnded 2 8 R_COMPLETED].
Proof. split; [apply interleave_concat | vm_compute; reflexivity]. Qed.

(* failing artifact / checkpoint writes BEFORE the exit: a linked provider run whose context bundle cannot be written
   ends context_compile_failed, a `write` envelope whose auto checkpoint cannot be written logs checkpoint_failed and runs
   the tool - and both are closed on the thread, with those reasons *)
Definition swf_workspace_damaged : N -> side_write -> bool :=
  fun _ w => match w with SwArtifacts | SwCheckpoints => true | _ => false end.
Definition ws_damaged_acts : list act :=
  [APost g_prov 7 1 (IPrompt true [ROk [true] true []]);
   APost g_stub 8 2 (ITool true {| t_auto := 1; t_res := TDone 1 0 |})].
Definition ws_damaged_log : list ev := concat (map (act_events_x EXIT_GATE swf_workspace_damaged all_ok) ws_damaged_acts).
Lemma ws_damaged_facts :
  map snd (sess_stream 1 ws_damaged_log) = [SStarted; SEnded R_COMPILE_FAILED]
  /\ map snd (sess_stream 2 ws_damaged_log) = [SStarted; SCkFailed; SToolStarted; SToolStdout; SToolEnded; SOutput; SEnded R_COMPLETED]
  /\ conts ws_damaged_log = [CMessage 7; CRunSpawned 1 7; CRunEnded 1 7 R_COMPILE_FAILED; CMessage 8; CRunSpawned 2 8; CSideEffects 2; CRunEnded 2 8 R_COMPLETED].
Proof. vm_compute. repeat split; reflexivity. Qed.

Lemma gated_run_never_ended gate : gate_unconditional gate = false ->
  exists w, In w gate /\
    forall (g : cfg) (sid mid : N) (aok : ck -> bool) (inp : input),
      count_ck (is_end_of sid) (run_session_x gate (side_write_eqb w) g sid (Some mid) aok inp) = 0%nat
      /\ SessionShape (sess_stream sid (run_session_x gate (side_write_eqb w) g sid (Some mid) aok inp)).
Proof.
  intros G. destruct (gate_closable gate G) as (w & Hw & C). exists w. split; [exact Hw|].
  intros g sid mid aok inp. split; [apply run_session_x_no_end, C|].
  rewrite sess_stream_run_session_x. apply run_session_shape.
Qed.

Lemma act_events_x_closed gate f aok a :
  gate_open gate f = false ->
  act_events_x gate (fun _ => f) aok a = act_events (never_end aok) (act_under (fun _ => f) a).
Proof.
  intros G. destruct a as [g mid sid inp | g sid inp | j o]; cbn [act_events_x act_events act_under].
  - unfold post_message_x, post_message. cbn [never_end].
    rewrite (run_session_x_closed gate f g sid (Some mid) aok inp G). reflexivity.
  - apply run_session_x_closed, G.
  - unfold job, job_run. cbn [never_end]. destruct o; unfold capp; cbn [never_end]; reflexivity.
Qed.

Theorem gated_store_never_ends gate : gate_unconditional gate = false ->
  exists w, In w gate /\
    forall (aok : ck -> bool) (acts : list act) (l : list ev) (g : cfg) (mid sid : N) (inp : input),
      WfActs acts -> Interleave (map (act_events_x gate (fun _ => side_write_eqb w) aok) acts) l ->
      In (APost g mid sid inp) acts -> aok (CMessage mid) = true -> aok (CRunSpawned sid mid) = true ->
      count_ck (is_spawn_of mid) l = 1%nat /\ count_ck (is_end_of sid) l = 0%nat.
Proof.
  intros G. destruct (gate_closable gate G) as (w & Hw & C). exists w. split; [exact Hw|].
  intros aok acts l g mid sid inp W I Ha O1 O2.
  destruct (store_under _ _ _ acts l g mid sid inp (fun a => act_events_x_closed gate _ aok a C) W I Ha) as (W' & I' & Ha').
  split.
  - apply (one_spawn_per_message (never_end aok) _ l g mid sid _ W' I' Ha'); assumption.
  - destruct (count_end_general (never_end aok) _ l g mid sid _ W' I' Ha' O1 O2) as [r ->]. reflexivity.
Qed.
