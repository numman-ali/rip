(* C03 — proofs for Model/WireRun.v: a run whose code is a concatenation of emit sites (build from the counter, emit,
   bump) numbers its frames c, c+1, ..; fed to the session emitter as written, on a healthy disk, the log view = the
   snapshot = the live frames AND the validated replay accepts the stream (seqs_from 0).  A head that builds one frame
   early (head_started_built_early) or emits one late (head_capture_emitted_late): the three views still agree frame for frame - and the
   validated replay refuses the stream. *)
From RipV Require Import Base.Prelude Base.Json Model.Wire Model.WireSized Model.WireRun
  Proofs.WireProofs Proofs.WireOrderProofs Proofs.WireSizedProofs Proofs.RunSitesProofs.

Definition run_frames (mk : N -> N -> event) (c : N) (p : list rstmt) : list event :=
  map (fun x => mk (fst x) (snd x)) (r_out (rrun c p)).
Definition sess_sinks (g : append_gate) (s : schema) (es : list event) : sinks := run_gated g eo_sess s (healthy es).

Lemma seqs_from_canon s es : forall n, seqs_from n (map (canon_event s) es) = seqs_from n es.
Proof. induction es as [|e es IH]; intro n; [reflexivity|]. cbn [map seqs_from]. rewrite canon_event_seq, IH. reflexivity. Qed.

Lemma seqs_from_frames mk : (forall t n, e_seq (mk t n) = n) ->
  forall l c, nums_from c l = true -> seqs_from c (map (fun x => mk (fst x) (snd x)) l) = true.
Proof.
  intros Hmk. induction l as [|x l IH]; intros c H; [reflexivity|].
  cbn [nums_from] in H. apply andb_true_iff in H as [H1 H2].
  cbn [map seqs_from]. rewrite Hmk, H1. apply IH, H2.
Qed.

Lemma of_stream_all s key es : Forall (fun e => stream_key s e = key) es -> of_stream s key es = es.
Proof.
  unfold of_stream. induction 1 as [|e es He _ IH]; [reflexivity|].
  cbn [filter]. rewrite He, key_eqb_refl, IH. reflexivity.
Qed.

Lemma run_frames_key s key mk c p :
  (forall t n, stream_key s (mk t n) = key) -> Forall (fun e => stream_key s e = key) (run_frames mk c p).
Proof. intro H. apply Forall_forall. intros e He. apply in_map_iff in He as [x [<- _]]. apply H. Qed.

(* the session emitter as written behind an open gate, on a healthy disk, fed frames of one stream: the live view is
   those frames, and the log view, the sidecar and the snapshot reproduce them *)
Lemma sess_views g s key es :
  wf_append_gate g = true -> wf_schema s = true -> all_ok s es -> Forall (fun e => stream_key s e = key) es ->
  view_live s key (sess_sinks g s es) = es
  /\ view_log s key (sess_sinks g s es) = Some (map (canon_event s) es)
  /\ view_sidecar s key (sess_sinks g s es) = Some (map (canon_event s) es)
  /\ view_snapshot s key (sess_sinks g s es) = Some (map (canon_event s) es).
Proof.
  intros Hg Hs Hok Hkey. unfold sess_sinks.
  destruct (views_agree_sized g eo_sess s es key Hg (or_introl eq_refl) Hs Hok) as [A [B C]].
  revert A B C. unfold view_live. rewrite (live_is_emitted_sized g eo_sess s es Hg (or_introl eq_refl)), (of_stream_all s key es Hkey).
  auto.
Qed.

(* a run made of emit sites, behind the session emitter as written and an open append gate, on a healthy
   disk: the log view and the snapshot reproduce the live frames, the live frames are the run's frames, and the stream the
   store will replay is numbered 0,1,2,.. (the validated replay accepts it) *)
Theorem run_of_sites_replays g s key mk p :
  wf_append_gate g = true -> wf_schema s = true -> wf_run p = true ->
  (forall t n, e_seq (mk t n) = n) -> (forall t n, stream_key s (mk t n) = key) -> all_ok s (run_frames mk 0 p) ->
  view_live s key (sess_sinks g s (run_frames mk 0 p)) = run_frames mk 0 p
  /\ view_log s key (sess_sinks g s (run_frames mk 0 p)) = Some (map (canon_event s) (run_frames mk 0 p))
  /\ view_snapshot s key (sess_sinks g s (run_frames mk 0 p)) = Some (map (canon_event s) (run_frames mk 0 p))
  /\ seqs_from 0 (map (canon_event s) (run_frames mk 0 p)) = true.
Proof.
  intros Hg Hs Hw Hseq Hkey Hok.
  destruct (sess_views g s key _ Hg Hs Hok (run_frames_key s key mk 0 p Hkey)) as (L & A & _ & C).
  repeat split; try assumption.
  rewrite seqs_from_canon. apply (seqs_from_frames mk Hseq), (run_numbered 0 p Hw).
Qed.

Lemma head_code_wf : wf_head head_code = true.
Proof. vm_compute. reflexivity. Qed.

(* a whole (small) run around a head: session_started (slot 7), the head, one more frame (slot 8) *)
Definition run_around (capture : bool) (h : head) : list rstmt := site 7 ++ head_prog capture h ++ site 8.

Lemma run_around_wf capture h : wf_head h = true -> wf_run (run_around capture h) = true.
Proof.
  intro H. unfold wf_head in H. apply andb_true_iff in H. destruct H as [H1 H2].
  assert (Hh : wf_run (head_prog capture h) = true) by (destruct capture; assumption).
  unfold run_around. rewrite (wf_run_sites _ Hh).
  change (site 7) with (flat_map site [7]). change (site 8) with (flat_map site [8]).
  rewrite <- !flat_map_app. apply wf_sites.
Qed.

(* frames of the demo schema: the slot is the id's second character, the seq is what the frame was built with *)
Definition demo_mk (t n : N) : event :=
  {| e_id := [105; t + 48]; e_sid := [116]; e_ts := 1758000000000; e_seq := n; e_var := 0;
     e_fields := [VVal JNull; VOpt None; VOpt None; VVec []; VInt 0%Z] |}.
Definition early_frames : list event := run_frames demo_mk 0 (run_around true head_started_built_early).
Definition late_frames : list event := run_frames demo_mk 0 (run_around true head_capture_emitted_late).
Definition code_frames : list event := run_frames demo_mk 0 (run_around true head_code).

Lemma demo_frames_ok :
  all_ok demo_schema early_frames /\ all_ok demo_schema late_frames /\ all_ok demo_schema code_frames.
Proof. repeat split; repeat constructor; vm_compute; reflexivity. Qed.

Lemma demo_frames_seqs :
  map e_seq early_frames = [0; 1; 1; 3] /\ map e_seq late_frames = [0; 1; 1; 3] /\ map e_seq code_frames = [0; 1; 2; 3]
  /\ map e_id early_frames = [[105; 55]; [105; 48]; [105; 49]; [105; 56]]
  /\ map e_id late_frames = [[105; 55]; [105; 49]; [105; 48]; [105; 56]].
Proof. repeat split; vm_compute; reflexivity. Qed.

Lemma demo_mk_key t n : stream_key demo_schema (demo_mk t n) = demo_key.
Proof. reflexivity. Qed.

(* the views agree for ANY list of frames (c03_views_agree_every_size) - so also for a misnumbered run; what breaks is the
   validated replay *)
Theorem head_misnumbered_refuted :
  exists h s key es,
    wf_head h = false /\ wf_schema s = true /\ all_ok s es /\ es = run_frames demo_mk 0 (run_around true h)
    /\ view_live s key (sess_sinks [GSerialize] s es) = es
    /\ view_log s key (sess_sinks [GSerialize] s es) = Some (map (canon_event s) es)
    /\ view_snapshot s key (sess_sinks [GSerialize] s es) = Some (map (canon_event s) es)
    /\ seqs_from 0 (map (canon_event s) es) = false
    /\ run_frames demo_mk 0 (run_around false h) = run_frames demo_mk 0 (run_around false head_code).
Proof.
  exists head_started_built_early, demo_schema, demo_key, early_frames.
  destruct demo_frames_ok as [Hok _].
  destruct (sess_views [GSerialize] demo_schema demo_key early_frames eq_refl demo_schema_wf Hok
              (run_frames_key _ _ _ _ _ demo_mk_key)) as (L & A & _ & C).
  split; [vm_compute; reflexivity|]. split; [exact demo_schema_wf|]. repeat (split; [assumption || reflexivity|]).
  split; vm_compute; reflexivity.
Qed.

Theorem head_capture_late_refuted :
  wf_head head_capture_emitted_late = false
  /\ seqs_from 0 (map (canon_event demo_schema) late_frames) = false
  /\ seqs_from 0 (map (canon_event demo_schema) code_frames) = true.
Proof. repeat split; vm_compute; reflexivity. Qed.

(* the same for a run around any head that meets wf_head, with the capture switch on or off *)
Theorem run_around_head_replays g s key mk h capture :
  wf_append_gate g = true -> wf_schema s = true -> wf_head h = true ->
  (forall t n, e_seq (mk t n) = n) -> (forall t n, stream_key s (mk t n) = key) ->
  all_ok s (run_frames mk 0 (run_around capture h)) ->
  view_live s key (sess_sinks g s (run_frames mk 0 (run_around capture h))) = run_frames mk 0 (run_around capture h)
  /\ view_log s key (sess_sinks g s (run_frames mk 0 (run_around capture h))) = Some (map (canon_event s) (run_frames mk 0 (run_around capture h)))
  /\ view_snapshot s key (sess_sinks g s (run_frames mk 0 (run_around capture h))) = Some (map (canon_event s) (run_frames mk 0 (run_around capture h)))
  /\ seqs_from 0 (map (canon_event s) (run_frames mk 0 (run_around capture h))) = true.
Proof. intros Hg Hs Hh. apply run_of_sites_replays; try assumption. apply run_around_wf. exact Hh. Qed.

Example run_of_sites_example :
  wf_run (run_around true head_code) = true /\ (forall t n, e_seq (demo_mk t n) = n)
  /\ (forall t n, stream_key demo_schema (demo_mk t n) = demo_key) /\ all_ok demo_schema code_frames
  /\ r_out (rrun 0 (run_around true head_code)) = [(7, 0); (0, 1); (1, 2); (8, 3)]
  /\ r_out (rrun 0 (run_around false head_code)) = [(7, 0); (1, 1); (8, 2)].
Proof.
  split; [vm_compute; reflexivity|]. split; [reflexivity|]. split; [exact demo_mk_key|].
  split; [exact (proj2 (proj2 demo_frames_ok))|]. split; vm_compute; reflexivity.
Qed.
