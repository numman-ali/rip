(* C12 — several sections of one patch on the same path.  Every section works on what the sections
   before it have left in the workspace, never on something the path held earlier in the same patch:
   a path that was moved away (or deleted) and re-created by a later `Add File` / `Move to` is, for
   the sections after that, the NEW file.  Corollaries of the in-order semantics (success_effects)
   and of atomicity. *)
From RipV Require Import Base.Prelude Base.Fs Model.Patch Proofs.FsProofs Proofs.PatchProofs Proofs.PatchAtomic Proofs.PatchEffects.
Require Import Coq.Strings.String.
Open Scope N_scope.
Open Scope list_scope.

Lemma effects_app : forall a b m m', effects m (a ++ b) m' -> exists m1, effects m a m1 /\ effects m1 b m'.
Proof.
  induction a as [|o a IH]; intros b m m' H; cbn [app effects] in *.
  - exists m. split; [intros q; reflexivity|exact H].
  - destruct H as [m0 [E0 H]]. destruct (IH _ _ _ H) as [m1 [Ea Eb]].
    exists m1. split; [exists m0; split; assumption|exact Eb].
Qed.

Lemma op_effect_frame m m1 o k : op_effect m m1 o -> ~ In k (map comps (op_paths o)) -> m1 k = m k.
Proof.
  destruct o as [p c|p|p [t|] hs]; cbn [op_effect op_paths map In]; intros H NI.
  - destruct H as [_ H]. rewrite H. apply upd_other. intros E. apply NI. left. exact E.
  - destruct H as [_ H]. rewrite H. apply upd_other. intros E. apply NI. left. exact E.
  - destruct H as [b [b' [_ [_ [_ [_ [_ H]]]]]]]. rewrite H.
    rewrite upd_other by (intros E; apply NI; right; left; exact E).
    apply upd_other. intros E. apply NI. left. exact E.
  - destruct H as [b [b' [_ [_ [_ H]]]]]. rewrite H. apply upd_other. intros E. apply NI. left. exact E.
Qed.

Lemma effects_frame : forall ops m m' k, effects m ops m' -> ~ In k (map comps (affected_paths ops)) -> m' k = m k.
Proof.
  induction ops as [|o ops IH]; intros m m' k H NI; cbn [effects] in H.
  - apply H.
  - destruct H as [m1 [E H]]. unfold affected_paths in NI. cbn [flat_map] in NI. rewrite map_app in NI.
    rewrite (IH _ _ _ H) by (intros I; apply NI; apply in_or_app; right; exact I).
    apply (op_effect_frame _ _ _ _ E). intros I. apply NI. apply in_or_app. left. exact I.
Qed.

(* what the update of p works on, read off its effect *)
Lemma op_effect_upd_reads m m1 p mv hs :
  op_effect m m1 (Upd p mv hs) -> exists b b', m (comps p) = Some b /\ utf8_ok b = true /\ apply_hunks_to_text b hs = Some b'
    /\ (mv = None -> m1 (comps p) = Some b').
Proof.
  destruct mv as [t|]; cbn [op_effect]; intros [b [b' H]]; exists b, b'.
  - destruct H as [M [U [A _]]]. repeat split; try assumption. discriminate.
  - destruct H as [M [U [A H]]]. repeat split; try assumption. intros _. rewrite H. apply upd_same.
Qed.

(* every update section works on the text the sections before it have left at its path *)
Theorem section_sees_earlier_sections f pre p mv hs post f' ch :
  fs_wf f -> apply_ops true [] f (pre ++ Upd p mv hs :: post) = Applied f' ch ->
  exists m b b', effects (file_at f) pre m /\ m (comps p) = Some b /\ utf8_ok b = true /\ apply_hunks_to_text b hs = Some b'.
Proof.
  intros W H. apply success_effects in H; [|exact W]. destruct H as [E _].
  apply effects_app in E. destruct E as [m [Ea Eb]]. cbn [effects] in Eb. destruct Eb as [m1 [Eo _]].
  apply op_effect_upd_reads in Eo. destruct Eo as [b [b' [M [U [A _]]]]].
  exists m, b, b'. repeat split; assumption.
Qed.

(* a path re-created by `Add File` (after having been moved away, deleted, or never there): a later
   update of it — nothing in between names the path — works on the ADDED content, whatever the path
   held before; without a move and with no later section on the path, the path ends up holding the
   added content with the hunks applied *)
Theorem update_after_recreation f pre p1 c mid p mv hs post f' ch :
  fs_wf f -> apply_ops true [] f (pre ++ Add p1 c :: mid ++ Upd p mv hs :: post) = Applied f' ch ->
  comps p1 = comps p -> ~ In (comps p) (map comps (affected_paths mid)) ->
  exists b', apply_hunks_to_text c hs = Some b' /\
    (mv = None -> ~ In (comps p) (map comps (affected_paths post)) -> file_at f' (comps p) = Some b').
Proof.
  intros W H EQ NI. apply success_effects in H; [|exact W]. destruct H as [E _].
  apply effects_app in E. destruct E as [m0 [_ E]]. cbn [effects] in E. destruct E as [m1 [EA E]].
  apply effects_app in E. destruct E as [m2 [EM E]]. cbn [effects] in E. destruct E as [m3 [EU EP]].
  cbn [op_effect] in EA. destruct EA as [_ EA].
  assert (M2 : m2 (comps p) = Some c).
  { rewrite (effects_frame _ _ _ _ EM NI). rewrite EA. rewrite EQ. apply upd_same. }
  apply op_effect_upd_reads in EU. destruct EU as [b [b' [M [_ [A F]]]]].
  rewrite M2 in M. inversion M; subst b. exists b'. split; [exact A|].
  intros MV NP. rewrite (effects_frame _ _ _ _ EP NP). apply F. exact MV.
Qed.

(* the same for a path re-created by another section's `Move to`: the later update works on the
   moved-in file's text (the text of r with r's hunks applied) *)
Theorem update_after_move_in f pre r t hs0 mid p mv hs post f' ch :
  fs_wf f -> apply_ops true [] f (pre ++ Upd r (Some t) hs0 :: mid ++ Upd p mv hs :: post) = Applied f' ch ->
  comps t = comps p -> ~ In (comps p) (map comps (affected_paths mid)) ->
  exists m b0 b1 b', effects (file_at f) pre m /\ m (comps r) = Some b0 /\
    apply_hunks_to_text b0 hs0 = Some b1 /\ apply_hunks_to_text b1 hs = Some b'.
Proof.
  intros W H EQ NI. apply success_effects in H; [|exact W]. destruct H as [E _].
  apply effects_app in E. destruct E as [m0 [E0 E]]. cbn [effects] in E. destruct E as [m1 [EA E]].
  apply effects_app in E. destruct E as [m2 [EM E]]. cbn [effects] in E. destruct E as [m3 [EU _]].
  cbn [op_effect] in EA. destruct EA as [b0 [b1 [M0 [_ [A0 [_ [_ EA]]]]]]].
  assert (M2 : m2 (comps p) = Some b1).
  { rewrite (effects_frame _ _ _ _ EM NI). rewrite EA. rewrite EQ. apply upd_same. }
  apply op_effect_upd_reads in EU. destruct EU as [b [b' [M [_ [A _]]]]].
  rewrite M2 in M. inversion M; subst b. exists m0, b0, b1, b'. repeat split; assumption.
Qed.

(* and a patch whose hunks only fit what the path held EARLIER is refused as a whole: when the hunks
   do not apply to the added content the apply fails, and every file keeps its bytes *)
Theorem stale_context_is_refused f pre p1 c mid p mv hs post :
  fs_wf f -> comps p1 = comps p -> ~ In (comps p) (map comps (affected_paths mid)) ->
  apply_hunks_to_text c hs = None ->
  exists g e, apply_ops true [] f (pre ++ Add p1 c :: mid ++ Upd p mv hs :: post) = Failed g e /\
    forall q, file_at g q = file_at f q.
Proof.
  intros W EQ NI NA.
  destruct (apply_ops true [] f (pre ++ Add p1 c :: mid ++ Upd p mv hs :: post)) as [f' ch|g e] eqn:H.
  - destruct (update_after_recreation _ _ _ _ _ _ _ _ _ _ _ W H EQ NI) as [b' [A _]]. congruence.
  - exists g, e. split; [reflexivity|]. eapply apply_ops_atomic; eassumption.
Qed.

(* the shapes of the harness's same-path family *)
Definition sec_fs : fs := [([bs "a.txt"], File (bs "alpha" ++ [10] ++ bs "beta" ++ [10]))].
(* update + move away; re-create; update: the last section sees the re-created file *)
Definition sec_ops_ok : list op :=
  [Upd (bs "a.txt") (Some (bs "b.txt")) [{| h_before := [bs "alpha"]; h_after := [bs "ALPHA"] |}];
   Add (bs "./a.txt") (bs "beta" ++ [10] ++ bs "gamma" ++ [10]);
   Upd (bs "a.txt") None [{| h_before := [bs "gamma"]; h_after := [bs "GAMMA"] |}]].
Definition sec_after_ok : fs :=
  [([bs "a.txt"], File (bs "beta" ++ [10] ++ bs "GAMMA" ++ [10]));
   ([bs "b.txt"], File (bs "ALPHA" ++ [10] ++ bs "beta" ++ [10]))].
Definition sec_changed_ok : list (list N) := [bs "./a.txt"; bs "a.txt"; bs "b.txt"].
Lemma sec_ok_run : apply_ops true [] sec_fs sec_ops_ok = Applied sec_after_ok sec_changed_ok.
Proof. vm_compute. reflexivity. Qed.
(* the last section's context (`alpha`) is only in the text that was moved away: refused, nothing changed *)
Definition sec_ops_stale : list op :=
  [Upd (bs "a.txt") (Some (bs "b.txt")) [{| h_before := [bs "alpha"]; h_after := [bs "ALPHA"] |}];
   Add (bs "a.txt") (bs "beta" ++ [10] ++ bs "gamma" ++ [10]);
   Upd (bs "a.txt") None [{| h_before := [bs "ALPHA"]; h_after := [bs "x"] |}]].
Lemma sec_stale_run : apply_ops true [] sec_fs sec_ops_stale = Failed sec_fs EINVALDATA.
Proof. vm_compute. reflexivity. Qed.
(* chain a -> b -> a, then an update of a: it works on the text that came back *)
Definition sec_ops_chain : list op :=
  [Upd (bs "a.txt") (Some (bs "b.txt")) [{| h_before := [bs "alpha"]; h_after := [bs "ALPHA"] |}];
   Upd (bs "b.txt") (Some (bs "a.txt")) [{| h_before := [bs "beta"]; h_after := [bs "BETA"] |}];
   Upd (bs "a.txt") None [{| h_before := [bs "ALPHA"; bs "BETA"]; h_after := [bs "both"] |}]].
Definition sec_after_chain : fs := [([bs "a.txt"], File (bs "both" ++ [10]))].
Definition sec_changed_chain : list (list N) := [bs "a.txt"; bs "b.txt"].
Lemma sec_chain_run : apply_ops true [] sec_fs sec_ops_chain = Applied sec_after_chain sec_changed_chain.
Proof. vm_compute. reflexivity. Qed.
Lemma sec_wf : fs_wf sec_fs.
Proof. apply wf_fsb_sound. vm_compute. reflexivity. Qed.
