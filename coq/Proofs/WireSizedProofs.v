(* C03 — frames of every size: proofs for Model/WireSized.v (the weight of a folded document, the append gate, and a
   gate with a size limit). *)
From RipV Require Import Base.Prelude Base.Json Base.JsonParse Model.Wire Model.WireSized
  Proofs.JsonProofs Proofs.WireProofs Proofs.WireOrderProofs.

(* as JsonProofs.json_ind', for folded documents *)
Fixpoint sjson_ind' (P : sjson -> Prop)
  (Hnull : P SNull) (Hbool : forall b, P (SBool b)) (Hnum : forall t, P (SNum t)) (Hstr : forall r, P (SStr r))
  (Harr : forall l, Forall P l -> P (SArr l))
  (Hobj : forall kvs, Forall (fun kv => P (snd kv)) kvs -> P (SObj kvs))
  (j : sjson) {struct j} : P j :=
  match j with
  | SNull => Hnull
  | SBool b => Hbool b
  | SNum t => Hnum t
  | SStr r => Hstr r
  | SArr l =>
    Harr l ((fix go (l : list sjson) : Forall P l :=
               match l with
               | [] => Forall_nil P
               | x :: r => Forall_cons x (sjson_ind' P Hnull Hbool Hnum Hstr Harr Hobj x) (go r)
               end) l)
  | SObj kvs =>
    Hobj kvs ((fix go (l : list (str * sjson)) : Forall (fun kv => P (snd kv)) l :=
                 match l with
                 | [] => Forall_nil _
                 | kv :: r =>
                   Forall_cons kv
                     (match kv as kv0 return P (snd kv0) with
                      | (k, v) => sjson_ind' P Hnull Hbool Hnum Hstr Harr Hobj v
                      end) (go r)
                 end) kvs)
  end.

Lemma wsum_app w a b : wsum w (a ++ b) = wsum w a + wsum w b.
Proof. induction a as [|c a IH]; cbn [wsum app]; [lia | rewrite IH; lia]. Qed.

Lemma flat_map_rep (n : nat) (u : str) : flat_map esc_char (rep n u) = rep n (flat_map esc_char u).
Proof. induction n as [|n IH]; cbn [rep flat_map]; [reflexivity | rewrite flat_map_app, IH; reflexivity]. Qed.

Lemma wsum_rep w (n : nat) x : wsum w (rep n x) = N.of_nat n * wsum w x.
Proof.
  induction n as [|n IH]; cbn [rep]; [cbn [wsum]; lia|].
  rewrite wsum_app, IH, Nat2N.inj_succ. lia.
Qed.

Lemma esc_expand w r : wsum w (flat_map esc_char (expand r)) = rle_w w r.
Proof.
  induction r as [|[u n] t IH]; cbn [expand rle_w flat_map]; [reflexivity|].
  rewrite flat_map_app, wsum_app, flat_map_rep, wsum_rep, N2Nat.id, IH. unfold esc_w. reflexivity.
Qed.

Lemma wsum_print_str w x : wsum w (print_str x) = w cQUOTE + (wsum w (flat_map esc_char x) + w cQUOTE).
Proof. unfold print_str. cbn [wsum]. rewrite wsum_app. cbn [wsum]. lia. Qed.

Lemma wsum_join w c (l : list str) : wsum w (join [c] l) = sumN (map (wsum w) l) + w c * N.of_nat (pred (length l)).
Proof.
  induction l as [|x l IH]; [cbn [join map sumN wsum length pred]; lia|].
  destruct l as [|y r].
  - cbn [join map sumN length pred]. cbn [N.of_nat]. lia.
  - rewrite join_cons2, !wsum_app, IH. cbn [map sumN length pred wsum]. rewrite Nat2N.inj_succ. lia.
Qed.

(* so the byte length / code-point sum the model compares with the real writer's line is that of `print (unfold doc)`,
   although that text is never built *)
Theorem ssum_unfold w : forall j, ssum w j = wsum w (print (unfold j)).
Proof.
  induction j as [| b | t | r | l IH | kvs IH] using sjson_ind'.
  - reflexivity.
  - destruct b; reflexivity.
  - reflexivity.
  - cbn [ssum unfold print]. rewrite wsum_print_str, esc_expand. reflexivity.
  - cbn [ssum unfold print]. cbn [wsum]. rewrite wsum_app, wsum_join, !map_map, !map_length. cbn [wsum]. unfold seps.
    assert (E : map (ssum w) l = map (fun x => wsum w (print (unfold x))) l).
    { apply map_ext_in. intros x Hx. rewrite Forall_forall in IH. apply IH, Hx. }
    rewrite E. lia.
  - cbn [ssum unfold print]. cbn [wsum]. rewrite wsum_app, wsum_join, !map_map, !map_length. cbn [wsum fst snd]. unfold seps.
    assert (E : map (fun kv => wsum w (print_str (fst kv)) + (w cCOLON + ssum w (snd kv))) kvs
                = map (fun x => wsum w (print_str (fst x) ++ cCOLON :: print (unfold (snd x)))) kvs).
    { apply map_ext_in. intros kv Hkv. rewrite Forall_forall in IH. rewrite wsum_app. cbn [wsum]. rewrite (IH kv Hkv). reflexivity. }
    rewrite E. lia.
Qed.

Corollary sbytes_unfold j : ssum utf8_len j = bytes (print (unfold j)).
Proof. apply ssum_unfold. Qed.

(* folding is exact for the units the harness folds by: an example with every escape class *)
Example fold_demo :
  ssum utf8_len (SObj [([107], SStr [([97; 99; 107; 58; 32], 1); ([34; 10; 1; 233; 8364; 128512], 1000000)])]) = 19000013
  /\ bytes (print (unfold (SObj [([107], SStr [([97; 99; 107; 58; 32], 1); ([34; 10; 1; 233; 8364; 128512], 3)])]))) = 70.
Proof. split; vm_compute; reflexivity. Qed.

Lemma open_gate_accepts g len : wf_append_gate g = true -> gate_accepts g len = true.
Proof.
  unfold wf_append_gate, gate_accepts. induction g as [|st g IH]; cbn [forallb]; [reflexivity|].
  destruct st; cbn [andb]; try discriminate; exact IH.
Qed.

(* nothing about a frame makes the log refuse it: the fate of a log write is the disk's alone *)
Theorem fate_is_the_disks g s e d : wf_append_gate g = true -> fate g s e d = d.
Proof. intro H. unfold fate. rewrite (open_gate_accepts _ _ H). apply andb_true_r. Qed.

Theorem run_gated_open g eo s steps : wf_append_gate g = true -> run_gated g eo s steps = run_faulty eo s steps.
Proof.
  intro H. unfold run_gated. f_equal. rewrite <- (map_id steps) at 2. apply map_ext.
  intros [e d]. cbn [fst snd]. rewrite (fate_is_the_disks _ _ _ _ H). reflexivity.
Qed.

Lemma emit_at_sess_ok s k e : emit_at eo_sess s k e true = emit s k e.
Proof. reflexivity. Qed.

Lemma run_healthy_sess s es : forall k,
  fold_left (fun k x => emit_at eo_sess s k (fst x) (snd x)) (healthy es) k = fold_left (emit s) es k.
Proof. induction es as [|e es IH]; intro k; [reflexivity|]. cbn [healthy map fold_left fst snd]. rewrite emit_at_sess_ok. apply IH. Qed.

Lemma logged_healthy es : logged (healthy es) = es.
Proof. unfold logged, healthy. induction es as [|e es IH]; [reflexivity|]. cbn [map filter snd fst]. rewrite IH. reflexivity. Qed.

(* on a healthy disk, behind a gate that lets every frame through, an emit site runs as `emit`: the continuity order
   AND the session / task emitters' order (store, channel, unchecked log append last) *)
Theorem run_gated_healthy g eo s es :
  wf_append_gate g = true -> (eo = eo_sess \/ wf_order eo = true) -> run_gated g eo s (healthy es) = run_emits s es.
Proof.
  intros Hg [-> | Ho]; rewrite (run_gated_open _ _ _ _ Hg).
  - unfold run_faulty, run_emits. apply run_healthy_sess.
  - rewrite (run_faulty_eq _ _ _ Ho), logged_healthy. reflexivity.
Qed.

(* frames of EVERY size: the four views agree (there is no hypothesis on the length of any frame) *)
Theorem views_agree_sized g eo s es key :
  wf_append_gate g = true -> (eo = eo_sess \/ wf_order eo = true) -> wf_schema s = true -> all_ok s es ->
  views_agree_at s key (run_gated g eo s (healthy es)).
Proof. intros Hg Ho Hs Hok. rewrite (run_gated_healthy _ _ _ _ Hg Ho). apply views_agree; assumption. Qed.

Theorem live_is_emitted_sized g eo s es :
  wf_append_gate g = true -> (eo = eo_sess \/ wf_order eo = true) -> k_live (run_gated g eo s (healthy es)) = es.
Proof. intros Hg Ho. rewrite (run_gated_healthy _ _ _ _ Hg Ho), run_emits_eq. reflexivity. Qed.

(* which views a frame reaches at the two kinds of emit site of the code, as `frame_check` predicts it *)
Theorem site_views_sound s k e ok :
  site_views eo_sess ok = (true, true, ok) /\ site_views eo_cont ok = (ok, ok, ok)
  /\ k_live (emit_at eo_sess s k e ok) = k_live k ++ [e]
  /\ k_buffer (emit_at eo_sess s k e ok) = k_buffer k ++ [e]
  /\ k_log (emit_at eo_sess s k e ok) = k_log k ++ (if ok then [write_line s e] else [])
  /\ k_live (emit_at eo_cont s k e ok) = k_live k ++ (if ok then [e] else [])
  /\ k_buffer (emit_at eo_cont s k e ok) = k_buffer k ++ (if ok then [e] else [])
  /\ k_log (emit_at eo_cont s k e ok) = k_log k ++ (if ok then [write_line s e] else []).
Proof. destruct ok; repeat split; cbn; rewrite ?app_nil_r; reflexivity. Qed.

(* a gate with a limit on the line length: `if line.len() > n { return Err }` (GMaxLine n) *)
Definition demo_long : event :=
  {| e_id := [105; 48]; e_sid := [116]; e_ts := 1758000000000; e_seq := 0; e_var := 0;
     e_fields := [VVal (JStr (rep 60 [120; 233])); VOpt None; VOpt None; VVec []; VInt 0%Z] |}.
Definition demo_sized : list event := [demo_long; demo_seq 1].
Definition demo_limit : N := 160.
Definition demo_limited : append_gate := [GSerialize; GMaxLine demo_limit].

Lemma demo_sized_ok :
  wf_schema demo_schema = true /\ all_ok demo_schema demo_sized
  /\ seqs_from 0 (of_stream demo_schema demo_key demo_sized) = true
  /\ (demo_limit <? bytes (write_line demo_schema demo_long)) = true
  /\ (bytes (write_line demo_schema (demo_seq 1)) <=? demo_limit) = true.
Proof.
  split; [exact demo_schema_wf|]. split; [apply all_ok_forallb; vm_compute; reflexivity|].
  repeat split; vm_compute; reflexivity.
Qed.

(* the session / task emitters AS WRITTEN behind a log that refuses lines over n bytes, on a healthy disk: a frame over the
   limit is delivered live and written to the snapshot, never reaches the log, and the log then holds the stream without
   its seq 0 (validate_event_order fails: every validated replay of the store fails) *)
Theorem size_limit_refuted :
  exists n s es key e,
    wf_schema s = true /\ all_ok s es /\ seqs_from 0 (of_stream s key es) = true
    /\ In e (view_live s key (run_gated [GSerialize; GMaxLine n] eo_sess s (healthy es)))
    /\ (exists v, view_snapshot s key (run_gated [GSerialize; GMaxLine n] eo_sess s (healthy es)) = Some v /\ In e v)
    /\ (exists l, view_log s key (run_gated [GSerialize; GMaxLine n] eo_sess s (healthy es)) = Some l
                  /\ ~ In e l /\ seqs_from 0 l = false).
Proof.
  exists demo_limit, demo_schema, demo_sized, demo_key, demo_long.
  destruct demo_sized_ok as (H1 & H2 & H3 & _). do 3 (split; [assumption|]).
  split; [vm_compute; left; reflexivity|].
  split; [exists demo_sized; split; [vm_compute; reflexivity | left; reflexivity]|].
  exists [demo_seq 1]. split; [vm_compute; reflexivity|]. split; [|reflexivity].
  intros [H | []]. discriminate H.
Qed.

(* the same limit behind a continuity append path (log first, checked): the frame is nowhere — the views still agree *)
Theorem size_limit_cont_views_agree n s steps key :
  wf_schema s = true ->
  all_ok s (logged (map (fun x => (fst x, fate [GSerialize; GMaxLine n] s (fst x) (snd x))) steps)) ->
  view_log s key (run_gated [GSerialize; GMaxLine n] eo_cont s steps)
  = Some (map (canon_event s) (view_live s key (run_gated [GSerialize; GMaxLine n] eo_cont s steps)))
  /\ view_snapshot s key (run_gated [GSerialize; GMaxLine n] eo_cont s steps)
     = Some (map (canon_event s) (view_live s key (run_gated [GSerialize; GMaxLine n] eo_cont s steps))).
Proof.
  intros Hs Hok. unfold run_gated.
  destruct (views_agree_faulty eo_cont s _ key (proj1 eo_cont_wf) Hs Hok) as [A [_ C]]. split; assumption.
Qed.

Lemma gate_code_wf : wf_append_gate [GSerialize] = true /\ wf_side_gate [GKind; GIo; GIo; GSerialize] = true
                     /\ wf_append_gate demo_limited = false.
Proof. repeat split; reflexivity. Qed.
