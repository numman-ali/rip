(* C12 — what a successful apply does, stated on the files only (path -> option bytes), with no
   reference to the file-system model's operations: the meaning of add / delete / update / move. *)
From RipV Require Import Base.Prelude Base.Fs Model.Patch Proofs.FsProofs Proofs.PatchProofs Proofs.PatchAtomic.
Open Scope N_scope.
Open Scope list_scope.

Definition fmap := path -> option bytes.
Definition upd (m : fmap) (k : path) (v : option bytes) : fmap := fun q => if path_eqb k q then v else m q.

Lemma upd_other (m : fmap) k v q : k <> q -> upd m k v q = m q.
Proof. intros NE. unfold upd. apply path_eqb_false in NE. rewrite NE. reflexivity. Qed.
Lemma upd_same (m : fmap) k v : upd m k v k = v.
Proof. unfold upd. rewrite path_eqb_refl. reflexivity. Qed.

(* the effect of one operation on the files; paths are compared as component lists (comps) *)
Definition op_effect (m m' : fmap) (o : op) : Prop :=
  match o with
  | Add p c => m (comps p) = None /\ forall q, m' q = upd m (comps p) (Some c) q
  | Del p => (exists b, m (comps p) = Some b) /\ forall q, m' q = upd m (comps p) None q
  | Upd p None hs =>
    exists b b', m (comps p) = Some b /\ utf8_ok b = true /\ apply_hunks_to_text b hs = Some b' /\
                 forall q, m' q = upd m (comps p) (Some b') q
  | Upd p (Some t) hs =>
    exists b b', m (comps p) = Some b /\ utf8_ok b = true /\ apply_hunks_to_text b hs = Some b' /\
                 comps t <> comps p /\ m (comps t) = None /\
                 forall q, m' q = upd (upd m (comps p) None) (comps t) (Some b') q
  end.

Fixpoint effects (m : fmap) (ops : list op) (m' : fmap) : Prop :=
  match ops with
  | [] => forall q, m' q = m q
  | o :: r => exists m1, op_effect m m1 o /\ effects m1 r m'
  end.

Lemma spec_op_effect f o f' : fs_wf f -> spec_op [] f o = Ok f' -> op_effect (file_at f) (file_at f') o.
Proof.
  intros W. destruct o as [p c|p|p mv hs]; cbn [spec_op op_effect]; unfold tg.
  - destruct (os_exists f (mk_tgt [] p)) eqn:X; [discriminate|].
    destruct (mk_parent_dirs f (mk_tgt [] p)) as [f2 [e|]] eqn:MK; [discriminate|].
    apply mk_parent_dirs_spec in MK; [|exact W]. destruct MK as [W2 E2]. intros WR.
    apply os_write_ok in WR. destruct WR as [[NU [TR [NM KN]]] [PD [L ->]]]. split.
    + apply os_exists_false_nofile; assumption.
    + intros q. unfold upd. rewrite file_at_set by exact KN. destruct (path_eqb (comps p) q); [reflexivity|apply (ext_files _ _ E2)].
  - destruct (os_exists f (mk_tgt [] p)); cbn [negb]; [|discriminate]. intros RM.
    apply os_remove_ok in RM. destruct RM as [[_ [_ [_ KN]]] [_ [[b L] ->]]]. split.
    + exists b. unfold file_at. rewrite L. reflexivity.
    + intros q. unfold upd. apply file_at_unset. exact KN.
  - destruct (os_exists f (mk_tgt [] p)); cbn [negb]; [|discriminate].
    destruct (os_read f (mk_tgt [] p)) as [b|e] eqn:RD; [|discriminate].
    destruct (utf8_ok b) eqn:U; cbn [negb]; [|discriminate].
    destruct (apply_hunks_to_text b hs) as [b'|] eqn:AH; [|discriminate].
    destruct (os_write f (mk_tgt [] p) b') as [f2|e] eqn:WR; [|discriminate].
    apply os_read_ok in RD. destruct RD as [CLN [PD L0]]. pose proof CLN as [_ [_ [_ KN]]].
    apply os_write_ok in WR. destruct WR as [_ [_ [_ ->]]].
    assert (M0 : file_at f (comps p) = Some b) by (unfold file_at; rewrite L0; reflexivity).
    destruct mv as [t|].
    + destruct (os_exists (set f (comps p) (File b')) (mk_tgt [] t)) eqn:XT; [discriminate|].
      set (f2 := set f (comps p) (File b')) in *.
      assert (W2 : fs_wf f2) by (apply wf_set; [exact W|exact KN|exact PD|congruence]).
      destruct (mk_parent_dirs f2 (mk_tgt [] t)) as [f4 [e|]] eqn:MK; [discriminate|].
      apply mk_parent_dirs_spec in MK; [|exact W2]. destruct MK as [W4 E4]. intros RN.
      apply os_rename_ok in RN. destruct RN as [_ [_ [[NUT [TRT [NMT KT]]] [_ [_ [b2 [LS ->]]]]]]].
      assert (LS2 : lookup f2 (comps p) = Some (File b')) by (apply lookup_set_same; exact KN).
      assert (B2 : b2 = b').
      { destruct E4 as [E41 _]. rewrite (E41 _ _ LS2) in LS. congruence. }
      subst b2.
      assert (NF2 : file_at f2 (comps t) = None) by (apply os_exists_false_nofile; assumption).
      assert (NE : comps t <> comps p).
      { intros E. rewrite E in NF2. unfold file_at in NF2. rewrite LS2 in NF2. discriminate. }
      exists b, b'. split; [exact M0|]. split; [exact U|]. split; [exact AH|]. split; [exact NE|]. split.
      * unfold f2 in NF2. rewrite file_at_set in NF2 by exact KN.
        destruct (path_eqb (comps p) (comps t)) eqn:EQ; [discriminate|exact NF2].
      * intros q. unfold upd. rewrite file_at_set by exact KT. destruct (path_eqb (comps t) q); [reflexivity|].
        rewrite file_at_unset by exact KN. destruct (path_eqb (comps p) q) eqn:EQ; [reflexivity|].
        rewrite (ext_files _ _ E4). unfold f2. rewrite file_at_set by exact KN. rewrite EQ. reflexivity.
    + intros H; inversion H; subst f'. exists b, b'. split; [exact M0|]. split; [exact U|]. split; [exact AH|].
      intros q. unfold upd. apply file_at_set. exact KN.
Qed.

Lemma spec_ops_effects : forall ops f f', fs_wf f -> spec_ops [] f ops = Ok f' -> effects (file_at f) ops (file_at f').
Proof.
  induction ops as [|o ops IH]; intros f f' W; cbn [spec_ops effects].
  - intros H; inversion H; subst. reflexivity.
  - destruct (spec_op [] f o) as [f1|e] eqn:S; [|discriminate]. intros H.
    exists (file_at f1). split; [apply spec_op_effect; assumption|].
    apply IH; [exact (proj1 (spec_op_keeps _ _ _ W S))|exact H].
Qed.

Theorem success_effects f ops f' changed : fs_wf f -> apply_ops true [] f ops = Applied f' changed ->
  effects (file_at f) ops (file_at f') /\ changed = sort_dedup (map normalize_rel (affected_paths ops)).
Proof.
  intros W H. apply success_spec in H. destruct H as [S CH]. split; [apply spec_ops_effects; assumption|exact CH].
Qed.
