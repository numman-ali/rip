(* C17 — proofs about Model/TaskLifecycle.v: every schedule of the waiter, the two pumps, the child and
   cancel requests produces a frame sequence of the language
     Spawned · Running? · Delta* · (CancelReq · Delta* · Cancelled)? · Status
   and nothing is emitted after the terminal frame.
   The waiter's program counter determines a phase of that language; `at_phase` and `emits` say what the
   recogniser's state is in each phase and which frame leads where.  Proofs/PtyLifecycleProofs.v uses the
   same phases for the PTY waiter. *)
From RipV Require Import Base.Prelude Model.TaskLifecycle.

Lemma recognise_snoc t e : recognise (t ++ [e]) = rstep (recognise t) e.
Proof. unfold recognise. rewrite fold_left_app. reflexivity. Qed.

Lemma recognise_rev_cons s e :
  recognise (rev (e :: s)) = rstep (recognise (rev s)) e.
Proof. cbn [rev]. apply recognise_snoc. Qed.

Lemma rstep_done st e : rstep (RDone st) e = RBad.
Proof. destruct e; reflexivity. Qed.

Lemma rstep_bad e : rstep RBad e = RBad.
Proof. destruct e; reflexivity. Qed.

Lemma rbad_absorbs t : fold_left rstep t RBad = RBad.
Proof. apply (fold_left_inv rstep (fun r => r = RBad)); [intros r e ->; apply rstep_bad|reflexivity]. Qed.

Lemma complete_is_last t suf :
  r_complete (recognise t) = true -> r_prefix_ok (recognise (t ++ suf)) = true -> suf = [].
Proof.
  unfold recognise. rewrite fold_left_app. destruct (fold_left rstep t R0); try discriminate. intros _.
  destruct suf as [|e suf]; [reflexivity|]. cbn [fold_left]. rewrite rstep_done, rbad_absorbs. discriminate.
Qed.

(* where a waiter stands in the language *)
Inductive phase := HStart | HSpawned | HRun (cancel : bool) | HFinal (st : N) | HEnd.

Definition at_phase (h : phase) (r : rst) : Prop :=
  match h with
  | HStart => r = R0
  | HSpawned => r = RSpawned
  | HRun c => r = if c then RCancelReq else RRunning
  | HFinal st => (r = RRunning /\ (st = 2 \/ st = 4)) \/ (r = RCancelled /\ (st = 3 \/ st = 4))
  | HEnd => exists st, r = RDone st
  end.

(* the frames a waiter in phase h may emit, and the phase each leaves it in *)
Inductive emits : phase -> lev -> phase -> Prop :=
| E_spawn : emits HStart LSpawned HSpawned
| E_refuse : emits HSpawned (LStatus 4) HEnd
| E_running : emits HSpawned LRunning (HRun false)
| E_delta c i : emits (HRun c) (LDelta i) (HRun c)
| E_cancelreq : emits (HRun false) LCancelReq (HRun true)
| E_cancelled (ok : bool) : emits (HRun true) LCancelled (HFinal (if ok then 3 else 4))
| E_final st : emits (HFinal st) (LStatus st) HEnd.

Lemma at_phase_emit h e h' r : emits h e h' -> at_phase h r -> at_phase h' (rstep r e).
Proof.
  destruct 1; cbn [at_phase].
  - intros ->. reflexivity.
  - intros ->. eexists. reflexivity.
  - intros ->. reflexivity.
  - intros ->. destruct c; reflexivity.
  - intros ->. reflexivity.
  - intros ->. right. split; [reflexivity|]. destruct ok; auto.
  - intros [[-> [-> | ->]]|[-> [-> | ->]]]; eexists; reflexivity.
Qed.

(* leaving the run without a cancel emits nothing *)
Lemma at_phase_exit (ok : bool) r : at_phase (HRun false) r -> at_phase (HFinal (if ok then 2 else 4)) r.
Proof. intros H. left. split; [exact H|]. destruct ok; auto. Qed.

Lemma phase_language h r : at_phase h r -> r_prefix_ok r = true /\ (h = HEnd <-> r_complete r = true).
Proof.
  destruct h; cbn [at_phase].
  1-2: intros ->; split; [reflexivity|split; discriminate].
  - intros ->. destruct cancel; (split; [reflexivity|split; discriminate]).
  - intros [[-> _]|[-> _]]; (split; [reflexivity|split; discriminate]).
  - intros [st ->]. split; [reflexivity|split; reflexivity].
Qed.

Definition phase_of (m : mpc) : phase :=
  match m with
  | MStart => HStart
  | MSpawnedPc => HSpawned
  | MSelect => HRun false
  | MKillWait | MCancelEmit _ => HRun true
  | MJoin c _ => HRun c
  | MFinal st => HFinal st
  | MEnd => HEnd
  end.

Definition pump_ok (m : mpc) (p : ppc) : Prop :=
  match m with
  | MStart | MSpawnedPc => p = PIdle
  | MSelect | MKillWait | MJoin _ _ => p <> PIdle
  | MCancelEmit _ | MFinal _ => p = PDone
  | MEnd => p <> PRun
  end.

(* the invariant over the fields it reads: the phase of the waiter's pc, and what the pc knows about each pump *)
Definition inv_fields (m : mpc) (p0 p1 : ppc) (tr : list lev) : Prop :=
  at_phase (phase_of m) (recognise (rev tr)) /\ pump_ok m p0 /\ pump_ok m p1.

Definition Inv (s : sys) : Prop := inv_fields (s_main s) (s_p0 s) (s_p1 s) (s_trace s).

Lemma inv0 : Inv sys0.
Proof. repeat split. Qed.

Lemma inv_emit m p0 p1 tr e m' p0' p1' :
  inv_fields m p0 p1 tr -> emits (phase_of m) e (phase_of m') -> pump_ok m' p0' -> pump_ok m' p1' ->
  inv_fields m' p0' p1' (e :: tr).
Proof.
  intros (Hr & _) He H0 H1. unfold inv_fields. rewrite recognise_rev_cons.
  exact (conj (at_phase_emit _ _ _ _ He Hr) (conj H0 H1)).
Qed.

(* a pump reads only while the waiter is between Running and the end of the join *)
Lemma inv_delta m p0 p1 tr k : inv_fields m p0 p1 tr -> p0 = PRun \/ p1 = PRun -> inv_fields m p0 p1 (LDelta k :: tr).
Proof.
  intros HI Hp. assert (Hc : exists c, phase_of m = HRun c).
  { destruct HI as (_ & H0 & H1), Hp; subst; destruct m; cbn in *; try congruence; eexists; reflexivity. }
  destruct Hc as [c Hc]. destruct (HI) as (_ & H0 & H1).
  apply (inv_emit _ _ _ _ _ _ _ _ HI); [rewrite Hc; constructor|exact H0|exact H1].
Qed.

Lemma pump_ok_eof m : pump_ok m PRun -> pump_ok m PDone.
Proof. destruct m; cbn; congruence. Qed.

Ltac scbn := cbn [s_main s_p0 s_p1 s_child_exited s_cancel_flag s_trace] in *.

Lemma inv_step s a s' : Inv s -> step s a = Some s' -> Inv s'.
Proof.
  destruct s as [m p0 p1 ex fl tr]. unfold Inv, step, emit, set_main, set_pump, pump_of. scbn.
  intros HI HS. pose proof HI as (Hr & H0 & H1).
  destruct a as [| | | |i|i|i| | |ok| |ok| | |].
  - (* APrecheckFail *) discriminate HS.
  - (* ASpawnFrame *) destruct m; try discriminate HS. injection HS as <-. apply (inv_emit _ _ _ _ _ _ _ _ HI); [constructor|exact H0|exact H1].
  - (* APostSpawnFail *) destruct m; try discriminate HS. injection HS as <-. cbn in H0, H1. subst.
    apply (inv_emit _ _ _ _ _ _ _ _ HI); [constructor|discriminate|discriminate].
  - (* AStartRunning *) destruct m; try discriminate HS. injection HS as <-.
    apply (inv_emit _ _ _ _ _ _ _ _ HI); [constructor|discriminate|discriminate].
  - (* APumpEmit *) destruct (i =? 0); [destruct p0|destruct p1]; try discriminate HS; injection HS as <-;
      apply inv_delta; auto.
  - (* APumpSilent *) destruct (i =? 0); [destruct p0|destruct p1]; try discriminate HS; injection HS as <-; exact HI.
  - (* APumpEof *) destruct (i =? 0); [destruct p0|destruct p1]; try discriminate HS; injection HS as <-;
      [exact (conj Hr (conj (pump_ok_eof m H0) H1))|exact (conj Hr (conj H0 (pump_ok_eof m H1)))].
  - (* AChildExit *) destruct m; try discriminate HS; injection HS as <-; exact HI.
  - (* ACancel *) injection HS as <-. exact HI.
  - (* AWaitReturns *) destruct m; try discriminate HS. destruct (ex || negb ok); try discriminate HS. injection HS as <-. exact HI.
  - (* ATakeCancel *) destruct m; try discriminate HS. destruct fl; try discriminate HS. injection HS as <-.
    apply (inv_emit _ _ _ _ _ _ _ _ HI); [constructor|exact H0|exact H1].
  - (* AKillWaitReturns *) destruct m; try discriminate HS. destruct (ex || negb ok); try discriminate HS. injection HS as <-. exact HI.
  - (* AJoined *) destruct m as [| | | |c ok| | |]; try discriminate HS. destruct p0; try discriminate HS.
    destruct p1; try discriminate HS. injection HS as <-.
    destruct c; [exact (conj Hr (conj eq_refl eq_refl))|exact (conj (at_phase_exit ok _ Hr) (conj eq_refl eq_refl))].
  - (* AEmitCancelled *) destruct m as [| | | | |ok| |]; try discriminate HS. injection HS as <-.
    apply (inv_emit _ _ _ _ _ _ _ _ HI); [constructor|exact H0|exact H1].
  - (* AEmitFinal *) destruct m as [| | | | | |st|]; try discriminate HS. injection HS as <-. cbn in H0, H1. subst.
    apply (inv_emit _ _ _ _ _ _ _ _ HI); [constructor|discriminate|discriminate].
Qed.

(* a property kept by every enabled step holds after every schedule (disabled actions are skipped) *)
Lemma fold_skip_inv {S A} (P : S -> Prop) (step : S -> A -> option S) :
  (forall s a s', P s -> step s a = Some s' -> P s') ->
  forall sched s, P s -> P (fold_left (fun s a => match step s a with Some s' => s' | None => s end) sched s).
Proof.
  intros Hstep. apply fold_left_inv. intros s a H. destruct (step s a) eqn:E; [exact (Hstep _ _ _ H E)|exact H].
Qed.

(* when every enabled step only puts frames on the (newest-first) trace, a longer schedule extends the frames *)
Lemma fold_skip_extends {S A E} (step : S -> A -> option S) (tr : S -> list E) :
  (forall s a s', step s a = Some s' -> exists e, tr s' = e ++ tr s) ->
  forall more s, exists suf,
    rev (tr (fold_left (fun s a => match step s a with Some s' => s' | None => s end) more s)) = rev (tr s) ++ suf.
Proof.
  intros Hstep more s. apply (fold_skip_inv (fun s' => exists suf, rev (tr s') = rev (tr s) ++ suf) step).
  - intros s1 a s2 [suf Hs] H. apply Hstep in H as [e He].
    exists (suf ++ rev e). rewrite He, rev_app_distr, Hs, app_assoc. reflexivity.
  - exists []. symmetry. apply app_nil_r.
Qed.

(* folds of two step functions that agree through a map of the actions agree *)
Lemma fold_left_map_ext {S A B} (f : S -> A -> S) (g : S -> B -> S) (h : A -> B) :
  (forall s a, f s a = g s (h a)) -> forall l s, fold_left f l s = fold_left g (map h l) s.
Proof.
  intros H. induction l as [|a r IH]; intros s; cbn [fold_left map]; [reflexivity|]. rewrite H. apply IH.
Qed.

Lemma inv_run sched : Inv (run sched).
Proof. exact (fold_skip_inv Inv step inv_step sched sys0 inv0). Qed.

Lemma inv_language s : Inv s ->
  r_prefix_ok (recognise (trace s)) = true /\ (s_main s = MEnd <-> r_complete (recognise (trace s)) = true).
Proof.
  intros [Hr _]. apply phase_language in Hr as [Hp Hc]. split; [exact Hp|]. rewrite <- Hc.
  destruct (s_main s); split; discriminate || reflexivity.
Qed.

Theorem lifecycle_language : forall sched : list act,
  let s := run sched in
  let t := trace s in
  r_prefix_ok (recognise t) = true /\ (s_main s = MEnd <-> r_complete (recognise t) = true).
Proof. intros sched. exact (inv_language _ (inv_run sched)). Qed.

(* what a step may do to the trace and to the pending cancel request: at most one frame is appended, the
   cancel-request frame only when a request is pending, and only a new request changes the flag *)
Lemma step_frame s a s' : step s a = Some s' ->
  (a = ACancel \/ s_cancel_flag s' = s_cancel_flag s)
  /\ (s_trace s' = s_trace s
      \/ exists e, s_trace s' = e :: s_trace s /\ (e = LCancelReq -> s_cancel_flag s = true)).
Proof.
  destruct s as [m p0 p1 ex fl tr]. unfold step, emit, set_main, set_pump, pump_of. scbn. intros H.
  destruct a; try discriminate H;
  repeat match type of H with
  | context [match ?x with _ => _ end] => destruct x; try discriminate H
  | context [if ?x then _ else _] => destruct x; try discriminate H
  end; injection H as <-; scbn; (split; [auto|]);
  first [left; reflexivity | right; eexists; split; [reflexivity|intros E; discriminate E || reflexivity]].
Qed.

Lemma step_extends s a s' : step s a = Some s' -> exists e, s_trace s' = e ++ s_trace s.
Proof.
  intros H. destruct (step_frame _ _ _ H) as [_ [E|(e & E & _)]]; rewrite E; [exists []|exists [e]]; reflexivity.
Qed.

Theorem trace_monotone : forall sched more : list act,
  exists suffix, trace (run (sched ++ more)) = trace (run sched) ++ suffix.
Proof.
  intros sched more. unfold run. rewrite fold_left_app. exact (fold_skip_extends step s_trace step_extends more _).
Qed.

(* a frame after the terminal one would leave the language *)
Theorem terminal_is_last : forall sched more : list act,
  s_main (run sched) = MEnd -> trace (run (sched ++ more)) = trace (run sched).
Proof.
  intros sched more HM. destruct (trace_monotone sched more) as [suf E]. rewrite E.
  rewrite (complete_is_last (trace (run sched)) suf), app_nil_r; [reflexivity| |].
  - apply lifecycle_language, HM.
  - rewrite <- E. apply lifecycle_language.
Qed.

(* after the terminal frame no pump is reading any more: no append to a log, no delta frame, whatever
   the process tree does — the terminal frame's byte counts are final *)
Theorem no_append_after_terminal : forall (sched more : list act) (i : N),
  s_main (run sched) = MEnd ->
  step (run (sched ++ more)) (APumpEmit i) = None /\ step (run (sched ++ more)) (APumpSilent i) = None.
Proof.
  intros sched more i HM.
  assert (HE : s_main (run (sched ++ more)) = MEnd).
  { apply lifecycle_language. rewrite terminal_is_last by exact HM. apply lifecycle_language, HM. }
  destruct (inv_run (sched ++ more)) as (_ & H0 & H1). rewrite HE in H0, H1.
  unfold step, pump_of. destruct (i =? 0).
  - destruct (s_p0 (run (sched ++ more))); try (split; reflexivity). destruct H0. reflexivity.
  - destruct (s_p1 (run (sched ++ more))); try (split; reflexivity). destruct H1. reflexivity.
Qed.

Lemma rstep_status r st :
  rstep r (LStatus st) =
  match r with
  | RSpawned => if st =? 4 then RDone 4 else RBad
  | RRunning => if st =? 2 then RDone 2 else if st =? 4 then RDone 4 else RBad
  | RCancelled => if st =? 3 then RDone 3 else if st =? 4 then RDone 4 else RBad
  | _ => RBad
  end.
Proof.
  destruct r; try reflexivity;
    destruct st as [|[[[]|[]|]|[[]|[]|]|]]; reflexivity.
Qed.

Lemma forallb_snoc {A} (f : A -> bool) l x : forallb f (l ++ [x]) = forallb f l && f x.
Proof. rewrite forallb_app. cbn. rewrite andb_true_r. reflexivity. Qed.

(* What an accepted sequence looks like, for any alphabet E that a recogniser `gstep` reads through a map `cls`
   into the frame kinds: sp, ru, cr, cd, fin st are the letters for Spawned, Running, CancelReq, Cancelled and
   Status st (`cls_letter`: each of these kinds has that one letter), mid holds of the letters read as output
   frames.  `shape` below and `pshape` of Proofs/PtyLifecycleProofs.v are `gshape` at the two alphabets, written
   out (they are convertible with it, which is how `fold_shape` proves both). *)
Section Shape.
  Variables (E : Type) (gstep : rst -> E -> rst) (cls : E -> lev) (sp ru cr cd : E) (fin : N -> E) (mid : E -> bool).
  Hypothesis gstep_cls : forall r e, gstep r e = rstep r (cls e).
  Hypothesis cls_letter : forall e,
    match cls e with
    | LSpawned => e = sp | LRunning => e = ru | LDelta _ => mid e = true
    | LCancelReq => e = cr | LCancelled => e = cd | LStatus st => e = fin st
    end.

  Definition gshape (r : rst) (t : list E) : Prop :=
    match r with
    | R0 => t = []
    | RSpawned => t = [sp]
    | RRunning => exists ds, t = sp :: ru :: ds /\ forallb mid ds = true
    | RCancelReq => exists ds ds', t = sp :: ru :: ds ++ cr :: ds'
                                   /\ forallb mid ds = true /\ forallb mid ds' = true
    | RCancelled => exists ds ds', t = sp :: ru :: ds ++ cr :: ds' ++ [cd]
                                   /\ forallb mid ds = true /\ forallb mid ds' = true
    | RDone st =>
      (st = 4 /\ t = [sp; fin 4])
      \/ ((st = 2 \/ st = 4) /\ exists ds, t = sp :: ru :: ds ++ [fin st] /\ forallb mid ds = true)
      \/ ((st = 3 \/ st = 4) /\ exists ds ds', t = sp :: ru :: ds ++ cr :: ds' ++ [cd; fin st]
                                   /\ forallb mid ds = true /\ forallb mid ds' = true)
    | RBad => True
    end.

  Lemma fold_shape : forall t : list E, gshape (fold_left gstep t R0) t.
  Proof.
    intros t. induction t as [|e t IH] using rev_ind; [reflexivity|].
    rewrite fold_left_app. cbn [fold_left]. rewrite gstep_cls. pose proof (cls_letter e) as He.
    destruct (fold_left gstep t R0); cbn [gshape] in IH.
    - subst t. destruct (cls e); try exact I. subst e. reflexivity.
    - subst t. destruct (cls e); try exact I; subst e.
      + cbn. exists []. split; reflexivity.
      + rewrite rstep_status. destruct (N.eqb_spec st 4) as [->|_]; [|exact I]. cbn. left. split; reflexivity.
    - destruct IH as (ds & -> & Hd). destruct (cls e); try exact I; try subst e.
      + cbn. exists (ds ++ [e]). split; [reflexivity|]. rewrite forallb_snoc, Hd, He. reflexivity.
      + cbn. exists ds, []. repeat split; auto.
      + rewrite rstep_status. destruct (N.eqb_spec st 2) as [->|_].
        * cbn. right. left. split; [left; reflexivity|]. exists ds. split; [reflexivity|exact Hd].
        * destruct (N.eqb_spec st 4) as [->|_]; [|exact I].
          cbn. right. left. split; [right; reflexivity|]. exists ds. split; [reflexivity|exact Hd].
    - destruct IH as (ds & ds' & -> & Hd & Hd'). destruct (cls e); try exact I; try subst e.
      + cbn. exists ds, (ds' ++ [e]). split; [|split; [exact Hd|rewrite forallb_snoc, Hd', He; reflexivity]].
        repeat (cbn [app]; rewrite <- ?app_assoc); reflexivity.
      + cbn. exists ds, ds'. split; [|split; assumption]. repeat (cbn [app]; rewrite <- ?app_assoc); reflexivity.
    - destruct IH as (ds & ds' & -> & Hd & Hd'). destruct (cls e); try exact I. subst e.
      rewrite rstep_status. destruct (N.eqb_spec st 3) as [->|_].
      + cbn. right. right. split; [left; reflexivity|]. exists ds, ds'. split; [|split; assumption].
        repeat (cbn [app]; rewrite <- ?app_assoc); reflexivity.
      + destruct (N.eqb_spec st 4) as [->|_]; [|exact I].
        cbn. right. right. split; [right; reflexivity|]. exists ds, ds'. split; [|split; assumption].
        repeat (cbn [app]; rewrite <- ?app_assoc); reflexivity.
    - rewrite rstep_done. exact I.
    - rewrite rstep_bad. exact I.
  Qed.
End Shape.

Definition is_delta (e : lev) : bool := match e with LDelta _ => true | _ => false end.

Definition shape (r : rst) (t : list lev) : Prop :=
  match r with
  | R0 => t = []
  | RSpawned => t = [LSpawned]
  | RRunning => exists ds, t = LSpawned :: LRunning :: ds /\ forallb is_delta ds = true
  | RCancelReq => exists ds ds', t = LSpawned :: LRunning :: ds ++ LCancelReq :: ds'
                                 /\ forallb is_delta ds = true /\ forallb is_delta ds' = true
  | RCancelled => exists ds ds', t = LSpawned :: LRunning :: ds ++ LCancelReq :: ds' ++ [LCancelled]
                                 /\ forallb is_delta ds = true /\ forallb is_delta ds' = true
  | RDone st =>
    (st = 4 /\ t = [LSpawned; LStatus 4])
    \/ ((st = 2 \/ st = 4) /\ exists ds, t = LSpawned :: LRunning :: ds ++ [LStatus st] /\ forallb is_delta ds = true)
    \/ ((st = 3 \/ st = 4) /\ exists ds ds', t = LSpawned :: LRunning :: ds ++ LCancelReq :: ds' ++ [LCancelled; LStatus st]
                                 /\ forallb is_delta ds = true /\ forallb is_delta ds' = true)
  | RBad => True
  end.

Theorem recognise_shape : forall t : list lev, shape (recognise t) t.
Proof.
  apply (fold_shape lev rstep (fun e => e) LSpawned LRunning LCancelReq LCancelled LStatus is_delta).
  - reflexivity.
  - intros e. destruct e; reflexivity.
Qed.

(* a cancelled task with output on both streams *)
Definition sched_cancel : list act :=
  [ASpawnFrame; AStartRunning; APumpEmit 0; ACancel; APumpEmit 1; ATakeCancel; APumpEmit 0; AChildExit;
   AKillWaitReturns true; APumpEof 0; APumpEof 1; AJoined; AEmitCancelled; AEmitFinal; APumpEmit 0; ACancel].
Example sched_cancel_trace :
  trace (run sched_cancel)
  = [LSpawned; LRunning; LDelta 0; LDelta 1; LCancelReq; LDelta 0; LCancelled; LStatus 3]
  /\ s_main (run sched_cancel) = MEnd.
Proof. vm_compute. split; reflexivity. Qed.
(* S12b, the code before the repair: a refused request produced a stream without a spawn frame, which
   the recogniser rejects *)
Lemma spawnless_unfixed_refuted :
  exists sched, trace (run_unfixed sched) = [LStatus 4]
                /\ r_prefix_ok (recognise (trace (run_unfixed sched))) = false.
Proof. exists [ACancel; APrecheckFail; ASpawnFrame]. vm_compute. split; reflexivity. Qed.
(* with the spawn frame before every check, the same refusal is Spawned . Status failed *)
Example sched_refused_now :
  trace (run [ACancel; APrecheckFail; ASpawnFrame; APostSpawnFail; ASpawnFrame]) = [LSpawned; LStatus 4].
Proof. vm_compute. reflexivity. Qed.

(* Gen/PumpJoin.v holds the waiter's skeleton read from run_pipes_task and the generated obligation
   `skel_wf gen_pipes_waiter = true`: with it the skeleton's system is `run` *)
Lemma step_j_wf j s a : join_wf j = true -> step_j j s a = step s a.
Proof.
  destruct j as [k0 k1]. unfold join_wf. cbn [j_p0 j_p1]. intros H.
  destruct k0; try discriminate H. destruct k1; try discriminate H.
  destruct a; try reflexivity.
  unfold step_j, step, pump_joined. cbn [j_p0 j_p1 join_waits negb orb].
  destruct (s_main s); try reflexivity. destruct (s_p0 s), (s_p1 s); reflexivity.
Qed.

Lemma run_j_wf j sched : join_wf j = true -> run_j j sched = run sched.
Proof.
  intros H. unfold run_j, run. rewrite <- (map_id sched) at 2. apply fold_left_map_ext.
  intros s a. unfold step_skip_j. rewrite (step_j_wf j s a H). reflexivity.
Qed.

Lemma skel_wf_join ops : skel_wf ops = true -> join_wf (join_spec_of ops) = true.
Proof. unfold skel_wf. intros H. apply andb_prop in H. exact (proj2 H). Qed.

Lemma run_w_wf ops sched : skel_wf ops = true -> run_w ops sched = run sched.
Proof. intros H. unfold run_w. apply run_j_wf, skel_wf_join, H. Qed.

Theorem lifecycle_language_skel : forall ops : list wop, skel_wf ops = true -> forall sched : list act,
  let s := run_w ops sched in
  let t := trace s in
  r_prefix_ok (recognise t) = true /\ (s_main s = MEnd <-> r_complete (recognise t) = true).
Proof. intros ops H sched. cbv zeta. rewrite (run_w_wf ops sched H). exact (lifecycle_language sched). Qed.

Theorem terminal_is_last_skel : forall ops : list wop, skel_wf ops = true -> forall sched more : list act,
  s_main (run_w ops sched) = MEnd -> trace (run_w ops (sched ++ more)) = trace (run_w ops sched).
Proof. intros ops H sched more. rewrite !(run_w_wf ops _ H). apply terminal_is_last. Qed.

Theorem no_append_after_terminal_skel : forall ops : list wop, skel_wf ops = true ->
  forall (sched more : list act) (i : N),
  s_main (run_w ops sched) = MEnd ->
  step (run_w ops (sched ++ more)) (APumpEmit i) = None /\ step (run_w ops (sched ++ more)) (APumpSilent i) = None.
Proof. intros ops H sched more i. rewrite !(run_w_wf ops _ H). apply no_append_after_terminal. Qed.

Example waiter_canonical_wf : skel_wf waiter_canonical = true.
Proof. vm_compute. reflexivity. Qed.

(* a wait for the pumps bounded by a timeout (`waiter_bounded`): the shell exits, the waiter
   gives up on the stdout pump, emits the terminal frame, and the descendant's late output arrives after it *)
Lemma bounded_join_refuted :
  exists (ops : list wop) (sched more : list act),
    map wop_shape ops = map wop_shape waiter_canonical
    /\ s_main (run_w ops sched) = MEnd
    /\ trace (run_w ops (sched ++ more)) <> trace (run_w ops sched)
    /\ r_prefix_ok (recognise (trace (run_w ops (sched ++ more)))) = false.
Proof.
  exists waiter_bounded,
    [ASpawnFrame; AStartRunning; APumpEmit 0; AChildExit; AWaitReturns true; APumpEof 1; AJoined; AEmitFinal],
    [APumpEmit 0].
  vm_compute. repeat split; discriminate.
Qed.

(* `join_wf` is necessary, not only sufficient: EVERY join discipline other than "both handles awaited
   unconditionally" has a schedule in which a frame follows the terminal frame: the waiter leaves the join while
   pump i, which it does not wait for, is still reading *)
Definition sched_leave (i : N) : list act :=
  [ASpawnFrame; AStartRunning; AChildExit; AWaitReturns true; APumpEof (1 - i); AJoined; AEmitFinal].

Theorem unjoined_pump_refutes : forall j : join_spec, join_wf j = false ->
  exists (sched more : list act),
    s_main (run_j j sched) = MEnd
    /\ trace (run_j j (sched ++ more)) <> trace (run_j j sched)
    /\ r_prefix_ok (recognise (trace (run_j j (sched ++ more)))) = false.
Proof.
  intros [k0 k1] H. unfold join_wf in H. cbn [j_p0 j_p1] in H.
  destruct k0.
  - destruct k1; try discriminate H;
      exists (sched_leave 1), [APumpEmit 1]; vm_compute; (split; [reflexivity|split; [discriminate|reflexivity]]).
  - exists (sched_leave 0), [APumpEmit 0]; destruct k1; vm_compute; (split; [reflexivity|split; [discriminate|reflexivity]]).
  - exists (sched_leave 0), [APumpEmit 0]; destruct k1; vm_compute; (split; [reflexivity|split; [discriminate|reflexivity]]).
Qed.

(* run_task subscribes to the cancel channel in its first statement (`step_sub`): a request made before that is lost *)
Lemma inv_step_sub s a s' : Inv s -> step_sub s a = Some s' -> Inv s'.
Proof.
  destruct a; try exact (inv_step s _ s').
  unfold step_sub, Inv. intros HI HS. destruct (s_main s); try discriminate HS. injection HS as <-. scbn.
  apply (inv_emit _ _ _ _ _ _ _ _ HI); [constructor|apply HI..].
Qed.

Theorem lifecycle_language_sub : forall sched : list act,
  let s := run_sub sched in
  let t := trace s in
  r_prefix_ok (recognise t) = true /\ (s_main s = MEnd <-> r_complete (recognise t) = true).
Proof. intros sched. exact (inv_language _ (fold_skip_inv Inv step_sub inv_step_sub sched sys0 inv0)). Qed.

(* no pending request and no cancel-request frame so far: stays so as long as nobody asks again *)
Definition no_cancel (s : sys) : Prop := s_cancel_flag s = false /\ ~ In LCancelReq (s_trace s).

Lemma no_cancel_step s a s' : a <> ACancel -> no_cancel s -> step_sub s a = Some s' -> no_cancel s'.
Proof.
  intros Ha [Hf Ht] H. unfold no_cancel.
  assert (Hs : a = ASpawnFrame \/ step s a = Some s') by (destruct a; auto).
  destruct Hs as [->|Hs].
  - unfold step_sub in H. destruct (s_main s); try discriminate H. injection H as <-. scbn.
    split; [reflexivity|]. intros [E|E]; [discriminate E|exact (Ht E)].
  - destruct (step_frame _ _ _ Hs) as [[E|Hfl] Htr]; [contradiction|]. rewrite Hfl. split; [exact Hf|].
    destruct Htr as [->|(e & -> & He)]; [exact Ht|].
    intros [->|E]; [rewrite (He eq_refl) in Hf; discriminate Hf|exact (Ht E)].
Qed.

Lemma no_cancel_fold more : (forall a, In a more -> a <> ACancel) ->
  forall s, no_cancel s -> no_cancel (fold_left step_skip_sub more s).
Proof.
  induction more as [|a r IH]; intros Hm s Hs; cbn [fold_left]; [exact Hs|].
  apply IH; [intros b Hb; apply Hm; right; exact Hb|].
  unfold step_skip_sub. destruct (step_sub s a) as [s'|] eqn:E; [|exact Hs].
  eapply no_cancel_step; eauto. apply Hm. left. reflexivity.
Qed.

(* any number of requests before run_task's first statement, then anything at all except a new request:
   no cancel-request frame ever appears (and so no cancelled status): the acknowledged request is lost *)
Theorem early_cancel_never_recorded : forall (n : nat) (more : list act),
  (forall a, In a more -> a <> ACancel) ->
  ~ In LCancelReq (trace (run_sub (repeat ACancel n ++ ASpawnFrame :: more))).
Proof.
  intros n more Hm. unfold run_sub, trace. rewrite fold_left_app. cbn [fold_left].
  assert (H0 : forall s, s_main s = MStart -> s_trace s = [] ->
               s_main (fold_left step_skip_sub (repeat ACancel n) s) = MStart
               /\ s_trace (fold_left step_skip_sub (repeat ACancel n) s) = []).
  { induction n as [|k IH]; intros s H1 H2; cbn [repeat fold_left]; [split; assumption|].
    apply IH; unfold step_skip_sub, step_sub, step; cbn [s_main s_trace]; assumption. }
  destruct (H0 sys0 eq_refl eq_refl) as [Hm0 Ht0].
  set (s1 := fold_left step_skip_sub (repeat ACancel n) sys0) in *.
  assert (Hn : no_cancel (step_skip_sub s1 ASpawnFrame)).
  { unfold step_skip_sub, step_sub. rewrite Hm0. unfold no_cancel. cbn [s_cancel_flag s_trace]. rewrite Ht0.
    split; [reflexivity|]. cbn [In]. intros [E|[]]. discriminate E. }
  pose proof (no_cancel_fold more Hm _ Hn) as [_ Hf].
  intros Hin. apply Hf. apply in_rev. exact Hin.
Qed.

(* the same request one step later (after run_task subscribed) is taken *)
Example early_cancel_example :
  trace (run_sub [ACancel; ASpawnFrame; AStartRunning; ATakeCancel; AChildExit; AWaitReturns true;
                  APumpEof 0; APumpEof 1; AJoined; AEmitFinal]) = [LSpawned; LRunning; LStatus 2]
  /\ trace (run_sub [ASpawnFrame; ACancel; AStartRunning; ATakeCancel; AChildExit; AKillWaitReturns true;
                     APumpEof 0; APumpEof 1; AJoined; AEmitCancelled; AEmitFinal])
     = [LSpawned; LRunning; LCancelReq; LCancelled; LStatus 3].
Proof. vm_compute. split; reflexivity. Qed.

(* Gen/TaskFailSites.v holds the fail_task sites read from the source and the generated obligation
   `sites_wf gen_fail_sites = true`: with it a failure at a site is the abstract APostSpawnFail *)
Lemma sites_wf_nth sites k f : sites_wf sites = true -> nth_error sites k = Some f -> fail_site_wf f = true.
Proof.
  unfold sites_wf. intros H Hk. rewrite forallb_forall in H. apply H. eapply nth_error_In. exact Hk.
Qed.

Lemma step_f_wf sites s a : sites_wf sites = true -> step_f sites s a = step s (erase_f sites a).
Proof.
  intros H. destruct a as [a|k].
  - destruct a; reflexivity.
  - unfold step_f, erase_f. destruct (nth_error sites k) as [f|] eqn:Hk; [|reflexivity].
    pose proof (sites_wf_nth sites k f H Hk) as Hf. unfold fail_site_wf in Hf.
    destruct f as [w r]. cbn [fs_where fs_returns] in Hf. destruct w; try discriminate Hf. subst r.
    unfold fail_at, step. cbn [fs_where fs_returns]. destruct (s_main s); reflexivity.
Qed.

Lemma run_f_wf sites sched : sites_wf sites = true -> run_f sites sched = run (map (erase_f sites) sched).
Proof.
  intros H. unfold run_f, run. apply fold_left_map_ext.
  intros s a. unfold step_skip_f. rewrite (step_f_wf sites s a H). reflexivity.
Qed.

Theorem lifecycle_language_sites : forall sites : list fail_site, sites_wf sites = true ->
  forall sched : list act_f,
  let s := run_f sites sched in
  let t := trace s in
  r_prefix_ok (recognise t) = true /\ (s_main s = MEnd <-> r_complete (recognise t) = true).
Proof.
  intros sites H sched. cbv zeta. rewrite (run_f_wf sites sched H). exact (lifecycle_language _).
Qed.

Theorem terminal_is_last_sites : forall sites : list fail_site, sites_wf sites = true ->
  forall sched more : list act_f,
  s_main (run_f sites sched) = MEnd -> trace (run_f sites (sched ++ more)) = trace (run_f sites sched).
Proof.
  intros sites H sched more. rewrite !(run_f_wf sites _ H), map_app. apply terminal_is_last.
Qed.

(* a task that ended without ever running was refused: its whole stream is Spawned . Status failed *)
Theorem refused_stream_shape : forall sched : list act,
  s_main (run sched) = MEnd -> ~ In LRunning (trace (run sched)) -> trace (run sched) = [LSpawned; LStatus 4].
Proof.
  intros sched HM HR. destruct (lifecycle_language sched) as [_ [Hc _]]. specialize (Hc HM).
  pose proof (recognise_shape (trace (run sched))) as Hs.
  destruct (recognise (trace (run sched))) eqn:Er; try discriminate Hc. cbn [shape] in Hs.
  destruct Hs as [[_ Ht]|[[_ (ds & Ht & _)]|[_ (ds & ds' & Ht & _)]]].
  - exact Ht.
  - exfalso. apply HR. rewrite Ht. right. left. reflexivity.
  - exfalso. apply HR. rewrite Ht. right. left. reflexivity.
Qed.

Lemma forallb_false_nth {A} (f : A -> bool) l : forallb f l = false -> exists k x, nth_error l k = Some x /\ f x = false.
Proof.
  induction l as [|x r IH]; cbn [forallb]; [discriminate|]. intros H.
  destruct (f x) eqn:Ex.
  - cbn in H. destruct (IH H) as (k & y & Hk & Hy). exists (S k), y. split; assumption.
  - exists 0%nat, x. split; [reflexivity|exact Ex].
Qed.

(* `sites_wf` is necessary: a site list with ANY ill-placed or non-returning site has a schedule whose
   frames are not a prefix of a word of the language *)
Theorem bad_site_refutes : forall sites : list fail_site, sites_wf sites = false ->
  exists sched : list act_f, r_prefix_ok (recognise (trace (run_f sites sched))) = false.
Proof.
  intros sites H. destruct (forallb_false_nth _ _ H) as (k & [w r] & Hk & Hf).
  unfold fail_site_wf in Hf. cbn [fs_where fs_returns] in Hf.
  (* before the spawn frame: the status comes first; after it without returning: two statuses; after Running:
     a delta follows the status, or, without returning, a second status *)
  destruct w, r; try discriminate Hf;
    [ exists [FFail k] | exists [FFail k] | exists [FAct ASpawnFrame; FFail k; FFail k]
    | exists [FAct ASpawnFrame; FAct AStartRunning; FFail k; FAct (APumpEmit 0)]
    | exists [FAct ASpawnFrame; FAct AStartRunning; FFail k; FFail k] ];
    unfold run_f, step_skip_f, step_f; cbn [fold_left]; rewrite Hk; vm_compute; reflexivity.
Qed.

Example sites_example :
  sites_wf [{| fs_where := FAfterSpawn; fs_returns := true |}; {| fs_where := FAfterSpawn; fs_returns := true |}] = true
  /\ trace (run_f [{| fs_where := FAfterSpawn; fs_returns := true |}] [FFail 0; FAct ASpawnFrame; FFail 0; FFail 0; FAct AStartRunning])
     = [LSpawned; LStatus 4].
Proof. vm_compute. split; reflexivity. Qed.
