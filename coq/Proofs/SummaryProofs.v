(* C20 — proofs about Model/Summary.v (event_type / event_summary / truncate): a summary is a concatenation of
   literals, decimals and truncated fields, so its length is bounded piece by piece. *)
From RipV Require Import Base.Prelude Model.Summary.

Local Open Scope nat_scope.

(* A bound on the length of a text is found by search in [len]: one bound per building block of a summary, a
   literal is as long as it is, the bound of a concatenation is the sum of the bounds of its parts, and where the
   text depends on a test, the larger of the two bounds; [bound] then compares numerals. *)
Create HintDb len.
Lemma len_app {A} (a b : list A) m n : length a <= m -> length b <= n -> length (a ++ b) <= m + n.
Proof. rewrite app_length. apply Nat.add_le_mono. Qed.
Lemma len_if {A} (b : bool) (x y : list A) m n :
  length x <= m -> length y <= n -> length (if b then x else y) <= Nat.max m n.
Proof. destruct b; lia. Qed.
Lemma len_opt {A B} (o : option A) (f : A -> list B) y m n :
  (forall v, length (f v) <= m) -> length y <= n ->
  length (match o with Some v => f v | None => y end) <= Nat.max m n.
Proof. intros Hf Hy. destruct o as [v|]; [specialize (Hf v)|]; lia. Qed.
Lemma len_le {A} (l : list A) m n : length l <= m -> (m <=? n) = true -> length l <= n.
Proof. intros H E. apply Nat.leb_le in E. lia. Qed.
#[local] Hint Resolve len_app : len.
#[local] Hint Extern 0 (length (_ :: _) <= _) => apply le_n : len.
#[local] Hint Extern 0 (length [] <= _) => apply le_n : len.
#[local] Hint Extern 1 (length (if _ then _ else _) <= _) => apply len_if : len.
#[local] Hint Extern 1 (length (match _ with Some _ => _ | None => _ end) <= _) => apply len_opt; [intro|] : len.
Ltac bound := eapply len_le; [eauto 40 with len nocore | reflexivity].

Lemma concat_map_len {A B} (f : A -> list B) n l :
  (forall x, length (f x) <= n) -> length (concat (map f l)) <= n * length l.
Proof.
  intros Hf. induction l as [|x r IH]; cbn [map concat length]; [lia|].
  rewrite app_length. specialize (Hf x). lia.
Qed.

Lemma dec_aux_len fuel n : length (dec_aux fuel n) <= fuel.
Proof.
  revert n; induction fuel as [|f IH]; intros n; cbn [dec_aux]; [apply le_n|].
  destruct (n <? 10)%N; [cbn; lia|]. rewrite app_length; cbn [length]. specialize (IH (n / 10)%N). lia.
Qed.
Lemma dec_len n : length (dec n) <= 20.
Proof. apply dec_aux_len. Qed.
#[local] Hint Resolve dec_len : len.
Lemma dec_signed_len b n : length (dec_signed b n) <= 21.
Proof. unfold dec_signed. destruct b; [apply le_n_S | apply le_S]; apply dec_len. Qed.

Lemma dec_aux_nonempty fuel n : fuel <> 0 -> dec_aux fuel n <> [].
Proof.
  destruct fuel as [|f]; [congruence|]. intros _. cbn [dec_aux].
  destruct (n <? 10)%N; [discriminate|]. destruct (dec_aux f (n / 10)%N); discriminate.
Qed.

Lemma hex_aux_len fuel n : length (hex_aux fuel n) <= fuel.
Proof.
  revert n; induction fuel as [|f IH]; intros n; cbn [hex_aux]; [apply le_n|].
  destruct (n <? 16)%N; [cbn; lia|]. rewrite app_length; cbn [length]. specialize (IH (n / 16)%N). lia.
Qed.
Lemma hex_len n : length (hex n) <= 6.
Proof. apply hex_aux_len. Qed.
#[local] Hint Resolve hex_len : len.

Lemma esc_len unp c : length (esc unp c) <= 10.
Proof.
  unfold esc, esc_u. bound.
Qed.

Lemma dbg_len unp s : length (dbg unp s) <= 2 + 10 * length s.
Proof.
  unfold dbg, str. cbn [length]. rewrite app_length. cbn [length].
  pose proof (concat_map_len (esc unp) 10 s (esc_len unp)). lia.
Qed.

Lemma dbg_shape unp s : dbg unp s = [34%N] ++ concat (map (esc unp) s) ++ [34%N].
Proof. reflexivity. Qed.

Lemma trunc_len n s : length (trunc n s) <= S n.
Proof.
  unfold trunc. destruct (Nat.leb (length s) n) eqn:E; [apply Nat.leb_le in E; lia|].
  rewrite app_length, firstn_length. cbn [length]. lia.
Qed.

(* the cut falls between two characters of the input: the kept part is a prefix of exactly max_len
   characters, followed by the ellipsis; short inputs are returned unchanged *)
Theorem trunc_prefix n s :
  (length s <= n /\ trunc n s = s)
  \/ (n < length s /\ exists pre suf, s = pre ++ suf /\ length pre = n /\ trunc n s = pre ++ [ELLIPSIS]).
Proof.
  unfold trunc. destruct (Nat.leb (length s) n) eqn:E.
  - left. apply Nat.leb_le in E. auto.
  - right. apply Nat.leb_gt in E. split; [exact E|].
    exists (firstn n s), (skipn n s). split; [symmetry; apply firstn_skipn|].
    split; [rewrite firstn_length; lia | reflexivity].
Qed.

Lemma trunc_idem_short n s : length s <= n -> trunc n s = s.
Proof. intros H. unfold trunc. apply Nat.leb_le in H. rewrite H. reflexivity. Qed.

(* a quoted field: 64 characters and the ellipsis, each escaped to at most 10, between two quotes *)
Lemma q_len unp s : length (dbg unp (trunc 64 s)) <= 652.
Proof. pose proof (dbg_len unp (trunc 64 s)). pose proof (trunc_len 64 s). lia. Qed.
#[local] Hint Resolve q_len trunc_len dec_signed_len : len.

Lemma task_status_name_len s : length (task_status_name s) <= 9.
Proof. unfold task_status_name. bound. Qed.
#[local] Hint Resolve task_status_name_len : len.

(* a summary is as long as the field it copies, or at most as long as a quoted field *)
Theorem summary_length unp k :
  length (event_summary unp k) <= match passthrough k with Some s => length s | None => 652 end.
Proof.
  destruct k; cbv [passthrough event_summary andb negb L_run L_none L_unset lit or_unset];
    try (bound; fail); try apply le_n.
  (* provider_event: the name is shown only when the status is "event" and no error is counted, and that is
     the verbatim case *)
  destruct (N.eqb_spec status 0) as [->|_], event_name, (0 <? nerrors + nresp_errors)%N; cbv [N.eqb];
    first [bound | apply le_n].
Qed.

Theorem summary_bounded unp k :
  passthrough k = None -> length (event_summary unp k) <= 652.
Proof. intros E. pose proof (summary_length unp k) as H. rewrite E in H. exact H. Qed.

Theorem summary_passthrough unp k s : passthrough k = Some s -> event_summary unp k = s.
Proof.
  destruct k; cbn [passthrough event_summary]; intros H; try discriminate; try (inversion H; reflexivity).
  destruct event_name as [e|]; [|discriminate].
  destruct (status =? 0)%N eqn:E0; cbn [andb] in H; [|discriminate].
  destruct (0 <? nerrors + nresp_errors)%N eqn:Ec; cbn [negb] in H; [discriminate|].
  inversion H; subst. cbn [andb]. reflexivity.
Qed.

(* the unbounded kinds are unbounded: the verbatim copy can exceed any limit *)
Lemma summary_unbounded_for_passthrough unp :
  forall n, exists k, n < length (event_summary unp k).
Proof. intros n. exists (SToolStarted (repeat 97%N (S n))). cbn [event_summary]. rewrite repeat_length. lia. Qed.

Fixpoint nodupb (l : list str) : bool :=
  match l with [] => true | x :: r => negb (existsb (lN_eqb x) r) && nodupb r end.
Lemma nodupb_sound l : nodupb l = true -> NoDup l.
Proof.
  induction l as [|x r IH]; cbn [nodupb]; intros H; [constructor|].
  apply andb_true_iff in H. destruct H as [H1 H2]. constructor; [|apply IH, H2].
  intros Hin. apply negb_true_iff in H1.
  assert (existsb (lN_eqb x) r = true) by (apply existsb_exists; exists x; split; [exact Hin | apply lN_eqb_spec; reflexivity]).
  congruence.
Qed.

Lemma type_names_nodup : NoDup type_names.
Proof. apply nodupb_sound. vm_compute. reflexivity. Qed.
Lemma type_names_len : length type_names = 38.
Proof. reflexivity. Qed.
Lemma kind_tag_lt k : kind_tag k < 38.
Proof. destruct k; cbn [kind_tag]; lia. Qed.

Lemma event_type_in k : In (event_type k) type_names.
Proof. apply nth_In, kind_tag_lt. Qed.

(* two frames have the same type name only if they are of the same kind; no name is empty *)
Theorem event_type_injective k1 k2 : event_type k1 = event_type k2 -> kind_tag k1 = kind_tag k2.
Proof.
  unfold event_type. intros H.
  apply (proj1 (NoDup_nth type_names []) type_names_nodup); rewrite ?type_names_len; auto using kind_tag_lt.
Qed.
Theorem event_type_nonempty k : event_type k <> [].
Proof.
  assert (H : forallb (fun s => negb (is_nil s)) type_names = true) by reflexivity.
  rewrite forallb_forall in H. specialize (H _ (event_type_in k)).
  intros E. rewrite E in H. discriminate H.
Qed.

(* the summary is a function of the frame's kind payload alone *)
Theorem summary_depends_on_frame_only unp f1 f2 :
  sf_kind f1 = sf_kind f2 -> summary_of unp f1 = summary_of unp f2 /\ type_of f1 = type_of f2.
Proof. unfold summary_of, type_of. intros ->. auto. Qed.

(* non-vacuity: a 70-character value with a multi-byte character at the cut *)
Definition demo_long : str := repeat 97%N 63 ++ [8364%N] ++ repeat 98%N 6.
Example demo_summary :
  event_summary [] (SSessionStarted demo_long) = [34%N] ++ repeat 97%N 63 ++ [8364%N; ELLIPSIS; 34%N]
  /\ length (event_summary [] (SSessionStarted demo_long)) = 67
  /\ event_summary [8203%N] (SToolFailed [8203%N; 10%N]) = [34; 92; 117; 123; 50; 48; 48; 98; 125; 92; 110; 34]%N
  /\ passthrough (SSessionStarted demo_long) = None.
Proof. vm_compute. auto. Qed.
