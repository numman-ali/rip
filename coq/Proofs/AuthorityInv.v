(* C18 — the invariant of the authority-lock protocol (Model/Authority.v) and its preservation by every step of
   every schedule in which a cleanup's check..rename window does not overlap another contender's exclusive create
   (resp. meta publish).  Everything is per process ("local") + distinct pids. *)
From RipV Require Import Base.Prelude Model.Authority.

Global Arguments pid_alive : simpl never.
Global Arguments grace_fires : simpl never.
Global Arguments takes : simpl never.
Global Arguments o_reach : simpl never.
Global Arguments o_grace : simpl never.
Global Arguments o_deadline : simpl never.

(* the drivers of the property: the two recovery loops (and the exhausted script of a bystander authority) *)
Definition drv_ok (d : driver) : bool :=
  match d with DScript [] => true | DScript (_ :: _) => false | DServer => true | DClient => true end.

Definition at_acq_write (k : pc) : bool := match k with AcqWrite => true | _ => false end.
Definition owns (q : proc) : bool := p_guard q || at_acq_write (p_pc q).
Definition needs_guard (k : pc) : bool :=
  match k with MetaTmp | MetaRemove | MetaRename | Serving | DropMeta | DropLock => true | _ => false end.
(* the pid the operation takes for dead (at LockExistsM it is the meta pid just probed, which StExists is then keyed on) *)
Definition stale_arg (k : pc) : option pid :=
  match k with StExists d | StReread d | StRename d | StRdMeta d | StMetaRename d | LockExistsM d => Some d | _ => None end.
(* between the check and the rename of a lock cleanup *)
Definition lock_win (k : pc) : bool :=
  match k with StRename _ | CoExists | CoMetaExists | CoRdMeta | CoLive _ | CoRename => true | _ => false end.
Definition meta_win (k : pc) : bool := match k with StMetaRename _ => true | _ => false end.
Definition tmp_pc (k : pc) : bool := match k with MetaRemove | MetaRename => true | _ => false end.
(* program counters only the server loop reaches *)
Definition acq_pc (k : pc) : bool := match k with AcqCreate | AcqWrite | MetaTmp | MetaRemove | MetaRename => true | _ => false end.
Definition at_drop_lock (k : pc) : bool := match k with DropLock => true | _ => false end.

Definition lock_free (ps : list proc) (l : lockf) : Prop := forall p, lock_pid l = Some p -> pid_alive ps p = false.
Definition meta_free (ps : list proc) (m : metaf) : Prop := forall p, meta_pid m = Some p -> pid_alive ps p = false.

Record local (s : state) (q : proc) : Prop := mkLocal {
  L_own : owns q = true -> lock_pid (s_lock s) = Some (p_pid q);
  L_guard : needs_guard (p_pc q) = true -> p_guard q = true;
  L_dead : forall d, stale_arg (p_pc q) = Some d -> pid_alive (s_procs s) d = false;
  L_lwin : lock_win (p_pc q) = true -> lock_free (s_procs s) (s_lock s);
  L_mwin : meta_win (p_pc q) = true -> meta_free (s_procs s) (s_meta s);
  L_tmp : tmp_pc (p_pc q) = true -> s_tmp s = MRec (p_pid q);
  (* a process whose pid is in meta.json has the guard and has not yet removed meta.json on its way out *)
  L_meta : meta_pid (s_meta s) = Some (p_pid q) -> p_guard q = true /\ at_drop_lock (p_pc q) = false;
  L_gpc : p_guard q = true -> needs_guard (p_pc q) = true;
  L_acq : acq_pc (p_pc q) = true -> p_drv q = DServer;
  L_drv : drv_ok (p_drv q) = true
}.

Record Inv (s : state) : Prop := mkInv {
  I_nodup : NoDup (map p_pid (s_procs s));
  I_local : forall q, In q (s_procs s) -> p_alive q = true -> local s q;
  I_tl : s_took_lock s = false;
  I_tm : s_took_meta s = false
}.

Fixpoint others_in (f : pc -> bool) (ps : list proc) (i : nat) : bool :=
  match ps with
  | [] => false
  | q :: r => match i with
              | O => existsb (fun x => p_alive x && f (p_pc x)) r
              | S j => (p_alive q && f (p_pc q)) || others_in f r j
              end
  end.

(* the step does not let an exclusive create succeed (resp. publish meta.json) while ANOTHER live contender is between
   the check and the rename of a lock (resp. meta) cleanup *)
Definition no_overlap_step (s : state) (e : event) : bool :=
  match e with
  | Crash _ => true
  | Step i _ =>
      match nth_error (s_procs s) i with
      | Some q =>
          match p_pc q, s_lock s with
          | AcqCreate, LAbsent => negb (others_in lock_win (s_procs s) i)
          | MetaRename, _ => negb (others_in meta_win (s_procs s) i)
          | _, _ => true
          end
      | None => true
      end
  end.

Fixpoint no_overlap (ag : bool) (s : state) (es : list event) : bool :=
  match es with
  | [] => true
  | e :: r => no_overlap_step s e && no_overlap ag (step ag s e) r
  end.

Lemma pid_alive_true ps p : pid_alive ps p = true <-> exists q, In q ps /\ p_pid q = p /\ p_alive q = true.
Proof.
  unfold pid_alive. rewrite existsb_exists. split.
  - intros [q [Hin Hq]]. apply andb_true_iff in Hq. destruct Hq as [E A]. apply N.eqb_eq in E. eauto.
  - intros [q [Hin [E A]]]. exists q. split; [assumption|]. apply andb_true_iff. split; [apply N.eqb_eq|]; assumption.
Qed.

Lemma pid_alive_self ps q : In q ps -> p_alive q = true -> pid_alive ps (p_pid q) = true.
Proof. intros Hin Ha. apply pid_alive_true. eauto. Qed.

Lemma upd_nth {A} (l : list A) i x j :
  nth_error (upd l i x) j = if Nat.eqb i j then (match nth_error l i with Some _ => Some x | None => None end) else nth_error l j.
Proof.
  revert i j. induction l as [|y l IH]; intros i j.
  - cbn [upd]. destruct (Nat.eqb i j); destruct i, j; reflexivity.
  - destruct i as [|i], j as [|j]; cbn [upd nth_error Nat.eqb]; try reflexivity. apply IH.
Qed.

Lemma in_upd {A} (l : list A) i x y : In y (upd l i x) ->
  (y = x /\ exists z, nth_error l i = Some z) \/ (exists j, j <> i /\ nth_error l j = Some y).
Proof.
  intros Hin. apply In_nth_error in Hin. destruct Hin as [j Hj]. rewrite upd_nth in Hj.
  destruct (Nat.eqb i j) eqn:E.
  - apply Nat.eqb_eq in E. subst j. destruct (nth_error l i) eqn:N; [|discriminate]. left. split; [congruence|eauto].
  - apply Nat.eqb_neq in E. right. exists j. split; [congruence|assumption].
Qed.

Lemma map_upd_same {A B} (f : A -> B) (l : list A) i x y :
  nth_error l i = Some y -> f x = f y -> map f (upd l i x) = map f l.
Proof.
  revert i. induction l as [|z l IH]; intros [|i] Hn Hf; cbn in *; try discriminate.
  - inversion Hn; subst. rewrite Hf. reflexivity.
  - rewrite (IH i Hn Hf). reflexivity.
Qed.

Lemma pid_alive_upd_le ps i q x p :
  nth_error ps i = Some q -> p_pid x = p_pid q -> (p_alive x = true -> p_alive q = true) ->
  pid_alive (upd ps i x) p = true -> pid_alive ps p = true.
Proof.
  intros Hn Hp Ha H. apply pid_alive_true in H. destruct H as [y [Hin [E A]]].
  apply pid_alive_true. apply in_upd in Hin. destruct Hin as [[-> _]|[j [_ Hj]]].
  - exists q. split; [eapply nth_error_In; eassumption|]. split; [congruence|auto].
  - exists y. split; [eapply nth_error_In; eassumption|]. auto.
Qed.

Lemma nodup_pid_idx (ps : list proc) i j a b :
  NoDup (map p_pid ps) -> nth_error ps i = Some a -> nth_error ps j = Some b -> p_pid a = p_pid b -> i = j.
Proof.
  intros ND Ha Hb E.
  assert (Hi : nth_error (map p_pid ps) i = Some (p_pid a)) by (rewrite nth_error_map, Ha; reflexivity).
  assert (Hj : nth_error (map p_pid ps) j = Some (p_pid b)) by (rewrite nth_error_map, Hb; reflexivity).
  rewrite <- E in Hj.
  eapply NoDup_nth_error; try eassumption.
  - apply nth_error_Some. congruence.
  - congruence.
Qed.

Lemma others_in_false f ps i j r :
  others_in f ps i = false -> j <> i -> nth_error ps j = Some r -> p_alive r = true -> f (p_pc r) = false.
Proof.
  revert i j. induction ps as [|q ps IH]; intros i j H Hne Hn Ha.
  - destruct j; discriminate.
  - destruct i as [|i]; cbn [others_in] in H.
    + destruct j as [|j]; [congruence|]. cbn in Hn.
      destruct (f (p_pc r)) eqn:F; [|reflexivity].
      assert (existsb (fun x => p_alive x && f (p_pc x)) ps = true).
      { apply existsb_exists. exists r. split; [eapply nth_error_In; eassumption|]. rewrite Ha, F. reflexivity. }
      congruence.
    + apply orb_false_iff in H. destruct H as [H1 H2]. destruct j as [|j].
      * cbn in Hn. inversion Hn; subst. rewrite Ha in H1. exact H1.
      * cbn in Hn. eapply IH; try eassumption. congruence.
Qed.

Lemma grace_true ps o c : grace_fires true ps o c = true -> pid_alive ps c = false.
Proof.
  unfold grace_fires. intros H. apply andb_true_iff in H. destruct H as [_ H]. cbn in H.
  destruct (pid_alive ps c); [discriminate|reflexivity].
Qed.

Lemma takes_true ps me o : takes ps me o = true -> exists p, o = Some p /\ p <> me /\ pid_alive ps p = true.
Proof.
  unfold takes. destruct o as [p|]; [|discriminate]. intros H. apply andb_true_iff in H. destruct H as [H1 H2].
  exists p. split; [reflexivity|]. split; [|assumption]. intros ->. rewrite N.eqb_refl in H1. discriminate.
Qed.

Lemma takes_free ps me w : (forall p, w = Some p -> pid_alive ps p = false) -> takes ps me w = false.
Proof.
  intros F. destruct (takes ps me w) eqn:T; [|reflexivity].
  apply takes_true in T. destruct T as [p [E [_ A]]]. rewrite (F p E) in A. discriminate.
Qed.
Lemma takes_self ps me : takes ps me (Some me) = false.
Proof. unfold takes. rewrite N.eqb_refl. reflexivity. Qed.

Lemma local_mono s1 s2 q :
  s_lock s2 = s_lock s1 -> s_meta s2 = s_meta s1 -> s_tmp s2 = s_tmp s1 ->
  (forall p, pid_alive (s_procs s2) p = true -> pid_alive (s_procs s1) p = true) ->
  local s1 q -> local s2 q.
Proof.
  intros El Em Et Hm [A B C D E F G H1 H2 H3].
  assert (Hd : forall p, pid_alive (s_procs s1) p = false -> pid_alive (s_procs s2) p = false).
  { intros p Hp. destruct (pid_alive (s_procs s2) p) eqn:X; [|reflexivity]. apply Hm in X. congruence. }
  constructor; rewrite ?El, ?Em, ?Et; auto.
  - intros Hw p Hp. apply Hd. apply (D Hw p Hp).
  - intros Hw p Hp. apply Hd. apply (E Hw p Hp).
Qed.

Ltac break :=
  repeat match goal with
  | |- context [match ?x with _ => _ end] => first [is_var x; destruct x | destruct x eqn:?]
  | H : context [match ?x with _ => _ end] |- _ => first [is_var x; destruct x | destruct x eqn:?]
  end.

Ltac eqbs :=
  repeat match goal with
  | H : (_ =? _) = true |- _ => apply N.eqb_eq in H; subst
  | H : (_ =? _) = false |- _ => apply N.eqb_neq in H
  | H : grace_fires true _ _ _ = true |- _ => apply grace_true in H
  end.

Definition drops_lock (k : pc) : bool := match k with DropLock | StRename _ | CoRename => true | _ => false end.
Definition drops_meta (k : pc) : bool := match k with MetaRemove | DropMeta | StMetaRename _ => true | _ => false end.

Inductive lock_step (s : state) (q : proc) (s' : state) (q' : proc) : Prop :=
 | lock_kept : s_lock s' = s_lock s -> s_took_lock s' = s_took_lock s -> lock_step s q s' q'
 | lock_created : p_pc q = AcqCreate -> s_lock s = LAbsent -> s_lock s' = LHalf (p_pid q) -> p_pc q' = AcqWrite ->
     s_took_lock s' = s_took_lock s -> lock_step s q s' q'
 | lock_written : p_pc q = AcqWrite -> s_lock s = LHalf (p_pid q) -> s_lock s' = LRec (p_pid q) ->
     s_took_lock s' = s_took_lock s -> lock_step s q s' q'
 | lock_dropped : drops_lock (p_pc q) = true -> s_lock s' = LAbsent ->
     s_took_lock s' = s_took_lock s || takes (s_procs s) (p_pid q) (lock_pid (s_lock s)) -> lock_step s q s' q'.

Inductive meta_step (s : state) (q : proc) (s' : state) : Prop :=
 | meta_kept : s_meta s' = s_meta s -> s_took_meta s' = s_took_meta s -> meta_step s q s'
 | meta_dropped : drops_meta (p_pc q) = true -> s_meta s' = MAbsent ->
     s_took_meta s' = s_took_meta s || takes (s_procs s) (p_pid q) (meta_pid (s_meta s)) -> meta_step s q s'
 | meta_published : p_pc q = MetaRename -> s_meta s' = s_tmp s ->
     s_took_meta s' = s_took_meta s || takes (s_procs s) (p_pid q) (meta_pid (s_meta s)) -> meta_step s q s'.

Inductive tmp_step (s : state) (q : proc) (s' : state) : Prop :=
 | tmp_kept : s_tmp s' = s_tmp s -> tmp_step s q s'
 | tmp_written : p_pc q = MetaTmp -> s_tmp s' = MRec (p_pid q) -> tmp_step s q s'
 | tmp_renamed : p_pc q = MetaRename -> s_tmp s' = MAbsent -> tmp_step s q s'.

(* how each file changes, classified by the program counter of the operation; the driver, the timer assumption and the
   environment answers are never looked at *)
Lemma micro_files ag s o q s' q' : micro ag s o q = (s', q') ->
  lock_step s q s' q' /\ meta_step s q s' /\ tmp_step s q s'.
Proof.
  destruct s as [l m t ps tl tm], q as [me al g d k last]. unfold micro, set_files.
  cbn [s_lock s_meta s_tmp s_procs s_took_lock s_took_meta p_pc p_pid p_guard]. intros H.
  destruct k; break; inversion H; subst; clear H; eqbs; rewrite ?orb_false_r.
  all: split; [|split].
  all: first [ apply lock_kept; reflexivity | apply lock_created; reflexivity | apply lock_written; reflexivity
             | apply lock_dropped; reflexivity | apply meta_kept; reflexivity | apply meta_dropped; reflexivity
             | apply meta_published; reflexivity | apply tmp_kept; reflexivity | apply tmp_written; reflexivity
             | apply tmp_renamed; reflexivity ].
Qed.

Lemma ret_basic ag ps o q g r : p_pid (ret ag ps o q g r) = p_pid q /\ p_alive (ret ag ps o q g r) = p_alive q.
Proof. unfold ret. destruct (p_drv q) as [cs| |]; [destruct (script_next g cs)| |]; split; reflexivity. Qed.

Lemma micro_basic ag s o q s' q' :
  micro ag s o q = (s', q') ->
  p_pid q' = p_pid q /\ p_alive q' = p_alive q /\ s_procs s' = s_procs s.
Proof.
  destruct s as [l m t ps tl tm]. unfold micro. cbn [s_lock s_meta s_tmp s_procs].
  destruct (p_pc q); break; intros [= <- <-]; repeat split; first [reflexivity | apply ret_basic].
Qed.

Lemma drv_cases d : drv_ok d = true -> d = DScript [] \/ d = DServer \/ d = DClient.
Proof. destruct d as [[|c cs]| |]; cbn; intros; auto; discriminate. Qed.

(* the part of the local invariant that every schedule keeps (Proofs/AuthorityTake.v) *)
Record local2 (s : state) (q : proc) : Prop := mkLocal2 {
  L2_own : owns q = true -> lock_pid (s_lock s) = Some (p_pid q);
  L2_guard : p_guard q = needs_guard (p_pc q);
  L2_acq : acq_pc (p_pc q) = true -> p_drv q = DServer;
  L2_drv : drv_ok (p_drv q) = true
}.

Lemma local_local2 s q : local s q -> local2 s q.
Proof.
  intros [A B _ _ _ _ _ H I J]. constructor; try assumption.
  revert B H. destruct (p_guard q), (needs_guard (p_pc q)); intros B H; auto; symmetry; auto.
Qed.

Lemma micro_self2 ag s o q s' q' :
  micro ag s o q = (s', q') -> local2 s q -> local2 s' q'.
Proof.
  destruct s as [l m t ps tl tm], q as [me al g d k last]. intros H [Lown Lguard Lacq Ldrv]. revert H.
  unfold micro, owns in *. cbn [s_lock s_meta s_tmp s_procs p_pc p_pid p_guard p_drv] in *. subst g.
  apply drv_cases in Ldrv.
  destruct k; cbn in Lown, Lacq; destruct Ldrv as [-> | [-> | ->]]; try (specialize (Lacq eq_refl); discriminate);
    unfold ret, goto, set_files; cbn.
  all: break; intros [= <- <-]; eqbs.
  all: constructor; unfold owns; cbn; first [discriminate | reflexivity | exact Lown | intros _; reflexivity].
Qed.

Lemma micro_self s o q s' q' :
  micro true s o q = (s', q') -> local s q -> local s' q'.
Proof.
  intros H L. pose proof (local_local2 _ _ L) as L2.
  destruct (micro_self2 _ _ _ _ _ _ H L2) as [Aown Aguard Aacq Adrv]. destruct L2 as [_ Lguard _ Ldrv].
  destruct L as [_ _ Ldead Llwin Lmwin Ltmp Lmeta _ Lacq _].
  revert H Aown Aguard Aacq Adrv.
  destruct s as [l m t ps tl tm], q as [me al g d k last].
  unfold micro, lock_free, meta_free in *. cbn [s_lock s_meta s_tmp s_procs p_pc p_pid p_guard p_drv] in *. subst g.
  apply drv_cases in Ldrv.
  destruct k; cbn in Ldead, Llwin, Lmwin, Ltmp, Lmeta, Lacq; destruct Ldrv as [-> | [-> | ->]];
    try (specialize (Lacq eq_refl); discriminate); clear Lacq;
    unfold ret, goto, set_files; cbn.
  all: break; intros [= <- <-] Aown Aguard Aacq Adrv; eqbs.
  all: constructor; try assumption; clear Aown Aguard Aacq Adrv; cbn;
       try first [discriminate | reflexivity | assumption | intros _; reflexivity | intros _; assumption].
  all: first [ intros _; split; reflexivity | intros X; destruct (Lmeta X); discriminate
             | intros _ x [= <-]; assumption | intros x [= <-]; assumption ].
Qed.

Lemma tmp_needs_guard k : tmp_pc k = true -> needs_guard k = true.
Proof. destruct k; cbn; congruence. Qed.
Lemma drops_lock_why k : drops_lock k = true -> needs_guard k = true \/ lock_win k = true.
Proof. destruct k; cbn; intros; first [discriminate | auto]. Qed.
Lemma drops_meta_why k : drops_meta k = true -> needs_guard k = true \/ meta_win k = true.
Proof. destruct k; cbn; intros; first [discriminate | auto]. Qed.

Lemma guard_owns_lock s q : local s q -> needs_guard (p_pc q) = true -> lock_pid (s_lock s) = Some (p_pid q).
Proof. intros L A. apply (L_own _ _ L). unfold owns. rewrite (L_guard _ _ L A). reflexivity. Qed.

(* every other live process keeps its local invariant *)
Lemma micro_other s o q s' q' r :
  micro true s o q = (s', q') -> local s q -> local s r ->
  p_pid r <> p_pid q ->
  pid_alive (s_procs s) (p_pid r) = true ->
  (p_pc q = AcqCreate -> s_lock s = LAbsent -> lock_win (p_pc r) = false) ->
  (p_pc q = MetaRename -> meta_win (p_pc r) = false) ->
  local s' r.
Proof.
  intros H Lq [Rown Rguard Rdead Rlwin Rmwin Rtmp Rmeta Rgpc Racq Rdrv] Hne Hra Hov1 Hov2.
  destruct (micro_files _ _ _ _ _ _ H) as [Hl [Hm Ht]].
  destruct (micro_basic _ _ _ _ _ _ H) as [_ [_ Eps]].
  (* the lock has one owner: r owns nothing while q is where the guard is needed *)
  assert (Excl : owns r = true -> needs_guard (p_pc q) = true -> False).
  { intros A B. apply Hne. specialize (Rown A). rewrite (guard_owns_lock _ _ Lq B) in Rown. congruence. }
  assert (Rg : tmp_pc (p_pc r) = true -> owns r = true).
  { intros A. unfold owns. rewrite (Rguard (tmp_needs_guard _ A)). reflexivity. }
  constructor; rewrite ?Eps; try assumption.
  - intros A. specialize (Rown A). destruct Hl as [E _ | _ El _ _ _ | _ El E _ | D _ _].
    + rewrite E. exact Rown.
    + rewrite El in Rown. discriminate.
    + rewrite E. rewrite El in Rown. exact Rown.
    + exfalso. destruct (drops_lock_why _ D) as [B|B]; [exact (Excl A B)|].
      rewrite (L_lwin _ _ Lq B _ Rown) in Hra. discriminate.
  - intros A. specialize (Rlwin A). destruct Hl as [E _ | K El E _ _ | _ El E _ | _ E _]; rewrite E.
    + exact Rlwin.
    + rewrite (Hov1 K El) in A. discriminate.
    + rewrite El in Rlwin. exact Rlwin.
    + intros p X. discriminate.
  - intros A. specialize (Rmwin A). destruct Hm as [E _ | _ E _ | K _ _].
    + rewrite E. exact Rmwin.
    + rewrite E. intros p X. discriminate.
    + rewrite (Hov2 K) in A. discriminate.
  - intros A. destruct Ht as [E | K _ | K _].
    + rewrite E. exact (Rtmp A).
    + exfalso. apply (Excl (Rg A)). rewrite K. reflexivity.
    + exfalso. apply (Excl (Rg A)). rewrite K. reflexivity.
  - intros A. destruct Hm as [E _ | _ E _ | K E _]; rewrite E in A.
    + exact (Rmeta A).
    + discriminate.
    + exfalso. apply Hne. rewrite (L_tmp _ _ Lq) in A; [inversion A; reflexivity | rewrite K; reflexivity].
Qed.

(* nothing of a live pid is renamed or removed by the step *)
Lemma micro_took s o q s' q' :
  micro true s o q = (s', q') -> local s q ->
  (forall r, In r (s_procs s) -> p_alive r = true -> p_pid r <> p_pid q -> local s r) ->
  s_took_lock s = false -> s_took_meta s = false ->
  s_took_lock s' = false /\ s_took_meta s' = false.
Proof.
  intros H Lq Hoth TL TM.
  destruct (micro_files _ _ _ _ _ _ H) as [Hl [Hm _]].
  (* a meta.json of another live pid belongs to the holder of the lock *)
  assert (Gm : needs_guard (p_pc q) = true -> takes (s_procs s) (p_pid q) (meta_pid (s_meta s)) = false).
  { intros A. destruct (takes (s_procs s) (p_pid q) (meta_pid (s_meta s))) eqn:T; [|reflexivity]. exfalso.
    apply takes_true in T. destruct T as [p [E [Hne Hal]]].
    apply pid_alive_true in Hal. destruct Hal as [r [Hin [Hp Ha]]]. subst p.
    pose proof (Hoth r Hin Ha Hne) as Lr. destruct (L_meta _ _ Lr E) as [G _].
    pose proof (L_own _ _ Lr) as X. unfold owns in X. rewrite G, (guard_owns_lock _ _ Lq A) in X.
    specialize (X eq_refl). congruence. }
  split.
  - destruct Hl as [_ T | _ _ _ _ T | _ _ _ T | D _ T]; rewrite T, TL; try reflexivity.
    cbn [orb]. destruct (drops_lock_why _ D) as [B|B].
    + rewrite (guard_owns_lock _ _ Lq B). apply takes_self.
    + apply takes_free. exact (L_lwin _ _ Lq B).
  - destruct Hm as [_ T | D _ T | K _ T]; rewrite T, TM; try reflexivity; cbn [orb].
    + destruct (drops_meta_why _ D) as [B|B]; [exact (Gm B) | apply takes_free; exact (L_mwin _ _ Lq B)].
    + apply Gm. rewrite K. reflexivity.
Qed.

Lemma nodup_pid_in (ps : list proc) a b :
  NoDup (map p_pid ps) -> In a ps -> In b ps -> p_pid a = p_pid b -> a = b.
Proof.
  intros ND Ha Hb E. apply In_nth_error in Ha. apply In_nth_error in Hb.
  destruct Ha as [i Hi]. destruct Hb as [j Hj].
  assert (i = j) by (eapply nodup_pid_idx; eassumption). subst j. congruence.
Qed.

(* what an event does: nothing (no such process, or a dead one steps), one operation of a live process, or a crash *)
Inductive step_shape (ag : bool) (s : state) (e : event) (s1 : state) : Prop :=
 | step_idle :
     s1 = s -> (forall i o q, e = Step i o -> nth_error (s_procs s) i = Some q -> p_alive q = false) ->
     step_shape ag s e s1
 | step_micro i o q s' q' :
     e = Step i o -> nth_error (s_procs s) i = Some q -> p_alive q = true -> micro ag s o q = (s', q') ->
     p_pid q' = p_pid q -> p_alive q' = p_alive q -> s_procs s' = s_procs s ->
     s1 = with_procs s' (upd (s_procs s) i q') -> step_shape ag s e s1
 | step_crash i q :
     e = Crash i -> nth_error (s_procs s) i = Some q -> s1 = with_procs s (upd (s_procs s) i (kill q)) ->
     step_shape ag s e s1.

Lemma step_cases ag s e : step_shape ag s e (step ag s e).
Proof.
  destruct e as [i o|i]; cbn [step]; destruct (nth_error (s_procs s) i) as [q|] eqn:Hq;
    try (apply step_idle; [reflexivity | intros ? ? ? [= <- <-] H; congruence]).
  - destruct (p_alive q) eqn:Ha; [|apply step_idle; [reflexivity | intros ? ? ? [= <- <-] H; congruence]]. destruct (micro ag s o q) as [s' q'] eqn:Hm.
    destruct (micro_basic _ _ _ _ _ _ Hm) as [Epid [Eal Eps]]. eapply step_micro; try eassumption; reflexivity.
  - eapply step_crash; [reflexivity | exact Hq | reflexivity].
Qed.

Lemma step_inv s e : Inv s -> no_overlap_step s e = true -> Inv (step true s e).
Proof.
  intros [ND HL TL TM] Hov.
  destruct (step_cases true s e) as [-> _ | i o q s' q' -> Hq Ha Hm Epid Eal Eps -> | i q -> Hq ->]; [constructor; assumption | |].
  - assert (Hin : In q (s_procs s)) by (eapply nth_error_In; eassumption).
    assert (Lq : local s q) by auto.
    assert (Hmono : forall p, pid_alive (upd (s_procs s) i q') p = true -> pid_alive (s_procs s') p = true).
    { intros p Hp. rewrite Eps. eapply pid_alive_upd_le; try eassumption. congruence. }
    cbn [no_overlap_step] in Hov. rewrite Hq in Hov.
    constructor; cbn [with_procs s_procs s_took_lock s_took_meta].
    + rewrite (map_upd_same p_pid _ _ _ _ Hq Epid). assumption.
    + intros x Hx Hax. apply in_upd in Hx. destruct Hx as [[-> _]|[j [Hj Hxj]]].
      * apply (local_mono s'); try reflexivity; [exact Hmono|]. eapply micro_self; eassumption.
      * assert (Hxin : In x (s_procs s)) by (eapply nth_error_In; eassumption).
        apply (local_mono s'); try reflexivity; [exact Hmono|].
        eapply micro_other; try eassumption.
        -- auto.
        -- intros E. apply Hj. eapply nodup_pid_idx; eassumption.
        -- apply pid_alive_self; assumption.
        -- intros Hpc Hl. rewrite Hpc, Hl in Hov. apply negb_true_iff in Hov.
           eapply others_in_false; eassumption.
        -- intros Hpc. rewrite Hpc in Hov.
           assert (Hov' : negb (others_in meta_win (s_procs s) i) = true) by (destruct (s_lock s); exact Hov).
           apply negb_true_iff in Hov'. eapply others_in_false; eassumption.
    + eapply micro_took; try eassumption. intros; auto.
    + eapply micro_took; try eassumption. intros; auto.
  - assert (Hmono : forall p, pid_alive (upd (s_procs s) i (kill q)) p = true -> pid_alive (s_procs s) p = true).
    { intros p Hp. eapply pid_alive_upd_le; try eassumption; [reflexivity|]. cbn. discriminate. }
    constructor; cbn [with_procs s_procs s_took_lock s_took_meta]; try assumption.
    + rewrite (map_upd_same p_pid _ _ _ _ Hq); [assumption|reflexivity].
    + intros x Hx Hax. apply in_upd in Hx. destruct Hx as [[-> _]|[j [Hj Hxj]]].
      * cbn in Hax. discriminate.
      * apply (local_mono s); try reflexivity; [exact Hmono|]. apply HL; [eapply nth_error_In; eassumption|assumption].
Qed.

Theorem run_inv es : forall s, Inv s -> no_overlap true s es = true -> Inv (run true s es).
Proof.
  induction es as [|e es IH]; intros s HI Hov; [exact HI|].
  cbn [no_overlap] in Hov. apply andb_true_iff in Hov. destruct Hov as [H1 H2].
  cbn [run fold_left]. apply IH; [apply step_inv; assumption|assumption].
Qed.

(* distinct pids, and every live process that has the guard has its record in the lock: at most one holder *)
Lemma one_holder s :
  NoDup (map p_pid (s_procs s)) ->
  (forall q, In q (s_procs s) -> p_alive q = true -> owns q = true -> lock_pid (s_lock s) = Some (p_pid q)) ->
  (length (holders s) <= 1)%nat /\ (forall p, In p (holders s) -> lock_pid (s_lock s) = Some p).
Proof.
  intros ND HL.
  assert (H : forall p, In p (holders s) -> lock_pid (s_lock s) = Some p).
  { intros p Hp. unfold holders in Hp. apply in_map_iff in Hp. destruct Hp as [q [E Hq]].
    apply filter_In in Hq. destruct Hq as [Hin Hh]. unfold is_holder in Hh. apply andb_true_iff in Hh.
    destruct Hh as [Ha Hg]. subst p. apply (HL q Hin Ha). unfold owns. rewrite Hg. reflexivity. }
  split; [|exact H].
  destruct (lock_pid (s_lock s)) as [c|] eqn:El.
  - apply (NoDup_incl_length (l' := [c])).
    + unfold holders. apply nodup_map_filter. assumption.
    + intros x Hx. specialize (H x Hx). left. congruence.
  - destruct (holders s) as [|x l]; cbn; [lia|]. specialize (H x (or_introl eq_refl)). discriminate.
Qed.

Theorem inv_mutex s : Inv s ->
  (length (holders s) <= 1)%nat /\ (forall p, In p (holders s) -> lock_pid (s_lock s) = Some p).
Proof. intros [ND HL _ _]. apply one_holder; [exact ND|]. intros q Hin Ha. apply (L_own _ _ (HL q Hin Ha)). Qed.

Definition contender (q : proc) : Prop := q = fresh (p_pid q) DServer \/ q = fresh (p_pid q) DClient.

(* every leftover state of the property: lock / meta absent, half-written, or carrying the pid of a dead process
   (a pid that is no live process of the list), or the files of a live authority that is serving *)
Definition init_ok (l : lockf) (m : metaf) (ps : list proc) : Prop :=
  NoDup (map p_pid ps)
  /\ (forall q, In q ps -> contender q \/ (q = serving (p_pid q) /\ lock_pid l = Some (p_pid q)))
  /\ (forall p, lock_pid l = Some p -> pid_alive ps p = true -> In (serving p) ps)
  /\ (forall p, meta_pid m = Some p -> pid_alive ps p = true -> In (serving p) ps).

Lemma init_inv l m ps : init_ok l m ps -> Inv (init l m ps).
Proof.
  intros [ND [Hq [Hl Hm]]]. constructor; cbn; try assumption; try reflexivity.
  intros q Hin Ha.
  assert (Hmeta : meta_pid m = Some (p_pid q) -> q = serving (p_pid q)).
  { intros E. eapply nodup_pid_in; try eassumption; [|reflexivity]. apply Hm; [assumption|]. apply pid_alive_self; assumption. }
  destruct (Hq q Hin) as [[E|E]|[E El]].
  - constructor; unfold owns; rewrite E; cbn; try discriminate; try reflexivity.
    intros X. apply Hmeta in X. rewrite X in E. discriminate.
  - constructor; unfold owns; rewrite E; cbn; try discriminate; try reflexivity.
    intros X. apply Hmeta in X. rewrite X in E. discriminate.
  - constructor; unfold owns; rewrite E; cbn; try discriminate; try reflexivity; auto.
Qed.

Theorem mutex_serial_cleanup l m ps es :
  init_ok l m ps -> no_overlap true (init l m ps) es = true ->
  (length (holders (run true (init l m ps) es)) <= 1)%nat
  /\ (forall p, In p (holders (run true (init l m ps) es)) -> lock_pid (s_lock (run true (init l m ps) es)) = Some p).
Proof. intros H1 H2. apply inv_mutex. apply run_inv; [apply init_inv; assumption|assumption]. Qed.

Theorem live_files_never_taken l m ps es :
  init_ok l m ps -> no_overlap true (init l m ps) es = true ->
  s_took_lock (run true (init l m ps) es) = false /\ s_took_meta (run true (init l m ps) es) = false.
Proof. intros H1 H2. destruct (run_inv es _ (init_inv _ _ _ H1) H2) as [_ _ A B]. split; assumption. Qed.

Definition quiet_pc (k : pc) : bool :=
  match stale_arg k with Some _ => false | None => negb (lock_win k) end.

(* the pid whose liveness (or whose endpoint) the operation asks about *)
Definition asked_pid (k : pc) : option pid := match k with Live p | Ping p | LiveM p => Some p | _ => None end.

Record qlocal (s : state) (q : proc) : Prop := mkQ {
  Q_alive : p_alive q = true;
  Q_pc : quiet_pc (p_pc q) = true;
  Q_live : forall p, asked_pid (p_pc q) = Some p -> pid_alive (s_procs s) p = true;
  Q_drv : drv_ok (p_drv q) = true
}.

Definition files_live (s : state) : Prop :=
  (forall p, lock_pid (s_lock s) = Some p -> pid_alive (s_procs s) p = true)
  /\ (forall p, meta_pid (s_meta s) = Some p -> pid_alive (s_procs s) p = true)
  /\ (forall p, meta_pid (s_tmp s) = Some p -> pid_alive (s_procs s) p = true).

Record Quiet (s : state) : Prop := mkQuiet {
  Q_all : forall q, In q (s_procs s) -> qlocal s q;
  Q_files : files_live s
}.

Lemma micro_quiet s o q s' q' :
  micro true s o q = (s', q') -> qlocal s q -> files_live s -> pid_alive (s_procs s) (p_pid q) = true ->
  qlocal s' q' /\ files_live s'.
Proof.
  intros H Lq [Fl [Fm Ft]] Hme. split.
  - revert H. destruct Lq as [Qa Qpc Ql Qd]. destruct s as [l m t ps tl tm], q as [me al g d k last].
    unfold micro. cbn [s_lock s_meta s_tmp s_procs p_pc p_pid p_guard p_drv p_alive] in *.
    apply drv_cases in Qd.
    destruct k; cbn in Qpc; try discriminate; destruct Qd as [-> | [-> | ->]]; unfold ret, goto, set_files; cbn.
    all: break; intros [= <- <-]; eqbs.
    all: try (match goal with X : pid_alive _ ?c = false |- _ =>
              first [ rewrite (Fl c eq_refl) in X | rewrite (Ql c eq_refl) in X ]; discriminate end).
    all: constructor; cbn; first [assumption | reflexivity | discriminate].
  - destruct (micro_files _ _ _ _ _ _ H) as [Hl [Hm Ht]]. destruct (micro_basic _ _ _ _ _ _ H) as [_ [_ Eps]].
    unfold files_live. rewrite Eps. split; [|split].
    + destruct Hl as [E _ | _ _ E _ _ | _ _ E _ | _ E _]; rewrite E; try exact Fl; intros p [= <-]; exact Hme.
    + destruct Hm as [E _ | _ E _ | _ E _]; rewrite E; first [exact Fm | exact Ft | intros p [=]].
    + destruct Ht as [E | _ E | _ E]; rewrite E; first [exact Ft | intros p [= <-]; exact Hme | intros p [=]].
Qed.

Lemma pid_alive_upd_ge ps i q x p :
  nth_error ps i = Some q -> p_pid x = p_pid q -> p_alive x = p_alive q ->
  pid_alive ps p = true -> pid_alive (upd ps i x) p = true.
Proof.
  intros Hn Hp Ha H. apply pid_alive_true in H. destruct H as [y [Hin [E A]]].
  apply pid_alive_true. apply In_nth_error in Hin. destruct Hin as [j Hj].
  destruct (Nat.eqb i j) eqn:Eij.
  - apply Nat.eqb_eq in Eij. subst j. assert (y = q) by congruence. subst y.
    exists x. split; [|split; congruence].
    apply (nth_error_In _ i). rewrite upd_nth, Nat.eqb_refl, Hn. reflexivity.
  - exists y. split; [|auto]. apply (nth_error_In _ j). rewrite upd_nth, Eij. assumption.
Qed.

Lemma others_in_none f ps i : (forall q, In q ps -> f (p_pc q) = false) -> others_in f ps i = false.
Proof.
  revert i. induction ps as [|q ps IH]; intros i H; [reflexivity|].
  destruct i as [|i]; cbn [others_in].
  - destruct (existsb (fun x => p_alive x && f (p_pc x)) ps) eqn:E; [|reflexivity].
    apply existsb_exists in E. destruct E as [x [Hin Hx]]. rewrite (H x (or_intror Hin)), andb_false_r in Hx. discriminate.
  - rewrite (H q (or_introl eq_refl)), andb_false_r. cbn. apply IH. intros; apply H; right; assumption.
Qed.

Lemma quiet_pc_wins k : quiet_pc k = true -> lock_win k = false /\ meta_win k = false.
Proof. destruct k; cbn; intros; try discriminate; auto. Qed.

Definition crash_free (es : list event) : bool :=
  forallb (fun e => match e with Step _ _ => true | Crash _ => false end) es.

Lemma quiet_no_overlap s e : Quiet s -> no_overlap_step s e = true.
Proof.
  intros [QA _]. destruct e as [i o|i]; [|reflexivity]. cbn.
  destruct (nth_error (s_procs s) i) as [q|]; [|reflexivity].
  assert (L : others_in lock_win (s_procs s) i = false).
  { apply others_in_none. intros x Hx. apply quiet_pc_wins. apply (Q_pc _ _ (QA x Hx)). }
  assert (M : others_in meta_win (s_procs s) i = false).
  { apply others_in_none. intros x Hx. apply quiet_pc_wins. apply (Q_pc _ _ (QA x Hx)). }
  rewrite L, M. destruct (p_pc q); try reflexivity; destruct (s_lock s); reflexivity.
Qed.

Lemma step_quiet s i o : Quiet s -> Quiet (step true s (Step i o)).
Proof.
  intros [QA QF].
  destruct (step_cases true s (Step i o)) as [-> _ | ? ? q s' q' [= <- <-] Hq Ha Hm Epid Eal Eps -> | ? ? [=]];
    [constructor; assumption|].
  assert (Hin : In q (s_procs s)) by (eapply nth_error_In; eassumption).
  destruct (micro_quiet _ _ _ _ _ Hm (QA q Hin) QF) as [Qq' [Fl [Fm Ft]]]; [apply pid_alive_self; assumption|].
  assert (Hge : forall p, pid_alive (s_procs s') p = true -> pid_alive (upd (s_procs s) i q') p = true).
  { intros p Hp. rewrite Eps in Hp. eapply pid_alive_upd_ge; eassumption. }
  constructor; cbn [with_procs s_procs s_lock s_meta s_tmp].
  - intros x Hx. apply in_upd in Hx. destruct Hx as [[-> _]|[j [Hj Hxj]]].
    + destruct Qq' as [A B C D]. constructor; cbn; auto.
    + destruct (QA x (nth_error_In _ _ Hxj)) as [A B C D]. constructor; cbn; auto.
      intros p Hp. apply Hge. rewrite Eps. auto.
  - unfold files_live; cbn. repeat split; intros p Hp; apply Hge; auto.
Qed.

Theorem run_quiet es : forall s, Quiet s -> crash_free es = true ->
  no_overlap true s es = true /\ Quiet (run true s es).
Proof.
  induction es as [|e es IH]; intros s HQ Hcf; [split; [reflexivity|exact HQ]|].
  cbn in Hcf. destruct e as [i o|i]; [|discriminate]. cbn in Hcf.
  destruct (IH (step true s (Step i o)) (step_quiet _ _ _ HQ) Hcf) as [A B].
  split; [|exact B]. cbn [no_overlap]. rewrite A, (quiet_no_overlap _ _ HQ). reflexivity.
Qed.

Lemma init_quiet l m ps :
  init_ok l m ps ->
  (forall p, lock_pid l = Some p -> pid_alive ps p = true) ->
  (forall p, meta_pid m = Some p -> pid_alive ps p = true) ->
  Quiet (init l m ps).
Proof.
  intros [ND [Hq _]] Hl Hm. constructor.
  - intros q Hin. cbn in Hin. destruct (Hq q Hin) as [[E|E]|[E _]]; constructor; rewrite E; cbn; try reflexivity;
      intros p X; discriminate.
  - unfold files_live; cbn. repeat split; auto. intros p X; discriminate.
Qed.

(* no dead leftovers (no files, or the files of a live serving authority), any number of contenders, ANY crash-free
   schedule: exclusive create alone gives mutual exclusion, and nothing of a live pid is ever renamed or removed *)
Theorem mutex_no_dead_leftovers l m ps es :
  init_ok l m ps ->
  (forall p, lock_pid l = Some p -> pid_alive ps p = true) ->
  (forall p, meta_pid m = Some p -> pid_alive ps p = true) ->
  crash_free es = true ->
  (length (holders (run true (init l m ps) es)) <= 1)%nat
  /\ (forall p, In p (holders (run true (init l m ps) es)) -> lock_pid (s_lock (run true (init l m ps) es)) = Some p)
  /\ s_took_lock (run true (init l m ps) es) = false /\ s_took_meta (run true (init l m ps) es) = false.
Proof.
  intros H1 H2 H3 H4.
  destruct (run_quiet es _ (init_quiet _ _ _ H1 H2 H3) H4) as [Hov _].
  destruct (mutex_serial_cleanup _ _ _ _ H1 Hov) as [A B].
  destruct (live_files_never_taken _ _ _ _ H1 Hov) as [C D]. auto.
Qed.

Definition contenders_ok (ps : list proc) : Prop :=
  NoDup (map p_pid ps) /\ (forall q, In q ps -> contender q).

Theorem mutex_no_leftovers ps es :
  contenders_ok ps -> crash_free es = true ->
  (length (holders (run true (init LAbsent MAbsent ps) es)) <= 1)%nat
  /\ (forall p, In p (holders (run true (init LAbsent MAbsent ps) es)) ->
                lock_pid (s_lock (run true (init LAbsent MAbsent ps) es)) = Some p).
Proof.
  intros [ND Hc] Hcf.
  assert (Hok : init_ok LAbsent MAbsent ps).
  { split; [assumption|]. split; [intros q Hq; left; auto|]. split; intros p X; discriminate. }
  destruct (mutex_no_dead_leftovers LAbsent MAbsent ps es Hok) as [A [B _]]; try assumption; try (intros p X; discriminate).
  split; assumption.
Qed.
