(* C17 — proofs about the PTY waiter of Model/TaskLifecycle.v (run_pty_task): every interleaving of its four
   event sources (child exit, cancel channel, control channel, reader thread) with the waiter's loop produces a
   frame sequence of the task language, nothing follows the terminal frame, the waiter that drops the slave
   after the spawn can always end, and the waiter that keeps the slave never leaves its loop. *)
From RipV Require Import Base.Prelude Model.TaskLifecycle Proofs.TaskLifecycleProofs.

(* the recogniser reads a control acknowledgement as it reads an output frame, so the PTY language is the task
   language read through this map *)
Definition pev_lev (e : pev) : lev := match e with PE e' => e' | PCtl _ => LDelta 2 end.

Lemma prstep_lev r e : prstep r e = rstep r (pev_lev e).
Proof. destruct e; [reflexivity|destruct r; reflexivity]. Qed.

Lemma precognise_snoc t e : precognise (t ++ [e]) = prstep (precognise t) e.
Proof. unfold precognise. rewrite fold_left_app. reflexivity. Qed.

Lemma ptrace_cons tr e : precognise (rev (e :: tr)) = rstep (precognise (rev tr)) (pev_lev e).
Proof. cbn [rev]. rewrite precognise_snoc. apply prstep_lev. Qed.

(* the loop is one phase, before or after the cancel request *)
Definition pphase (pc : qpc) (reason : bool) : phase :=
  match pc with
  | QStart => HStart
  | QSpawnedPc => HSpawned
  | QLoop => HRun reason
  | QCancelEmit _ => HRun true
  | QFinal st => HFinal st
  | QEnd => HEnd
  end.

(* no cancel request has been taken before the loop: QStartRunning then enters the loop in phase HRun false *)
Definition PInv (s : psys) : Prop :=
  at_phase (pphase (q_pc s) (q_reason s)) (precognise (ptrace s))
  /\ match q_pc s with QStart | QSpawnedPc => q_reason s = false | _ => True end.

Lemma pinv0 : PInv psys0.
Proof. split; reflexivity. Qed.

Lemma push_chunks_ok c l : forall tr,
  at_phase (HRun c) (precognise (rev tr)) -> at_phase (HRun c) (precognise (rev (push_chunks l tr))).
Proof.
  induction l as [|d l IH]; intros tr H; cbn [push_chunks]; [exact H|].
  apply IH. destruct d; [|exact H]. rewrite ptrace_cons. exact (at_phase_emit _ _ _ _ (E_delta c 2) H).
Qed.

Ltac qcbn := cbn [q_pc q_exit q_closed q_reason q_flag q_child_exited q_slave_closed q_reader_done q_chan q_ctl q_trace] in *.

Lemma inv_pstep keeps s a s' : PInv s -> pstep keeps s a = Some s' -> PInv s'.
Proof.
  destruct s as [pc ex cl rs fl ce sc rd ch ct tr]. unfold PInv, ptrace, pstep, q_with, loop_goes_on. qcbn.
  intros [Hr Hq] HS.
  destruct a as [ | | |e| | | | |k|ok| |ap| | | | ].
  - (* QSpawnFrame *) destruct pc; try discriminate HS. injection HS as <-. qcbn. rewrite ptrace_cons.
    exact (conj (at_phase_emit _ _ _ _ E_spawn Hr) Hq).
  - (* QFail *) destruct pc; try discriminate HS. injection HS as <-. qcbn. rewrite ptrace_cons.
    exact (conj (at_phase_emit _ _ _ _ E_refuse Hr) I).
  - (* QStartRunning *) destruct pc; try discriminate HS. injection HS as <-. qcbn. subst rs. rewrite ptrace_cons.
    exact (conj (at_phase_emit _ _ _ _ E_running Hr) I).
  - (* QRead *) destruct rd; try discriminate HS. injection HS as <-. exact (conj Hr Hq).
  - (* QChildExit *) destruct pc; try discriminate HS; injection HS as <-; exact (conj Hr Hq).
  - (* QSlaveClosed *) destruct keeps; try discriminate HS.
    destruct pc; try discriminate HS; injection HS as <-; exact (conj Hr Hq).
  - (* QReaderEof *) destruct (negb rd && sc); try discriminate HS. injection HS as <-. exact (conj Hr Hq).
  - (* QCancel *) injection HS as <-. exact (conj Hr Hq).
  - (* QCtlSend *) destruct pc; try discriminate HS. injection HS as <-. exact (conj Hr Hq).
  - (* QLoopExit *) destruct pc; try discriminate HS. destruct ex; try discriminate HS.
    destruct (ce || negb ok); try discriminate HS. injection HS as <-. exact (conj Hr Hq).
  - (* QLoopCancel *) destruct pc; try discriminate HS.
    destruct rs; [rewrite andb_false_r in HS; discriminate HS|].
    destruct (_ && fl); try discriminate HS. injection HS as <-. qcbn. rewrite ptrace_cons.
    exact (conj (at_phase_emit _ _ _ _ E_cancelreq Hr) I).
  - (* QLoopCtl *) destruct pc; try discriminate HS. destruct ct as [|k rest]; try discriminate HS.
    destruct (negb _); try discriminate HS. injection HS as <-. qcbn.
    apply (push_chunks_ok rs ch) in Hr. split; [|exact I].
    destruct ap; [|exact Hr]. rewrite ptrace_cons. exact (at_phase_emit _ _ _ _ (E_delta rs 2) Hr).
  - (* QLoopChunk *) destruct pc; try discriminate HS. destruct cl; try discriminate HS.
    destruct ch as [|c rest].
    + destruct rd; try discriminate HS. injection HS as <-. exact (conj Hr Hq).
    + injection HS as <-. qcbn. split; [|exact I]. destruct c; [|exact Hr].
      rewrite ptrace_cons. exact (at_phase_emit _ _ _ _ (E_delta rs 2) Hr).
  - (* QLoopDone *) destruct pc; try discriminate HS. destruct ex as [ok|]; try discriminate HS.
    destruct cl; try discriminate HS. injection HS as <-. qcbn.
    destruct rs; [exact (conj Hr I)|exact (conj (at_phase_exit ok _ Hr) I)].
  - (* QEmitCancelled *) destruct pc as [| | |ok| |]; try discriminate HS. injection HS as <-. qcbn.
    rewrite ptrace_cons. exact (conj (at_phase_emit _ _ _ _ (E_cancelled ok) Hr) I).
  - (* QEmitFinal *) destruct pc as [| | | |st|]; try discriminate HS. injection HS as <-. qcbn.
    rewrite ptrace_cons. exact (conj (at_phase_emit _ _ _ _ (E_final st) Hr) I).
Qed.

Lemma inv_prun keeps sched : PInv (prun keeps sched).
Proof. exact (fold_skip_inv PInv (pstep keeps) (inv_pstep keeps) sched psys0 pinv0). Qed.

Theorem pty_lifecycle_language : forall (keeps : bool) (sched : list pact),
  let s := prun keeps sched in
  let t := ptrace s in
  r_prefix_ok (precognise t) = true /\ (q_pc s = QEnd <-> r_complete (precognise t) = true).
Proof.
  intros keeps sched. destruct (inv_prun keeps sched) as [Hr _]. apply phase_language in Hr as [Hp Hc].
  split; [exact Hp|]. cbv zeta. rewrite <- Hc. destruct (q_pc (prun keeps sched)); split; discriminate || reflexivity.
Qed.

(* at QEnd every action is skipped or changes neither the trace nor the pc *)
Lemma pend_is_quiet keeps s a : q_pc s = QEnd ->
  q_trace (pstep_skip keeps s a) = q_trace s /\ q_pc (pstep_skip keeps s a) = QEnd.
Proof.
  destruct s as [pc ex cl rs fl ce sc rd ch ct tr]. qcbn. intros ->.
  unfold pstep_skip, pstep, q_with. qcbn.
  destruct a; qcbn; auto.
  - destruct rd; qcbn; auto.
  - destruct keeps; qcbn; auto.
  - destruct (negb rd && sc); qcbn; auto.
Qed.

Lemma pend_is_quiet_fold keeps more : forall s, q_pc s = QEnd ->
  q_trace (fold_left (pstep_skip keeps) more s) = q_trace s /\ q_pc (fold_left (pstep_skip keeps) more s) = QEnd.
Proof.
  intros s HM. apply (fold_left_inv (pstep_skip keeps) (fun s' => q_trace s' = q_trace s /\ q_pc s' = QEnd)).
  - intros s1 a [Ht Hm]. destruct (pend_is_quiet keeps s1 a Hm) as [Ht' Hm']. split; [rewrite Ht'; exact Ht|exact Hm'].
  - split; [reflexivity|exact HM].
Qed.

Theorem pty_terminal_is_last : forall (keeps : bool) (sched more : list pact),
  q_pc (prun keeps sched) = QEnd -> ptrace (prun keeps (sched ++ more)) = ptrace (prun keeps sched).
Proof.
  intros keeps sched more HM. unfold prun, ptrace. rewrite fold_left_app. f_equal.
  apply pend_is_quiet_fold. exact HM.
Qed.

(* once the terminal frame is out the waiter reads no output and handles no request any more *)
Theorem pty_frozen_after_terminal : forall (keeps : bool) (sched more : list pact) (ap : bool),
  q_pc (prun keeps sched) = QEnd ->
  pstep keeps (prun keeps (sched ++ more)) QLoopChunk = None
  /\ pstep keeps (prun keeps (sched ++ more)) (QLoopCtl ap) = None
  /\ pstep keeps (prun keeps (sched ++ more)) QLoopCancel = None.
Proof.
  intros keeps sched more ap HM. unfold prun. rewrite fold_left_app.
  destruct (pend_is_quiet_fold keeps more _ HM) as [_ Hp]. unfold prun in Hp.
  unfold pstep. rewrite Hp. repeat split; reflexivity.
Qed.

(* The waiter that drops the slave can always end.  `pty_finish s` is fin_head, then one QLoopChunk per queued
   chunk and one more, then fin_tail; `late`: the waiter has left its loop. *)
Definition late (pc : qpc) : Prop := match pc with QCancelEmit _ | QFinal _ | QEnd => True | _ => False end.

Definition fin_head : list pact := [QSpawnFrame; QStartRunning; QChildExit; QSlaveClosed; QReaderEof; QLoopExit true].
Definition fin_tail : list pact := [QLoopDone; QEmitCancelled; QEmitFinal].

(* the first six actions bring a waiter that has not left its loop into it, with the exit status taken and the
   reader thread gone; only the pc, the reader's flag and the exit status decide how *)
Lemma fin_head_enters s :
  let s1 := fold_left (pstep_skip false) fin_head s in
  q_chan s1 = q_chan s
  /\ (late (q_pc s1) \/ q_pc s1 = QLoop /\ q_exit s1 <> None /\ q_reader_done s1 = true).
Proof.
  destruct s as [pc ex cl rs fl ce sc rd ch ct tr].
  destruct pc, rd.
  1-6: destruct ex; cbv; (split; [reflexivity|right; split; [reflexivity|split; [discriminate|reflexivity]]]).
  all: cbv; split; [reflexivity|left; exact I].
Qed.

Lemma chunk_noop s : late (q_pc s) \/ q_closed s = true -> pstep_skip false s QLoopChunk = s.
Proof.
  unfold pstep_skip, pstep. intros [H|H].
  - destruct (q_pc s); try reflexivity; destruct H.
  - rewrite H. destruct (q_pc s); reflexivity.
Qed.

Lemma repeat_noop {S A} (f : S -> A -> S) s a n : f s a = s -> fold_left f (repeat a n) s = s.
Proof. intros H. induction n as [|n IH]; cbn [repeat fold_left]; [reflexivity|]. rewrite H. exact IH. Qed.

(* with the reader gone, one receive per queued chunk and one more close the output *)
Lemma chunks_close s : q_pc s = QLoop -> q_closed s = false -> q_reader_done s = true ->
  let s2 := fold_left (pstep_skip false) (repeat QLoopChunk (S (length (q_chan s)))) s in
  q_pc s2 = QLoop /\ q_exit s2 = q_exit s /\ q_closed s2 = true.
Proof.
  destruct s as [pc ex cl rs fl ce sc rd ch ct tr]. qcbn. intros -> -> ->. revert tr.
  induction ch as [|c ch IH]; intros tr.
  - cbn. repeat split; reflexivity.
  - cbn [length repeat fold_left]. exact (IH _).
Qed.

Lemma fin_tail_ends s : late (q_pc s) \/ q_pc s = QLoop /\ q_exit s <> None /\ q_closed s = true ->
  q_pc (fold_left (pstep_skip false) fin_tail s) = QEnd.
Proof.
  destruct s as [pc ex cl rs fl ce sc rd ch ct tr]. qcbn. intros [Hl|(-> & He & ->)].
  - destruct pc; try destruct Hl; reflexivity.
  - destruct ex as [ok|]; [|congruence]. destruct rs; reflexivity.
Qed.

Lemma pty_finish_ends s : q_pc (fold_left (pstep_skip false) (pty_finish s) s) = QEnd.
Proof.
  unfold pty_finish. fold fin_head fin_tail. rewrite !fold_left_app.
  destruct (fin_head_enters s) as [Hch H1]. rewrite <- Hch.
  set (s1 := fold_left (pstep_skip false) fin_head s) in *. apply fin_tail_ends.
  destruct H1 as [Hl|(Hp & He & Hrd)].
  - rewrite repeat_noop by (apply chunk_noop; left; exact Hl). left. exact Hl.
  - right. destruct (q_closed s1) eqn:Ec.
    + rewrite repeat_noop by (apply chunk_noop; right; exact Ec). repeat split; assumption.
    + destruct (chunks_close s1 Hp Ec Hrd) as (Hp2 & He2 & Hc2). rewrite He2. repeat split; assumption.
Qed.

Theorem pty_can_always_end : forall sched : list pact, exists more : list pact,
  q_pc (prun false (sched ++ more)) = QEnd.
Proof.
  intros sched. exists (pty_finish (prun false sched)). unfold prun at 1. rewrite fold_left_app.
  apply pty_finish_ends.
Qed.

Lemma push_chunks_app l : forall tr, exists e, push_chunks l tr = e ++ tr.
Proof.
  induction l as [|c l IH]; intros tr; cbn [push_chunks]; [exists []; reflexivity|].
  destruct (IH (if c then pdelta :: tr else tr)) as [e ->].
  destruct c; [exists (e ++ [pdelta]); rewrite <- app_assoc|exists e]; reflexivity.
Qed.

Lemma pstep_extends keeps s a s' : pstep keeps s a = Some s' -> exists e, q_trace s' = e ++ q_trace s.
Proof.
  destruct s as [pc ex cl rs fl ce sc rd ch ct tr]. unfold pstep, q_with, loop_goes_on. qcbn. intros H.
  destruct a as [ | | |e| | | | |k|ok| |ap| | | | ]; try discriminate H.
  12: { (* QLoopCtl: the frames of the queued chunks, then the acknowledgement if the request was applied *)
    destruct pc; try discriminate H. destruct ct as [|k rest]; try discriminate H.
    destruct (negb _); try discriminate H. injection H as <-. qcbn.
    destruct (push_chunks_app ch tr) as [pushed ->].
    destruct ap; [exists (PCtl k :: pushed)|exists pushed]; reflexivity. }
  all: repeat match type of H with
  | context [match ?x with _ => _ end] => destruct x; try discriminate H
  | context [if ?x then _ else _] => destruct x; try discriminate H
  end; injection H as <-; qcbn; first [exists []; reflexivity | eexists [_]; reflexivity].
Qed.

Lemma ptrace_monotone : forall (keeps : bool) (sched more : list pact),
  exists suffix, ptrace (prun keeps (sched ++ more)) = ptrace (prun keeps sched) ++ suffix.
Proof.
  intros keeps sched more. unfold prun. rewrite fold_left_app.
  exact (fold_skip_extends (pstep keeps) q_trace (pstep_extends keeps) more _).
Qed.

(* The waiter that keeps the slave side open (the code before 35c2d72): output never closes.
   The slave side is never closed, so the reader thread, once started, never returns, so the loop never sees
   the end of output and is never left: a task that has reported running is in its loop. *)
Definition KInv (s : psys) : Prop :=
  q_slave_closed s = false /\ q_closed s = false
  /\ (q_pc s = QLoop -> q_reader_done s = false)
  /\ (In (PE LRunning) (q_trace s) -> q_pc s = QLoop).

Lemma kinv0 : KInv psys0.
Proof. repeat split; [discriminate|intros []]. Qed.

Lemma kinv_pstep s a s' : KInv s -> pstep true s a = Some s' -> KInv s'.
Proof.
  destruct s as [pc ex cl rs fl ce sc rd ch ct tr]. unfold KInv, pstep, q_with, loop_goes_on. qcbn.
  intros (-> & -> & Hrd & Hrun) HS. rewrite ?andb_false_r in HS.
  destruct a; try discriminate HS;
  repeat match type of HS with
  | context [match ?x with _ => _ end] => destruct x; try discriminate HS
  | context [if ?x then _ else _] => destruct x; try discriminate HS
  end; try discriminate (Hrd eq_refl); injection HS as <-; qcbn; repeat split; auto;
  (* what is left: a pc other than QLoop, or a frame other than Running put on the trace outside the loop *)
  try (intros E; discriminate E); (intros [E|Hin]; [discriminate E|discriminate (Hrun Hin)]).
Qed.

Lemma kinv_prun sched : KInv (prun true sched).
Proof. exact (fold_skip_inv KInv (pstep true) kinv_pstep sched psys0 kinv0). Qed.

(* once such a task runs it stays in its loop in every finite run: no terminal status *)
Theorem pty_kept_slave_never_terminal : forall sched : list pact,
  let s := prun true sched in
  In (PE LRunning) (ptrace s) -> q_pc s = QLoop /\ r_complete (precognise (ptrace s)) = false.
Proof.
  intros sched. cbv zeta. intros Hin. apply in_rev in Hin.
  destruct (kinv_prun sched) as (_ & _ & _ & HK). specialize (HK Hin).
  destruct (inv_prun true sched) as [Hr _]. apply phase_language in Hr as [_ Hc]. rewrite HK in Hc.
  split; [exact HK|]. destruct (r_complete _); [|reflexivity]. destruct Hc as [_ Hc]. discriminate (Hc eq_refl).
Qed.

(* `echo hi` on a terminal: the same events; the waiter that drops the slave ends, the one that keeps it does not *)
Definition sched_pty_echo : list pact :=
  [QSpawnFrame; QStartRunning; QRead true; QLoopChunk; QChildExit; QLoopExit true; QSlaveClosed; QReaderEof;
   QLoopChunk; QLoopDone; QEmitCancelled; QEmitFinal].

(* what is refuted is that the waiter that keeps the slave ends: on the schedule that ends the other waiter it
   is in its loop, and stays there after every continuation *)
Theorem pty_output_never_closes_refuted :
  exists sched : list pact,
    q_pc (prun false sched) = QEnd
    /\ In (PE LRunning) (ptrace (prun true sched))
    /\ forall more : list pact,
         q_pc (prun true (sched ++ more)) = QLoop /\ r_complete (precognise (ptrace (prun true (sched ++ more)))) = false.
Proof.
  assert (H : In (PE LRunning) (ptrace (prun true sched_pty_echo))) by (vm_compute; auto).
  exists sched_pty_echo. split; [reflexivity|]. split; [exact H|]. intros more.
  apply pty_kept_slave_never_terminal. destruct (ptrace_monotone true sched_pty_echo more) as [suf ->].
  apply in_or_app. left. exact H.
Qed.

(* a cancelled interactive task: input acknowledged, output before and after the cancel request *)
Definition sched_pty_cancel : list pact :=
  [QCancel; QSpawnFrame; QStartRunning; QCtlSend 0; QRead true; QLoopCtl true; QCtlSend 1; QLoopCtl true; QCancel;
   QLoopCancel; QRead true; QChildExit; QSlaveClosed; QLoopChunk; QReaderEof; QLoopExit true; QLoopChunk; QLoopDone;
   QEmitCancelled; QEmitFinal; QRead true; QLoopChunk; QCtlSend 2].
Example sched_pty_cancel_trace :
  map pev_code (ptrace (prun false sched_pty_cancel)) = [0; 1; 12; 30; 31; 2; 12; 3; 23]
  /\ q_pc (prun false sched_pty_cancel) = QEnd.
Proof. vm_compute. split; reflexivity. Qed.

Definition is_mid (e : pev) : bool :=
  match e with PE (LDelta _) => true | PCtl _ => true | _ => false end.

Definition pshape (r : rst) (t : list pev) : Prop :=
  match r with
  | R0 => t = []
  | RSpawned => t = [PE LSpawned]
  | RRunning => exists ds, t = PE LSpawned :: PE LRunning :: ds /\ forallb is_mid ds = true
  | RCancelReq => exists ds ds', t = PE LSpawned :: PE LRunning :: ds ++ PE LCancelReq :: ds'
                                 /\ forallb is_mid ds = true /\ forallb is_mid ds' = true
  | RCancelled => exists ds ds', t = PE LSpawned :: PE LRunning :: ds ++ PE LCancelReq :: ds' ++ [PE LCancelled]
                                 /\ forallb is_mid ds = true /\ forallb is_mid ds' = true
  | RDone st =>
    (st = 4 /\ t = [PE LSpawned; PE (LStatus 4)])
    \/ ((st = 2 \/ st = 4) /\ exists ds, t = PE LSpawned :: PE LRunning :: ds ++ [PE (LStatus st)] /\ forallb is_mid ds = true)
    \/ ((st = 3 \/ st = 4) /\ exists ds ds', t = PE LSpawned :: PE LRunning :: ds ++ PE LCancelReq :: ds' ++ [PE LCancelled; PE (LStatus st)]
                                 /\ forallb is_mid ds = true /\ forallb is_mid ds' = true)
  | RBad => True
  end.

Theorem precognise_shape : forall t : list pev, pshape (precognise t) t.
Proof.
  apply (fold_shape pev prstep pev_lev (PE LSpawned) (PE LRunning) (PE LCancelReq) (PE LCancelled)
                    (fun st => PE (LStatus st)) is_mid prstep_lev).
  intros [e|k]; [destruct e|]; reflexivity.
Qed.
