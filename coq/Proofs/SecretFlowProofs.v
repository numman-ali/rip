(* C19 — proofs about Model/SecretFlow.v.

   Shape of the argument, in the order of the file:
   (A) resolution commutes with erasure: resolving the erased world (`low_world`: inline keys,
       header values and non-public environment values replaced by a token that only keeps
       blank/non-blank) gives the erasure of what resolving the real world gives;
   (B) the agent loop is parametric in the key and the header values: `mk_sent` alone reads them, and
       its result goes to `out_sent` only.  So everything a run stores or shows (`persisted`) is a
       function of the LOW projection of the provider configuration (`low_or`: key value and header
       values erased, names kept) and of the answers of the tools;
   (C) hence two worlds with the same low projection produce the same frames (both streams, incl.
       request dumps and error frames) and the same doctor summary, for every script (provider,
       validator, tools) and every fuel.
   The same holds for worlds given by their configuration files (`world_of` commutes with erasure) and
   for what `rip run --provider` makes of a world.  The environment handed to a subprocess is the
   authority's with the credential variables filtered out, at every spawn site and at every moment
   of the process. *)
From Coq Require Import Strings.String Strings.Ascii.
From RipV Require Import Base.Prelude Model.SecretFlow.

Local Open Scope N_scope.

Definition mapv {A B} (g : A -> B) (m : list (str * A)) : list (str * B) := map (fun kv => (fst kv, g (snd kv))) m.
Definition hide_vals : list (str * str) -> list (str * str) := mapv (fun _ => []).
Definition low_resolved (r : resolved) : resolved :=
  mkResolved (r_provider_id r) (r_route r) (r_endpoint r) (r_model r) (hide_vals (r_headers r))
             (option_map mask (r_key r)) (r_key_source r) (r_stateless r) (r_parallel r) (r_followup r).
Definition low_or (c : orcfg) : orcfg :=
  mkOr (oc_endpoint c) (option_map mask (oc_key c)) (oc_model c) (hide_vals (oc_headers c))
       (oc_tool_choice c) (oc_followup c) (oc_stateless c) (oc_parallel c).
Definition low_config (c : config) : config :=
  mkConfig (mapv low_patch (c_providers c))
           (c_model c) (c_primary c) (c_stateless c) (c_parallel c) (c_followup c).
Definition lowv (k v : str) : str := if is_public_env k then v else mask v.

Lemma str_eqb_eq a b : str_eqb a b = true <-> a = b.
Proof. apply lN_eqb_spec. Qed.

Lemma blank_mask v : blank (mask v) = blank v.
Proof. unfold mask. destruct (blank v) eqn:E; [reflexivity|]. vm_compute. reflexivity. Qed.

Lemma mask_mask v : mask (mask v) = mask v.
Proof. unfold mask at 1. rewrite blank_mask. unfold mask. destruct (blank v); reflexivity. Qed.

Lemma blank_lowv k v : blank (lowv k v) = blank v.
Proof. unfold lowv. destruct (is_public_env k); [reflexivity | apply blank_mask]. Qed.

Lemma mask_lowv k v : mask (lowv k v) = mask v.
Proof. unfold lowv. destruct (is_public_env k); [reflexivity | apply mask_mask]. Qed.

Lemma hide_hide h : hide_vals (hide_vals h) = hide_vals h.
Proof. unfold hide_vals, mapv. rewrite map_map. reflexivity. Qed.

Lemma names_hide h : map fst (hide_vals h) = map fst h.
Proof. unfold hide_vals, mapv. rewrite map_map. reflexivity. Qed.

(* a function that factors through an erasure takes the same value on arguments with the same erasure: noninterference of
   a sink is this, applied to the lemma that says the sink factors through the erasure *)
Lemma through_low {A B} (low : A -> A) (f : A -> B) :
  (forall x, f (low x) = f x) -> forall x y, low x = low y -> f x = f y.
Proof. intros F x y L. rewrite <- (F x), <- (F y), L. reflexivity. Qed.

Lemma over_map {A B} (g : A -> B) (a b : option A) :
  option_map g (over a b) = over (option_map g a) (option_map g b).
Proof. destruct a; reflexivity. Qed.

Lemma getenv_low e k : getenv (low_env e) k = option_map (lowv k) (getenv e k).
Proof.
  induction e as [|[n v] e IH]; [reflexivity|].
  cbn [low_env map getenv fst snd]. fold (low_env e).
  destruct (str_eqb n k) eqn:E.
  - apply str_eqb_eq in E. subst n. reflexivity.
  - exact IH.
Qed.

Lemma getenv_low_public e k : is_public_env k = true -> getenv (low_env e) k = getenv e k.
Proof.
  intros P. rewrite getenv_low. unfold lowv. rewrite P. destruct (getenv e k); reflexivity.
Qed.

Lemma nonblank_low e k :
  nonblank_opt (getenv (low_env e) k) = option_map (lowv k) (nonblank_opt (getenv e k)).
Proof.
  rewrite getenv_low. destruct (getenv e k) as [v|]; [|reflexivity].
  cbn [option_map nonblank_opt]. rewrite blank_lowv. destruct (blank v); reflexivity.
Qed.

Lemma mask_nonblank_low e k :
  option_map mask (nonblank_opt (getenv (low_env e) k)) = option_map mask (nonblank_opt (getenv e k)).
Proof.
  rewrite nonblank_low. destruct (nonblank_opt (getenv e k)) as [v|]; [|reflexivity].
  cbn [option_map]. rewrite mask_lowv. reflexivity.
Qed.

Lemma env_bool_low e k : is_public_env k = true -> env_bool (low_env e) k = env_bool e k.
Proof. intros P. unfold env_bool. rewrite getenv_low_public by exact P. reflexivity. Qed.

Lemma pub_endpoint : is_public_env E_ENDPOINT = true. Proof. vm_compute. reflexivity. Qed.
Lemma pub_model : is_public_env E_MODEL = true. Proof. vm_compute. reflexivity. Qed.
Lemma pub_stateless : is_public_env E_STATELESS = true. Proof. vm_compute. reflexivity. Qed.
Lemma pub_parallel : is_public_env E_PARALLEL = true. Proof. vm_compute. reflexivity. Qed.
Lemma pub_followup : is_public_env E_FOLLOWUP = true. Proof. vm_compute. reflexivity. Qed.
Lemma pub_dump : is_public_env E_DUMP = true. Proof. vm_compute. reflexivity. Qed.
Lemma pub_tool_choice : is_public_env E_TOOL_CHOICE = true. Proof. vm_compute. reflexivity. Qed.

Lemma upsert_mapv {A B} (g : A -> B) (k : str) (f : option A -> A) (f' : option B -> B) :
  (forall o, f' (option_map g o) = g (f o)) ->
  forall m, upsert k f' (mapv g m) = mapv g (upsert k f m).
Proof.
  intros H m. unfold mapv. induction m as [|[k' v] m IH]; cbn [map upsert fst snd].
  - rewrite <- (H None). reflexivity.
  - destruct (str_eqb k k'); [|destruct (str_ltb k k')]; cbn [map fst snd].
    + rewrite <- (H (Some v)). reflexivity.
    + rewrite <- (H None). reflexivity.
    + rewrite IH. reflexivity.
Qed.

Lemma fold_left_commute {S S' X X'} (F : S -> X -> S) (F' : S' -> X' -> S') (gs : S -> S') (gx : X -> X') :
  (forall s x, F' (gs s) (gx x) = gs (F s x)) ->
  forall l s, fold_left F' (map gx l) (gs s) = gs (fold_left F l s).
Proof.
  intros H l. induction l as [|x l IH]; intros s; [reflexivity|].
  cbn [map fold_left]. rewrite H. apply IH.
Qed.

(* BTreeMap merges (entry by entry, [f] combining the new value with the old one) commute with a map on the values *)
Lemma fold_upsert_mapv {A B} (g : A -> B) (f : A -> option A -> A) (f' : B -> option B -> B) :
  (forall x o, f' (g x) (option_map g o) = g (f x o)) ->
  forall new old, fold_left (fun m kv => upsert (fst kv) (f' (snd kv)) m) (mapv g new) (mapv g old)
                  = mapv g (fold_left (fun m kv => upsert (fst kv) (f (snd kv)) m) new old).
Proof.
  intros H. apply (fold_left_commute _ _ (mapv g) (fun kv => (fst kv, g (snd kv)))).
  intros m x. apply upsert_mapv. intros o. apply H.
Qed.

Lemma lookup_map {A B} (g : A -> B) k (m : list (str * A)) : lookup k (mapv g m) = option_map g (lookup k m).
Proof.
  induction m as [|[k' v] m IH]; [reflexivity|].
  cbn [mapv map lookup fst snd]. destruct (str_eqb k k'); [reflexivity | exact IH].
Qed.

Lemma low_empty_patch : low_patch empty_patch = empty_patch.
Proof. reflexivity. Qed.

Lemma merge_patch_low new old :
  merge_patch (low_patch new) (option_map low_patch old) = low_patch (merge_patch new old).
Proof.
  unfold merge_patch.
  replace (match option_map low_patch old with Some p => p | None => empty_patch end)
    with (low_patch (match old with Some p => p | None => empty_patch end))
    by (destruct old; reflexivity).
  generalize (match old with Some p => p | None => empty_patch end). intros o.
  unfold low_patch. cbn [pa_endpoint pa_key pa_headers].
  rewrite over_map. f_equal.
  exact (fold_upsert_mapv (fun _ => []) (fun x _ => x) (fun x _ => x) (fun _ _ => eq_refl) _ _).
Qed.

Lemma merge_layer_low c l : merge_layer (low_config c) (low_layer l) = low_config (merge_layer c l).
Proof.
  unfold merge_layer, low_config, low_layer.
  cbn [c_providers c_model c_primary c_stateless c_parallel c_followup
       l_providers l_model l_primary l_stateless l_parallel l_followup].
  f_equal. exact (fold_upsert_mapv low_patch merge_patch merge_patch merge_patch_low _ _).
Qed.

Lemma merge_layers_low ls : merge_layers (map low_layer ls) = low_config (merge_layers ls).
Proof.
  unfold merge_layers.
  change empty_config with (low_config empty_config) at 1.
  apply (fold_left_commute merge_layer merge_layer low_config low_layer).
  intros s x. apply merge_layer_low.
Qed.

Definition low_pm (pm : option (str * patch)) : option (str * patch) :=
  option_map (fun ip => (fst ip, low_patch (snd ip))) pm.

Lemma find_by_endpoint_low ps ep :
  find_by_endpoint (mapv low_patch ps) ep = low_pm (find_by_endpoint ps ep).
Proof.
  induction ps as [|[id p] ps IH]; [reflexivity|].
  cbn [mapv map find_by_endpoint fst snd]. unfold low_patch at 1. cbn [pa_endpoint].
  destruct (pa_endpoint p) as [e|]; [|exact IH].
  destruct (str_eqb (trim e) (trim ep)); [reflexivity | exact IH].
Qed.

Lemma parsed_route_low c : parsed_route (low_config c) = parsed_route c.
Proof. reflexivity. Qed.

Lemma provider_match_low c ep : provider_match (low_config c) ep = low_pm (provider_match c ep).
Proof.
  unfold provider_match. rewrite parsed_route_low.
  destruct (parsed_route c) as [[pid m]|].
  - unfold low_config. cbn [c_providers]. rewrite lookup_map.
    destruct (lookup pid (c_providers c)); reflexivity.
  - unfold low_config. cbn [c_providers]. apply find_by_endpoint_low.
Qed.

Lemma resolve_endpoint_low c e o : resolve_endpoint (low_config c) (low_env e) o = resolve_endpoint c e o.
Proof.
  unfold resolve_endpoint. rewrite parsed_route_low.
  rewrite (getenv_low_public e E_ENDPOINT pub_endpoint).
  destruct (parsed_route c) as [[pid m]|]; [|reflexivity].
  unfold low_config. cbn [c_providers]. rewrite lookup_map.
  destruct (lookup pid (c_providers c)); reflexivity.
Qed.

Lemma resolve_key_low e k :
  option_map mask (resolve_key (low_env e) (low_keysrc k)) = option_map mask (resolve_key e k).
Proof.
  destruct k as [v|n]; cbn [low_keysrc resolve_key].
  - rewrite blank_mask. destruct (blank v); [reflexivity|]. cbn [option_map]. rewrite mask_mask. reflexivity.
  - apply mask_nonblank_low.
Qed.

Lemma describe_key_low k : describe_key (low_keysrc k) = describe_key k.
Proof. destruct k; reflexivity. Qed.

(* the same key as far as erasure can tell, from the same source *)
Definition same_key (a b : option str * option str) : Prop :=
  option_map mask (fst a) = option_map mask (fst b) /\ snd a = snd b.

Lemma provider_key_low e pm : same_key (provider_key (low_env e) (low_pm pm)) (provider_key e pm).
Proof.
  destruct pm as [[id p]|]; [|split; reflexivity].
  cbn [low_pm option_map provider_key fst snd]. unfold low_patch. cbn [pa_key].
  destruct (pa_key p) as [k|]; [|split; reflexivity].
  split; cbn [option_map fst snd]; [apply resolve_key_low | rewrite describe_key_low; reflexivity].
Qed.

Lemma key_from_env_low e ep : same_key (key_from_env (low_env e) ep) (key_from_env e ep).
Proof.
  unfold key_from_env. rewrite (nonblank_low e E_API_KEY).
  destruct (nonblank_opt (getenv e E_API_KEY)) as [v|]; cbn [option_map].
  - split; cbn [option_map fst snd]; [rewrite mask_lowv|]; reflexivity.
  - destruct (contains (lit "openai.com") ep); [|destruct (contains (lit "openrouter.ai") ep)];
      split; cbn [fst snd]; first [apply mask_nonblank_low | reflexivity].
Qed.

Lemma resolve_keys_low e pm ep : same_key (resolve_keys (low_env e) (low_pm pm) ep) (resolve_keys e pm ep).
Proof.
  unfold resolve_keys. destruct (provider_key_low e pm) as [K S].
  destruct (fst (provider_key (low_env e) (low_pm pm))) eqn:E', (fst (provider_key e pm)) eqn:E; try discriminate K.
  - split; [rewrite E', E; exact K | exact S].
  - apply key_from_env_low.
Qed.

Lemma resolve_model_low c e o : resolve_model (low_config c) (low_env e) o = resolve_model c e o.
Proof. unfold resolve_model. rewrite (getenv_low_public e _ pub_model). reflexivity. Qed.
Lemma resolve_stateless_low c e o : resolve_stateless (low_config c) (low_env e) o = resolve_stateless c e o.
Proof. unfold resolve_stateless. rewrite (env_bool_low e _ pub_stateless). reflexivity. Qed.
Lemma resolve_parallel_low c e o : resolve_parallel (low_config c) (low_env e) o = resolve_parallel c e o.
Proof. unfold resolve_parallel. rewrite (env_bool_low e _ pub_parallel). reflexivity. Qed.
Lemma resolve_followup_low c e o : resolve_followup (low_config c) (low_env e) o = resolve_followup c e o.
Proof. unfold resolve_followup. rewrite (getenv_low_public e _ pub_followup). reflexivity. Qed.

Lemma resolve_low c e o :
  option_map low_resolved (resolve (low_config c) (low_env e) o) = option_map low_resolved (resolve c e o).
Proof.
  unfold resolve. rewrite resolve_endpoint_low.
  destruct (resolve_endpoint c e o) as [ep|]; [|reflexivity].
  cbn [option_map]. f_equal.
  rewrite provider_match_low, resolve_model_low, resolve_stateless_low, resolve_parallel_low, resolve_followup_low.
  destruct (resolve_keys_low e (provider_match c ep) ep) as [K S].
  unfold low_resolved.
  cbn [r_provider_id r_route r_endpoint r_model r_headers r_key r_key_source r_stateless r_parallel r_followup].
  rewrite K, S.
  destruct (provider_match c ep) as [[id p]|]; [|reflexivity].
  rewrite <- (hide_hide (pa_headers p)). reflexivity.
Qed.

Lemma load_config_low w : load_config (low_world w) = low_config (load_config w).
Proof.
  unfold load_config, low_world. cbn [w_layers w_misfit].
  destruct (w_misfit w) as [q|]; cbn [option_map]; [reflexivity | apply merge_layers_low].
Qed.

Lemma resolve_world_low w o :
  option_map low_resolved (resolve_world (low_world w) o) = option_map low_resolved (resolve_world w o).
Proof. unfold resolve_world. rewrite load_config_low. apply resolve_low. Qed.

Lemma from_env_low e : option_map low_or (from_env (low_env e)) = option_map low_or (from_env e).
Proof.
  unfold from_env.
  rewrite (getenv_low_public e E_ENDPOINT pub_endpoint), (getenv_low_public e E_MODEL pub_model),
    (getenv_low_public e E_TOOL_CHOICE pub_tool_choice), (getenv_low_public e E_FOLLOWUP pub_followup),
    (getenv_low_public e E_STATELESS pub_stateless), (getenv_low_public e E_PARALLEL pub_parallel).
  destruct (getenv e E_ENDPOINT) as [ep|]; [|reflexivity].
  cbn [option_map]. f_equal. unfold low_or.
  cbn [oc_endpoint oc_key oc_model oc_headers oc_tool_choice oc_followup oc_stateless oc_parallel].
  f_equal. rewrite getenv_low. destruct (getenv e E_API_KEY) as [v|]; [|reflexivity].
  cbn [option_map]. rewrite mask_lowv. reflexivity.
Qed.

Lemma of_resolved_low r : low_or (of_resolved r) = of_resolved (low_resolved r).
Proof. reflexivity. Qed.

Lemma thread_cfg_low w : option_map low_or (thread_cfg (low_world w)) = option_map low_or (thread_cfg w).
Proof.
  unfold thread_cfg.
  pose proof (resolve_world_low w (w_ovr w)) as R.
  replace (w_ovr (low_world w)) with (w_ovr w) by reflexivity.
  replace (w_env (low_world w)) with (low_env (w_env w)) by reflexivity.
  destruct (resolve_world (low_world w) (w_ovr w)) as [r'|]; destruct (resolve_world w (w_ovr w)) as [r|];
    cbn [option_map] in R; try discriminate.
  - cbn [option_map]. rewrite !of_resolved_low. congruence.
  - apply from_env_low.
Qed.

Lemma dump_enabled_low e : dump_enabled (low_env e) = dump_enabled e.
Proof. unfold dump_enabled. rewrite (getenv_low_public e E_DUMP pub_dump). reflexivity. Qed.

Lemma run_calls_ext sc sc' :
  (forall c, e_tools sc c = e_tools sc' c) ->
  forall calls count, run_calls sc count calls = run_calls sc' count calls.
Proof.
  intros T calls. induction calls as [|c r IH]; intros count; [reflexivity|].
  cbn [run_calls]. destruct (MAX_TOOL_CALLS <=? count); [reflexivity|].
  rewrite (IH (count + 1)), (T c). reflexivity.
Qed.

(* [c] with another key and other header values *)
Definition with_secrets (k : option str) (h : list (str * str)) (c : orcfg) : orcfg :=
  mkOr (oc_endpoint c) k (oc_model c) h (oc_tool_choice c) (oc_followup c) (oc_stateless c) (oc_parallel c).
(* a loop result whose requests are sent again the way [c] sends them *)
Definition restamp (c : orcfg) (r : lout) : lout :=
  mkLO (lo_frames r) (map (fun s => mk_sent c (s_body s)) (lo_sent r)) (lo_reason r) (lo_last r).

Lemma sr_sent_restamp sc t' c c' b :
  sr_sent (mkScript (e_validate sc) (e_prov sc) t') c' b = map (fun s => mk_sent c' (s_body s)) (sr_sent sc c b).
Proof. unfold sr_sent. cbn [e_validate]. destruct (e_validate sc b); reflexivity. Qed.

(* The loop is parametric in the key and the header values, and reads the tools through their answers only: with other
   secrets and pointwise equal tools it does the same, except that mk_sent stamps the requests with the other secrets.
   Whatever else it computes from the two configurations and scripts is convertible. *)
Lemma agent_loop_secrets fuel dump sc t' c k h prompt :
  (forall x, e_tools sc x = t' x) ->
  forall st, agent_loop fuel dump (mkScript (e_validate sc) (e_prov sc) t') (with_secrets k h c) prompt st
             = restamp (with_secrets k h c) (agent_loop fuel dump sc c prompt st).
Proof.
  intros T. set (sc' := mkScript (e_validate sc) (e_prov sc) t'). set (c' := with_secrets k h c).
  induction fuel as [|f IH]; intros st; [reflexivity|].
  cbn [agent_loop].
  case (MAX_TOOL_CALLS <=? ls_count st); [reflexivity|].
  change (choose_payload c' prompt st) with (choose_payload c prompt st).
  case (choose_payload c prompt st) as [[b kind]|]; [|reflexivity].
  change (sr_frames dump sc' c' (ls_idx st) kind b) with (sr_frames dump sc c (ls_idx st) kind b).
  change (sr_result sc' c' (ls_idx st) b) with (sr_result sc c (ls_idx st) b).
  change (oc_stateless c') with (oc_stateless c).
  rewrite (sr_sent_restamp sc t' c c' b : sr_sent sc' c' b = _).
  generalize (sr_frames dump sc c (ls_idx st) kind b) (sr_sent sc c b). intros fs s.
  case (sr_result sc c (ls_idx st) b) as [reason | rid [|c0 calls]]; [reflexivity | reflexivity |].
  rewrite <- (run_calls_ext sc sc' T (c0 :: calls) (ls_count st)).
  generalize (run_calls sc (ls_count st) (c0 :: calls)). intros t.
  case (over rid (ls_prev st)); case (oc_stateless c); case (to_exceeded t); intros; try reflexivity;
    rewrite IH; unfold restamp; cbn [lo_frames lo_sent lo_reason lo_last]; rewrite map_app; reflexivity.
Qed.

(* What a run stores, for the erased configuration and a script whose tools [t'] answer as those of [sc] do: stated with the
   two scripts apart because run_w_low compares a wscript at the world and at the erased world, where the tools are equal only
   pointwise (tools_blind).  run_cfg_pub: for a provider configuration; run_pub: for a world; run_low: the same script. *)
Lemma run_cfg_pub fuel dump sc t' thread oc prompt initial :
  (forall x, e_tools sc x = t' x) ->
  persisted (run_cfg fuel dump (mkScript (e_validate sc) (e_prov sc) t') thread (option_map low_or oc) prompt initial)
  = persisted (run_cfg fuel dump sc thread oc prompt initial).
Proof.
  intros T. destruct oc as [c|]; [|reflexivity].
  cbn [option_map run_cfg].
  change (init_state (low_or c) prompt initial) with (init_state c prompt initial).
  change (low_or c) with (with_secrets (option_map mask (oc_key c)) (hide_vals (oc_headers c)) c).
  rewrite (agent_loop_secrets fuel dump sc t' c _ _ prompt T). reflexivity.
Qed.

Lemma run_pub fuel sc t' thread w prompt initial :
  (forall x, e_tools sc x = t' x) ->
  persisted (run fuel (mkScript (e_validate sc) (e_prov sc) t') thread (low_world w) prompt initial)
  = persisted (run fuel sc thread w prompt initial).
Proof.
  intros T. unfold run.
  change (w_env (low_world w)) with (low_env (w_env w)).
  rewrite dump_enabled_low.
  (* both sides as runs of the erased configuration *)
  rewrite <- (run_cfg_pub fuel _ sc t' thread (if thread then thread_cfg w else session_cfg w) _ _ T).
  rewrite <- (run_cfg_pub fuel _ (mkScript (e_validate sc) (e_prov sc) t') t' thread
                (if thread then thread_cfg (low_world w) else session_cfg (low_world w)) _ _ (fun _ => eq_refl)).
  f_equal. f_equal.
  destruct thread; [apply thread_cfg_low | apply from_env_low].
Qed.

Lemma run_low fuel sc thread w prompt initial :
  persisted (run fuel sc thread (low_world w) prompt initial) = persisted (run fuel sc thread w prompt initial).
Proof. destruct sc as [v p t]. exact (run_pub fuel (mkScript v p t) t thread w prompt initial (fun _ => eq_refl)). Qed.

Lemma doctor_of_low r : doctor_of (low_resolved r) = doctor_of r.
Proof.
  unfold doctor_of, low_resolved.
  cbn [r_provider_id r_route r_endpoint r_model r_headers r_key r_key_source r_stateless r_parallel r_followup].
  rewrite names_hide.
  destruct (r_key r) as [v|]; [|reflexivity]. cbn [option_map]. rewrite blank_mask. reflexivity.
Qed.

Lemma doctor_low w : doctor (low_world w) = doctor w.
Proof.
  unfold doctor.
  pose proof (resolve_world_low w no_ovr) as R.
  destruct (resolve_world (low_world w) no_ovr) as [r'|]; destruct (resolve_world w no_ovr) as [r|];
    cbn [option_map] in *; try discriminate; [|reflexivity].
  rewrite <- (doctor_of_low r'), <- (doctor_of_low r). congruence.
Qed.

(* THE theorem: whatever is stored or shown depends on the world only through its low projection —
   for every fuel, script (provider answers as a function of index, endpoint and request BODY;
   validator; tools), both entry points, any prompt and initial items *)
Theorem noninterference : forall fuel sc thread w1 w2 prompt initial,
  low_world w1 = low_world w2 ->
  persisted (run fuel sc thread w1 prompt initial) = persisted (run fuel sc thread w2 prompt initial)
  /\ doctor w1 = doctor w2.
Proof.
  intros fuel sc thread w1 w2 prompt initial L. split.
  - exact (through_low low_world _ (fun w => run_low fuel sc thread w prompt initial) w1 w2 L).
  - exact (through_low low_world doctor doctor_low w1 w2 L).
Qed.

Theorem sinks_factor_through_low : forall fuel sc thread w prompt initial,
  persisted (run fuel sc thread w prompt initial) = persisted (run fuel sc thread (low_world w) prompt initial)
  /\ doctor w = doctor (low_world w).
Proof.
  intros. split; [symmetry; apply run_low | symmetry; apply doctor_low].
Qed.

Lemma low_env_setenv e k v : low_env (setenv e k v) = setenv (low_env e) k (lowv k v).
Proof. reflexivity. Qed.
Lemma low_env_setenv_public e k v : is_public_env k = true -> low_env (setenv e k v) = setenv (low_env e) k v.
Proof. intros P. rewrite low_env_setenv. unfold lowv. rewrite P. reflexivity. Qed.
Lemma low_env_setenv_opt_public e k v : is_public_env k = true -> low_env (setenv_opt e k v) = setenv_opt (low_env e) k v.
Proof. intros P. destruct v; [apply low_env_setenv_public; exact P | reflexivity]. Qed.
Lemma low_env_setenv_if_public (b : bool) e k v : is_public_env k = true ->
  low_env (if b then setenv e k v else e) = if b then setenv (low_env e) k v else low_env e.
Proof. intros P. destruct b; [apply low_env_setenv_public; exact P | reflexivity]. Qed.
Lemma cli_public_env_low f e : low_env (cli_public_env f e) = cli_public_env f (low_env e).
Proof.
  unfold cli_public_env.
  rewrite (low_env_setenv_opt_public _ _ _ pub_followup), (low_env_setenv_if_public _ _ _ _ pub_parallel),
    (low_env_setenv_if_public _ _ _ _ pub_stateless), (low_env_setenv_opt_public _ _ _ pub_model),
    (low_env_setenv_public _ _ _ pub_endpoint).
  reflexivity.
Qed.
Lemma provider_key_var_secret p : is_public_env (provider_key_var p) = false.
Proof. destruct p; vm_compute; reflexivity. Qed.
Lemma api_key_var_secret : is_public_env E_API_KEY = false.
Proof. vm_compute. reflexivity. Qed.
Lemma cli_env_low f e : cli_env f (low_env e) = option_map low_env (cli_env f e).
Proof.
  unfold cli_env. rewrite !getenv_low. unfold lowv at 1 2. rewrite provider_key_var_secret, api_key_var_secret.
  destruct (getenv e (provider_key_var (f_provider f))) as [k|]; cbn [option_map over].
  - rewrite low_env_setenv, cli_public_env_low. unfold lowv. rewrite api_key_var_secret. reflexivity.
  - destruct (getenv e E_API_KEY) as [k|]; cbn [option_map over]; [|reflexivity].
    rewrite low_env_setenv, cli_public_env_low. unfold lowv. rewrite api_key_var_secret. reflexivity.
Qed.
Lemma cli_world_low f w : cli_world f (low_world w) = option_map low_world (cli_world f w).
Proof.
  unfold cli_world, low_world. cbn [w_env w_layers w_misfit w_ovr]. rewrite cli_env_low.
  destruct (cli_env f (w_env w)); reflexivity.
Qed.
(* `rip run --provider ..` in two worlds that differ only in secret values: both bail out, or both go on in worlds that
   again differ only in secret values - so everything above applies to what the spawned authority stores and shows *)
Theorem cli_provider_flags_preserve_low : forall f w1 w2,
  low_world w1 = low_world w2 ->
  option_map low_world (cli_world f w1) = option_map low_world (cli_world f w2).
Proof. intros f w1 w2 L. rewrite <- !cli_world_low, L. reflexivity. Qed.
(* the key is copied from the provider's variable into RIP_OPENRESPONSES_API_KEY of the environment the authority inherits;
   without the provider's variable (and without RIP_OPENRESPONSES_API_KEY) the CLI bails out *)
Lemma cli_env_example :
  cli_env (mkFlags POpenai None false false None) [(E_OPENAI, lit "sk-AAAA")]
  = Some [(E_API_KEY, lit "sk-AAAA"); (E_ENDPOINT, lit "https://api.openai.com/v1/responses"); (E_OPENAI, lit "sk-AAAA")]
  /\ cli_env (mkFlags POpenrouter None false false None) [(E_OPENAI, lit "sk-AAAA")] = None.
Proof. split; vm_compute; reflexivity. Qed.

Lemma startup_warnings_low e : startup_warnings (low_env e) = startup_warnings e.
Proof.
  unfold startup_warnings. rewrite (getenv_low_public e E_ENDPOINT pub_endpoint), (getenv_low_public e E_TOOL_CHOICE pub_tool_choice).
  reflexivity.
Qed.
Theorem startup_output_noninterference : forall w1 w2,
  low_world w1 = low_world w2 -> startup_warnings (w_env w1) = startup_warnings (w_env w2).
Proof.
  exact (through_low low_world (fun w => startup_warnings (w_env w)) (fun w => startup_warnings_low (w_env w))).
Qed.
Lemma startup_warning_example :
  startup_warnings [(E_ENDPOINT, lit "localhost/v1/responses"); (E_API_KEY, lit "sk-AAAA"); (E_TOOL_CHOICE, lit "bogus")]
  = [lit "invalid RIP_OPENRESPONSES_TOOL_CHOICE=""bogus"": unsupported value (expected auto|none|required|function:<name>|json:<tool_choice_json>); defaulting to auto"].
Proof. vm_compute. reflexivity. Qed.

(* the whole diagnostic report (per-source error texts + summary) is a function of the low projection - for worlds whose
   merged document misfits too, whatever scalar sits at the offending position *)
Theorem doctor_report_low w : doctor_report (low_world w) = doctor_report w.
Proof. unfold doctor_report, source_errors. rewrite doctor_low. reflexivity. Qed.

Theorem doctor_report_noninterference : forall w1 w2,
  low_world w1 = low_world w2 -> doctor_report w1 = doctor_report w2.
Proof. exact (through_low low_world doctor_report doctor_report_low). Qed.

(* the three sinks of a world together *)
Lemma sinks_noninterference fuel sc thread w1 w2 prompt initial :
  low_world w1 = low_world w2 ->
  persisted (run fuel sc thread w1 prompt initial) = persisted (run fuel sc thread w2 prompt initial)
  /\ doctor_report w1 = doctor_report w2
  /\ startup_warnings (w_env w1) = startup_warnings (w_env w2).
Proof.
  intros L. split; [|split].
  - exact (proj1 (noninterference fuel sc thread w1 w2 prompt initial L)).
  - exact (doctor_report_noninterference w1 w2 L).
  - exact (startup_output_noninterference w1 w2 L).
Qed.

(* a misfit drops EVERY layer: the summary is the one of the layer-less world *)
Lemma misfit_drops_layers ls e o q : doctor (mkWorld ls e o (Some q)) = doctor (mkWorld [] e o None).
Proof. reflexivity. Qed.

(* two worlds that differ only in the secret written at the mis-shaped position (`"headers": "X-Api-Key: <secret>"`) *)
Definition misfit_world (q : str) : world :=
  mkWorld [mkLayer [(lit "acme", mkPatch (Some (lit "http://127.0.0.1:9/v1/responses")) (Some (KInline (lit "sk-inline"))) [])]
                   (Some (lit "acme/m1")) None None None None]
          [(E_ENDPOINT, lit "http://127.0.0.1:9/v1/responses")] no_ovr (Some q).
Definition misfit_q1 : str := lit "X-Api-Key: tok-AAAA".
Definition misfit_q2 : str := lit "X-Api-Key: tok-BBBB".
Lemma misfit_low_equal : low_world (misfit_world misfit_q1) = low_world (misfit_world misfit_q2).
Proof. vm_compute. reflexivity. Qed.
Lemma misfit_doctor :
  doctor_report (misfit_world misfit_q1)
  = ([], Some (mkDoctor None None (lit "http://127.0.0.1:9/v1/responses") None false None [] false false None)).
Proof. vm_compute. reflexivity. Qed.
(* had the schema error been surfaced through the per-source report (the idiom of the neighbouring parse-error branch),
   the diagnostic would depend on the secret: that flow must stay closed (T1: an error produced by deserialising
   secret-bearing configuration is itself secret-tainted) *)
Definition surfaced_noninterference : Prop :=
  forall w1 w2, low_world w1 = low_world w2 -> source_errors_surfaced w1 = source_errors_surfaced w2.
Theorem surfaced_noninterference_refuted : ~ surfaced_noninterference.
Proof.
  intro H. specialize (H _ _ misfit_low_equal). vm_compute in H. discriminate H.
Qed.
Lemma surfaced_quotes_the_scalar q w : w_misfit w = Some q ->
  exists a b, source_errors_surfaced w = [a ++ q ++ b].
Proof.
  intro M. unfold source_errors_surfaced, serde_type_error. rewrite M.
  exists (lit "invalid type: string """), (lit """, expected a map"). reflexivity.
Qed.

(* erasure keeps of a secret value only whether it is blank *)
Lemma mask_same_blank a b : blank a = blank b -> mask a = mask b.
Proof. unfold mask. intros ->. reflexivity. Qed.

Definition source_shape (s : option str) : Prop :=
  s = None \/ s = Some (lit "inline") \/ exists n, s = Some (lit "env:" ++ n).

Lemma nonblank_opt_nonblank o v : nonblank_opt o = Some v -> blank v = false.
Proof.
  destruct o as [x|]; cbn [nonblank_opt]; [|discriminate].
  destruct (blank x) eqn:E; [discriminate|]. intros [= <-]. exact E.
Qed.

Lemma resolve_key_nonblank e k v : resolve_key e k = Some v -> blank v = false.
Proof. destruct k as [x|n]; [apply (nonblank_opt_nonblank (Some x)) | apply nonblank_opt_nonblank]. Qed.

(* a resolved key is not blank, and its source label has one of the three shapes *)
Definition keys_ok (ks : option str * option str) : Prop :=
  (forall v, fst ks = Some v -> blank v = false) /\ source_shape (snd ks).

Lemma provider_key_ok e pm : keys_ok (provider_key e pm).
Proof.
  destruct pm as [[id p]|]; [|split; [discriminate | left; reflexivity]].
  cbn [provider_key]. destruct (pa_key p) as [k|]; [|split; [discriminate | left; reflexivity]].
  split; cbn [fst snd]; [intros v; apply resolve_key_nonblank|].
  destruct k as [x|n]; [right; left; reflexivity | right; right; exists n; reflexivity].
Qed.

Lemma key_from_env_ok e ep : keys_ok (key_from_env e ep).
Proof.
  unfold key_from_env. destruct (nonblank_opt (getenv e E_API_KEY)) as [v|] eqn:K.
  - split; cbn [fst snd]; [intros v' [= <-]; exact (nonblank_opt_nonblank _ _ K) | right; right; eexists; reflexivity].
  - destruct (contains (lit "openai.com") ep); [|destruct (contains (lit "openrouter.ai") ep)].
    1-2: split; cbn [fst snd]; [intros v; apply nonblank_opt_nonblank | right; right; eexists; reflexivity].
    split; [discriminate | left; reflexivity].
Qed.

Lemma resolve_keys_ok e pm ep : keys_ok (resolve_keys e pm ep).
Proof. unfold resolve_keys. destruct (fst (provider_key e pm)); [apply provider_key_ok | apply key_from_env_ok]. Qed.

Definition is_some {A} (o : option A) : bool := match o with Some _ => true | None => false end.

(* the summary is: public resolution results + PRESENCE of the key + its SOURCE label + header NAMES *)
Theorem doctor_presence_and_source_only : forall w d,
  doctor w = Some d ->
  exists r, resolve_world w no_ovr = Some r
    /\ d_has_key d = is_some (r_key r)
    /\ d_key_source d = r_key_source r
    /\ source_shape (d_key_source d)
    /\ d_header_names d = map fst (r_headers r)
    /\ d_provider_id d = r_provider_id r /\ d_route d = r_route r /\ d_endpoint d = r_endpoint r
    /\ d_model d = r_model r /\ d_stateless d = r_stateless r /\ d_parallel d = r_parallel r
    /\ d_followup d = r_followup r.
Proof.
  intros w d H. unfold doctor in H.
  destruct (resolve_world w no_ovr) as [r|] eqn:R; [|discriminate].
  injection H as <-. exists r. split; [reflexivity|].
  (* every field of the summary but d_has_key is a field of r; for that one, a resolved key is not blank *)
  assert (K : keys_ok (r_key r, r_key_source r)).
  { unfold resolve_world, resolve in R.
    destruct (resolve_endpoint (load_config w) (w_env w) no_ovr) as [ep|]; [|discriminate].
    injection R as <-. apply resolve_keys_ok. }
  destruct K as [NB SH]. cbn [fst snd] in NB, SH.
  repeat split; try exact SH.
  cbn [doctor_of d_has_key]. destruct (r_key r) as [v|]; [rewrite (NB v eq_refl)|]; reflexivity.
Qed.

(* non-vacuity: a world where the secret DOES leave the process (to the provider only) *)
Definition ex_patch (key hdr : str) : patch :=
  mkPatch (Some (lit "http://127.0.0.1:9/v1/responses")) (Some (KInline key)) [(lit "X-Api-Key", hdr)].
Definition ex_world (key hdr envkey : str) : world :=
  mkWorld [mkLayer [(lit "acme", ex_patch key hdr)] (Some (lit "acme/m1")) None None None None]
          [(E_DUMP, lit "1"); (lit "OPENROUTER_API_KEY", envkey)] no_ovr None.
Definition ex_script : script := outcome_script 7.
Definition ex_run (key hdr envkey : str) : outputs :=
  run 40 ex_script true (ex_world key hdr envkey) (lit "hi") [IUser (lit "hi")].

Lemma ex_low_equal :
  low_world (ex_world (lit "sk-AAAA") (lit "tok-1") (lit "zz")) = low_world (ex_world (lit "sk-BBBBBBBB") (lit "tok-22") (lit "y")).
Proof. vm_compute. reflexivity. Qed.

Lemma ex_sent_differ :
  map s_auth (out_sent (ex_run (lit "sk-AAAA") (lit "tok-1") (lit "zz"))) = [Some (lit "sk-AAAA"); Some (lit "sk-AAAA")]
  /\ map s_auth (out_sent (ex_run (lit "sk-BBBBBBBB") (lit "tok-22") (lit "y"))) = [Some (lit "sk-BBBBBBBB"); Some (lit "sk-BBBBBBBB")]
  /\ map s_headers (out_sent (ex_run (lit "sk-AAAA") (lit "tok-1") (lit "zz"))) = [[(lit "X-Api-Key", lit "tok-1")]; [(lit "X-Api-Key", lit "tok-1")]].
Proof. vm_compute. repeat split; reflexivity. Qed.

Lemma ex_frames_nontrivial :
  (length (fst (persisted (ex_run (lit "sk-AAAA") (lit "tok-1") (lit "zz")))) = 12)%nat
  /\ doctor (ex_world (lit "sk-AAAA") (lit "tok-1") (lit "zz"))
     = Some (mkDoctor (Some (lit "acme")) (Some (lit "acme/m1")) (lit "http://127.0.0.1:9/v1/responses") (Some (lit "m1"))
                      true (Some (lit "inline")) [lit "X-Api-Key"] false false None).
Proof. split; vm_compute; reflexivity. Qed.

(* T1 obligations' meaning: the allowed set is exactly the model's flows *)
Lemma allowed_use_spec k : allowed_use (use_kind_code k) = true <->
  k <> UFormat /\ k <> USerialize /\ k <> UOther.
Proof.
  destruct k; vm_compute; split; intros H; try reflexivity; try discriminate;
    try (repeat split; discriminate); destruct H as (A & B & C); congruence.
Qed.

Lemma allowed_use_sound k : allowed_use k = true ->
  exists u, use_kind_code u = k /\ u <> UFormat /\ u <> USerialize /\ u <> UOther.
Proof.
  intros H. assert (S : exists u, use_kind_code u = k).
  { unfold allowed_use in H. apply orb_true_iff in H. rewrite N.leb_le, N.eqb_eq in H.
    assert (C : k = 0 \/ k = 1 \/ k = 2 \/ k = 3 \/ k = 4 \/ k = 5 \/ k = 6 \/ k = 7 \/ k = 8 \/ k = 9 \/ k = 13) by lia.
    destruct C as [-> | [-> | [-> | [-> | [-> | [-> | [-> | [-> | [-> | [-> | ->]]]]]]]]]];
      [exists UDecl | exists UMove | exists UResolve | exists UPresence | exists UBearerAuth | exists URequestHeader
       | exists UNameProjection | exists UEnvRead | exists UEnvSet | exists UTestOnly | exists UDeserErrDropped];
      reflexivity. }
  destruct S as [u <-]. exists u. split; [reflexivity | apply allowed_use_spec, H].
Qed.

Lemma derive_allowed_sound d : derive_allowed d = true -> In d allowed_derives.
Proof.
  unfold derive_allowed. intros H. apply existsb_exists in H. destruct H as [a [I E]].
  apply andb_true_iff in E. destruct E as [E1 E2].
  apply str_eqb_eq in E1. apply N.eqb_eq in E2.
  destruct a as [a1 a2], d as [d1 d2]. cbn [fst snd] in *. subst. exact I.
Qed.

(* what the generated obligation `uses_wf .. = true` (Gen/SecretUses.v) means *)
Lemma uses_wf_sound uses derives found :
  uses_wf uses derives found = true ->
  found = true
  /\ Forall (fun k => exists u, use_kind_code u = k /\ u <> UFormat /\ u <> USerialize /\ u <> UOther) uses
  /\ Forall (fun d => In d allowed_derives) derives.
Proof.
  unfold uses_wf. intros H.
  apply andb_true_iff in H. destruct H as [H D]. apply andb_true_iff in H. destruct H as [F U].
  split; [exact F|]. split.
  - apply Forall_forall. intros k I. apply allowed_use_sound. rewrite forallb_forall in U. apply U. exact I.
  - apply Forall_forall. intros d I. apply derive_allowed_sound. rewrite forallb_forall in D. apply D. exact I.
Qed.

(* where the secret DOES go: every outgoing request goes to the configured endpoint with exactly the configured key and
   headers (the body is built from the public fields: build_items / build_followup) *)
Definition sent_ok (c : orcfg) (s : sent) : Prop :=
  s_url s = oc_endpoint c /\ s_auth s = oc_key c /\ s_headers s = oc_headers c.

Lemma agent_loop_sent_ok fuel dump sc c prompt st :
  Forall (sent_ok c) (lo_sent (agent_loop fuel dump sc c prompt st)).
Proof.
  (* [with_secrets] with [c]'s own key and headers is [c]: every request is [mk_sent c] of its body *)
  destruct sc as [v p t], c as [ep k m h tc fu sl pa].
  rewrite (agent_loop_secrets fuel dump (mkScript v p t) t (mkOr ep k m h tc fu sl pa) k h prompt (fun _ => eq_refl) st
           : agent_loop fuel dump (mkScript v p t) (mkOr ep k m h tc fu sl pa) prompt st = _).
  apply Forall_map, Forall_forall. intros s _. repeat split.
Qed.

Theorem secret_attached_to_requests_only : forall fuel sc (thread : bool) w prompt initial c,
  (if thread then thread_cfg w else session_cfg w) = Some c ->
  Forall (sent_ok c) (out_sent (run fuel sc thread w prompt initial)).
Proof.
  intros fuel sc thread w prompt initial c H. unfold run. rewrite H. cbn [run_cfg out_sent].
  apply agent_loop_sent_ok.
Qed.

Lemma run_w_low fuel ws thread w prompt initial :
  tools_blind ws ->
  persisted (run_w fuel ws thread (low_world w) prompt initial) = persisted (run_w fuel ws thread w prompt initial).
Proof. intros B. exact (run_pub fuel (inst ws w) (ws_tools ws (low_world w)) thread w prompt initial (B w)). Qed.

(* the theorem under the hypothesis that tool output does not depend on secret values *)
Theorem noninterference_blind_tools : forall fuel ws thread w1 w2 prompt initial,
  tools_blind ws ->
  low_world w1 = low_world w2 ->
  persisted (run_w fuel ws thread w1 prompt initial) = persisted (run_w fuel ws thread w2 prompt initial)
  /\ doctor w1 = doctor w2.
Proof.
  intros fuel ws thread w1 w2 prompt initial B L. split.
  - exact (through_low low_world _ (fun w => run_w_low fuel ws thread w prompt initial B) w1 w2 L).
  - exact (through_low low_world doctor doctor_low w1 w2 L).
Qed.

(* the full-strength statement: ALL tool behaviours, including tools that print the environment they inherited *)
Definition noninterference_full : Prop :=
  forall fuel ws thread w1 w2 prompt initial,
    low_world w1 = low_world w2 ->
    persisted (run_w fuel ws thread w1 prompt initial) = persisted (run_w fuel ws thread w2 prompt initial)
    /\ doctor w1 = doctor w2.

(* witness: start-up configuration from the environment, the provider asks the shell tool for the key variable *)
Definition leak_world (key : str) : world :=
  mkWorld [] [(E_ENDPOINT, lit "http://127.0.0.1:9/v1/responses"); (E_API_KEY, key)] no_ovr None.
Definition leak_call : tcall := mkCall (lit "call_p") (lit "bash") (lit "{""command"":""printenv RIP_OPENRESPONSES_API_KEY""}").
Definition leak_script : wscript :=
  mkWScript (fun _ => [])
            (fun idx _ _ => if idx =? 0 then PStream hd200 [SCreated (lit "resp_p1"); SCall leak_call] EDone
                            else PStream hd200 [SCreated (lit "resp_p2"); SText (lit "done")] EDone)
            printenv_tool.
Definition leak_run (key : str) : outputs := run_w 10 leak_script false (leak_world key) (lit "probe") [].

Lemma leak_low_equal : low_world (leak_world (lit "sk-AAAA")) = low_world (leak_world (lit "sk-BBBB")).
Proof. vm_compute. reflexivity. Qed.

Lemma leak_tool_events :
  tool_events (fst (persisted (leak_run (lit "sk-AAAA")))) = [[lit "sk-AAAA"]]
  /\ tool_events (fst (persisted (leak_run (lit "sk-BBBB")))) = [[lit "sk-BBBB"]].
Proof. vm_compute. split; reflexivity. Qed.

Theorem noninterference_full_refuted : ~ noninterference_full.
Proof.
  intros H.
  destruct (H 10%nat leak_script false _ _ (lit "probe") [] leak_low_equal) as [P _].
  pose proof (f_equal (fun p => tool_events (fst p)) P
              : tool_events (fst (persisted (leak_run (lit "sk-AAAA")))) = tool_events (fst (persisted (leak_run (lit "sk-BBBB"))))) as E.
  rewrite (proj1 leak_tool_events), (proj2 leak_tool_events) in E. discriminate E.
Qed.

(* the printing tool is indeed not blind, and every world-independent tool is *)
Lemma printenv_not_blind : ~ tools_blind leak_script.
Proof.
  intros B. specialize (B (leak_world (lit "sk-AAAA")) leak_call). vm_compute in B. discriminate B.
Qed.
Lemma const_tools_blind v p t : tools_blind (mkWScript v p (fun _ => t)).
Proof. intros w c. reflexivity. Qed.

Lemma str_eqb_refl a : str_eqb a a = true.
Proof. apply str_eqb_eq. reflexivity. Qed.

(* removing [names] from an environment leaves none of them *)
Lemma getenv_stripped names e k :
  In k names -> getenv (filter (fun kv => negb (existsb (str_eqb (fst kv)) names)) e) k = None.
Proof.
  intros I. induction e as [|[n v] e IH]; [reflexivity|].
  cbn [filter fst]. destruct (existsb (str_eqb n) names) eqn:X; cbn [negb]; [exact IH|].
  cbn [getenv]. destruct (str_eqb n k) eqn:E; [|exact IH].
  apply str_eqb_eq in E. subst n.
  rewrite (proj2 (existsb_exists _ _) (ex_intro _ k (conj I (str_eqb_refl k)))) in X. discriminate X.
Qed.

Lemma envref_in_secret_names w id p n :
  In (id, p) (c_providers (load_config w)) -> pa_key p = Some (KEnvRef n) -> In n (secret_env_names w).
Proof.
  intros I K. unfold secret_env_names. apply in_or_app. right. unfold envref_names. apply in_flat_map.
  exists (id, p). split; [exact I|]. cbn [snd]. rewrite K. left. reflexivity.
Qed.

(* tools that are functions of the call and of the environment rip hands them: worlds that differ only in secret values
   (inline keys, header values, the values of credential variables) store and show the same *)
Theorem noninterference_env_tools : forall fuel v p (t : env -> tcall -> list str * str) thread w1 w2 prompt initial,
  low_world w1 = low_world w2 ->
  tool_env w1 = tool_env w2 ->
  persisted (run_w fuel (mkWScript v p (fun w => t (tool_env w))) thread w1 prompt initial)
  = persisted (run_w fuel (mkWScript v p (fun w => t (tool_env w))) thread w2 prompt initial)
  /\ doctor w1 = doctor w2.
Proof.
  intros fuel v p t thread w1 w2 prompt initial L T.
  unfold run_w, inst. cbn [ws_validate ws_prov ws_tools]. rewrite T.
  apply noninterference. exact L.
Qed.

(* non-vacuity: the two worlds of leak_low_equal get the same tool environment, and `printenv RIP_OPENRESPONSES_API_KEY` prints nothing;
   a `{ "env": NAME }` key source is removed too *)
Lemma leak_world_tool_env :
  tool_env (leak_world (lit "sk-AAAA")) = tool_env (leak_world (lit "sk-BBBB"))
  /\ tool_env (leak_world (lit "sk-AAAA")) = [(E_ENDPOINT, lit "http://127.0.0.1:9/v1/responses")].
Proof. split; vm_compute; reflexivity. Qed.
Definition fixed_script : wscript :=
  mkWScript (ws_validate leak_script) (ws_prov leak_script) (fun w => printenv_tool_fixed (tool_env w)).
Lemma fixed_tool_events :
  tool_events (fst (persisted (run_w 10 fixed_script false (leak_world (lit "sk-AAAA")) (lit "probe") []))) = [[]].
Proof. vm_compute. reflexivity. Qed.
Definition envref_world (key : str) : world :=
  mkWorld [mkLayer [(lit "acme", mkPatch (Some (lit "http://127.0.0.1:9/v1/responses")) (Some (KEnvRef (lit "MY_PROVIDER_KEY"))) [])]
                   (Some (lit "acme/m1")) None None None None]
          [(lit "HOME", lit "/home/u"); (lit "MY_PROVIDER_KEY", key)] no_ovr None.
Lemma envref_world_tool_env : tool_env (envref_world (lit "sk-AAAA")) = [(lit "HOME", lit "/home/u")].
Proof. vm_compute. reflexivity. Qed.


Lemma mask_nil : mask [] = [].
Proof. reflexivity. Qed.

Lemma merge_opt_map {A} (g : A -> A) (f : A -> A -> A) :
  (forall a b, f (g a) (g b) = g (f a b)) ->
  forall o n, merge_opt f (option_map g o) (option_map g n) = option_map g (merge_opt f o n).
Proof. intros H [a|] [b|]; cbn [merge_opt option_map]; try reflexivity. rewrite H. reflexivity. Qed.

Lemma merge_hdrs_low a b : merge_hdrs (low_hdrs a) (low_hdrs b) = low_hdrs (merge_hdrs a b).
Proof.
  destruct a as [ma|qa|], b as [mb|qb|]; try reflexivity.
  cbn [low_hdrs merge_hdrs]. f_equal.
  exact (fold_upsert_mapv low_hval (fun x _ => x) (fun x _ => x) (fun _ _ => eq_refl) _ _).
Qed.

Lemma merge_kval_low a b : merge_kval (low_kval a) (low_kval b) = low_kval (merge_kval a b).
Proof.
  destruct a as [[v|n]| |], b as [[v'|n']| |]; reflexivity.
Qed.

Lemma merge_pval_low a b : merge_pval (low_pval a) (low_pval b) = low_pval (merge_pval a b).
Proof.
  destruct a as [e k h|q|], b as [e' k' h'|q'|]; try reflexivity.
  cbn [low_pval merge_pval].
  rewrite (merge_opt_map low_kval merge_kval merge_kval_low), (merge_opt_map low_hdrs merge_hdrs merge_hdrs_low).
  reflexivity.
Qed.

Lemma merge_provs_low a b : merge_provs (low_provs a) (low_provs b) = low_provs (merge_provs a b).
Proof.
  destruct a as [ma|qa|], b as [mb|qb|]; try reflexivity.
  cbn [low_provs merge_provs]. f_equal.
  apply (fold_upsert_mapv low_pval (fun x o => match o with Some y => merge_pval y x | None => x end)
                               (fun x o => match o with Some y => merge_pval y x | None => x end)).
  intros x [y|]; [apply merge_pval_low | reflexivity].
Qed.

Lemma merge_doc_low a b : merge_doc (low_doc a) (low_doc b) = low_doc (merge_doc a b).
Proof.
  destruct a as [ps m p st pa f|q|], b as [ps' m' p' st' pa' f'|q'|]; try reflexivity.
  cbn [low_doc merge_doc]. rewrite (merge_opt_map low_provs merge_provs merge_provs_low). reflexivity.
Qed.

Lemma merge_docs_low ds : merge_docs (map low_doc ds) = low_doc (merge_docs ds).
Proof.
  unfold merge_docs. change empty_doc with (low_doc empty_doc) at 1.
  apply (fold_left_commute merge_doc merge_doc low_doc low_doc). intros a b. apply merge_doc_low.
Qed.

Lemma hval_error_low v : hval_error (low_hval v) = option_map mask (hval_error v).
Proof. destruct v; reflexivity. Qed.

(* serde reports the first error of a map in key order: erasing the values erases the scalar it quotes *)
Lemma first_error_mapv {A} (g : A -> A) (err : A -> option str) (m : list (str * A)) :
  (forall v, err (g v) = option_map mask (err v)) ->
  first_some (map (fun kv => err (snd kv)) (mapv g m)) = option_map mask (first_some (map (fun kv => err (snd kv)) m)).
Proof.
  intros H. unfold mapv. induction m as [|[k v] m IH]; [reflexivity|].
  cbn [map snd first_some]. rewrite H. destruct (err v); [reflexivity | exact IH].
Qed.

Lemma hdrs_error_low h : hdrs_error (low_hdrs h) = option_map mask (hdrs_error h).
Proof. destruct h as [m|q|]; try reflexivity. exact (first_error_mapv low_hval hval_error m hval_error_low). Qed.
Lemma pval_error_low p : pval_error (low_pval p) = option_map mask (pval_error p).
Proof.
  destruct p as [e k h|q|]; try reflexivity.
  cbn [low_pval pval_error].
  destruct k as [[ks| |]|]; cbn [option_map low_kval]; try reflexivity;
    (destruct h as [hs|]; cbn [option_map]; [apply hdrs_error_low | reflexivity]).
Qed.
Lemma provs_error_low ps : provs_error (low_provs ps) = option_map mask (provs_error ps).
Proof. destruct ps as [m|q|]; try reflexivity. exact (first_error_mapv low_pval pval_error m pval_error_low). Qed.
Lemma doc_error_low d : doc_error (low_doc d) = option_map mask (doc_error d).
Proof.
  destruct d as [[ps|] m p st pa f|q|]; try reflexivity.
  cbn [low_doc option_map doc_error]. apply provs_error_low.
Qed.

Lemma to_headers_low h : to_headers (option_map low_hdrs h) = hide_vals (to_headers h).
Proof.
  destruct h as [[m|q|]|]; try reflexivity.
  cbn [option_map low_hdrs to_headers]. unfold hide_vals, mapv. rewrite !map_map. apply map_ext.
  intros [n v]. cbn [fst snd]. destruct v; reflexivity.
Qed.
Lemma to_patch_low p : to_patch (low_pval p) = low_patch (to_patch p).
Proof.
  destruct p as [e k h|q|]; try reflexivity.
  cbn [low_pval to_patch]. unfold low_patch. cbn [pa_endpoint pa_key pa_headers].
  rewrite to_headers_low. f_equal.
  destruct k as [[ks| |]|]; reflexivity.
Qed.
Lemma to_layer_low d : to_layer (low_doc d) = low_layer (to_layer d).
Proof.
  destruct d as [ps m p st pa f|q|]; try reflexivity.
  cbn [low_doc to_layer]. unfold low_layer. cbn [l_providers l_model l_primary l_stateless l_parallel l_followup].
  f_equal. destruct ps as [[l|q|]|]; try reflexivity.
  cbn [option_map low_provs]. rewrite !map_map. apply map_ext. intros [id pv]. cbn [fst snd]. rewrite to_patch_low. reflexivity.
Qed.

(* worlds given by their files: erasing the files and then typing = typing and then erasing *)
Theorem world_of_low j : world_of (low_jworld j) = low_world (world_of j).
Proof.
  unfold world_of, low_jworld, low_world. cbn [jw_docs jw_env jw_ovr w_layers w_env w_ovr w_misfit map].
  rewrite merge_docs_low, to_layer_low, doc_error_low. reflexivity.
Qed.
Theorem jworld_low_equal : forall j1 j2, low_jworld j1 = low_jworld j2 -> low_world (world_of j1) = low_world (world_of j2).
Proof. intros j1 j2 L. rewrite <- !world_of_low, L. reflexivity. Qed.

(* everything proved about typed worlds holds for worlds given by their (possibly mis-shaped) files *)
Theorem files_noninterference : forall fuel sc thread j1 j2 prompt initial,
  low_jworld j1 = low_jworld j2 ->
  persisted (run fuel sc thread (world_of j1) prompt initial) = persisted (run fuel sc thread (world_of j2) prompt initial)
  /\ doctor_report (world_of j1) = doctor_report (world_of j2)
  /\ startup_warnings (jw_env j1) = startup_warnings (jw_env j2).
Proof.
  intros fuel sc thread j1 j2 prompt initial L.
  exact (sinks_noninterference fuel sc thread _ _ prompt initial (jworld_low_equal j1 j2 L)).
Qed.

(* examples: the curl-style header string of a project file survives the merge (a non-object replaces the map of the
   global file) and makes the whole configuration misfit; a still higher file with a header map repairs it *)
Definition ex_global : doc :=
  DObj (Some (PMap [(lit "acme", PObj (Some (lit "http://127.0.0.1:9/v1/responses")) (Some (KV (KInline (lit "sk-inline"))))
                                      (Some (HMap [(lit "X-Lower", HStr (lit "low"))])))]))
       (Some (lit "acme/m1")) None None None None.
Definition ex_bad (secret : str) : doc :=
  DObj (Some (PMap [(lit "acme", PObj None None (Some (HScalar (lit "X-Api-Key: " ++ secret))))])) None None None None None.
Definition ex_repair : doc :=
  DObj (Some (PMap [(lit "acme", PObj None None (Some (HMap [(lit "X-Api-Key", HStr (lit "tok"))])))])) None None None None None.
Definition ex_jworld (ds : list doc) : jworld := mkJWorld ds [(E_ENDPOINT, lit "http://127.0.0.1:9/v1/responses")] no_ovr.
Lemma ex_files_misfit :
  w_misfit (world_of (ex_jworld [ex_global; ex_bad (lit "tok-AAAA")])) = Some (lit "X-Api-Key: tok-AAAA")
  /\ low_jworld (ex_jworld [ex_global; ex_bad (lit "tok-AAAA")]) = low_jworld (ex_jworld [ex_global; ex_bad (lit "tok-BBBB")])
  /\ doctor_report (world_of (ex_jworld [ex_global; ex_bad (lit "tok-AAAA")]))
     = ([], Some (mkDoctor None None (lit "http://127.0.0.1:9/v1/responses") None false None [] false false None)).
Proof. repeat split; vm_compute; reflexivity. Qed.
Lemma ex_files_repaired :
  w_misfit (world_of (ex_jworld [ex_global; ex_bad (lit "tok-AAAA"); ex_repair])) = None
  /\ option_map d_header_names (doctor (world_of (ex_jworld [ex_global; ex_bad (lit "tok-AAAA"); ex_repair]))) = Some [lit "X-Api-Key"].
Proof. split; vm_compute; reflexivity. Qed.

(* rip-cli: everything above applies to what the authority spawned by `rip run --provider ..` stores and shows *)
Theorem cli_run_noninterference : forall f fuel sc w1 w2 w1' w2' prompt initial,
  low_world w1 = low_world w2 ->
  cli_world f w1 = Some w1' -> cli_world f w2 = Some w2' ->
  persisted (run fuel sc true w1' prompt initial) = persisted (run fuel sc true w2' prompt initial)
  /\ doctor_report w1' = doctor_report w2'
  /\ startup_warnings (w_env w1') = startup_warnings (w_env w2').
Proof.
  intros f fuel sc w1 w2 w1' w2' prompt initial L C1 C2.
  pose proof (cli_provider_flags_preserve_low f w1 w2 L) as P. rewrite C1, C2 in P. cbn [option_map] in P.
  assert (L' : low_world w1' = low_world w2') by congruence.
  exact (sinks_noninterference fuel sc true w1' w2' prompt initial L').
Qed.

Lemma envref_names_low ps : envref_names (mapv low_patch ps) = envref_names ps.
Proof.
  unfold envref_names, mapv. induction ps as [|[id p] ps IH]; [reflexivity|].
  cbn [map flat_map fst snd]. rewrite IH. f_equal.
  unfold low_patch. cbn [pa_key]. destruct (pa_key p) as [[v|n]|]; reflexivity.
Qed.

(* the NAMES a configuration registers are public: erasure keeps them *)
Lemma reg_load_low r w : reg_load r (low_world w) = reg_load r w.
Proof.
  unfold reg_load. rewrite load_config_low. unfold low_config. cbn [c_providers]. rewrite envref_names_low. reflexivity.
Qed.
Lemma reg_load_low_eq r w1 w2 : low_world w1 = low_world w2 -> reg_load r w1 = reg_load r w2.
Proof. exact (through_low low_world (reg_load r) (reg_load_low r) w1 w2). Qed.
Lemma secret_env_names_low w : secret_env_names (low_world w) = secret_env_names w.
Proof. exact (f_equal stripped_names (reg_load_low [] w)). Qed.

Lemma spawn_env_no_stripped r e k : In k (stripped_names r) -> getenv (spawn_env r e) k = None.
Proof. apply getenv_stripped. Qed.

Lemma stripped_mono r w k : In k (stripped_names r) -> In k (stripped_names (reg_load r w)).
Proof.
  unfold stripped_names, reg_load. intros I. apply in_app_or in I. apply in_or_app.
  destruct I as [I|I]; [left; exact I | right; apply in_or_app; left; exact I].
Qed.
Lemma loaded_names_stripped r w k : In k (secret_env_names w) -> In k (stripped_names (reg_load r w)).
Proof.
  unfold secret_env_names, stripped_names, reg_load. intros I. apply in_app_or in I. apply in_or_app.
  destruct I as [I|I]; [left; exact I | right; apply in_or_app; right; exact I].
Qed.

Lemma spawn_envs_strip evs : forall r e k,
  In k (stripped_names r) -> Forall (fun env => getenv env k = None) (spawn_envs r e evs).
Proof.
  induction evs as [|[w|] evs IH]; intros r e k I; cbn [spawn_envs].
  - constructor.
  - apply IH. apply stripped_mono. exact I.
  - constructor; [apply spawn_env_no_stripped; exact I | apply IH; exact I].
Qed.

Fixpoint reg_events (r : registry) (evs : list aevent) : registry :=
  match evs with
  | [] => r
  | ALoad w :: rest => reg_events (reg_load r w) rest
  | ASpawn :: rest => reg_events r rest
  end.
Lemma spawn_envs_app pre : forall r e rest,
  spawn_envs r e (pre ++ rest) = spawn_envs r e pre ++ spawn_envs (reg_events r pre) e rest.
Proof.
  induction pre as [|[w|] pre IH]; intros r e rest; cbn [app spawn_envs reg_events].
  - reflexivity.
  - apply IH.
  - rewrite IH. reflexivity.
Qed.

(* EVERY subprocess spawned after configuration w was loaded - whatever the process loaded or spawned before (pre, r0)
   and whatever it loads or spawns afterwards (rest) - is handed an environment without the credential variables of w *)
Theorem tool_env_follows_the_loaded_configuration : forall (r0 : registry) (pre rest : list aevent) (w : world) (e : env) (k : str),
  In k (secret_env_names w) ->
  Forall (fun env => getenv env k = None)
         (skipn (length (spawn_envs r0 e pre)) (spawn_envs r0 e (pre ++ ALoad w :: rest))).
Proof.
  intros r0 pre rest w e k I. rewrite spawn_envs_app. rewrite skipn_app, skipn_all, Nat.sub_diag.
  cbn [skipn app spawn_envs]. apply spawn_envs_strip. apply loaded_names_stripped. exact I.
Qed.

Lemma tool_env_at_single w : tool_env_at [w] (w_env w) = tool_env w.
Proof. reflexivity. Qed.

(* a process that builds the merged list at its first spawn and reuses it (spawn_envs_memo) does not have the property *)
Definition memoised_list_follows_configuration : Prop :=
  forall (pre rest : list aevent) (w : world) (e : env) (k : str),
    In k (secret_env_names w) ->
    Forall (fun env => getenv env k = None)
           (skipn (length (spawn_envs_memo [] None e pre)) (spawn_envs_memo [] None e (pre ++ ALoad w :: rest))).
Definition memo_env : env := [(lit "ACME_LLM_TOKEN", lit "sk-AAAA"); (lit "HOME", lit "/home/u")].
Definition memo_world_before : world := mkWorld [] memo_env no_ovr None.
Definition memo_world_after : world :=
  mkWorld [mkLayer [(lit "acme", mkPatch (Some (lit "http://127.0.0.1:9/v1/responses")) (Some (KEnvRef (lit "ACME_LLM_TOKEN"))) [])]
                   (Some (lit "acme/m1")) None None None None]
          memo_env no_ovr None.
Lemma memo_name_is_credential : In (lit "ACME_LLM_TOKEN") (secret_env_names memo_world_after).
Proof. vm_compute. do 3 right. left. reflexivity. Qed.
Lemma memo_probe_sees_the_key :
  spawn_envs_memo [] None memo_env [ALoad memo_world_before; ASpawn; ALoad memo_world_after; ASpawn]
  = [memo_env; memo_env].
Proof. vm_compute. reflexivity. Qed.
Lemma faithful_probe_does_not :
  spawn_envs [] memo_env [ALoad memo_world_before; ASpawn; ALoad memo_world_after; ASpawn]
  = [memo_env; [(lit "HOME", lit "/home/u")]].
Proof. vm_compute. reflexivity. Qed.
Theorem memoised_list_refuted : ~ memoised_list_follows_configuration.
Proof.
  intros H.
  specialize (H [ALoad memo_world_before; ASpawn] [ASpawn] memo_world_after memo_env (lit "ACME_LLM_TOKEN") memo_name_is_credential).
  change ([ALoad memo_world_before; ASpawn] ++ ALoad memo_world_after :: [ASpawn])
    with [ALoad memo_world_before; ASpawn; ALoad memo_world_after; ASpawn] in H.
  rewrite memo_probe_sees_the_key in H.
  assert (P : spawn_envs_memo [] None memo_env [ALoad memo_world_before; ASpawn] = [memo_env]) by (vm_compute; reflexivity).
  rewrite P in H. cbn [length skipn] in H.
  inversion H as [|x l Hx Hl]. vm_compute in Hx. discriminate Hx.
Qed.

(* noninterference for whole HISTORIES of one authority process *)
Lemma process_runs_agree fuel v p t : forall o1 o2 r,
  ops_agree r o1 o2 -> process_runs fuel v p t r o1 = process_runs fuel v p t r o2.
Proof.
  induction o1 as [|[w1|th1 w1 p1 i1] o1 IH]; intros [|[w2|th2 w2 p2 i2] o2] r A; cbn [ops_agree] in A; try contradiction.
  - reflexivity.
  - destruct A as [L A]. cbn [process_runs]. rewrite <- (reg_load_low_eq r w1 w2 L). apply IH. exact A.
  - destruct A as [E1 [E2 [E3 [L [S A]]]]]. subst th2 p2 i2. cbn [process_runs].
    assert (R : (if th1 then reg_load r w2 else r) = (if th1 then reg_load r w1 else r))
      by (destruct th1; [symmetry; apply reg_load_low_eq; exact L | reflexivity]).
    rewrite R. rewrite <- S. f_equal.
    + exact (proj1 (noninterference fuel _ th1 w1 w2 p1 i1 L)).
    + apply IH. exact A.
Qed.
Theorem process_noninterference : forall fuel v p (t : env -> tcall -> list str * str) o1 o2,
  ops_agree [] o1 o2 -> process_runs fuel v p t [] o1 = process_runs fuel v p t [] o2.
Proof. intros. apply process_runs_agree. assumption. Qed.

(* non-vacuity: a key source added to a configuration file while the authority runs - start, a tool run on the session path, the file appears, doctor, a thread run whose
   provider asks the shell for the variable - with two different keys behind ACME_LLM_TOKEN *)
Definition hist_env (key : str) : env :=
  [(E_ENDPOINT, lit "http://127.0.0.1:9/v1/responses"); (lit "ACME_LLM_TOKEN", key); (lit "HOME", lit "/home/u")].
Definition hist_before (key : str) : world := mkWorld [] (hist_env key) no_ovr None.
Definition hist_after (key : str) : world :=
  mkWorld [mkLayer [(lit "acme", mkPatch (Some (lit "http://127.0.0.1:9/v1/responses")) (Some (KEnvRef (lit "ACME_LLM_TOKEN"))) [])]
                   (Some (lit "acme/m1")) None None None None]
          (hist_env key) no_ovr None.
Definition hist_ops (key : str) : list aop :=
  [OLoad (hist_before key); ORun true (hist_before key) (lit "warm up") [];
   OLoad (hist_after key); ORun true (hist_after key) (lit "probe") []].
Definition printenv_acme (e : env) (c : tcall) : list str * str :=
  match getenv e (lit "ACME_LLM_TOKEN") with Some v => ([v], v) | None => ([], []) end.
Lemma hist_second_run_hides_the_key :
  map (fun p => tool_events (fst p))
      (process_runs 10 (ws_validate leak_script) (ws_prov leak_script) printenv_acme [] (hist_ops (lit "sk-AAAA")))
  = [[[lit "sk-AAAA"]]; [[]]].
Proof. vm_compute. reflexivity. Qed.
Lemma hist_tail_agrees :
  ops_agree [] [OLoad (hist_after (lit "sk-AAAA")); ORun true (hist_after (lit "sk-AAAA")) (lit "probe") []]
               [OLoad (hist_after (lit "sk-BBBB")); ORun true (hist_after (lit "sk-BBBB")) (lit "probe") []].
Proof.
  assert (L : low_world (hist_after (lit "sk-AAAA")) = low_world (hist_after (lit "sk-BBBB"))) by (vm_compute; reflexivity).
  refine (conj L (conj eq_refl (conj eq_refl (conj eq_refl (conj L (conj _ I)))))). vm_compute. reflexivity.
Qed.

(* T1: what the generated obligation about the spawn path says *)
Lemma spawn_facts_wf_sound f : spawn_facts_wf f = true ->
  sf_fixed_names f = [E_API_KEY; E_OPENAI; E_OPENROUTER]
  /\ sf_names_fresh f = true /\ sf_registry_grows_only f = true /\ sf_load_registers f = true /\ sf_loaders_found f = true
  /\ 1 <= sf_spawn_sites f /\ sf_spawn_sites f = sf_spawn_sites_stripping f /\ sf_unlisted_key_vars f = 0.
Proof.
  unfold spawn_facts_wf. intros H.
  apply andb_true_iff in H; destruct H as [H G8]. apply N.eqb_eq in G8.
  apply andb_true_iff in H; destruct H as [H G7].
  apply andb_true_iff in H; destruct H as [H G6].
  apply andb_true_iff in H; destruct H as [H G5].
  apply andb_true_iff in H; destruct H as [H G4].
  apply andb_true_iff in H; destruct H as [H G3].
  apply andb_true_iff in H; destruct H as [H G2].
  apply (proj1 (list_eqb_spec str_eqb str_eqb_eq _ _)) in H. apply N.eqb_eq in G7. apply N.leb_le in G6.
  repeat split; assumption.
Qed.

Lemma filter_filter {A} (f g : A -> bool) l : filter f (filter g l) = filter (fun x => g x && f x) l.
Proof.
  induction l as [|x l IH]; [reflexivity|]. cbn [filter]. destruct (g x) eqn:G; cbn [filter andb]; [|exact IH].
  destruct (f x); [f_equal|]; exact IH.
Qed.

Lemma cm_env_fold_remove names : forall c,
  cm_env (fold_left cmd_env_remove names c) = filter (fun kv => negb (existsb (str_eqb (fst kv)) names)) (cm_env c).
Proof.
  induction names as [|n ns IH]; intros c; cbn [fold_left].
  - cbn [existsb negb]. symmetry. induction (cm_env c) as [|x l IHl]; [reflexivity|]. cbn [filter]. f_equal. exact IHl.
  - rewrite IH. unfold cmd_env_remove at 1. cbn [cm_env]. unfold env_remove. rewrite filter_filter.
    apply filter_ext. intros kv. cbn [existsb]. rewrite negb_orb. reflexivity.
Qed.
Lemma cm_env_fold_set ov : forall c, cm_env (fold_left cmd_env_set ov c) = fold_left env_set ov (cm_env c).
Proof. induction ov as [|kv ov IH]; intros c; cbn [fold_left]; [reflexivity|]. rewrite IH. reflexivity. Qed.

(* the removal loop over secret_env_names() makes the environment of the command the stripped environment *)
Lemma strip_loop_is_spawn_env r e d :
  cm_env (fold_left cmd_env_remove (stripped_names r) (cmd_dir (cmd_new e) d)) = spawn_env r e.
Proof. rewrite cm_env_fold_remove. reflexivity. Qed.

Lemma getenv_env_remove_other e k' k : str_eqb k' k = false -> getenv (env_remove e k') k = getenv e k.
Proof.
  intros NE. unfold env_remove. induction e as [|[n v] e IH]; [reflexivity|]. cbn [filter fst].
  destruct (str_eqb n k') eqn:E1; cbn [negb getenv].
  - apply str_eqb_eq in E1. subst n. rewrite NE. exact IH.
  - destruct (str_eqb n k); [reflexivity | exact IH].
Qed.
(* the call's own `env`: the last pair naming k decides, otherwise the variable is what it was *)
Lemma getenv_fold_set ov : forall base k,
  getenv (fold_left env_set ov base) k = match getenv (rev ov) k with Some v => Some v | None => getenv base k end.
Proof.
  induction ov as [|kv ov IH] using rev_ind; intros base k; [reflexivity|].
  rewrite fold_left_app. cbn [fold_left]. rewrite rev_app_distr. cbn [rev app]. destruct kv as [k' v']. unfold env_set at 1.
  cbn [getenv fst]. destruct (str_eqb k' k) eqn:E; [reflexivity|].
  rewrite getenv_env_remove_other by exact E. apply IH.
Qed.

(* every site: the child's environment is a function of the STRIPPED environment and of the request *)
Lemma site_cmd_env m r e q : m = missing_dir_fails (site_of (sp_via q)) ->
  option_map cm_env (site_cmd true m r e q) = child_env_of (spawn_env r e) q.
Proof.
  intros ->. unfold site_cmd, child_env_of. destruct (sp_cwd q) as [raw|].
  - destruct (cwd_refused raw); [reflexivity|].
    destruct (sp_dir_exists q || negb (missing_dir_fails (site_of (sp_via q)))); [|reflexivity].
    cbn [option_map]. rewrite cm_env_fold_set, strip_loop_is_spawn_env. reflexivity.
  - cbn [option_map]. rewrite cm_env_fold_set, strip_loop_is_spawn_env. reflexivity.
Qed.
Theorem child_env_factors_through_the_stripped_environment : forall r e q,
  child_env r e q = child_env_of (spawn_env r e) q.
Proof.
  intros r e q. unfold child_env, spawn_cmd, tool_cmd, pipes_cmd, pty_cmd.
  destruct (site_of (sp_via q)) eqn:S; apply site_cmd_env; rewrite S; reflexivity.
Qed.

Lemma child_env_of_getenv base q ce k :
  child_env_of base q = Some ce ->
  getenv ce k = match getenv (rev (req_env q)) k with Some v => Some v | None => getenv base k end.
Proof.
  unfold child_env_of. intros H.
  assert (G : Some ce = Some (fold_left env_set (req_env q) base)).
  { destruct (sp_cwd q) as [raw|]; [|symmetry; exact H].
    destruct (cwd_refused raw); [discriminate|].
    destruct (sp_dir_exists q || negb (missing_dir_fails (site_of (sp_via q)))); [symmetry; exact H | discriminate]. }
  injection G as ->. apply getenv_fold_set.
Qed.

(* EVERY way of spawning (tool / pipes task / pty task; execution_mode given or absent), EVERY `cwd` argument (absent, below the
   root, the root, missing, refused), EVERY `env` argument, every title: a credential variable is in the child's environment only
   with the value the call itself supplied *)
Theorem every_spawn_path_strips : spawn_path_strips spawn_cmd.
Proof.
  intros r e q c k H I.
  assert (C : child_env r e q = Some (cm_env c)) by (unfold child_env; rewrite H; reflexivity).
  rewrite child_env_factors_through_the_stripped_environment in C.
  rewrite (child_env_of_getenv _ _ _ k C). rewrite (spawn_env_no_stripped r e k I).
  destruct (getenv (rev (req_env q)) k); reflexivity.
Qed.
Corollary child_without_own_env_sees_no_credential : forall r e q ce k,
  child_env r e q = Some ce -> In k (stripped_names r) -> sp_env q = None -> getenv ce k = None.
Proof.
  intros r e q ce k H I N. unfold child_env in H. destruct (spawn_cmd r e q) as [c|] eqn:S; [|discriminate].
  injection H as <-. rewrite (every_spawn_path_strips r e q c k S I). unfold req_env. rewrite N. reflexivity.
Qed.

(* two environments of the authority that differ only in credential variables give every child the same environment, however
   it is spawned *)
Theorem child_env_noninterference : forall r e1 e2 q,
  spawn_env r e1 = spawn_env r e2 -> child_env r e1 q = child_env r e2 q.
Proof. intros r e1 e2 q H. rewrite !child_env_factors_through_the_stripped_environment, H. reflexivity. Qed.

(* over TIME: a configuration loaded at any earlier moment of the process has its credential variables removed from every child *)
Lemma stripped_mono_fold hist r k : In k (stripped_names r) -> In k (stripped_names (fold_left reg_load hist r)).
Proof. apply (fold_left_inv reg_load (fun r => In k (stripped_names r))). intros r' w. apply stripped_mono. Qed.
Lemma loaded_in_history hist : forall r w k,
  In w hist -> In k (secret_env_names w) -> In k (stripped_names (fold_left reg_load hist r)).
Proof.
  induction hist as [|x xs IH]; intros r w k Iw Ik; [destruct Iw|]. cbn [fold_left]. destruct Iw as [->|Iw].
  - apply stripped_mono_fold. apply loaded_names_stripped. exact Ik.
  - apply (IH _ w); assumption.
Qed.
Theorem child_env_follows_the_loaded_configurations : forall hist w e q ce k,
  In w hist -> In k (secret_env_names w) ->
  child_env (reg_after hist) e q = Some ce ->
  getenv ce k = getenv (rev (req_env q)) k.
Proof.
  intros hist w e q ce k Iw Ik H. unfold child_env in H. destruct (spawn_cmd (reg_after hist) e q) as [c|] eqn:S; [|discriminate].
  injection H as <-. apply (every_spawn_path_strips _ _ _ _ _ S). unfold reg_after. apply (loaded_in_history hist [] w k Iw Ik).
Qed.

(* with the removal loop of run_pipes_task on the branch without `cwd` only (spawn_cmd_cwd_unstripped) the property fails *)
Definition cwdleak_env : env := [(E_API_KEY, lit "sk-AAAA"); (lit "HOME", lit "/home/u")].
Definition cwdleak_req (cwd : option str) : spawn_req := mkSpawn (VTask None) cwd true None None.
Lemma cwd_unstripped_pipes_task_with_cwd_sees_the_key :
  option_map cm_env (spawn_cmd_cwd_unstripped [] cwdleak_env (cwdleak_req (Some (lit "sub")))) = Some cwdleak_env.
Proof. vm_compute. reflexivity. Qed.
Lemma cwd_unstripped_pipes_task_without_cwd_does_not :
  option_map cm_env (spawn_cmd_cwd_unstripped [] cwdleak_env (cwdleak_req None)) = Some [(lit "HOME", lit "/home/u")].
Proof. vm_compute. reflexivity. Qed.
Lemma faithful_pipes_task_with_cwd_does_not :
  child_env [] cwdleak_env (cwdleak_req (Some (lit "sub"))) = Some [(lit "HOME", lit "/home/u")].
Proof. vm_compute. reflexivity. Qed.
Theorem strip_only_without_cwd_refuted : ~ spawn_path_strips spawn_cmd_cwd_unstripped.
Proof.
  intros H. pose proof cwd_unstripped_pipes_task_with_cwd_sees_the_key as C.
  destruct (spawn_cmd_cwd_unstripped [] cwdleak_env (cwdleak_req (Some (lit "sub")))) as [c|] eqn:S; [|discriminate C].
  injection C as C.
  pose proof (H _ _ _ c E_API_KEY S (or_introl eq_refl)) as G. rewrite C in G. vm_compute in G. discriminate G.
Qed.

(* non-vacuity: the call's own `env` reaches the child (also when it names a credential variable: the call's value, not the
   authority's), a refused / missing directory spawns nothing, the three sites are reached *)
Lemma call_env_reaches_the_child :
  child_env [lit "ACME_LLM_TOKEN"] ((lit "ACME_LLM_TOKEN", lit "sk-BBBB") :: cwdleak_env)
            (mkSpawn (VTask (Some XPty)) (Some (lit "./sub/")) true
                     (Some [(E_API_KEY, lit "from-the-call"); (lit "EXTRA", lit "1")]) (Some (lit "t")))
  = Some [(lit "EXTRA", lit "1"); (E_API_KEY, lit "from-the-call"); (lit "HOME", lit "/home/u")].
Proof. vm_compute. reflexivity. Qed.
Lemma refused_and_missing_directories_spawn_nothing :
  child_env [] cwdleak_env (mkSpawn VTool (Some (lit "../outside")) false None None) = None
  /\ child_env [] cwdleak_env (mkSpawn VTool (Some (lit "/usr")) true None None) = None
  /\ child_env [] cwdleak_env (mkSpawn (VTask (Some XPipes)) (Some (lit "a/../b")) true None None) = None
  /\ child_env [] cwdleak_env (mkSpawn (VTask (Some XPipes)) (Some (lit "nope/missing")) false None None) = None
  /\ child_env [] cwdleak_env (mkSpawn (VTask (Some XPipes)) (Some (lit "..hidden/x..")) true None None) = Some [(lit "HOME", lit "/home/u")]
  /\ child_env [] cwdleak_env (mkSpawn (VTask (Some XPty)) (Some (lit "nope/missing")) false None None) = Some [(lit "HOME", lit "/home/u")].
Proof. vm_compute. repeat split; reflexivity. Qed.

(* T1: a site whose steps are the modelled ones IS the model's site; the step list with the removal loop in the else-block of
   the cwd statement is the site that does not strip when `cwd` is given *)
Lemma sstep_code_inj a b : sstep_code a = sstep_code b -> a = b.
Proof. destruct a, b; cbn; intros H; try reflexivity; discriminate. Qed.
Lemma map_sstep_code_inj p : forall p', map sstep_code p = map sstep_code p' -> p = p'.
Proof.
  induction p as [|a p IH]; intros [|b p'] H; try discriminate; [reflexivity|].
  cbn [map] in H. injection H as H1 H2. apply sstep_code_inj in H1. subst b. f_equal. apply IH. exact H2.
Qed.
Lemma steps_as_modelled_sound p : steps_as_modelled p = true -> p = modelled_steps.
Proof. unfold steps_as_modelled. intros H. apply lN_eqb_spec in H. apply map_sstep_code_inj. exact H. Qed.
Lemma modelled_steps_run m r e q : run_steps modelled_steps m r q (cmd_new e) = site_cmd true m r e q.
Proof.
  unfold modelled_steps, site_cmd, strip_cmd. cbn [run_steps]. destruct (sp_cwd q) as [raw|]; [|reflexivity].
  destruct (cwd_refused raw); reflexivity.
Qed.
Lemma cwd_else_strip_steps_run m r e q :
  run_steps [SCwd; SStripIfNoCwd; SOwnEnv; SSpawn] m r q (cmd_new e) = site_cmd false m r e q.
Proof.
  unfold site_cmd, strip_cmd. cbn [run_steps]. destruct (sp_cwd q) as [raw|]; [|reflexivity].
  destruct (cwd_refused raw); reflexivity.
Qed.
Lemma site_steps_wf_sound g : site_steps_wf g = true ->
  map fst g = modelled_spawn_sites
  /\ Forall (fun s => forall m r e q, run_steps (snd s) m r q (cmd_new e) = site_cmd true m r e q) g.
Proof.
  unfold site_steps_wf. intros H. apply andb_true_iff in H. destruct H as [H1 H2]. split.
  - refine (proj1 (list_eqb_spec (fun a b : str * str => str_eqb (fst a) (fst b) && str_eqb (snd a) (snd b)) _ _ _) H1).
    intros [a1 a2] [b1 b2]. cbn [fst snd]. rewrite andb_true_iff, !str_eqb_eq.
    split; [intros [-> ->]; reflexivity | intros E; injection E as -> ->; split; reflexivity].
  - apply Forall_forall. intros s I m r e q. rewrite forallb_forall in H2. rewrite (steps_as_modelled_sound _ (H2 s I)).
    apply modelled_steps_run.
Qed.

Lemma getenv_In e k v : getenv e k = Some v -> In (k, v) e.
Proof.
  induction e as [|[n x] e IH]; cbn [getenv]; [discriminate|]. destruct (str_eqb n k) eqn:E.
  - intros H. injection H as ->. apply str_eqb_eq in E. subst n. left. reflexivity.
  - intros H. right. apply IH. exact H.
Qed.
(* whatever the command's environment holds under a credential name is a pair of the call's own env *)
Definition only_from_call (r : registry) (q : spawn_req) (c : cmd) : Prop :=
  forall k v, In k (stripped_names r) -> getenv (cm_env c) k = Some v -> In (k, v) (req_env q).
(* sc / sn: a removal loop has run on the branch with / without `cwd`; [stripped_for]: on the branch q takes *)
Definition stripped_for (sc sn : bool) (q : spawn_req) : bool := match sp_cwd q with Some _ => sc | None => sn end.
Lemma strip_cmd_only_from_call r q c : only_from_call r q (strip_cmd r c).
Proof.
  intros k v I H. unfold strip_cmd in H. rewrite cm_env_fold_remove, (getenv_stripped _ _ k I) in H. discriminate H.
Qed.
Lemma own_env_only_from_call r q c : only_from_call r q c -> only_from_call r q (fold_left cmd_env_set (req_env q) c).
Proof.
  intros H k v I G. rewrite cm_env_fold_set, getenv_fold_set in G.
  destruct (getenv (rev (req_env q)) k) as [x|] eqn:E.
  - injection G as ->. apply getenv_In in E. apply in_rev. exact E.
  - apply (H k v I G).
Qed.
(* the call's own env leaves the directory of the command as it was *)
Lemma own_env_keeps_env_otherwise c ov : cm_dir (fold_left cmd_env_set ov c) = cm_dir c.
Proof. revert c. induction ov as [|kv ov IH]; intros c; cbn [fold_left]; [reflexivity|]. rewrite IH. reflexivity. Qed.
Lemma safe_steps_run p : forall sc sn m r q c0 c,
  steps_safe_from sc sn p = true ->
  (stripped_for sc sn q = true -> only_from_call r q c0) ->
  run_steps p m r q c0 = Some c -> only_from_call r q c.
Proof.
  induction p as [|st p IH]; intros sc sn m r q c0 c S Inv R; [discriminate|].
  destruct st; cbn [run_steps steps_safe_from] in R, S.
  - (* SCwd: the invariant does not speak of the directory *)
    destruct (sp_cwd q) as [raw|]; [destruct (cwd_refused raw); [discriminate|]|]; refine (IH sc sn m r q _ c S _ R); exact Inv.
  - (* SStrip *) exact (IH true true m r q _ c S (fun _ => strip_cmd_only_from_call r q c0) R).
  - (* SStripIfNoCwd *) refine (IH sc true m r q _ c S _ R). unfold stripped_for in *.
    destruct (sp_cwd q); [exact Inv | intros _; apply strip_cmd_only_from_call].
  - (* SStripIfCwd *) refine (IH true sn m r q _ c S _ R). unfold stripped_for in *.
    destruct (sp_cwd q); [intros _; apply strip_cmd_only_from_call | exact Inv].
  - (* SStripCond *) exact (IH sc sn m r q _ c S Inv R).
  - (* SOwnEnv *) exact (IH sc sn m r q _ c S (fun T => own_env_only_from_call r q c0 (Inv T)) R).
  - (* SSpawn *) apply andb_true_iff in S. destruct S as [-> ->].
    assert (E : c = c0).
    { destruct (sp_cwd q); [destruct (sp_dir_exists q || negb m); [|discriminate]|]; injection R as <-; reflexivity. }
    subst c. apply Inv. unfold stripped_for. destruct (sp_cwd q); reflexivity.
Qed.
(* EVERY safe step order, not only [modelled_steps], keeps the authority's credential variables from the child: a
   credential variable in the child's environment was put there by the call's own env *)
Theorem any_safe_step_order_strips : forall (p : list sstep) (m : bool) (r : registry) (e : env) (q : spawn_req) (c : cmd) (k v : str),
  steps_safe p = true ->
  run_steps p m r q (cmd_new e) = Some c ->
  In k (stripped_names r) -> getenv (cm_env c) k = Some v -> In (k, v) (req_env q).
Proof.
  intros p m r e q c k v S R I G. unfold steps_safe in S.
  refine (safe_steps_run p false false m r q (cmd_new e) c S _ R k v I G).
  unfold stripped_for. destruct (sp_cwd q); discriminate.
Qed.
Lemma step_orders_safe_or_not :
  steps_safe modelled_steps = true
  /\ steps_safe [SCwd; SStripIfNoCwd; SOwnEnv; SSpawn] = false          (* removal loop in the else-block of the cwd statement *)
  /\ steps_safe [SCwd; SOwnEnv; SStripCond; SSpawn] = false             (* removal only when the call brings no env *)
  /\ steps_safe [SCwd; SOwnEnv; SSpawn] = false
  /\ steps_safe [SCwd; SStripIfCwd; SStripIfNoCwd; SOwnEnv; SSpawn] = true   (* a loop in each branch would do *)
  /\ steps_safe [SOwnEnv; SStrip; SCwd; SSpawn] = true.
Proof. repeat split; vm_compute; reflexivity. Qed.
