(* Lemmas about Base/Utf8.v: the validation step is decided by a bounded look-ahead and stable under
   extension of the input; hence lossy decoding with carry-over composes over concatenation. *)
From RipV Require Import Base.Prelude Base.Utf8.

Lemma skipn_app_le {A} n (a b : list A) : (n <= length a)%nat -> skipn n (a ++ b) = skipn n a ++ b.
Proof. intros H. rewrite skipn_app. replace (n - length a)%nat with 0%nat by lia. reflexivity. Qed.

(* induction over proper suffixes: the decoders recurse on what is left after a step *)
Lemma suffix_ind {A} (P : list A -> Prop) :
  (forall l, (forall n, (1 <= n <= length l)%nat -> P (skipn n l)) -> P l) -> forall l, P l.
Proof.
  intros H l. remember (length l) as k eqn:E. revert l E.
  induction k as [k IH] using lt_wf_ind. intros l ->. apply H. intros n Hn.
  apply (IH (length (skipn n l))); [rewrite skipn_length; lia|reflexivity].
Qed.

(* What a step has read lies within the input.  A decided step (a character or an invalid prefix) takes
   at least one byte and at most the whole input, and stays the same when more input arrives; an
   input on which the step is undecided is shorter than four bytes. *)
Lemma step_shape bs :
  match step bs with
  | UEof => bs = []
  | UChar _ n | UInvalid n => (1 <= n <= length bs)%nat /\ forall b, step (bs ++ b) = step bs
  | UIncomplete => (1 <= length bs <= 3)%nat
  end.
Proof.
  unfold step. destruct bs as [|b0 r]; [reflexivity|]. cbn [app length].
  destruct (b0 <? 128); [split; [lia|reflexivity]|].
  destruct (width b0 =? 2).
  { destruct r as [|b1 r]; cbn [app length]; [lia|]. destruct (is_cont b1); (split; [lia|reflexivity]). }
  destruct (width b0 =? 3).
  { destruct r as [|b1 r]; cbn [app length]; [lia|]. destruct (ok3 b0 b1); [|split; [lia|reflexivity]].
    destruct r as [|b2 r]; cbn [app length]; [lia|]. destruct (is_cont b2); (split; [lia|reflexivity]). }
  destruct (width b0 =? 4).
  { destruct r as [|b1 r]; cbn [app length]; [lia|]. destruct (ok4 b0 b1); [|split; [lia|reflexivity]].
    destruct r as [|b2 r]; cbn [app length]; [lia|]. destruct (is_cont b2); [|split; [lia|reflexivity]].
    destruct r as [|b3 r]; cbn [app length]; [lia|]. destruct (is_cont b3); (split; [lia|reflexivity]). }
  split; [lia|reflexivity].
Qed.

Lemma lossy_fuel f1 : forall f2 bs, (length bs < f1)%nat -> (length bs < f2)%nat -> lossy f1 bs = lossy f2 bs.
Proof.
  induction f1 as [|f1 IH]; intros f2 bs H1 H2; [lia|].
  destruct f2 as [|f2]; [lia|]. cbn [lossy].
  pose proof (step_shape bs) as Sh. destruct (step bs); try reflexivity;
    (rewrite (IH f2); [reflexivity| |]; rewrite skipn_length; lia).
Qed.

Lemma scan_fuel f1 : forall f2 bs, (length bs < f1)%nat -> (length bs < f2)%nat -> scan f1 bs = scan f2 bs.
Proof.
  induction f1 as [|f1 IH]; intros f2 bs H1 H2; [lia|].
  destruct f2 as [|f2]; [lia|]. cbn [scan].
  pose proof (step_shape bs) as Sh. destruct (step bs); try reflexivity.
  rewrite (IH f2); [reflexivity| |]; rewrite skipn_length; lia.
Qed.

(* lossy_text and lossy_rest of Base/Utf8.v as one value *)
Definition lossyF (bs : list N) : list N * list N := lossy (S (length bs)) bs.

Lemma lossyF_parts bs : lossyF bs = (lossy_text bs, lossy_rest bs).
Proof. apply surjective_pairing. Qed.

Lemma lossyF_unfold bs :
  lossyF bs = match step bs with
              | UEof => ([], [])
              | UChar cp w => let '(t, r) := lossyF (skipn w bs) in (cp :: t, r)
              | UInvalid k => let '(t, r) := lossyF (skipn k bs) in (FFFD :: t, r)
              | UIncomplete => ([], bs)
              end.
Proof.
  unfold lossyF at 1. cbn [lossy]. pose proof (step_shape bs) as Sh.
  destruct (step bs) as [|cp n|n|]; try reflexivity; unfold lossyF;
    (rewrite (lossy_fuel (length bs) (S (length (skipn n bs)))); [reflexivity| |]; rewrite ?skipn_length; lia).
Qed.

Lemma from_utf8_unfold bs :
  from_utf8 bs = match step bs with
                 | UEof => UOk []
                 | UChar cp w => match from_utf8 (skipn w bs) with
                                 | UOk c => UOk (cp :: c)
                                 | UErr c v r e => UErr (cp :: c) (w + v) r e
                                 end
                 | UInvalid k => UErr [] 0 bs (Some k)
                 | UIncomplete => UErr [] 0 bs None
                 end.
Proof.
  unfold from_utf8 at 1. cbn [scan]. pose proof (step_shape bs) as Sh.
  destruct (step bs) as [|cp w|k|]; try reflexivity. unfold from_utf8.
  rewrite (scan_fuel (length bs) (S (length (skipn w bs)))); [reflexivity| |]; rewrite ?skipn_length; lia.
Qed.

(* the carry-over law: decoding a ++ b = decoding a, then decoding (carry-over of a) ++ b *)
Lemma lossyF_app a b :
  lossyF (a ++ b) = let '(t1, r1) := lossyF a in let '(t2, r2) := lossyF (r1 ++ b) in (t1 ++ t2, r2).
Proof.
  induction a as [a IH] using suffix_ind.
  rewrite (lossyF_unfold a). pose proof (step_shape a) as Sh.
  destruct (step a) as [|cp n|n|] eqn:E.
  - subst a. destruct (lossyF ([] ++ b)). reflexivity.
  - destruct Sh as [L X]. rewrite (lossyF_unfold (a ++ b)), X, skipn_app_le, IH by lia.
    destruct (lossyF (skipn n a)) as [t1 r1]. destruct (lossyF (r1 ++ b)). reflexivity.
  - destruct Sh as [L X]. rewrite (lossyF_unfold (a ++ b)), X, skipn_app_le, IH by lia.
    destruct (lossyF (skipn n a)) as [t1 r1]. destruct (lossyF (r1 ++ b)). reflexivity.
  - destruct (lossyF (a ++ b)). reflexivity.
Qed.

(* the carry-over is empty or an incomplete sequence *)
Lemma lossyF_rest bs : snd (lossyF bs) = [] \/ step (snd (lossyF bs)) = UIncomplete.
Proof.
  induction bs as [bs IH] using suffix_ind.
  rewrite (lossyF_unfold bs). pose proof (step_shape bs) as Sh.
  destruct (step bs) as [|cp n|n|] eqn:E.
  - left. reflexivity.
  - specialize (IH n (proj1 Sh)). destruct (lossyF (skipn n bs)). exact IH.
  - specialize (IH n (proj1 Sh)). destruct (lossyF (skipn n bs)). exact IH.
  - right. exact E.
Qed.

(* ... so decoding it alone yields nothing *)
Lemma lossyF_rest_idem bs : lossyF (snd (lossyF bs)) = ([], snd (lossyF bs)).
Proof. destruct (lossyF_rest bs) as [->|E]; [reflexivity|]. rewrite lossyF_unfold, E. reflexivity. Qed.

Lemma lossy_rest_short bs : (length (lossy_rest bs) <= 3)%nat.
Proof.
  unfold lossy_rest. fold (lossyF bs). destruct (lossyF_rest bs) as [->|E]; [cbn; lia|].
  pose proof (step_shape (snd (lossyF bs))) as Sh. rewrite E in Sh. lia.
Qed.

(* Ok: the whole input decodes, nothing is carried over.
   Err: the valid prefix decodes to cps, `rest` is the input from valid_up_to on, its head step is
   the reported error, and valid_up_to = 0 only if no character was decoded. *)
Lemma from_utf8_spec bs :
  match from_utf8 bs with
  | UOk c => lossyF bs = (c, [])
  | UErr c v r e =>
      r = skipn v bs /\ (v = 0%nat -> c = []) /\
      (step r = match e with Some k => UInvalid k | None => UIncomplete end) /\
      lossyF bs = (c ++ fst (lossyF r), snd (lossyF r))
  end.
Proof.
  induction bs as [bs IH] using suffix_ind.
  rewrite (from_utf8_unfold bs), (lossyF_unfold bs). pose proof (step_shape bs) as Sh.
  destruct (step bs) as [|cp w|k|] eqn:E.
  - reflexivity.
  - specialize (IH w (proj1 Sh)). destruct (from_utf8 (skipn w bs)) as [c|c v r e].
    + rewrite IH. reflexivity.
    + destruct IH as (Hr & _ & Hs & Hl). rewrite skipn_skipn_add in Hr. rewrite Hl.
      repeat split; [exact Hr|lia|exact Hs].
  - repeat split; [exact E|]. rewrite (lossyF_unfold bs), E. destruct (lossyF (skipn k bs)). reflexivity.
  - repeat split; [exact E|]. rewrite (lossyF_unfold bs), E. reflexivity.
Qed.

Lemma width2 b : 194 <= b -> b <= 223 -> width b = 2.
Proof. intros. unfold width. replace ((194 <=? b) && (b <=? 223)) with true by lia. reflexivity. Qed.
Lemma width3 b : 224 <= b -> b <= 239 -> width b = 3.
Proof.
  intros. unfold width. replace ((194 <=? b) && (b <=? 223)) with false by lia.
  replace ((224 <=? b) && (b <=? 239)) with true by lia. reflexivity.
Qed.
Lemma width4 b : 240 <= b -> b <= 244 -> width b = 4.
Proof.
  intros. unfold width. replace ((194 <=? b) && (b <=? 223)) with false by lia.
  replace ((224 <=? b) && (b <=? 239)) with false by lia.
  replace ((240 <=? b) && (b <=? 244)) with true by lia. reflexivity.
Qed.

(* the step at a well-formed sequence of each width *)
Lemma step1 b r : b < 128 -> step (b :: r) = UChar b 1.
Proof. intros H. unfold step. replace (b <? 128) with true by lia. reflexivity. Qed.
Lemma step2 b0 b1 r : 194 <= b0 -> b0 <= 223 -> is_cont b1 = true ->
  step (b0 :: b1 :: r) = UChar ((b0 - 192) * 64 + (b1 - 128)) 2.
Proof.
  intros L U H1. unfold step. replace (b0 <? 128) with false by lia.
  rewrite width2, H1 by assumption. reflexivity.
Qed.
Lemma step3 b0 b1 b2 r : 224 <= b0 -> b0 <= 239 -> ok3 b0 b1 = true -> is_cont b2 = true ->
  step (b0 :: b1 :: b2 :: r) = UChar ((b0 - 224) * 4096 + (b1 - 128) * 64 + (b2 - 128)) 3.
Proof.
  intros L U H1 H2. unfold step. replace (b0 <? 128) with false by lia.
  rewrite width3, H1, H2 by assumption. reflexivity.
Qed.
Lemma step4 b0 b1 b2 b3 r : 240 <= b0 -> b0 <= 244 -> ok4 b0 b1 = true -> is_cont b2 = true -> is_cont b3 = true ->
  step (b0 :: b1 :: b2 :: b3 :: r)
  = UChar ((b0 - 240) * 262144 + (b1 - 128) * 4096 + (b2 - 128) * 64 + (b3 - 128)) 4.
Proof.
  intros L U H1 H2 H3. unfold step. replace (b0 <? 128) with false by lia.
  rewrite width4, H1, H2, H3 by assumption. reflexivity.
Qed.

Lemma is_cont_digit m : m < 64 -> is_cont (128 + m) = true.
Proof. unfold is_cont. lia. Qed.

Lemma lead_sub a q : a + q - a = q.
Proof. rewrite N.add_comm. apply N.add_sub. Qed.

(* The encoder writes the base-64 digits of c, most significant first; over the digits each width is a
   matter of linear bounds.  (One lemma per width, each with just the facts it needs: the cost of an
   arithmetic goal grows with everything in its context.) *)
Lemma step_enc2 c q m r : c = q * 64 + m -> m < 64 -> 128 <= c -> c < 2048 ->
  step (192 + q :: 128 + m :: r) = UChar c 2.
Proof.
  intros -> M L U. rewrite step2, !lead_sub; [reflexivity|lia|lia|apply is_cont_digit; exact M].
Qed.

Lemma step_enc3 c q m1 m0 r : c = (q * 64 + m1) * 64 + m0 -> m1 < 64 -> m0 < 64 ->
  2048 <= c -> c < 65536 -> is_scalar c = true ->
  step (224 + q :: 128 + m1 :: 128 + m0 :: r) = UChar c 3.
Proof.
  unfold is_scalar. intros -> M1 M0 L U Sc.
  rewrite step3, !lead_sub; [f_equal; ring|apply N.le_add_r|lia|unfold ok3, is_cont; lia|apply is_cont_digit; exact M0].
Qed.

Lemma step_enc4 c q m2 m1 m0 r : c = ((q * 64 + m2) * 64 + m1) * 64 + m0 -> m2 < 64 -> m1 < 64 -> m0 < 64 ->
  65536 <= c -> is_scalar c = true ->
  step (240 + q :: 128 + m2 :: 128 + m1 :: 128 + m0 :: r) = UChar c 4.
Proof.
  unfold is_scalar. intros -> M2 M1 M0 L Sc.
  rewrite step4, !lead_sub; [f_equal; ring|apply N.le_add_r|lia|unfold ok4, is_cont; lia|apply is_cont_digit; assumption ..].
Qed.

Lemma base64 c : exists q m, c = q * 64 + m /\ m < 64 /\ c / 64 = q /\ c mod 64 = m.
Proof.
  exists (c / 64), (c mod 64). rewrite N.mul_comm. repeat split; [apply N.div_mod'|apply N.mod_lt; discriminate].
Qed.

Lemma step_encode c r : is_scalar c = true -> step (encode_cp c ++ r) = UChar c (length (encode_cp c)).
Proof.
  intros Sc. unfold encode_cp.
  replace (c / 4096) with (c / 64 / 64) by (apply N.div_div; discriminate).
  replace (c / 262144) with (c / 64 / 64 / 64) by (rewrite !N.div_div by discriminate; reflexivity).
  destruct (base64 c) as (d1 & m0 & Hc & M0 & -> & ->).
  destruct (base64 d1) as (d2 & m1 & Hd1 & M1 & -> & ->).
  destruct (base64 d2) as (d3 & m2 & Hd2 & M2 & -> & ->).
  destruct (N.ltb_spec c 128) as [L1|L1]; [apply step1; exact L1|].
  destruct (N.ltb_spec c 2048) as [L2|L2]; [apply (step_enc2 c); assumption|].
  subst d1. destruct (N.ltb_spec c 65536) as [L3|L3]; [apply (step_enc3 c); assumption|].
  subst d2. apply (step_enc4 c); assumption.
Qed.

Definition encode (s : list N) : list N := concat (map encode_cp s).

Lemma encode_cp_len c : (1 <= length (encode_cp c))%nat.
Proof. unfold encode_cp. destruct (c <? 128), (c <? 2048), (c <? 65536); cbn; lia. Qed.

Lemma lossy_encode s : forallb is_scalar s = true -> lossyF (encode s) = (s, []).
Proof.
  induction s as [|c s IH]; intros H; [reflexivity|].
  cbn [forallb] in H. apply andb_true_iff in H. destruct H as [Hc Hs].
  unfold encode. cbn [map concat]. rewrite lossyF_unfold, step_encode by exact Hc.
  rewrite skipn_app_le by lia. rewrite skipn_all. cbn [app].
  fold (encode s). rewrite IH by exact Hs. reflexivity.
Qed.
