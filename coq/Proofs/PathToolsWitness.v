(* C13 — witnesses for the tool-access theorems (Proofs/PathToolsProofs.v) *)
From RipV Require Import Base.Prelude Base.Fs Model.Paths Proofs.PathsProofs Proofs.PathToolsProofs.
Require Import Coq.Strings.String.

Definition t_root : str := bs "/r/ws"%string.
Definition t_raw : str := bs "d/./x.txt"%string.
Definition t_ext : str := bs "tmp-0f"%string.
Definition t_names : list str := [bs "sub"%string; bs "f.rs"%string].
(* the workspace root and everything above it exists *)
Definition t_ex (s : str) : bool := list_eqb lN_eqb (real_segs s) (real_segs t_root) || list_eqb lN_eqb (real_segs s) [bs "r"%string] || list_eqb lN_eqb (real_segs s) [].
Definition t_write_accs : list (N * str) :=
  [(3, bs "/r/ws/d"%string); (3, bs "/r/ws"%string); (5, bs "/r/ws/d/./x.txt"%string); (4, bs "/r/ws/d/./x.tmp-0f"%string);
   (2, bs "/r/ws/d/./x.txt"%string); (6, bs "/r/ws/d/./x.txt"%string); (6, bs "/r/ws/d/./x.tmp-0f"%string);
   (7, bs "/r/ws/d/./x.tmp-0f"%string); (7, bs "/r/ws/d/./x.txt"%string); (6, bs "/r/ws/d/./x.tmp-0f"%string);
   (4, bs "/r/ws/d/./x.txt"%string)].
Definition t_dir : str := bs "d"%string.
Definition t_up : str := bs "../x"%string.
Definition t_dotslash : str := bs "./"%string.
Definition t_name : str := bs "x.txt"%string.
Definition t_grep_accs : list (N * str) := [(8, bs "/r/ws/d"%string); (1, bs "/r/ws/d/sub/f.rs"%string)].
Lemma ex_write_run : tool_run expected_progs TWrite t_ex t_root t_raw t_ext t_names = (0, t_write_accs).
Proof. vm_compute. reflexivity. Qed.
Lemma ex_grep_run : tool_run expected_progs TGrep t_ex t_root t_dir t_ext t_names = (0, t_grep_accs).
Proof. vm_compute. reflexivity. Qed.
Lemma ex_refused_run : tool_run expected_progs TWrite t_ex t_root t_up t_ext t_names = (V_PARENT, [])
  /\ tool_run expected_progs TWrite t_ex t_root t_dotslash t_ext t_names = (V_NOFILE, [])
  /\ tool_run expected_progs TCwdDefault t_ex t_root [] t_ext t_names = (0, [(9, t_root)]).
Proof. vm_compute. repeat split; reflexivity. Qed.
Lemma ex_hyps : is_absolute t_root = true /\ has_parent t_root = false /\ no_sep t_root = false
  /\ forallb proper_name t_names = true /\ t_ext <> [] /\ ~ In 47 t_ext
  /\ proper_name t_name = true /\ tmp_safe t_name = true.
Proof.
  repeat split; try (vm_compute; reflexivity); try discriminate.
  intros H. vm_compute in H. repeat (destruct H as [H|H]; [discriminate|]). exact H.
Qed.
Lemma ex_tmp : with_extension (bs "/r/ws/d/./x.txt"%string) t_ext = bs "/r/ws/d/./x.tmp-0f"%string
  /\ with_extension (bs "/r/ws/a.tar.gz/."%string) t_ext = bs "/r/ws/a.tar.tmp-0f"%string
  /\ parent (bs "/r/ws//d/./x.txt/"%string) = Some (bs "/r/ws//d"%string).
Proof. vm_compute. repeat split; reflexivity. Qed.

(* `tool_run_unguarded`: the write tool without its refusal of a path that has no file name (finding S10b; the refusal
   is commit 0a47111 of /repo): for '' / '.' / './' the parent chain and the temporary file lie NEXT TO the workspace root *)
Lemma write_unguarded_refuted :
  exists raw o q, In (o, q) (snd (tool_run_unguarded expected_progs TWrite t_ex t_root raw t_ext t_names))
    /\ underb [] t_root q = false.
Proof. exists (bs "./"%string), 4, (bs "/r/ws.tmp-0f"%string). split; [vm_compute; tauto|vm_compute; reflexivity]. Qed.

(* std's with_extension cuts len(extension) bytes off the path text: for a file name `..x` that leaves `..`, a path
   without a file name, and the atomic write's "temporary file" is the directory ABOVE the resolved one - for a name
   directly under the root, the root's parent (the write fails with EISDIR: nothing is created or changed) *)
Lemma write_tmp_dotdot_refuted :
  exists raw o q, tool_refuses_dir TWrite raw = false
    /\ In (o, q) (snd (tool_run expected_progs TWrite t_ex t_root raw t_ext t_names))
    /\ underb [] t_root q = false /\ tmp_safe raw = false.
Proof.
  exists (bs "..a"%string), 4, (bs "/r/ws/.."%string).
  split; [vm_compute; reflexivity|]. split; [vm_compute; tauto|]. split; vm_compute; reflexivity.
Qed.
