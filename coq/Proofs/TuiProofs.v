(* C20 — proofs about Model/Tui.v: the frame window, the bounded texts and the id-keyed maps each keep an invariant
   under one [update]; the bounds after any frame sequence are these invariants carried over the fold. *)
From Coq Require Import Sorting.Sorted.
From RipV Require Import Base.Prelude Model.Tui.

Lemma fs_push_maxf s f : maxf (fs_push s f) = maxf s.
Proof. unfold fs_push. destruct (Nat.leb _ _); reflexivity. Qed.

Definition FsInv (s : fstore) : Prop := (1 <= maxf s)%nat /\ (length (frames s) <= maxf s)%nat.

Lemma fs_new_inv m : FsInv (fs_new m).
Proof. unfold FsInv, fs_new; cbn. lia. Qed.

Lemma fs_push_inv s f : FsInv s -> FsInv (fs_push s f).
Proof.
  intros [Hm Hl]. unfold FsInv. rewrite fs_push_maxf. split; [exact Hm|]. unfold fs_push.
  destruct (Nat.leb (maxf s) (length (frames s))) eqn:E; cbn [frames]; rewrite app_length; cbn [length]; [|lia].
  destruct (frames s); cbn [tl length] in *; lia.
Qed.

Theorem frames_bounded m fs :
  (length (frames (fold_left fs_push fs (fs_new m))) <= Nat.max m 1)%nat.
Proof.
  set (t := fold_left fs_push fs (fs_new m)).
  assert (H : FsInv t /\ maxf t = Nat.max m 1).
  { apply (fold_left_inv fs_push (fun s => FsInv s /\ maxf s = Nat.max m 1)).
    - intros s f [H E]. rewrite fs_push_maxf. auto using fs_push_inv.
    - split; [apply fs_new_inv | reflexivity]. }
  destruct H as [[_ H] E]. rewrite E in H. exact H.
Qed.

Theorem index_lookup_sound s q i :
  fs_index_of_seq s q = Some i -> exists f, nth_error (frames s) i = Some f /\ fseq f = q.
Proof.
  unfold fs_index_of_seq. destruct (fs_slot_of_seq s q) as [j|]; [|discriminate].
  destruct (nth_error (frames s) j) as [g|] eqn:En; [|discriminate].
  destruct (fseq g =? q) eqn:Eq; [|discriminate].
  intros H; inversion H; subst j. exists g. split; [exact En | apply N.eqb_eq, Eq].
Qed.

Theorem lookup_sound s q f :
  fs_get_by_seq s q = Some f -> fseq f = q /\ In f (frames s).
Proof.
  unfold fs_get_by_seq. destruct (fs_index_of_seq s q) as [i|] eqn:Ei; [|discriminate].
  destruct (index_lookup_sound _ _ _ Ei) as [g [Hg Hq]]. rewrite Hg. intros H; inversion H; subst g.
  split; [exact Hq | eapply nth_error_In, Hg].
Qed.

(* the slot arithmetic alone points at a frame with another seq on a reachable store *)
Lemma slot_lookup_refuted :
  exists fs m q i f, fs_slot_of_seq (fold_left fs_push fs (fs_new m)) q = Some i
    /\ nth_error (frames (fold_left fs_push fs (fs_new m))) i = Some f /\ fseq f <> q.
Proof.
  exists [ {| fseq := 0; fid := 100 |}; {| fseq := 5; fid := 105 |} ], 10%nat, 1, 1%nat, {| fseq := 5; fid := 105 |}.
  split; [vm_compute; reflexivity|]. split; [vm_compute; reflexivity | cbn; lia].
Qed.

(* the unrepaired lookup returns a different frame on a reachable store (S14) *)
Definition s14_store : fstore :=
  fold_left fs_push [ {| fseq := 0; fid := 100 |}; {| fseq := 5; fid := 105 |} ] (fs_new 10).

Lemma lookup_unchecked_refuted :
  exists fs m q f, fs_get_by_seq_unchecked (fold_left fs_push fs (fs_new m)) q = Some f /\ fseq f <> q.
Proof.
  destruct slot_lookup_refuted as [fs [m [q [i [f [Hs [Hn Hq]]]]]]].
  exists fs, m, q, f. unfold fs_get_by_seq_unchecked. rewrite Hs. auto.
Qed.

(* completeness on consecutive streams: frames carry base, base+1, ... *)
Fixpoint consec (b : N) (l : list frame) : Prop :=
  match l with [] => True | f :: r => fseq f = b /\ consec (b + 1) r end.

Definition Consec (s : fstore) : Prop := consec (base s) (frames s).

Lemma consec_app b l f :
  consec b l -> fseq f = b + nlen l -> consec b (l ++ [f]).
Proof.
  revert b; induction l as [|g l IH]; intros b H Hf; cbn [consec app] in *.
  - rewrite nlen_nil in Hf. split; [lia | exact I].
  - destruct H as [Hg Hr]. split; [exact Hg|]. apply IH; [exact Hr|].
    rewrite nlen_cons in Hf. lia.
Qed.

Lemma consec_nth b l i f :
  consec b l -> nth_error l i = Some f -> fseq f = b + N.of_nat i.
Proof.
  revert b i; induction l as [|g l IH]; intros b i H Hn; [destruct i; discriminate|].
  destruct H as [Hg Hr]. destruct i as [|i]; cbn [nth_error] in Hn.
  - inversion Hn; subst; lia.
  - rewrite (IH _ _ Hr Hn). lia.
Qed.

Theorem push_consec s f :
  Consec s -> (1 <= maxf s)%nat ->
  (frames s = [] \/ fseq f = base s + nlen (frames s)) -> base s + nlen (frames s) < U64MAX ->
  Consec (fs_push s f).
Proof.
  unfold Consec, fs_push. intros Hc Hm Hf Hov.
  destruct (frames s) as [|g l] eqn:Efr.
  - destruct (Nat.leb (maxf s) (length (@nil frame))) eqn:E; [apply Nat.leb_le in E; cbn in E; lia|].
    cbn [base frames app consec]. split; [reflexivity | exact I].
  - destruct Hf as [Hf|Hf]; [discriminate|].
    destruct (Nat.leb (maxf s) (length (g :: l))) eqn:E; cbn [base frames tl].
    + rewrite nlen_cons in Hf, Hov. unfold sat_add64. rewrite N.min_l by lia.
      apply consec_app; [exact (proj2 Hc)|]. lia.
    + apply consec_app; [exact Hc | exact Hf].
Qed.

Theorem index_complete_consecutive s i f :
  Consec s -> nth_error (frames s) i = Some f -> fs_index_of_seq s (fseq f) = Some i.
Proof.
  unfold Consec. intros Hc Hn.
  pose proof (consec_nth _ _ _ _ Hc Hn) as Hs.
  assert (Hi : (i < length (frames s))%nat) by (apply nth_error_Some; congruence).
  unfold fs_index_of_seq, fs_slot_of_seq.
  destruct (frames s) as [|g l] eqn:Efr; [destruct i; discriminate|].
  rewrite <- Efr in *.
  destruct (fseq f <? base s) eqn:E1; [lia|].
  destruct (nlen (frames s) <=? fseq f - base s) eqn:E2; [unfold nlen in E2; lia|].
  replace (N.to_nat (fseq f - base s)) with i by lia.
  rewrite Hn, N.eqb_refl. reflexivity.
Qed.

Theorem lookup_complete_consecutive s i f :
  Consec s -> nth_error (frames s) i = Some f ->
  fs_get_by_seq s (fseq f) = Some f.
Proof.
  intros Hc Hn. unfold fs_get_by_seq. rewrite (index_complete_consecutive s i f Hc Hn). exact Hn.
Qed.

Lemma blen_app a b : blen (a ++ b) = blen a + blen b.
Proof. unfold blen. rewrite map_app, sumN_app. reflexivity. Qed.

(* the cut is a suffix that starts on a character boundary at or after the requested offset *)
Lemma drop_to_suffix k s :
  exists pre, s = pre ++ drop_to k s /\ (k <= blen s -> k <= blen pre) /\ (blen s < k -> drop_to k s = []).
Proof.
  revert k; induction s as [|c r IH]; intros k; cbn [drop_to].
  - exists []. cbn. repeat split; auto; unfold blen; cbn; lia.
  - destruct (k =? 0) eqn:E.
    + apply N.eqb_eq in E; subst k. exists []. cbn [app]. split; [reflexivity|].
      split; intros H; [unfold blen; cbn; lia | lia].
    + destruct (IH (k - cpw c)) as [pre [Hs [Hk Hlt]]].
      exists (c :: pre). cbn [app]. split; [f_equal; exact Hs|].
      unfold blen in *; cbn [map sumN]. split; intros Hle; [|apply Hlt; lia].
      destruct (N.le_gt_cases (cpw c) k) as [Hck|Hck].
      * assert (Hr : k - cpw c <= sumN (map cpw r)) by lia. specialize (Hk Hr). lia.
      * lia.
Qed.

Lemma drop_to_blen k s : blen (drop_to k s) <= blen s - k.
Proof.
  destruct (drop_to_suffix k s) as [pre [Hs [Hk Hlt]]].
  destruct (N.le_gt_cases k (blen s)) as [H|H].
  - specialize (Hk H). rewrite Hs at 2. rewrite blen_app. lia.
  - rewrite (Hlt H). unfold blen; cbn. lia.
Qed.

Theorem push_bounded_le maxb t c :
  blen t <= maxb -> blen (fst (push_bounded maxb t c)) <= maxb.
Proof.
  intros H. unfold push_bounded. destruct c as [|x c]; [exact H|].
  set (t' := t ++ x :: c).
  destruct (blen t' <=? maxb) eqn:E; cbn [fst]; [lia|].
  pose proof (drop_to_blen (blen t' - maxb / 2) t'). lia.
Qed.

(* the truncated text is always a suffix of (old ++ chunk): nothing is invented or reordered (that the byte
   offset of the cut lands on a character boundary is [drop_to_suffix]) *)
Theorem push_bounded_suffix maxb t c :
  exists pre, t ++ c = pre ++ fst (push_bounded maxb t c).
Proof.
  unfold push_bounded. destruct c as [|x c].
  - exists []. cbn [fst app]. apply app_nil_r.
  - destruct (blen (t ++ x :: c) <=? maxb); cbn [fst].
    + exists []. reflexivity.
    + destruct (drop_to_suffix (blen (t ++ x :: c) - maxb / 2) (t ++ x :: c)) as [pre [Hs _]].
      exists pre. exact Hs.
Qed.

Definition all_tools_le (mp : N) (m : list (N * tool)) : Prop :=
  Forall (fun kt => blen (t_out (snd kt)) <= mp /\ blen (t_err (snd kt)) <= mp) m.
Definition all_tasks_le (mp : N) (m : list (N * task)) : Prop :=
  Forall (fun kt => blen (k_out (snd kt)) <= mp /\ blen (k_err (snd kt)) <= mp /\ blen (k_pty (snd kt)) <= mp) m.

Definition TuiInv (s : tui) : Prop :=
  FsInv (st_frames s) /\ blen (st_output s) <= st_max_out s
  /\ all_tools_le (st_max_prev s) (st_tools s) /\ all_tasks_le (st_max_prev s) (st_tasks s).

Lemma map_put_Forall {V} (P : N * V -> Prop) k v m :
  Forall P m -> P (k, v) -> Forall P (map_put k v m).
Proof.
  intros Hm Hv. induction m as [|[k' v'] r IH]; cbn [map_put]; [constructor; auto|].
  inversion Hm; subst.
  destruct (k <? k'); [constructor; auto|].
  destruct (k =? k'); constructor; auto.
Qed.

Lemma map_get_Forall {V} (P : N * V -> Prop) k v m :
  Forall P m -> map_get k m = Some v -> P (k, v).
Proof.
  intros Hm. induction m as [|[k' v'] r IH]; cbn [map_get]; [discriminate|].
  inversion Hm; subst. destruct (N.eqb_spec k k') as [->|_]; [intros E; inversion E; subst; assumption | auto].
Qed.

Lemma out_push_le maxb ot d : blen (fst ot) <= maxb -> blen (fst (out_push maxb ot d)) <= maxb.
Proof.
  intros H. unfold out_push. pose proof (push_bounded_le maxb (fst ot) d H).
  destruct (push_bounded maxb (fst ot) d); exact H0.
Qed.

Lemma prompt_le maxb ot i : blen (fst ot) <= maxb -> blen (fst (push_user_prompt maxb ot i)) <= maxb.
Proof.
  intros H. unfold push_user_prompt. destruct (forallb is_ws i); [exact H|].
  repeat apply out_push_le. exact H.
Qed.

Lemma upd_tools_inv s k : all_tools_le (st_max_prev s) (st_tools s) -> all_tools_le (st_max_prev s) (upd_tools s k).
Proof.
  intros H. unfold upd_tools, all_tools_le in *.
  destruct k; try exact H;
    try (destruct (map_get id (st_tools s)) as [t|] eqn:Eg; [|exact H];
         destruct (map_get_Forall _ _ _ _ H Eg) as [Ho He]; cbn [snd] in *;
         apply map_put_Forall; [exact H|]; cbn [snd t_out t_err]; split;
         try assumption; apply push_bounded_le; assumption).
  (* tool_started: a fresh entry with empty previews *)
  apply map_put_Forall; [exact H|]. cbn. unfold blen; cbn. lia.
Qed.

Lemma upd_tasks_inv s k : all_tasks_le (st_max_prev s) (st_tasks s) -> all_tasks_le (st_max_prev s) (upd_tasks s k).
Proof.
  intros H. unfold upd_tasks, all_tasks_le in *.
  destruct k; try exact H.
  - apply map_put_Forall; [exact H|]. cbn. unfold blen; cbn. lia.
  - destruct (map_get id (st_tasks s)) as [t|] eqn:Eg.
    + destruct (map_get_Forall _ _ _ _ H Eg) as [Ho [He Hp]]; cbn [snd] in *.
      apply map_put_Forall; [exact H|]. cbn. auto.
    + apply map_put_Forall; [exact H|]. cbn. unfold blen; cbn. lia.
  - destruct (map_get id (st_tasks s)) as [t|] eqn:Eg; [|exact H].
    destruct (map_get_Forall _ _ _ _ H Eg) as [Ho [He Hp]]; cbn [snd] in *.
    destruct (stream =? 0); [|destruct (stream =? 1)];
      (apply map_put_Forall; [exact H|]); cbn [snd k_out k_err k_pty];
      repeat split; try assumption; apply push_bounded_le; assumption.
Qed.

Lemma update_inv s e : TuiInv s -> TuiInv (update s e).
Proof.
  intros [Hf [Ho [Ht Hk]]]. unfold TuiInv, update; cbn [st_frames st_output st_max_out st_max_prev st_tools st_tasks].
  split; [apply fs_push_inv, Hf|]. split.
  - destruct (ekd e); cbn [fst]; try exact Ho; [apply prompt_le | apply out_push_le]; exact Ho.
  - split; [apply upd_tools_inv, Ht | apply upd_tasks_inv, Hk].
Qed.

Lemma tui_new_inv m mo af : TuiInv (tui_new m mo af).
Proof.
  unfold TuiInv, tui_new; cbn. split; [apply fs_new_inv|].
  split; [unfold blen; cbn; lia|]. split; constructor.
Qed.

Lemma update_consts s e : st_max_out (update s e) = st_max_out s /\ st_max_prev (update s e) = st_max_prev s
  /\ maxf (st_frames (update s e)) = maxf (st_frames s).
Proof. unfold update; cbn. repeat split. apply fs_push_maxf. Qed.

Lemma run_inv evs s : TuiInv s ->
  TuiInv (fold_left update evs s) /\ st_max_out (fold_left update evs s) = st_max_out s
  /\ st_max_prev (fold_left update evs s) = st_max_prev s
  /\ maxf (st_frames (fold_left update evs s)) = maxf (st_frames s).
Proof.
  intros H.
  apply (fold_left_inv update (fun t => TuiInv t /\ st_max_out t = st_max_out s /\ st_max_prev t = st_max_prev s
                                        /\ maxf (st_frames t) = maxf (st_frames s))); [|auto].
  intros t e [A [B [C D]]]. destruct (update_consts t e) as [B' [C' D']]. rewrite B', C', D'.
  auto using update_inv.
Qed.

Theorem tui_bounds m mo af evs :
  let s := run_tui m mo af evs in
  (length (frames (st_frames s)) <= Nat.max m 1)%nat
  /\ blen (st_output s) <= N.max mo 1
  /\ all_tools_le 8192 (st_tools s) /\ all_tasks_le 8192 (st_tasks s).
Proof.
  unfold run_tui.
  destruct (run_inv evs _ (tui_new_inv m mo af)) as [[[_ Hf] [Ho [Ht Hk]]] [B [C D]]].
  (* 8192 is st_max_prev as tui_new sets it (DEFAULT_MAX_PREVIEW_BYTES in state.rs) *)
  rewrite B in Ho. rewrite C in Ht, Hk. rewrite D in Hf. cbn in *. auto.
Qed.

(* ---------- the id-keyed maps: one entry per distinct id seen, bounded previews per entry ---------- *)
Definition keys {V} (m : list (N * V)) : list N := map fst m.

Definition tool_ids_of (k : ekind) : list N := match k with KToolStarted id => [id] | _ => [] end.
Definition task_ids_of (k : ekind) : list N :=
  match k with KTaskSpawned id _ => [id] | KTaskStatus id _ _ => [id] | _ => [] end.
Definition job_ids_of (k : ekind) : list N :=
  match k with KJobSpawned id => [id] | KJobEnded id => [id] | _ => [] end.
(* artifact ids a frame carries *)
Definition art_ids_of (k : ekind) : list N :=
  match k with
  | KToolEnded _ a => a | KTaskSpawned _ a => a | KTaskStatus _ _ a => a | KTaskDelta _ _ _ a => a
  | KContextCompiled x => [x] | KCkptCreated x => [x] | KOrRequest x => [x]
  | _ => []
  end.
(* the ids for which a frame that creates an entry was seen *)
Definition tool_ids (evs : list ev) : list N := flat_map (fun e => tool_ids_of (ekd e)) evs.
Definition task_ids (evs : list ev) : list N := flat_map (fun e => task_ids_of (ekd e)) evs.
Definition job_ids (evs : list ev) : list N := flat_map (fun e => job_ids_of (ekd e)) evs.
Definition art_ids (evs : list ev) : list N := flat_map (fun e => art_ids_of (ekd e)) evs.
Definition distinct (l : list N) : N := nlen (nodup N.eq_dec l).

Lemma map_put_in {V} k (v : V) m x : In x (keys (map_put k v m)) <-> x = k \/ In x (keys m).
Proof.
  unfold keys. induction m as [|[k' v'] r IH]; cbn [map_put map fst]; [cbn; intuition|].
  destruct (k <? k'); [cbn; intuition|].
  destruct (N.eqb_spec k k') as [->|_]; cbn [map fst In]; [|rewrite IH]; intuition.
Qed.

Lemma map_put_sorted {V} k (v : V) m :
  StronglySorted N.lt (keys m) -> StronglySorted N.lt (keys (map_put k v m)).
Proof.
  unfold keys. induction m as [|[k' v'] r IH]; cbn [map_put map fst]; intros Hs; [repeat constructor|].
  pose proof (StronglySorted_inv Hs) as [Hr Hall].
  destruct (k <? k') eqn:E1; cbn [map fst].
  - constructor; [exact Hs|]. constructor; [lia|].
    eapply Forall_impl; [|exact Hall]. cbn. intros a Ha. lia.
  - destruct (N.eqb_spec k k') as [->|NE]; cbn [map fst]; [exact Hs|].
    constructor; [exact (IH Hr)|]. apply Forall_forall. intros x Hx. apply map_put_in in Hx.
    destruct Hx as [->|Hx]; [lia|]. rewrite Forall_forall in Hall. apply Hall, Hx.
Qed.

Lemma map_get_in_keys {V} k (v : V) m : map_get k m = Some v -> In k (keys m).
Proof.
  unfold keys. induction m as [|[k' v'] r IH]; cbn [map_get map fst]; [discriminate|].
  destruct (k =? k') eqn:E; [apply N.eqb_eq in E; subst; intros _; left; reflexivity | intros H; right; auto].
Qed.

Lemma ssorted_nodup l : StronglySorted N.lt l -> NoDup l.
Proof.
  induction 1 as [|x r Hs IH Hall]; constructor; [|exact IH].
  intros Hin. rewrite Forall_forall in Hall. specialize (Hall _ Hin). lia.
Qed.

Definition KInv {V} (m : list (N * V)) (ids : list N) : Prop :=
  StronglySorted N.lt (keys m) /\ incl (keys m) ids.

(* a put adds its key or replaces the entry of a key that is already there: [KInv_put_new] accounts for the key
   among the ids seen (whether or not it is new), [KInv_put_existing] needs no accounting *)
Lemma KInv_put_new {V} k (v : V) m ids : KInv m ids -> KInv (map_put k v m) (ids ++ [k]).
Proof.
  intros [Hs Hi]. split; [apply map_put_sorted, Hs|].
  intros x Hx. apply map_put_in in Hx. apply in_or_app. destruct Hx as [->|Hx]; [right; left; reflexivity | left; apply Hi, Hx].
Qed.
Lemma KInv_put_existing {V} k (v w : V) m ids extra :
  KInv m ids -> map_get k m = Some w -> KInv (map_put k v m) (ids ++ extra).
Proof.
  intros [Hs Hi] Hg. split; [apply map_put_sorted, Hs|].
  intros x Hx. apply in_or_app. left. apply Hi. apply map_put_in in Hx.
  destruct Hx as [->|Hx]; [eapply map_get_in_keys, Hg | exact Hx].
Qed.
Lemma KInv_weaken {V} (m : list (N * V)) ids extra : KInv m ids -> KInv m (ids ++ extra).
Proof. intros [Hs Hi]. split; [exact Hs|]. intros x Hx. apply in_or_app. left. apply Hi, Hx. Qed.

Lemma upd_tools_keys s k ids :
  KInv (st_tools s) ids -> KInv (upd_tools s k) (ids ++ tool_ids_of k).
Proof.
  intros H. unfold upd_tools.
  destruct k; cbn [tool_ids_of]; try (apply KInv_weaken; exact H);
    try (destruct (map_get id (st_tools s)) as [t|] eqn:Eg; [eapply KInv_put_existing; eauto | apply KInv_weaken; exact H]).
  apply KInv_put_new, H.
Qed.

Lemma upd_tasks_keys s k ids :
  KInv (st_tasks s) ids -> KInv (upd_tasks s k) (ids ++ task_ids_of k).
Proof.
  intros H. unfold upd_tasks.
  destruct k; cbn [task_ids_of]; try (apply KInv_weaken; exact H).
  - apply KInv_put_new, H.
  - destruct (map_get id (st_tasks s)) as [t|] eqn:Eg; apply KInv_put_new, H.
  - destruct (map_get id (st_tasks s)) as [t|] eqn:Eg; [|apply KInv_weaken; exact H].
    destruct (stream =? 0); [|destruct (stream =? 1)]; eapply KInv_put_existing; eauto.
Qed.

Lemma upd_jobs_keys s k ids :
  KInv (st_jobs s) ids -> KInv (upd_jobs s k) (ids ++ job_ids_of k).
Proof.
  intros H. unfold upd_jobs.
  destruct k; cbn [job_ids_of]; try (apply KInv_weaken; exact H); apply KInv_put_new, H.
Qed.

Lemma set_add_all_keys xs : forall (m : idset) ids, KInv m ids -> KInv (set_add_all xs m) (ids ++ xs).
Proof.
  unfold set_add_all. induction xs as [|x xs IH]; intros m ids H; cbn [fold_left]; [rewrite app_nil_r; exact H|].
  replace (ids ++ x :: xs) with ((ids ++ [x]) ++ xs) by (rewrite <- app_assoc; reflexivity).
  apply IH, KInv_put_new, H.
Qed.

Lemma upd_artifacts_keys s k ids :
  KInv (st_artifacts s) ids -> KInv (upd_artifacts s k) (ids ++ art_ids_of k).
Proof.
  intros H. unfold upd_artifacts.
  destruct k; cbn [art_ids_of]; try (apply KInv_weaken; exact H); try (apply KInv_put_new, H);
    try (apply set_add_all_keys, H).
  - destruct (map_get id (st_tools s)); [apply set_add_all_keys, H | apply KInv_weaken, H].
  - destruct (map_get id (st_tasks s)); [apply set_add_all_keys, H | apply KInv_weaken, H].
Qed.

Definition MapsInv (s : tui) (seen : list ev) : Prop :=
  KInv (st_tools s) (tool_ids seen) /\ KInv (st_tasks s) (task_ids seen) /\ KInv (st_jobs s) (job_ids seen)
  /\ KInv (st_artifacts s) (art_ids seen).

Lemma update_maps s e seen : MapsInv s seen -> MapsInv (update s e) (seen ++ [e]).
Proof.
  intros [Ht [Hk [Hj Ha]]]. unfold MapsInv, tool_ids, task_ids, job_ids, art_ids.
  rewrite !flat_map_app. cbn [flat_map]. rewrite !app_nil_r.
  unfold update; cbn [st_tools st_tasks st_jobs st_artifacts].
  split; [apply upd_tools_keys, Ht|]. split; [apply upd_tasks_keys, Hk |].
  split; [apply upd_jobs_keys, Hj | apply upd_artifacts_keys, Ha].
Qed.

Lemma run_maps evs s seen : MapsInv s seen -> MapsInv (fold_left update evs s) (seen ++ evs).
Proof.
  revert s seen; induction evs as [|e evs IH]; cbn [fold_left]; intros s seen H; [rewrite app_nil_r; exact H|].
  replace (seen ++ e :: evs) with ((seen ++ [e]) ++ evs) by (rewrite <- app_assoc; reflexivity).
  apply IH, update_maps, H.
Qed.

Lemma KInv_count {V} (m : list (N * V)) ids : KInv m ids -> NoDup (keys m) /\ nlen m <= distinct ids.
Proof.
  intros [Hs Hi]. pose proof (ssorted_nodup _ Hs) as Hn. split; [exact Hn|].
  unfold distinct, nlen.
  assert (length (keys m) <= length (nodup N.eq_dec ids))%nat.
  { apply NoDup_incl_length; [exact Hn|]. intros x Hx. apply nodup_In, Hi, Hx. }
  unfold keys in H. rewrite map_length in H. lia.
Qed.

(* bytes held by the previews of the maps *)
Definition tool_bytes (t : tool) : N := blen (t_out t) + blen (t_err t).
Definition task_bytes (t : task) : N := blen (k_out t) + blen (k_err t) + blen (k_pty t).
Definition tools_bytes (m : list (N * tool)) : N := sumN (map (fun kt => tool_bytes (snd kt)) m).
Definition tasks_bytes (m : list (N * task)) : N := sumN (map (fun kt => task_bytes (snd kt)) m).

Lemma sumN_map_le {A} (f : A -> N) c l : Forall (fun x => f x <= c) l -> sumN (map f l) <= c * nlen l.
Proof. induction 1 as [|x r Hx _ IH]; cbn [map sumN]; [apply N.le_0_l|]. rewrite nlen_cons. lia. Qed.

Lemma tools_bytes_le mp m : all_tools_le mp m -> tools_bytes m <= 2 * mp * nlen m.
Proof.
  intros H. apply sumN_map_le. eapply Forall_impl; [|exact H]. intros kt [H1 H2]. unfold tool_bytes. lia.
Qed.
Lemma tasks_bytes_le mp m : all_tasks_le mp m -> tasks_bytes m <= 3 * mp * nlen m.
Proof.
  intros H. apply sumN_map_le. eapply Forall_impl; [|exact H]. intros kt [H1 [H2 H3]]. unfold task_bytes. lia.
Qed.

(* everything the state holds that grows with the stream, in bytes of text *)
Definition held_bytes (s : tui) : N := blen (st_output s) + tools_bytes (st_tools s) + tasks_bytes (st_tasks s).

(* The tool / task / job maps are unbounded by design (one entry per id); the bound that does hold: at most one
   entry per DISTINCT id for which a creating frame was seen, every entry's previews within max_preview, hence the
   text held is bounded by the output cap plus 8192 bytes per preview slot of the distinct ids. *)
Theorem tui_maps_bounded m mo af evs :
  let s := run_tui m mo af evs in
  (nlen (st_tools s) <= distinct (tool_ids evs) /\ NoDup (keys (st_tools s)))
  /\ (nlen (st_tasks s) <= distinct (task_ids evs) /\ NoDup (keys (st_tasks s)))
  /\ (nlen (st_jobs s) <= distinct (job_ids evs) /\ NoDup (keys (st_jobs s)))
  /\ (nlen (st_artifacts s) <= distinct (art_ids evs) /\ NoDup (keys (st_artifacts s)))
  /\ held_bytes s <= N.max mo 1 + 8192 * (2 * distinct (tool_ids evs) + 3 * distinct (task_ids evs)).
Proof.
  cbv zeta. unfold run_tui.
  assert (H0 : MapsInv (tui_new m mo af) []) by (unfold MapsInv, KInv, tui_new; cbn; repeat split; try constructor; intros x []).
  pose proof (run_maps evs _ _ H0) as [Ht [Hk [Hj Ha]]]. cbn [app] in *.
  destruct (KInv_count _ _ Ha) as [Na Ca].
  destruct (KInv_count _ _ Ht) as [Nt Ct]. destruct (KInv_count _ _ Hk) as [Nk Ck]. destruct (KInv_count _ _ Hj) as [Nj Cj].
  pose proof (tui_bounds m mo af evs) as Hb. cbv zeta in Hb. unfold run_tui in Hb.
  destruct Hb as [_ [Ho [Hto Hta]]].
  repeat split; try assumption.
  unfold held_bytes. pose proof (tools_bytes_le _ _ Hto) as B1. pose proof (tasks_bytes_le _ _ Hta) as B2.
  set (nt := nlen (st_tools _)) in *. set (nk := nlen (st_tasks _)) in *.
  set (dt := distinct (tool_ids evs)) in *. set (dk := distinct (task_ids evs)) in *.
  assert (2 * 8192 * nt <= 2 * 8192 * dt) by (apply N.mul_le_mono_l; exact Ct).
  assert (3 * 8192 * nk <= 3 * 8192 * dk) by (apply N.mul_le_mono_l; exact Ck).
  lia.
Qed.

(* the maps really are unbounded in the number of ids: n tool_started frames with ids 0..n-1 leave n entries *)
(* the tool_started frame with id i, and the entry it creates *)
Definition started (i : nat) : ev := {| eseq := 0; ets := 0; ekd := KToolStarted (N.of_nat i); eident := 0 |}.
Definition fresh_tool : tool := {| t_out := []; t_err := []; t_status := 0; t_arts := [] |}.
Lemma st_tools_started s i : st_tools (update s (started i)) = map_put (N.of_nat i) fresh_tool (st_tools s).
Proof. reflexivity. Qed.
Lemma map_put_above_len {V} k (v : V) m :
  (forall x, In x (keys m) -> x < k) -> length (map_put k v m) = S (length m).
Proof.
  induction m as [|[k' v'] r IHm]; intros Hm; cbn [map_put length]; [reflexivity|].
  assert (k' < k) by (apply Hm; left; reflexivity).
  destruct (k <? k') eqn:E1; [lia|]. destruct (k =? k') eqn:E2; [lia|].
  cbn [length]. rewrite IHm; [reflexivity|]. intros x Hx. apply Hm. right. exact Hx.
Qed.
Lemma starts_grow n : forall k (s : tui),
  (forall x, In x (keys (st_tools s)) -> x < N.of_nat k) ->
  length (st_tools (fold_left update (map started (seq k n)) s)) = (length (st_tools s) + n)%nat.
Proof.
  induction n as [|n IH]; intros k s Hlt; cbn [seq map fold_left]; [lia|].
  rewrite (IH (S k)).
  - rewrite st_tools_started, map_put_above_len by exact Hlt. lia.
  - intros x Hx. rewrite st_tools_started in Hx.
    apply map_put_in in Hx. destruct Hx as [->|Hx]; [lia|]. specialize (Hlt _ Hx). lia.
Qed.
Lemma tui_maps_grow_with_ids :
  forall n : nat, exists evs, length (st_tools (run_tui 1 1 true evs)) = n.
Proof.
  intros n. exists (map started (seq 0 n)). unfold run_tui.
  rewrite starts_grow; [reflexivity|]. intros x [].
Qed.

(* selected_event never shows a frame other than the selected seq *)
Theorem selected_event_sound s f :
  selected_event s = Some f -> st_selected s = Some (fseq f).
Proof.
  unfold selected_event. destruct (st_selected s) as [q|]; [|discriminate].
  intros H. apply lookup_sound in H. destruct H as [H _]. congruence.
Qed.

(* non-vacuity: a reachable state with gaps, repeats, eviction and truncation *)
Definition demo_evs : list ev :=
  [ {| eseq := 7; ets := 1; ekd := KSessionStarted [104; 105]; eident := 0 |};
    {| eseq := 7; ets := 2; ekd := KOutputDelta [8364; 8364; 8364; 8364; 8364]; eident := 1 |};
    {| eseq := 3; ets := 3; ekd := KToolStarted 1; eident := 2 |};
    {| eseq := 100; ets := 4; ekd := KToolStdout 1 [120]; eident := 3 |} ].

Example demo_state_nontrivial :
  let s := run_tui 3 10 true demo_evs in
  length (frames (st_frames s)) = 3%nat /\ st_truncated s = true /\ st_output s = [8364]
  /\ fs_get_by_seq (st_frames s) 8 = None /\ fs_get_by_seq_unchecked (st_frames s) 8 <> None.
Proof. vm_compute. repeat split; discriminate. Qed.
