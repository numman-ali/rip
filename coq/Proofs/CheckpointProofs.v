(* Lemmas about Model/Checkpoint.v (C14): a successful rewind re-establishes, on every covered path,
   the file content recorded by create — from ANY later state of the workspace; a failing one leaves
   every file as it was. *)
From RipV Require Import Base.Prelude Base.Fs Model.Paths Model.Checkpoint Proofs.FsProofs Proofs.PathsProofs.

Lemma path_dec (p q : path) : {p = q} + {p <> q}.
Proof. apply list_eq_dec. apply list_eq_dec. apply N.eq_dec. Qed.

(* FsProofs.lookup_set_other / lookup_unset_other without their side condition k <> [] *)
Lemma lookup_set_diff f k n q : k <> q -> lookup (set f k n) q = lookup f q.
Proof.
  intros H. apply path_eqb_false in H. destruct q as [|c q]; [reflexivity|]. unfold lookup, set. cbn [assoc].
  rewrite assoc_remove_key, H. reflexivity.
Qed.
Lemma lookup_unset_diff f k q : k <> q -> lookup (unset f k) q = lookup f q.
Proof.
  intros H. apply path_eqb_false in H. destruct q as [|c q]; [reflexivity|]. unfold lookup, unset.
  rewrite assoc_remove_key, H. reflexivity.
Qed.

Lemma file_at_set_same f k b : k <> [] -> file_at (set f k (File b)) k = Some b.
Proof. intros H. unfold file_at. rewrite lookup_set_same by exact H. reflexivity. Qed.
Lemma file_at_set_other f k n q : k <> q -> file_at (set f k n) q = file_at f q.
Proof. intros H. unfold file_at. rewrite lookup_set_diff by exact H. reflexivity. Qed.
Lemma file_at_unset_same f k : k <> [] -> file_at (unset f k) k = None.
Proof. intros H. unfold file_at. rewrite lookup_unset_same by exact H. reflexivity. Qed.
Lemma file_at_unset_other f k q : k <> q -> file_at (unset f k) q = file_at f q.
Proof. intros H. unfold file_at. rewrite lookup_unset_diff by exact H. reflexivity. Qed.

Lemma file_at_some f k b : file_at f k = Some b -> lookup f k = Some (File b).
Proof. unfold file_at. destruct (lookup f k) as [[b'|]|]; try discriminate. intros H; inversion H; reflexivity. Qed.

Lemma not_dir_ne_nil f k : lookup f k <> Some Dir -> k <> [].
Proof. intros H ->. apply H. reflexivity. Qed.

Lemma dirs_ok_cons f cur c c2 r :
  dirs_ok f cur (c :: c2 :: r) =
  if 255 <? nlen c then Some ENAMETOOLONG else
  match lookup f (cur ++ [c]) with
  | Some Dir => dirs_ok f (cur ++ [c]) (c2 :: r) | Some (File _) => Some ENOTDIR | None => Some ENOENT
  end.
Proof. reflexivity. Qed.

Lemma dirs_ok_ext f f' : forall rest cur,
  (forall pre suf, rest = pre ++ suf -> pre <> [] -> suf <> [] -> lookup f' (cur ++ pre) = lookup f (cur ++ pre)) ->
  dirs_ok f' cur rest = dirs_ok f cur rest.
Proof.
  induction rest as [|c r IH]; intros cur H; [reflexivity|]. destruct r as [|c2 r2]; [reflexivity|].
  rewrite !dirs_ok_cons. destruct (255 <? nlen c); [reflexivity|].
  rewrite (H [c] (c2 :: r2) eq_refl) by discriminate.
  destruct (lookup f (cur ++ [c])) as [[b|]|]; try reflexivity.
  apply IH. intros pre suf E Hp Hs. rewrite <- !app_assoc.
  apply (H (c :: pre) suf); [cbn [app]; rewrite E; reflexivity|discriminate|exact Hs].
Qed.

Lemma dirs_ok_none_prefix f : forall rest cur, dirs_ok f cur rest = None ->
  forall pre suf, rest = pre ++ suf -> pre <> [] -> suf <> [] -> lookup f (cur ++ pre) = Some Dir.
Proof. intros rest cur H. exact (proj2 (proj1 (dirs_ok_iff f rest cur) H)). Qed.

Lemma dirs_ok_prefix f : forall pre cur suf, dirs_ok f cur (pre ++ suf) = None -> dirs_ok f cur pre = None.
Proof.
  intros pre cur suf H. apply dirs_ok_iff in H. destruct H as [Hn Hp]. apply dirs_ok_iff. split.
  - intros c Hc. apply Hn. apply in_or_app. left; exact Hc.
  - intros x s -> Hx Hs. apply (Hp x (s ++ suf)); [apply app_assoc_reverse|exact Hx|]. destruct s; [congruence|discriminate].
Qed.

Lemma mkdir_all_where : forall cs f cur f' er, mkdir_all f cur cs = (f', er) ->
  forall r, lookup f' r = lookup f r
            \/ (lookup f r = None /\ lookup f' r = Some Dir /\ exists pre suf, cs = pre ++ suf /\ pre <> [] /\ r = cur ++ pre).
Proof.
  induction cs as [|c cs IH]; intros f cur f' er H r; cbn [mkdir_all] in H.
  - inversion H; left; reflexivity.
  - assert (Hshift : forall pre suf, cs = pre ++ suf /\ pre <> [] /\ r = (cur ++ [c]) ++ pre ->
              exists pre' suf', c :: cs = pre' ++ suf' /\ pre' <> [] /\ r = cur ++ pre').
    { intros pre suf (-> & _ & ->). exists (c :: pre), suf. rewrite <- app_assoc. repeat split. discriminate. }
    destruct (255 <? nlen c); [inversion H; left; reflexivity|].
    destruct (lookup f (cur ++ [c])) as [[b|]|] eqn:L.
    + inversion H; left; reflexivity.
    + destruct (IH _ _ _ _ H r) as [E|(E1 & E2 & pre & suf & Hp)]; [left; exact E|].
      right. split; [exact E1|]. split; [exact E2|]. exact (Hshift pre suf Hp).
    + destruct (IH _ _ _ _ H r) as [E|(E1 & E2 & pre & suf & Hp)]; destruct (path_dec (cur ++ [c]) r) as [Er|Er].
      * subst r. right. rewrite E, lookup_set_same by apply snoc_nonnil. split; [exact L|]. split; [reflexivity|].
        exists [c], cs. repeat split. discriminate.
      * left. rewrite E. apply lookup_set_diff; exact Er.
      * subst r. rewrite lookup_set_same in E1 by apply snoc_nonnil. discriminate.
      * right. rewrite lookup_set_diff in E1 by exact Er. split; [exact E1|]. split; [exact E2|]. exact (Hshift pre suf Hp).
Qed.

Lemma mkdir_all_lookup : forall cs f cur f' er, mkdir_all f cur cs = (f', er) ->
  forall r, lookup f' r = lookup f r \/ (lookup f r = None /\ lookup f' r = Some Dir).
Proof. intros cs f cur f' er H r. destruct (mkdir_all_where _ _ _ _ _ H r) as [E|(E1 & E2 & _)]; [left; exact E|right; split; assumption]. Qed.

Lemma mkdir_all_file_at cs f cur f' er q : mkdir_all f cur cs = (f', er) -> file_at f' q = file_at f q.
Proof.
  intros H. unfold file_at. destruct (mkdir_all_lookup _ _ _ _ _ H q) as [E|[E1 E2]].
  - rewrite E. reflexivity.
  - rewrite E1, E2. reflexivity.
Qed.

Lemma mk_parent_dirs_cases f t f1 er : mk_parent_dirs f t = (f1, er) ->
  f1 = f \/ mkdir_all f (t_base t) (removelast (t_comps t)) = (f1, er).
Proof. unfold mk_parent_dirs. destruct (comps_nul _); [intros H; inversion H; left; reflexivity|right; assumption]. Qed.

(* every file is reachable: all its proper ancestors are directories with admissible names *)
Definition sane (f : fs) : Prop := forall p b, lookup f p = Some (File b) -> dirs_ok f [] p = None.

Lemma sane_b_sound f : sane_b f = true -> sane f.
Proof.
  unfold sane_b, sane. intros H p b L. rewrite forallb_forall in H.
  destruct p as [|c p]; [discriminate|]. unfold lookup in L. apply assoc_in in L.
  specialize (H _ L). unfold reachable_file in H. cbn [snd fst] in H.
  destruct (dirs_ok f [] (c :: p)); [discriminate|reflexivity].
Qed.

(* a change that touches no ancestor of a file leaves it reachable *)
Lemma reachable_ext f f' p b : sane f -> lookup f p = Some (File b) ->
  dirs_le f f' -> dirs_ok f' [] p = None.
Proof.
  intros Hs L H. rewrite <- (Hs p b L). apply dirs_ok_ext. intros pre suf Ep Hp Hsf.
  pose proof (dirs_ok_none_prefix f p [] (Hs p b L) pre suf Ep Hp Hsf) as LD. rewrite LD. apply H. exact LD.
Qed.

Lemma sane_mkdir cs f cur f' er : mkdir_all f cur cs = (f', er) -> sane f -> sane f'.
Proof.
  intros H Hs p b L.
  destruct (mkdir_all_lookup _ _ _ _ _ H p) as [E|[_ E2]]; [|rewrite E2 in L; discriminate].
  rewrite E in L. apply (reachable_ext f f' p b Hs L). intros pre LD.
  destruct (mkdir_all_lookup _ _ _ _ _ H pre) as [E'|[E1' _]]; [rewrite E'; exact LD|rewrite LD in E1'; discriminate].
Qed.

Lemma sane_parents f t f1 er : mk_parent_dirs f t = (f1, er) -> sane f -> sane f1.
Proof. intros H. destruct (mk_parent_dirs_cases _ _ _ _ H) as [->|H']; [trivial|eapply sane_mkdir; exact H']. Qed.

Lemma parents_mono f t f1 er : mk_parent_dirs f t = (f1, er) -> dirs_le f f1.
Proof.
  intros H r Hr. destruct (mk_parent_dirs_cases _ _ _ _ H) as [->|H']; [exact Hr|].
  destruct (mkdir_all_lookup _ _ _ _ _ H' r) as [E|[E1 _]]; [rewrite E; exact Hr|rewrite Hr in E1; discriminate].
Qed.

Lemma parents_file_at f t f1 er q : mk_parent_dirs f t = (f1, er) -> file_at f1 q = file_at f q.
Proof. intros H. destruct (mk_parent_dirs_cases _ _ _ _ H) as [->|H']; [reflexivity|eapply mkdir_all_file_at; exact H']. Qed.

Lemma app_self_nil {A} (a b : list A) : a = a ++ b -> b = [].
Proof. intros H. rewrite <- (app_nil_r a) in H at 1. apply app_inv_head in H. symmetry; exact H. Qed.

Lemma sane_set f k b : sane f -> dirs_ok f [] k = None -> lookup f k <> Some Dir -> sane (set f k (File b)).
Proof.
  intros Hs Hd Hk p b' L. destruct (path_dec k p) as [E|E].
  - subst p. rewrite <- Hd. apply dirs_ok_ext. intros pre suf Ep Hp Hsf.
    apply lookup_set_diff. intros ->. apply Hsf. eapply app_self_nil; exact Ep.
  - rewrite lookup_set_diff in L by exact E. apply (reachable_ext f _ p b' Hs L). intros pre LD.
    rewrite lookup_set_diff; [exact LD|]. intros ->. exact (Hk LD).
Qed.

Lemma sane_unset f k b0 : sane f -> lookup f k = Some (File b0) -> sane (unset f k).
Proof.
  intros Hs Hk p b' L. destruct (path_dec k p) as [E|E].
  - subst p. rewrite lookup_unset_same in L by (intros ->; discriminate). discriminate.
  - rewrite lookup_unset_diff in L by exact E. apply (reachable_ext f _ p b' Hs L). intros pre LD.
    rewrite lookup_unset_diff; [exact LD|]. intros ->. rewrite LD in Hk. discriminate.
Qed.

Lemma tgt_write_ok f t d f' : os_write f t d = Ok f' ->
  f' = set f (t_path t) (File d) /\ pre_err f t = None /\ lookup f (t_path t) <> Some Dir.
Proof.
  unfold os_write. destruct (pre_err f t); [discriminate|].
  destruct (lookup f (t_path t)) as [[b|]|]; destruct (t_trail t); try discriminate;
    intros H; inversion H; repeat split; discriminate.
Qed.

Lemma tgt_remove_ok f t f' : os_remove_file f t = Ok f' ->
  f' = unset f (t_path t) /\ exists b, lookup f (t_path t) = Some (File b).
Proof.
  unfold os_remove_file. destruct (pre_err f t); [discriminate|].
  destruct (lookup f (t_path t)) as [[b|]|]; destruct (t_trail t); try discriminate.
  intros H; inversion H. split; [reflexivity|exists b; reflexivity].
Qed.

Lemma read_ok_file f rel b : os_read f (tgt_of rel) = Ok b -> file_at f (key rel) = Some b.
Proof.
  unfold os_read, file_at. change (t_path (tgt_of rel)) with (key rel). destruct (pre_err f (tgt_of rel)); [discriminate|].
  destruct (lookup f (key rel)) as [[b'|]|]; try discriminate. intros H; inversion H; reflexivity.
Qed.

(* `tgt_of rel` has no trailing marker and no NUL flag: once the ancestors of `key rel` are directories, each call
   looks at the node at `key rel` and nothing else *)
Lemma os_at_rel f rel : dirs_ok f [] (key rel) = None ->
  os_exists f (tgt_of rel) = (if lookup f (key rel) then true else false)
  /\ os_read f (tgt_of rel) = match lookup f (key rel) with Some (File b) => Ok b | Some Dir => Err EISDIR | None => Err ENOENT end
  /\ (forall d, lookup f (key rel) <> Some Dir -> os_write f (tgt_of rel) d = Ok (set f (key rel) (File d)))
  /\ os_remove_file f (tgt_of rel)
     = match lookup f (key rel) with Some (File _) => Ok (unset f (key rel)) | Some Dir => Err EISDIR | None => Err ENOENT end.
Proof.
  intros H. unfold os_exists, os_read, os_write, os_remove_file, pre_err. cbn [tgt_of t_nul t_base t_comps t_trail t_path app].
  change (real_segs rel) with (key rel). rewrite H.
  repeat split; intros; destruct (lookup f (key rel)) as [[b|]|] eqn:L; try reflexivity; congruence.
Qed.

Lemma exists_false_no_file f rel : sane f -> os_exists f (tgt_of rel) = false -> file_at f (key rel) = None.
Proof.
  intros Hs H. unfold file_at. destruct (lookup f (key rel)) as [[b|]|] eqn:L; try reflexivity.
  rewrite (proj1 (os_at_rel f rel (Hs _ _ L))), L in H. discriminate.
Qed.

Lemma file_readable f rel b : sane f -> file_at f (key rel) = Some b -> os_read f (tgt_of rel) = Ok b.
Proof.
  intros Hs H. apply file_at_some in H. destruct (os_at_rel f rel (Hs _ _ H)) as (_ & Er & _). rewrite Er, H. reflexivity.
Qed.

(* one successful restore step: the recorded path holds the recorded content, no other file changes *)
Lemma apply_one_ok f e f' : apply_one f e = (f', None) -> sane f ->
  file_at f' (key (fst e)) = snd e
  /\ (forall q, q <> key (fst e) -> file_at f' q = file_at f q)
  /\ sane f'.
Proof.
  destruct e as [rel [b|]]; unfold apply_one; cbn [fst snd]; intros H Hs.
  - destruct (mk_parent_dirs f (tgt_of rel)) as [f1 [x|]] eqn:Em; [discriminate|].
    destruct (os_write f1 (tgt_of rel) b) as [f2|x] eqn:Ew; inversion H; subst f2.
    destruct (tgt_write_ok _ _ _ _ Ew) as (-> & Hpre & Hnd). change (t_path (tgt_of rel)) with (key rel) in *.
    pose proof (not_dir_ne_nil _ _ Hnd) as Hne. repeat split.
    + apply file_at_set_same; exact Hne.
    + intros q Hq. rewrite file_at_set_other by congruence. eapply parents_file_at; exact Em.
    + apply sane_set; [eapply sane_parents; eassumption|exact Hpre|exact Hnd].
  - destruct (os_exists f (tgt_of rel)) eqn:Ex.
    + destruct (os_remove_file f (tgt_of rel)) as [f2|x] eqn:Er; inversion H; subst f2.
      destruct (tgt_remove_ok _ _ _ Er) as (-> & b0 & Lk). change (t_path (tgt_of rel)) with (key rel) in *.
      repeat split.
      * apply file_at_unset_same. intros E0; rewrite E0 in Lk; discriminate.
      * intros q Hq. apply file_at_unset_other. congruence.
      * eapply sane_unset; eassumption.
    + inversion H; subst f'. split; [apply exists_false_no_file; assumption|]. split; [reflexivity|exact Hs].
Qed.

(* after a successful restore loop a path holds the value on which its entries agree (if it has none: what it held) *)
Lemma apply_all_agree : forall ck f f', apply_all f ck = (f', None) -> sane f ->
  sane f' /\ forall q v, file_at f q = v \/ (exists e, In e ck /\ key (fst e) = q) ->
                         (forall e, In e ck -> key (fst e) = q -> snd e = v) -> file_at f' q = v.
Proof.
  induction ck as [|e r IH]; intros f f' H Hs; cbn [apply_all] in H.
  - inversion H; subst f'. split; [exact Hs|]. intros q v [Hq|(e & [] & _)] _; exact Hq.
  - destruct (apply_one f e) as [f1 [x|]] eqn:E1; [discriminate|].
    destruct (apply_one_ok _ _ _ E1 Hs) as (Hk & Ho & Hs1).
    destruct (IH _ _ H Hs1) as [Hs' Hv]. split; [exact Hs'|].
    intros q v Hq Hall. apply Hv; [|intros e' Hin; apply Hall; right; exact Hin].
    destruct (path_dec q (key (fst e))) as [->|Eq].
    + left. rewrite Hk. apply Hall; [left; reflexivity|reflexivity].
    + rewrite (Ho q Eq). destruct Hq as [Hq|(e0 & [->|Hin] & Ek)]; [left; exact Hq|congruence|right; exists e0; split; assumption].
Qed.

(* entries for the same path record the same content: create reads every path from one workspace *)
Definition consistent (ck : list entry) : Prop :=
  forall e1 e2, In e1 ck -> In e2 ck -> key (fst e1) = key (fst e2) -> snd e1 = snd e2.

Lemma map_res_in {A B} (g : A -> res B) : forall l ys, map_res g l = Ok ys ->
  forall y, In y ys -> exists x, In x l /\ g x = Ok y.
Proof.
  induction l as [|x l IH]; intros ys H y Hy; cbn [map_res] in H.
  - inversion H; subst ys. destruct Hy.
  - destruct (g x) as [y0|e] eqn:Ex; [|discriminate]. destruct (map_res g l) as [ys0|e]; [|discriminate].
    inversion H; subst ys. destruct Hy as [->|Hy].
    + exists x. split; [left; reflexivity|exact Ex].
    + destruct (IH _ eq_refl _ Hy) as (x' & Hin & Hx). exists x'. split; [right; exact Hin|exact Hx].
Qed.

Lemma map_res_ok {A B} (g : A -> res B) : forall l, (forall x, In x l -> exists y, g x = Ok y) -> exists ys, map_res g l = Ok ys.
Proof.
  induction l as [|x l IH]; intros H; [exists []; reflexivity|].
  destruct (H x (or_introl eq_refl)) as [y Ey]. destruct (IH (fun z Hz => H z (or_intror Hz))) as [ys Eys].
  exists (y :: ys). cbn [map_res]. rewrite Ey, Eys. reflexivity.
Qed.

Lemma map_res_err {A B} (g : A -> res B) : forall l e, map_res g l = Err e -> exists x e', In x l /\ g x = Err e'.
Proof.
  induction l as [|x l IH]; intros e H; cbn [map_res] in H; [discriminate|].
  destruct (g x) as [y|e0] eqn:Ex; [|exists x, e0; split; [left; reflexivity|exact Ex]].
  destruct (map_res g l) as [ys|e1] eqn:El; [discriminate|].
  destruct (IH e1 eq_refl) as (x' & e' & Hin & Hx). exists x', e'. split; [right; exact Hin|exact Hx].
Qed.

Lemma map_res_cover {A B} (g : A -> res B) : forall l ys, map_res g l = Ok ys ->
  forall x, In x l -> exists y, In y ys /\ g x = Ok y.
Proof.
  induction l as [|x0 l IH]; intros ys H x Hx; [destruct Hx|]. cbn [map_res] in H.
  destruct (g x0) as [y0|e] eqn:E0; [|discriminate]. destruct (map_res g l) as [ys0|e]; [|discriminate].
  inversion H; subst ys. destruct Hx as [->|Hx].
  - exists y0. split; [left; reflexivity|exact E0].
  - destruct (IH _ eq_refl _ Hx) as (y & Hy & Ey). exists y. split; [right; exact Hy|exact Ey].
Qed.

Lemma save_one_spec f rel e : save_one f rel = Ok e ->
  fst e = rel /\ match snd e with
                 | Some b => os_read f (tgt_of rel) = Ok b
                 | None => os_exists f (tgt_of rel) = false
                 end.
Proof.
  unfold save_one. destruct (os_exists f (tgt_of rel)) eqn:Ex.
  - destruct (os_read f (tgt_of rel)) as [b|x] eqn:Er; [|discriminate]. intros H; inversion H. split; reflexivity.
  - intros H; inversion H. split; reflexivity.
Qed.

Lemma save_one_file_at f rel e : sane f -> save_one f rel = Ok e -> file_at f (key rel) = snd e.
Proof.
  intros Hs H. destruct (save_one_spec _ _ _ H) as [_ Sp].
  destruct (snd e); [apply read_ok_file; exact Sp|apply exists_false_no_file; assumption].
Qed.

Lemma create_entries f root raws ck : create f root raws = Ok ck ->
  forall e, In e ck -> (exists raw, In raw raws /\ to_relative root raw = Ok (fst e)) /\ save_one f (fst e) = Ok e.
Proof.
  unfold create. destruct (map_res (to_relative root) raws) as [rels|x] eqn:Er; [|discriminate].
  intros H e He. destruct (map_res_in _ _ _ H e He) as (rel & Hin & Hs).
  destruct (save_one_spec _ _ _ Hs) as [Ef _]. rewrite Ef. split; [|exact Hs].
  destruct (map_res_in _ _ _ Er rel Hin) as (raw & Hr & Ht). exists raw. split; assumption.
Qed.

(* every requested path is covered, under the name rewind will use *)
Lemma create_covers f root raws ck : create f root raws = Ok ck ->
  forall raw, In raw raws -> exists rel saved, to_relative root raw = Ok rel /\ In (rel, saved) ck.
Proof.
  unfold create. destruct (map_res (to_relative root) raws) as [rels|x] eqn:Er; [|discriminate].
  intros H raw Hin. destruct (map_res_cover _ _ _ Er raw Hin) as (rel & Hrel & Et).
  destruct (map_res_cover _ _ _ H rel Hrel) as ([rel' saved] & He & Hs).
  destruct (save_one_spec _ _ _ Hs) as [Ef _]. cbn [fst] in Ef. subst rel'. exists rel, saved. split; assumption.
Qed.

Lemma tgt_of_key r1 r2 : key r1 = key r2 -> tgt_of r1 = tgt_of r2.
Proof. unfold key, tgt_of. intros ->. reflexivity. Qed.

Lemma save_one_key f r1 r2 e1 e2 : key r1 = key r2 -> save_one f r1 = Ok e1 -> save_one f r2 = Ok e2 -> snd e1 = snd e2.
Proof.
  intros Hk. unfold save_one. rewrite (tgt_of_key _ _ Hk).
  destruct (os_exists f (tgt_of r2)); [destruct (os_read f (tgt_of r2))|]; intros H1 H2; inversion H1; inversion H2; reflexivity.
Qed.

Lemma create_consistent f root raws ck : create f root raws = Ok ck -> consistent ck.
Proof.
  intros H e1 e2 H1 H2 Hk.
  destruct (create_entries _ _ _ _ H e1 H1) as [_ S1]. destruct (create_entries _ _ _ _ H e2 H2) as [_ S2].
  eapply save_one_key; eassumption.
Qed.

Lemma create_refused_no_effect f root raws e :
  map_res (to_relative root) raws = Err e -> create f root raws = Err e.
Proof. unfold create. intros ->. reflexivity. Qed.

(* a successful rewind to consistent entries: every entry holds, nothing else changes *)
Lemma rewind_ok f2 ck f3 : rewind f2 ck = (f3, None) -> sane f2 -> consistent ck ->
  sane f3 /\ (forall e, In e ck -> file_at f3 (key (fst e)) = snd e)
  /\ (forall q, (forall e, In e ck -> key (fst e) <> q) -> file_at f3 q = file_at f2 q).
Proof.
  unfold rewind. intros Hr Hs Hc. destruct (map_res (save_one f2) (map fst ck)) as [snap|x]; [|discriminate].
  destruct (apply_all f2 ck) as [f1 [x|]] eqn:Ea; inversion Hr; subst f1.
  destruct (apply_all_agree _ _ _ Ea Hs) as [Hs3 Hv]. split; [exact Hs3|]. split.
  - intros e He. apply Hv; [right; exists e; split; [exact He|reflexivity]|]. intros e' He' Ek. exact (Hc e' e He' He Ek).
  - intros q Hq. apply Hv; [left; reflexivity|]. intros e He Ek. destruct (Hq e He Ek).
Qed.

Theorem rewind_exact f root raws ck f2 f3 :
  create f root raws = Ok ck -> sane f2 -> rewind f2 ck = (f3, None) ->
  (forall rel saved, In (rel, saved) ck ->
     match saved with
     | Some b => os_read f (tgt_of rel) = Ok b /\ os_read f3 (tgt_of rel) = Ok b
     | None => os_exists f (tgt_of rel) = false /\ file_at f3 (key rel) = None
     end)
  /\ (forall q, (forall rel saved, In (rel, saved) ck -> key rel <> q) -> file_at f3 q = file_at f2 q).
Proof.
  intros Hc Hs Hr. destruct (rewind_ok _ _ _ Hr Hs (create_consistent _ _ _ _ Hc)) as (Hs3 & Hin & Hout). split.
  - intros rel saved He. pose proof (Hin _ He) as Hv.
    destruct (create_entries _ _ _ _ Hc _ He) as [_ Hsv]. destruct (save_one_spec _ _ _ Hsv) as [_ Hsp].
    cbn [fst snd] in Hv, Hsp. destruct saved as [b|]; split; try exact Hsp; [apply file_readable; assumption|exact Hv].
  - intros q Hq. apply Hout. intros [rel saved] He. exact (Hq rel saved He).
Qed.

(* a refused snapshot (a covered path is now a directory) changes nothing *)
Lemma rewind_snapshot_error f ck e :
  map_res (save_one f) (map fst ck) = Err e -> rewind f ck = (f, Some e).
Proof. unfold rewind. intros ->. reflexivity. Qed.

Lemma apply_all_st_intact v st : forall ck f,
  (forall rel b, In (rel, Some b) ck -> stored st rel b = Some b) -> apply_all_st v st f ck = apply_all f ck.
Proof.
  induction ck as [|e r IH]; intros f H; [reflexivity|]. cbn [apply_all_st apply_all].
  assert (E1 : apply_one_st v st f e = apply_one f e).
  { destruct e as [rel [b|]]; unfold apply_one_st; cbn [fst snd]; [|reflexivity].
    rewrite (H rel b (or_introl eq_refl)), (proj2 (lN_eqb_spec b b) eq_refl), andb_false_r. reflexivity. }
  rewrite E1. destruct (apply_one f e) as [f1 [x|]]; [reflexivity|]. apply IH. intros rel b Hin. apply H. right; exact Hin.
Qed.

Lemma rewind_st_intact v st f ck :
  (forall rel b, In (rel, Some b) ck -> stored st rel b = Some b) -> rewind_st v st f ck = rewind f ck.
Proof. intros H. unfold rewind_st, rewind. rewrite (apply_all_st_intact v st ck f H). reflexivity. Qed.


(* r is a proper ancestor of k below the root: a path at which create_dir_all of k's parent may make a directory *)
Definition strict_prefix (r k : path) : Prop := exists suf, k = r ++ suf /\ r <> [] /\ suf <> [].
(* FsProofs.dirs_le, under the name the statements of C14 use *)
Definition dirmono (f g : fs) : Prop := forall r, lookup f r = Some Dir -> lookup g r = Some Dir.

Lemma dirs_ok_mono f g cur rest : dirs_le f g -> dirs_ok f cur rest = None -> dirs_ok g cur rest = None.
Proof.
  intros Hm H. apply dirs_ok_iff in H. apply dirs_ok_iff.
  split; [apply H|exact (pdirs_mono f g cur rest Hm (proj2 H))].
Qed.

Lemma removelast_strict (k : path) pre suf : removelast k = pre ++ suf -> pre <> [] -> strict_prefix pre k.
Proof.
  intros E Hp. destruct k as [|c k]; [cbn in E; symmetry in E; apply app_eq_nil in E; destruct E; congruence|].
  exists (suf ++ [last (c :: k) []]). split; [|split; [exact Hp|apply snoc_nonnil]].
  rewrite app_assoc, <- E. apply app_removelast_last. discriminate.
Qed.

Lemma file_parents_dirs f k b r : sane f -> lookup f k = Some (File b) -> strict_prefix r k -> lookup f r = Some Dir.
Proof. intros Hs L (suf & Ek & Hr & Hsuf). exact (dirs_ok_none_prefix f k [] (Hs k b L) r suf Ek Hr Hsuf). Qed.

(* The invariant of the restore and undo loops, relative to the workspace f2 the rewind started from and the set K of
   paths the loops may write to: files stay reachable, no directory of f2 disappears, no path of K becomes a
   directory, no file outside K changes. *)
Section Restore.
  Variable f2 : fs.
  Variable K : path -> Prop.
  Hypothesis sane2 : sane f2.

  Record Good (g : fs) : Prop := {
    g_sane : sane g;
    g_mono : dirmono f2 g;
    g_nodir : forall k, K k -> lookup g k = Some Dir -> lookup f2 k = Some Dir;
    g_out : forall q, ~ K q -> file_at g q = file_at f2 q
  }.

  (* creating the parents of k never turns a covered path into a directory *)
  Definition safe_parents (k : path) : Prop := forall r, strict_prefix r k -> K r -> lookup f2 r = Some Dir.

  Lemma good_init : Good f2.
  Proof. constructor; [exact sane2|intros r H; exact H|intros k _ H; exact H|reflexivity]. Qed.

  Lemma good_mkdir g k g1 er : Good g -> safe_parents k -> mkdir_all g [] (removelast k) = (g1, er) -> Good g1.
  Proof.
    intros G Hs H. constructor.
    - eapply sane_mkdir; [exact H|apply G].
    - intros r Hr. pose proof (g_mono _ G r Hr) as Hg.
      destruct (mkdir_all_lookup _ _ _ _ _ H r) as [E|[E1 _]]; [rewrite E; exact Hg|rewrite Hg in E1; discriminate].
    - intros k' Hk' Hd. destruct (mkdir_all_where _ _ _ _ _ H k') as [E|(E1 & E2 & pre & suf & Ec & Hp & Er)].
      + rewrite E in Hd. apply (g_nodir _ G); assumption.
      + cbn [app] in Er. subst k'. apply Hs; [eapply removelast_strict; eassumption|exact Hk'].
    - intros q Hq. rewrite (mkdir_all_file_at _ _ _ _ _ q H). apply (g_out _ G); exact Hq.
  Qed.

  Lemma good_set g k b : Good g -> K k -> dirs_ok g [] k = None -> lookup g k <> Some Dir -> Good (set g k (File b)).
  Proof.
    intros G Hk Hd Hn. constructor.
    - apply sane_set; [apply G|exact Hd|exact Hn].
    - intros r Hr. pose proof (g_mono _ G r Hr) as Hg. rewrite lookup_set_diff; [exact Hg|]. intros ->. contradiction.
    - intros k' Hk' Hd'. destruct (path_dec k k') as [E|E].
      + subst k'. rewrite lookup_set_same in Hd' by (eapply not_dir_ne_nil; exact Hn). discriminate.
      + rewrite lookup_set_diff in Hd' by exact E. apply (g_nodir _ G); assumption.
    - intros q Hq. rewrite file_at_set_other by (intros ->; contradiction). apply (g_out _ G); exact Hq.
  Qed.

  Lemma good_unset g k b0 : Good g -> K k -> lookup g k = Some (File b0) -> Good (unset g k).
  Proof.
    intros G Hk L. constructor.
    - eapply sane_unset; [apply G|exact L].
    - intros r Hr. pose proof (g_mono _ G r Hr) as Hg. rewrite lookup_unset_diff; [exact Hg|]. intros ->. rewrite L in Hg. discriminate.
    - intros k' Hk' Hd'. destruct (path_dec k k') as [E|E].
      + subst k'. rewrite lookup_unset_same in Hd' by (intros E0; rewrite E0 in L; discriminate). discriminate.
      + rewrite lookup_unset_diff in Hd' by exact E. apply (g_nodir _ G); assumption.
    - intros q Hq. rewrite file_at_unset_other by (intros ->; contradiction). apply (g_out _ G); exact Hq.
  Qed.

  Lemma good_parents g rel g1 er : Good g -> safe_parents (key rel) -> mk_parent_dirs g (tgt_of rel) = (g1, er) -> Good g1.
  Proof.
    intros G Hs H. destruct (mk_parent_dirs_cases _ _ _ _ H) as [->|H']; [exact G|]. eapply good_mkdir; [exact G|exact Hs|exact H'].
  Qed.

  (* one step of the restore loop, successful or not *)
  Lemma good_apply_one g e g' er : Good g -> K (key (fst e)) ->
    (forall b, snd e = Some b -> safe_parents (key (fst e))) -> apply_one g e = (g', er) -> Good g'.
  Proof.
    destruct e as [rel [b|]]; cbn [fst snd]; intros G Hk Hs H; unfold apply_one in H; cbn [fst snd] in H.
    - destruct (mk_parent_dirs g (tgt_of rel)) as [g1 e1] eqn:Em.
      pose proof (good_parents _ _ _ _ G (Hs b eq_refl) Em) as G1.
      destruct e1 as [x|]; [inversion H; subst g'; exact G1|].
      destruct (os_write g1 (tgt_of rel) b) as [g2|x] eqn:Ew; inversion H; subst g'; [|exact G1].
      destruct (tgt_write_ok _ _ _ _ Ew) as (-> & Hpre & Hnd). apply good_set; assumption.
    - destruct (os_exists g (tgt_of rel)); [|inversion H; subst g'; exact G].
      destruct (os_remove_file g (tgt_of rel)) as [g2|x] eqn:Er; inversion H; subst g'; [|exact G].
      destruct (tgt_remove_ok _ _ _ Er) as (-> & b0 & Lk). eapply good_unset; eassumption.
  Qed.

  (* the store-aware restore loop either skips an entry or runs the plain step with other bytes *)
  Lemma good_apply_all_st v st : forall ck g g' er, Good g ->
    (forall e, In e ck -> K (key (fst e)) /\ (forall b, snd e = Some b -> safe_parents (key (fst e)))) ->
    apply_all_st v st g ck = (g', er) -> Good g'.
  Proof.
    induction ck as [|e r IH]; intros g g' er G Hall H; cbn [apply_all_st] in H.
    - inversion H; subst g'; exact G.
    - destruct (apply_one_st v st g e) as [g1 e1] eqn:E1.
      destruct (Hall e (or_introl eq_refl)) as [Hk Hsp].
      assert (G1 : Good g1).
      { destruct e as [rel [b|]]; unfold apply_one_st in E1; cbn [fst snd] in *.
        - destruct (stored st rel b) as [b'|]; [|inversion E1; subst g1; exact G].
          destruct (v && negb (lN_eqb b' b)); [inversion E1; subst g1; exact G|].
          apply (good_apply_one g (rel, Some b') g1 e1 G Hk); [|exact E1]. intros b0 _. exact (Hsp b eq_refl).
        - apply (good_apply_one g (rel, None) g1 e1 G Hk); [|exact E1]. intros b0 Hb0; discriminate. }
      destruct e1 as [x|]; [inversion H; subst g'; exact G1|].
      eapply IH; [exact G1| |exact H]. intros e' Hin. apply Hall. right; exact Hin.
  Qed.

  (* one undo step for an entry that records the state of f2 *)
  Lemma undo_one_restores g rel s : Good g -> K (key rel) -> file_at f2 (key rel) = s ->
    Good (undo_one g (rel, s))
    /\ file_at (undo_one g (rel, s)) (key rel) = s
    /\ forall q, q <> key rel -> file_at (undo_one g (rel, s)) q = file_at g q.
  Proof.
    intros G Hk Hs. unfold undo_one. cbn [fst snd]. destruct s as [b|].
    - (* the file existed in f2: its ancestors were, and still are, directories, so the write succeeds whatever
         create_dir_all did *)
      apply file_at_some in Hs.
      destruct (mk_parent_dirs g (tgt_of rel)) as [g1 e1] eqn:Em.
      assert (G1 : Good g1).
      { eapply good_parents; [exact G| |exact Em]. intros r Hr _. exact (file_parents_dirs _ _ _ _ sane2 Hs Hr). }
      assert (Hd1 : dirs_ok g1 [] (key rel) = None) by (apply (reachable_ext f2 g1 _ b sane2 Hs), G1).
      assert (Hn1 : lookup g1 (key rel) <> Some Dir).
      { intros Hd. rewrite (g_nodir _ G1 _ Hk Hd) in Hs. discriminate. }
      destruct (os_at_rel g1 rel Hd1) as (_ & _ & Ew & _). rewrite (Ew b Hn1). pose proof (not_dir_ne_nil _ _ Hn1) as Hne. split; [apply good_set; assumption|]. split.
      + apply file_at_set_same; exact Hne.
      + intros q Hq. rewrite file_at_set_other by congruence. eapply parents_file_at; exact Em.
    - destruct (os_remove_file g (tgt_of rel)) as [g2|x] eqn:Er.
      + destruct (tgt_remove_ok _ _ _ Er) as (-> & b0 & Lk). change (t_path (tgt_of rel)) with (key rel) in *.
        split; [eapply good_unset; eassumption|]. split.
        * apply file_at_unset_same. intros E0; rewrite E0 in Lk; discriminate.
        * intros q Hq. apply file_at_unset_other. congruence.
      + split; [exact G|]. split; [|reflexivity].
        unfold file_at. destruct (lookup g (key rel)) as [[b|]|] eqn:L; try reflexivity.
        destruct (os_at_rel g rel (g_sane _ G _ _ L)) as (_ & _ & _ & Erm). rewrite Erm, L in Er. discriminate.
  Qed.

  (* after the undo loop a path holds the value on which its entries agree (if it has none: what it held) *)
  Lemma undo_all_agree : forall u g, Good g ->
    (forall x, In x u -> K (key (fst x)) /\ file_at f2 (key (fst x)) = snd x) ->
    Good (undo_all g u)
    /\ forall q v, file_at g q = v \/ (exists x, In x u /\ key (fst x) = q) ->
                   (forall x, In x u -> key (fst x) = q -> snd x = v) -> file_at (undo_all g u) q = v.
  Proof.
    induction u as [|[rel s] u IH]; intros g G Hall.
    - split; [exact G|]. intros q v [Hq|(x & [] & _)] _; exact Hq.
    - destruct (Hall _ (or_introl eq_refl)) as [Hk Hs]. cbn [fst snd] in Hk, Hs.
      destruct (undo_one_restores g rel s G Hk Hs) as (G1 & Hv & Ho).
      unfold undo_all. cbn [fold_left]. fold (undo_all (undo_one g (rel, s)) u).
      destruct (IH _ G1 (fun y Hy => Hall y (or_intror Hy))) as [G' Hview]. split; [exact G'|].
      intros q v Hq Hsame. apply Hview; [|intros y Hy; apply Hsame; right; exact Hy].
      destruct (path_dec q (key rel)) as [->|E].
      + left. rewrite Hv. exact (Hsame (rel, s) (or_introl eq_refl) eq_refl).
      + rewrite (Ho q E). destruct Hq as [Hq|(x & [<-|Hin] & Ek)]; [left; exact Hq|cbn [fst] in Ek; congruence|right; exists x; split; assumption].
  Qed.
End Restore.

Lemma good_ext f K K' g : Good f K g -> (forall q, K q <-> K' q) -> Good f K' g.
Proof.
  intros G E. constructor; [apply G|apply G| |].
  - intros k Hk. apply (g_nodir _ _ _ G). apply E; exact Hk.
  - intros q Hq. apply (g_out _ _ _ G). intros Hk. apply Hq, E; exact Hk.
Qed.

(* Good composes: a later edit that is Good for more paths, but leaves the files at the additional ones as they were *)
Lemma good_trans f K f1 K' f' : Good f K f1 -> Good f1 K' f' -> (forall q, K q -> K' q) ->
  (forall q, ~ K q -> file_at f' q = file_at f1 q) -> Good f K f'.
Proof.
  intros G1 G2 Hsub Hout. constructor; [apply G2| | |].
  - intros r Hr. apply (g_mono _ _ _ G2), (g_mono _ _ _ G1), Hr.
  - intros k Hk Hd. apply (g_nodir _ _ _ G1 k Hk), (g_nodir _ _ _ G2 k (Hsub k Hk)), Hd.
  - intros q Hq. rewrite (Hout q Hq). exact (g_out _ _ _ G1 q Hq).
Qed.

(* The undo loop walks the BTreeMap of the snapshot.  All that matters of it is which names occur: every entry is one
   of the snapshot's, and every name of the snapshot has an entry; the order is irrelevant (undo_all_agree). *)
Lemma bt_insert_in e l x : In x (bt_insert e l) -> x = e \/ In x l.
Proof.
  induction l as [|h r IH]; cbn [bt_insert]; [intros [->|[]]; left; reflexivity|].
  destruct (str_eqb (fst e) (fst h)); [intros [->|H]; [left; reflexivity|right; right; exact H]|].
  destruct (str_ltb (fst e) (fst h)); [intros [->|H]; [left; reflexivity|right; exact H]|].
  intros [->|H]; [right; left; reflexivity|]. destruct (IH H) as [->|H']; [left; reflexivity|right; right; exact H'].
Qed.

Lemma bt_insert_cover e l :
  In e (bt_insert e l) /\ forall y, In y l -> exists x, In x (bt_insert e l) /\ fst x = fst y.
Proof.
  induction l as [|h r [IHe IHl]]; cbn [bt_insert]; [split; [left; reflexivity|intros y []]|].
  destruct (str_eqb (fst e) (fst h)) eqn:Eq.
  - split; [left; reflexivity|]. intros y [->|Hy].
    + exists e. split; [left; reflexivity|]. apply lN_eqb_spec. exact Eq.
    + exists y. split; [right; exact Hy|reflexivity].
  - destruct (str_ltb (fst e) (fst h)).
    + split; [left; reflexivity|]. intros y Hy. exists y. split; [right; exact Hy|reflexivity].
    + split; [right; exact IHe|]. intros y [->|Hy].
      * exists y. split; [left; reflexivity|reflexivity].
      * destruct (IHl y Hy) as (x & Hx & Ex). exists x. split; [right; exact Hx|exact Ex].
Qed.

Lemma btree_fold_spec : forall l acc,
  (forall x, In x (fold_left (fun a e => bt_insert e a) l acc) -> In x l \/ In x acc)
  /\ (forall y, In y l \/ In y acc -> exists x, In x (fold_left (fun a e => bt_insert e a) l acc) /\ fst x = fst y).
Proof.
  induction l as [|e l IH]; intros acc; cbn [fold_left].
  - split; [intros x H; right; exact H|]. intros y [[]|H]. exists y. split; [exact H|reflexivity].
  - destruct (IH (bt_insert e acc)) as [IHin IHcov]. destruct (bt_insert_cover e acc) as [He Hl]. split.
    + intros x H. destruct (IHin x H) as [H1|H1]; [left; right; exact H1|].
      destruct (bt_insert_in _ _ _ H1) as [->|H2]; [left; left; reflexivity|right; exact H2].
    + intros y [[->|H]|H]; [apply IHcov; right; exact He|apply IHcov; left; exact H|].
      destruct (Hl y H) as (x' & Hx' & Ex'). destruct (IHcov x' (or_intror Hx')) as (x & Hx & Ex).
      exists x. split; [exact Hx|rewrite Ex; exact Ex'].
Qed.

Definition covered (ck : list entry) (k : path) : Prop := exists e, In e ck /\ key (fst e) = k.

Lemma covered_dec (ck : list entry) q : covered ck q \/ ~ covered ck q.
Proof.
  induction ck as [|e r IH]; [right; intros (e0 & [] & _)|].
  destruct (path_dec (key (fst e)) q) as [E|E]; [left; exists e; split; [left; reflexivity|exact E]|].
  destruct IH as [(e0 & Hin & Ek)|Hn]; [left; exists e0; split; [right; exact Hin|exact Ek]|].
  right. intros (e0 & [->|Hin] & Ek); [contradiction|]. apply Hn. exists e0. split; assumption.
Qed.

(* no recorded path lies strictly above a recorded file: its node was a directory, which create refuses to read *)
Lemma create_incompat f root raws ck : create f root raws = Ok ck -> sane f ->
  forall e1 e2 b, In e1 ck -> In e2 ck -> snd e2 = Some b -> ~ strict_prefix (key (fst e1)) (key (fst e2)).
Proof.
  intros Hc Hs e1 e2 b H1 H2 Hb Hsp.
  destruct (create_entries _ _ _ _ Hc e2 H2) as [_ S2]. destruct (create_entries _ _ _ _ Hc e1 H1) as [_ S1].
  pose proof (save_one_file_at _ _ _ Hs S2) as F2. rewrite Hb in F2. apply file_at_some in F2.
  pose proof (file_parents_dirs _ _ _ _ Hs F2 Hsp) as LD.
  pose proof (Hs _ _ F2) as D2. destruct Hsp as (suf & Ek & Hr & _). rewrite Ek in D2.
  destruct (os_at_rel f (fst e1) (dirs_ok_prefix f _ [] suf D2)) as (Ex & Er & _).
  unfold save_one in S1. rewrite Ex, Er, LD in S1. discriminate.
Qed.

(* undoing from the snapshot of f2, in any state the restore loop can have left: every file is as in f2 *)
Lemma undo_restores f2 ck snap g : sane f2 -> map_res (save_one f2) (map fst ck) = Ok snap -> Good f2 (covered ck) g ->
  sane (undo_all g (btree snap)) /\ forall q, file_at (undo_all g (btree snap)) q = file_at f2 q.
Proof.
  intros Hs2 Esnap G. destruct (btree_fold_spec snap []) as [Bin Bcov].
  assert (Hall : forall x, In x (btree snap) -> covered ck (key (fst x)) /\ file_at f2 (key (fst x)) = snd x).
  { intros x Hx. destruct (Bin x Hx) as [Hin|[]]. destruct (map_res_in _ _ _ Esnap _ Hin) as (rel & Hrel & Sv).
    destruct (save_one_spec _ _ _ Sv) as [-> _]. split; [|exact (save_one_file_at _ _ _ Hs2 Sv)].
    apply in_map_iff in Hrel. destruct Hrel as (e0 & <- & Hin0). exists e0. split; [exact Hin0|reflexivity]. }
  destruct (undo_all_agree f2 _ Hs2 _ _ G Hall) as [G' Hv]. split; [exact (g_sane _ _ _ G')|].
  intros q. destruct (covered_dec ck q) as [(e0 & Hin0 & Ek0)|Hk]; [|exact (g_out _ _ _ G' q Hk)].
  apply Hv.
  - right. destruct (map_res_cover _ _ _ Esnap (fst e0) (in_map fst _ _ Hin0)) as (y & Hy & Sv).
    destruct (save_one_spec _ _ _ Sv) as [Ef _]. destruct (Bcov y (or_introl Hy)) as (x & Hx & Ex).
    exists x. split; [exact Hx|]. rewrite Ex, Ef. exact Ek0.
  - intros x Hx <-. symmetry. exact (proj2 (Hall x Hx)).
Qed.

(* a failing rewind - also because a stored copy is gone or does not match its recorded hash, at any step -
   leaves every file of the workspace as it was, and reachable *)
Theorem rewind_st_failed v st f root raws ck f2 f3 e :
  create f root raws = Ok ck -> sane f -> sane f2 -> rewind_st v st f2 ck = (f3, Some e) ->
  sane f3 /\ forall q, file_at f3 q = file_at f2 q.
Proof.
  intros Hc Hs Hs2 Hr. unfold rewind_st in Hr.
  destruct (map_res (save_one f2) (map fst ck)) as [snap|x] eqn:Esnap; [|inversion Hr; subst f3; split; trivial].
  destruct (apply_all_st v st f2 ck) as [f1 [x|]] eqn:Ea; inversion Hr; subst f3.
  apply (undo_restores f2 ck snap f1 Hs2 Esnap). refine (good_apply_all_st f2 _ v st ck f2 f1 _ (good_init f2 _ Hs2) _ Ea).
  (* the restore loop may create the parents of every recorded file: none of them is a recorded path *)
  intros e0 Hin. split; [exists e0; split; [exact Hin|reflexivity]|]. intros b Hb r Hsp (e1 & Hin1 & <-).
  destruct (create_incompat _ _ _ _ Hc Hs e1 e0 b Hin1 Hin Hb Hsp).
Qed.

(* what a rewind to a checkpoint of a sane workspace does from any sane workspace *)
Theorem rewind_outcome f root raws ck f2 f3 r :
  create f root raws = Ok ck -> sane f -> sane f2 -> rewind f2 ck = (f3, r) ->
  sane f3 /\
  match r with
  | None =>
    (forall rel saved, In (rel, saved) ck ->
       match saved with
       | Some b => os_read f (tgt_of rel) = Ok b /\ os_read f3 (tgt_of rel) = Ok b
       | None => os_exists f (tgt_of rel) = false /\ file_at f3 (key rel) = None
       end)
    /\ (forall q, (forall rel saved, In (rel, saved) ck -> key rel <> q) -> file_at f3 q = file_at f2 q)
  | Some _ => forall q, file_at f3 q = file_at f2 q
  end.
Proof.
  intros Hc Hs Hs2 Hr. destruct r as [e|].
  - rewrite <- (rewind_st_intact false []) in Hr by reflexivity. exact (rewind_st_failed _ _ _ _ _ _ _ _ _ Hc Hs Hs2 Hr).
  - split; [|exact (rewind_exact _ _ _ _ _ _ Hc Hs2 Hr)].
    exact (proj1 (rewind_ok _ _ _ Hr Hs2 (create_consistent _ _ _ _ Hc))).
Qed.

(* the behaviour before the repair (S10, second half), on a named witness *)
Require Import Coq.Strings.String.
Definition w_a : str := bs "a.txt"%string.
Definition w_ws : fs := [([w_a], File (bs "one"%string))].        (* the workspace: a.txt = "one" *)
Definition w_cwdfs : fs := [].                                    (* the process cwd has no a.txt *)
Definition w_ck_unfixed : list entry := [(w_a, None)].

Lemma probe_unfixed_loses_file :
  to_relative_unfixed w_root w_a = Ok w_a
  /\ save_one_unfixed w_cwdfs w_a w_a = Ok (w_a, None)
  /\ file_at w_ws (key w_a) = Some (bs "one"%string)
  /\ rewind w_ws w_ck_unfixed = ([], None).
Proof. vm_compute. repeat split. Qed.

Lemma probe_unfixed_refuted :
  exists root raw rel (f fcwd : fs) b f3,
    to_relative_unfixed root raw = Ok rel /\ save_one_unfixed fcwd raw rel = Ok (rel, None)
    /\ file_at f (key rel) = Some b /\ rewind f [(rel, None)] = (f3, None) /\ file_at f3 (key rel) = None.
Proof.
  exists w_root, w_a, w_a, w_ws, w_cwdfs, (bs "one"%string), [].
  destruct probe_unfixed_loses_file as (A & B & C & D). repeat split; assumption.
Qed.

(* non-vacuity: a create / edit / rewind round trip *)
Definition w_b : str := bs "b.txt"%string.
Definition w_later : fs := [([w_a], File (bs "two"%string)); ([w_b], File (bs "new"%string))].
Definition w_ck : list entry := [(w_a, Some (bs "one"%string)); (w_b, None)].
Definition w_dot_b : str := bs "./b.txt"%string.
Lemma ex_round_trip :
  create w_ws w_root [w_abs_in; w_dot_b] = Ok w_ck
  /\ sane_b w_later = true /\ rewind w_later w_ck = (w_ws, None).
Proof. vm_compute. repeat split. Qed.

Definition w_later_dir : fs := [([w_a], File (bs "two"%string)); ([w_b], Dir)].
Lemma ex_failing_rewind :
  sane_b w_later_dir = true /\ exists e, rewind w_later_dir w_ck = (w_later_dir, Some e).
Proof. split; [vm_compute; reflexivity|]. exists EISDIR. vm_compute. reflexivity. Qed.
