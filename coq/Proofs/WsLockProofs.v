(* C11 — proofs about the workspace-lock LTS (Model/WsLock.v).  Every actor's code is accepted by the discipline
   automaton [dstep]; running that automaton beside the LTS, one ghost state per actor, ties the permit, the open
   mutating sections and the frames still owed to each other ([Inv]); every step keeps [Inv], and mutual exclusion,
   frame order and one-frame-per-call are read off it. *)
From RipV Require Import Base.Prelude Model.WsLock.

Local Open Scope nat_scope.

(* the holder's logged call that has ended but whose side-effects frame is not appended yet (at most one) *)
Definition pend (h : option nat) (ds : nat -> dstate) : list (nat * N) :=
  match h with
  | Some i => match ds i with DPend k => [(i, k)] | _ => [] end
  | None => []
  end.

(* [ds i] is the ghost discipline state of actor i: it accepts i's remaining code, is outside exactly when i does
   not hold the permit, is open exactly when the trace says i is inside a mutating call; and the End events to be
   logged are the pending one followed by the frames appended so far (both newest first) *)
Record Inv (st : state) (ds : nat -> dstate) : Prop := {
  inv_acc : forall i, daccept (ds i) (code st i) = true;
  inv_hold : forall i, holder st = Some i <-> ds i <> DOut;
  inv_open : forall i, is_open (trace st) i = true <-> exists k, ds i = DOpen k;
  inv_ord : ends_a (trace st) = pend (holder st) ds ++ frames (trace st)
}.

Definition upd_ds (ds : nat -> dstate) (i : nat) (d : dstate) : nat -> dstate :=
  fun j => if Nat.eqb j i then d else ds j.

Lemma upd_ds_same ds i d : upd_ds ds i d i = d.
Proof. unfold upd_ds. now rewrite Nat.eqb_refl. Qed.

Lemma upd_ds_other ds i d j : j <> i -> upd_ds ds i d j = ds j.
Proof. intros H. unfold upd_ds. apply Nat.eqb_neq in H. now rewrite H. Qed.

Lemma inv_init f : wf_sys f -> Inv (init f) (fun _ => DOut).
Proof.
  intros W. constructor; cbn.
  - exact W.
  - intros i. split; [discriminate | congruence].
  - intros i. split; [discriminate | intros [k H]; discriminate].
  - reflexivity.
Qed.

Lemma daccept_cons d ins r :
  daccept d (ins :: r) = true -> exists d', dstep d ins = Some d' /\ daccept d' r = true.
Proof. cbn [daccept]. destruct (dstep d ins) as [d'|]; [eauto | discriminate]. Qed.

(* the graph of [dstep] as a relation: destructing a move gives the 11 transitions, with the states they connect,
   to the clause lemmas below *)
Inductive dmove : instr -> dstate -> dstate -> Prop :=
| mv_acq : dmove IAcq DOut DIn
| mv_rel : dmove IRel DIn DOut
| mv_start k : dmove (IStart k true) DIn (DOpen k)
| mv_end_a k : dmove (IEnd k true true) (DOpen k) (DPend k)
| mv_end_n k : dmove (IEnd k true false) (DOpen k) DIn
| mv_app k : dmove (IApp k) (DPend k) DIn
| mv_start_ro k d : dmove (IStart k false) d d
| mv_end_ro k d : dmove (IEnd k false false) d d
| mv_emit k d : dmove (IEmit k) d d
| mv_spawn d : dmove ISpawn d d
| mv_runended : dmove IRunEnded DOut DOut.

Lemma dstep_dmove d ins d' : dstep d ins = Some d' -> dmove ins d d'.
Proof.
  destruct ins as [ | | k m | k m a | k | k | | ]; destruct d as [ | | k' | k']; cbn [dstep];
    try destruct m; try destruct a; try discriminate;
    try (destruct (N.eqb_spec k k'); [subst | discriminate]);
    intros E; inversion E; subst; constructor.
Qed.

Lemma is_open_cons_other i j ins tr : i <> j -> is_open ((i, ins) :: tr) j = is_open tr j.
Proof. intros H. cbn [is_open]. apply Nat.eqb_neq in H. now rewrite H. Qed.

Lemma pend_upd_other h ds i d :
  (forall j, h = Some j -> j <> i) -> pend h (upd_ds ds i d) = pend h ds.
Proof.
  intros H. unfold pend. destruct h as [j|]; [|reflexivity].
  rewrite upd_ds_other by (apply H; reflexivity). reflexivity.
Qed.

(* a step does nothing, or performs the enabled head of the actor's code *)
Lemma step_cases st i :
  step st i = st
  \/ exists ins rest, code st i = ins :: rest /\ enabled (holder st) ins = true
       /\ step st i = {| holder := upd_holder (holder st) i ins; code := set_code (code st) i rest;
                         trace := (i, ins) :: trace st |}.
Proof.
  unfold step. destruct (code st i) as [|ins rest]; [left; reflexivity|].
  destruct (enabled (holder st) ins) eqn:EN; [right; eauto | left; reflexivity].
Qed.

(* the clauses of the invariant, one by one, when actor i in discipline state d performs ins *)
Lemma hold_step h ds i ins d d' :
  (forall j, h = Some j <-> ds j <> DOut) -> ds i = d -> enabled h ins = true -> dmove ins d d' ->
  forall j, upd_holder h i ins = Some j <-> upd_ds ds i d' j <> DOut.
Proof.
  intros H Ed EN DS j. pose proof (H i) as [HI' HI]. rewrite Ed in HI, HI'.
  destruct (Nat.eq_dec j i) as [->|NE].
  - rewrite upd_ds_same.
    destruct DS; cbn [upd_holder];
      try (assert (HH : h = Some i) by (apply HI; discriminate); rewrite HH);
      rewrite ?Nat.eqb_refl; split; intros; try congruence; try tauto.
  - rewrite upd_ds_other by exact NE.
    destruct DS; cbn [upd_holder]; try apply H.
    + (* acquire: the permit was free, so nobody was inside *)
      destruct h; [discriminate EN|].
      split; [intros E; inversion E; congruence|]. intros ND. apply H in ND. discriminate.
    + (* release by the holder *)
      assert (HH : h = Some i) by (apply HI; discriminate).
      rewrite HH, Nat.eqb_refl. split; [discriminate|]. intros ND. apply H in ND. congruence.
Qed.

Lemma open_step tr ds i ins d d' :
  (forall j, is_open tr j = true <-> exists k, ds j = DOpen k) -> ds i = d -> dmove ins d d' ->
  forall j, is_open ((i, ins) :: tr) j = true <-> exists k, upd_ds ds i d' j = DOpen k.
Proof.
  intros O Ed DS j. destruct (Nat.eq_dec j i) as [->|NE].
  - pose proof (O i) as Oi. rewrite Ed in Oi. rewrite upd_ds_same.
    destruct DS; cbn [is_open]; rewrite ?Nat.eqb_refl; try exact Oi;
      try (rewrite Oi); split; intros X; try discriminate; try (destruct X; discriminate); eauto.
  - rewrite upd_ds_other by exact NE. rewrite is_open_cons_other by congruence. apply O.
Qed.

Lemma pend_upd_same h ds i : pend h (upd_ds ds i (ds i)) = pend h ds.
Proof.
  unfold pend, upd_ds. destruct h as [j|]; [|reflexivity]. destruct (Nat.eqb_spec j i) as [->|]; reflexivity.
Qed.

Lemma ord_step h tr ds i ins d d' :
  (forall j, h = Some j <-> ds j <> DOut) -> ends_a tr = pend h ds ++ frames tr ->
  ds i = d -> enabled h ins = true -> dmove ins d d' ->
  ends_a ((i, ins) :: tr) = pend (upd_holder h i ins) (upd_ds ds i d') ++ frames ((i, ins) :: tr).
Proof.
  intros H R Ed EN DS. pose proof (proj2 (H i)) as HI. rewrite Ed in HI.
  (* moves that keep the state change neither list; the End of a logged call puts it on both sides as the pending
     one, its App moves it from pending to the frames, a release leaves from DIn where nothing is pending *)
  destruct DS; cbn [ends_a frames upd_holder];
    try (rewrite <- Ed, pend_upd_same; exact R);
    try (assert (HH : h = Some i) by (apply HI; discriminate));
    try (rewrite R, HH; unfold pend; rewrite ?Nat.eqb_refl, ?upd_ds_same, ?Ed; reflexivity).
  (* acquire: nobody held the permit, nothing was pending *)
  unfold pend at 1. rewrite upd_ds_same. destruct h; [discriminate EN|]. exact R.
Qed.

Lemma inv_step st ds i : Inv st ds -> exists ds', Inv (step st i) ds'.
Proof.
  intros I. destruct (step_cases st i) as [->|[ins [rest [EC [EN ->]]]]]; [exists ds; exact I|].
  destruct I as [A H O R]. specialize (A i) as Ai. rewrite EC in Ai.
  apply daccept_cons in Ai. destruct Ai as [d' [DS A']]. apply dstep_dmove in DS.
  exists (upd_ds ds i d'). constructor; cbn [holder code trace].
  - intros j. unfold set_code, upd_ds. destruct (Nat.eqb_spec j i); [exact A' | apply A].
  - exact (hold_step _ _ _ _ _ _ H eq_refl EN DS).
  - exact (open_step _ _ _ _ _ _ O eq_refl DS).
  - exact (ord_step _ _ _ _ _ _ _ H R eq_refl EN DS).
Qed.

Lemma inv_run f sched : wf_sys f -> exists ds, Inv (run f sched) ds.
Proof.
  intros W. apply (fold_left_inv step (fun st => exists ds, Inv st ds)).
  - intros st i [ds I]. exact (inv_step st ds i I).
  - eexists. apply inv_init, W.
Qed.

(* whoever is inside a mutating section holds the permit *)
Lemma open_holds f sched i :
  wf_sys f -> is_open (trace (run f sched)) i = true -> holder (run f sched) = Some i.
Proof.
  intros W Oi. destruct (inv_run f sched W) as [ds I].
  apply (inv_open _ _ I) in Oi. destruct Oi as [k Ki].
  apply (inv_hold _ _ I). rewrite Ki. discriminate.
Qed.

Lemma mutex_run f sched i j :
  wf_sys f ->
  is_open (trace (run f sched)) i = true ->
  is_open (trace (run f sched)) j = true -> i = j.
Proof.
  intros W Oi Oj. apply (open_holds f sched i W) in Oi. apply (open_holds f sched j W) in Oj. congruence.
Qed.

(* the frames on the thread are the End events of the logged calls in the same order, except that the newest End,
   the holder's, may still wait for its frame *)
Lemma order_run_strong f sched :
  wf_sys f ->
  exists p, ends_a (trace (run f sched)) = p ++ frames (trace (run f sched))
            /\ (p = [] \/ exists i k, p = [(i, k)] /\ holder (run f sched) = Some i).
Proof.
  intros W. destruct (inv_run f sched W) as [ds I].
  exists (pend (holder (run f sched)) ds). split; [apply (inv_ord _ _ I)|].
  unfold pend. destruct (holder (run f sched)) as [h|]; [|left; reflexivity].
  destruct (ds h); try (left; reflexivity). right. eauto.
Qed.

Lemma order_run f sched :
  wf_sys f ->
  exists p, ends_a (trace (run f sched)) = p ++ frames (trace (run f sched))
            /\ length p <= 1
            /\ (holder (run f sched) = None -> p = []).
Proof.
  intros W. destruct (order_run_strong f sched W) as [p [E Hp]]. exists p. split; [exact E|].
  destruct Hp as [->|[i [k [-> H]]]].
  - split; [apply Nat.le_0_l | reflexivity].
  - split; [apply le_n | congruence].
Qed.

Lemma enabled_not_acq h ins : ins <> IAcq -> enabled h ins = true.
Proof. destruct ins; cbn; congruence. Qed.

Lemma step_progress st i ins rest :
  code st i = ins :: rest -> ins <> IAcq ->
  code (step st i) i = rest /\ trace (step st i) = (i, ins) :: trace st.
Proof.
  intros EC NA. unfold step. rewrite EC, (enabled_not_acq _ _ NA). cbn.
  unfold set_code. rewrite Nat.eqb_refl. auto.
Qed.

Lemma proj_cons_same i ins tr : proj i ((i, ins) :: tr) = ins :: proj i tr.
Proof. unfold proj. cbn [filter fst]. rewrite Nat.eqb_refl. reflexivity. Qed.

Lemma proj_cons_other i j ins tr : j <> i -> proj i ((j, ins) :: tr) = proj i tr.
Proof. intros H. unfold proj. cbn [filter fst]. apply Nat.eqb_neq in H. now rewrite H. Qed.

Lemma program_order_step st i f0 :
  (forall j, rev (proj j (trace st)) ++ code st j = f0 j) ->
  forall j, rev (proj j (trace (step st i))) ++ code (step st i) j = f0 j.
Proof.
  intros P j. destruct (step_cases st i) as [->|[ins [rest [EC [_ ->]]]]]; [apply P|].
  cbn [trace code]. unfold set_code.
  destruct (Nat.eqb_spec j i) as [->|NE].
  - rewrite proj_cons_same. cbn [rev]. rewrite <- app_assoc. cbn [app]. rewrite <- EC. apply P.
  - rewrite proj_cons_other by congruence. apply P.
Qed.

(* the projection of the trace on actor i, in chronological order, followed by i's remaining code,
   is i's initial code *)
Lemma program_order f sched :
  forall j, rev (proj j (trace (run f sched))) ++ code (run f sched) j = f j.
Proof.
  apply (fold_left_inv step (fun st => forall j, rev (proj j (trace st)) ++ code st j = f j)).
  - intros st i P. apply program_order_step, P.
  - reflexivity.
Qed.

Lemma replay_is_run : forall steps st st',
  replay st steps = Some st' -> st' = fold_left step (sched_of steps) st.
Proof.
  induction steps as [|[[a c] k] r IH]; intros st st' E; cbn [replay] in E.
  - inversion E. reflexivity.
  - destruct (code st (N.to_nat a)) as [|ins rest] eqn:EC; [discriminate|].
    unfold sched_of. cbn [filter fst snd map]. fold (sched_of r).
    destruct (N.eqb c 0) eqn:C0; cbn [negb].
    + destruct ins; try discriminate. destruct (enabled (holder st) IAcq); [discriminate|].
      apply IH. exact E.
    + destruct (N.eqb c (icode ins) && N.eqb k (icall ins) && enabled (holder st) ins); [|discriminate].
      cbn [fold_left]. apply IH. exact E.
Qed.

Lemma drun_app d c1 c2 :
  drun d (c1 ++ c2) = match drun d c1 with Some d' => drun d' c2 | None => None end.
Proof.
  revert d. induction c1 as [|x r IH]; intros d; cbn [app drun]; [reflexivity|].
  destruct (dstep d x); [apply IH | reflexivity].
Qed.

Lemma daccept_drun d l :
  daccept d l = match drun d l with Some DOut => true | _ => false end.
Proof.
  revert d. induction l as [|x r IH]; intros d; cbn [daccept drun].
  - destruct d; reflexivity.
  - destruct (dstep d x); [apply IH | reflexivity].
Qed.

Lemma compile_op_sstep l k m a s o :
  drun (lift k s) (compile_op l k m a o) = option_map (lift k) (sstep l m a s o).
Proof.
  destruct o, s, l, m, a; cbn [compile_op drun dstep lift sstep option_map];
    rewrite ?N.eqb_refl; reflexivity.
Qed.

Lemma compile_span_srun l k m a ops : forall s,
  drun (lift k s) (flat_map (compile_op l k m a) ops) = option_map (lift k) (srun l m a s ops).
Proof.
  induction ops as [|o r IH]; intros s; cbn [flat_map srun]; [reflexivity|].
  rewrite drun_app, compile_op_sstep.
  destruct (sstep l m a s o) as [s'|]; cbn [option_map]; [apply IH | reflexivity].
Qed.

Lemma span_accepts_drun l k m s :
  span_accepts l m s = true -> drun DOut (compile_span l k m s) = Some DOut.
Proof.
  unfold span_accepts, compile_span. intros H.
  change DOut with (lift k SOut) at 1. rewrite compile_span_srun.
  destruct (srun l m (l && has_append s) SOut s) as [[ | | | ]|]; try discriminate. reflexivity.
Qed.

(* what the proofs use of [wf_cfg]; the two [_app] fields come from [wf_locked_span true] *)
Record spans_ok (c : cfg) : Prop := {
  so_tool : forall l, span_accepts l true (span_tool c) = true;
  so_loop : forall l, span_accepts l true (span_loop_tool c) = true;
  so_ro : forall l, span_accepts l false (span_ro c) = true;
  so_loop_ro : forall l, span_accepts l false (span_loop_ro c) = true;
  so_ckpt : span_accepts false true (span_ckpt c) = true;
  so_task : span_accepts false true (span_task c) = true;
  so_ro_noacq : count_op OAcquire (span_ro c) = 0;
  so_loop_ro_noacq : count_op OAcquire (span_loop_ro c) = 0;
  so_tool_app : has_append (span_tool c) = true;
  so_loop_app : has_append (span_loop_tool c) = true
}.

Lemma count_has_append s : Nat.eqb (count_op OAppend s) 1 = true -> has_append s = true.
Proof.
  unfold has_append. induction s as [|x r IH]; cbn [count_op existsb]; [discriminate|].
  destruct (op_eqb OAppend x); [reflexivity|]. cbn. exact IH.
Qed.

Lemma locked_span_has_append s : wf_locked_span true s = true -> has_append s = true.
Proof.
  unfold wf_locked_span. intros H.
  assert (HA : has_append (strip_spawned s) = true).
  { destruct (strip_spawned s) as [|[] ?]; try discriminate H.
    destruct (last_op _) as [[]|]; try discriminate H.
    apply andb_prop in H. destruct H as [_ H]. apply andb_prop in H. apply count_has_append, H. }
  destruct s as [|[] ?]; exact HA.
Qed.

Lemma wf_cfg_spans c : wf_cfg c = true -> spans_ok c.
Proof.
  unfold wf_cfg, wf_spans, wf_ro_span. intros H.
  repeat match goal with H : _ && _ = true |- _ => apply andb_prop in H; destruct H end.
  constructor; try (intros []; assumption); try assumption; try (apply Nat.eqb_eq; assumption);
    apply locked_span_has_append; assumption.
Qed.

Lemma compile_calls_drun c l names : spans_ok c -> forall k,
  drun DOut (compile_calls c l k names) = Some DOut.
Proof.
  intros S. induction names as [|n r IH]; intros k; cbn [compile_calls]; [reflexivity|].
  rewrite drun_app.
  destruct (requires_lock c n).
  - rewrite (span_accepts_drun _ _ _ _ (so_loop _ S l)). apply IH.
  - rewrite (span_accepts_drun _ _ _ _ (so_loop_ro _ S l)). apply IH.
Qed.

Lemma compile_wf c a : wf_cfg c = true -> daccept DOut (compile_actor c a) = true.
Proof.
  intros W. apply wf_cfg_spans in W. rewrite daccept_drun.
  destruct a as [n l | ns l | l | ]; cbn [compile_actor]; rewrite ?drun_app.
  - destruct (requires_lock c n).
    + rewrite (span_accepts_drun _ _ _ _ (so_tool _ W l)). reflexivity.
    + rewrite (span_accepts_drun _ _ _ _ (so_ro _ W l)). reflexivity.
  - rewrite (compile_calls_drun _ _ _ W). reflexivity.
  - rewrite (span_accepts_drun _ _ _ _ (so_ckpt _ W)). reflexivity.
  - rewrite (span_accepts_drun _ _ _ _ (so_task _ W)). reflexivity.
Qed.

(* a system of compiled actors (any number of sessions and tasks), and its trace under a schedule *)
Definition sys (c : cfg) (actors : nat -> option akind) : nat -> list instr :=
  fun i => match actors i with Some a => compile_actor c a | None => [] end.

Definition actors_t := nat -> option akind.

Definition tr_of (c : cfg) (actors : actors_t) (sched : list nat) : list event :=
  trace (run (sys c actors) sched).

Lemma sys_wf c actors : wf_cfg c = true -> wf_sys (sys c actors).
Proof.
  intros W i. unfold sys. destruct (actors i); [apply compile_wf; exact W | reflexivity].
Qed.

(* the systems the correspondence cases replay ([check_case_cfg] runs [sys_of]) are disciplined as well *)
Lemma sys_of_wf c ds : wf_cfg c = true -> wf_sys (sys_of c ds).
Proof.
  intros W i. unfold sys_of. destruct (nth_error ds i); [apply compile_wf; exact W | reflexivity].
Qed.

Lemma ref_cfg_wf : wf_cfg ref_cfg = true.
Proof. vm_compute. reflexivity. Qed.

Definition own (i : nat) (l : list (nat * N)) : list (nat * N) :=
  filter (fun p => Nat.eqb (fst p) i) l.

Lemma own_frames_run f sched i :
  wf_sys f ->
  own i (ends_a (trace (run f sched))) = own i (frames (trace (run f sched)))
  \/ exists k, own i (ends_a (trace (run f sched))) = (i, k) :: own i (frames (trace (run f sched)))
               /\ holder (run f sched) = Some i.
Proof.
  intros W. destruct (order_run_strong f sched W) as [p [E [->|[h [k [-> H]]]]]].
  - left. rewrite E. reflexivity.
  - rewrite E. unfold own. cbn [app filter fst]. destruct (Nat.eqb_spec h i) as [->|NE].
    + right. exists k. split; [reflexivity | exact H].
    + left. reflexivity.
Qed.

Lemma step_trace st i : trace (step st i) = trace st \/ exists ins, trace (step st i) = (i, ins) :: trace st.
Proof.
  destruct (step_cases st i) as [->|[ins [rest [_ [_ ->]]]]]; [left; reflexivity | right; eexists; reflexivity].
Qed.

Lemma run_snoc f sched i : run f (sched ++ [i]) = step (run f sched) i.
Proof. unfold run. rewrite fold_left_app. reflexivity. Qed.

(* every older part of a trace is the trace of a run: a step that does nothing leaves no event *)
Lemma suffix_is_run f sched : forall l1 l2,
  trace (run f sched) = l1 ++ l2 -> exists sched2, trace (run f sched2) = l2.
Proof.
  induction sched as [|i r IH] using rev_ind; intros l1 l2 E.
  - cbn in E. symmetry in E. apply app_eq_nil in E. destruct E as [_ ->]. exists []. reflexivity.
  - rewrite run_snoc in E. destruct (step_trace (run f r) i) as [S|[ins S]]; rewrite S in E.
    + eapply IH. exact E.
    + destruct l1 as [|x l1]; cbn [app] in E.
      * exists (r ++ [i]). rewrite run_snoc, S. exact E.
      * inversion E as [[EX ET]]. eapply IH. exact ET.
Qed.

Lemma ends_a_in i k tr : In (i, k) (ends_a tr) -> In (i, IEnd k true true) tr.
Proof.
  induction tr as [|[j ins] r IH]; cbn [ends_a]; [tauto|].
  destruct ins as [ | | k0 m | k0 m a | k0 | k0 | | ]; try (intros H; right; apply IH; exact H).
  destruct m, a; try (intros H; right; apply IH; exact H).
  intros [E|H]; [inversion E; subst; left; reflexivity | right; apply IH; exact H].
Qed.

Lemma frame_after_end f sched i k :
  wf_sys f ->
  In (i, IApp k) (trace (run f sched)) ->
  happens_before (i, IEnd k true true) (i, IApp k) (trace (run f sched)).
Proof.
  (* cut the trace at the App: the older part is the trace of a run, where the frame just appended has its End *)
  intros W HI. apply in_split in HI. destruct HI as [l1 [l2 E]].
  destruct (suffix_is_run f sched l1 _ E) as [s2 E2].
  destruct (order_run_strong f s2 W) as [p [EO _]]. rewrite E2 in EO. cbn [ends_a frames] in EO.
  assert (HI : In (i, k) (ends_a l2)) by (rewrite EO; apply in_or_app; right; left; reflexivity).
  apply ends_a_in in HI. apply in_split in HI. destruct HI as [m1 [m2 EM]].
  exists l1, m1, m2. rewrite E, EM. reflexivity.
Qed.

Lemma dstep_runended d d' : dstep d IRunEnded = Some d' -> d = DOut.
Proof. destruct d; cbn; congruence. Qed.

Lemma frames_complete_at_run_end f sched i l1 l2 :
  wf_sys f ->
  trace (run f sched) = l1 ++ (i, IRunEnded) :: l2 ->
  own i (ends_a l2) = own i (frames l2).
Proof.
  intros W E.
  destruct (suffix_is_run f sched l1 _ E) as [s1 E1].
  destruct (suffix_is_run f sched (l1 ++ [(i, IRunEnded)]) l2) as [s2 E2].
  { rewrite E, <- app_assoc. reflexivity. }
  (* in the state with trace l2 the next instruction of i is IRunEnded *)
  pose proof (program_order f s1 i) as P1. pose proof (program_order f s2 i) as P2.
  rewrite E1 in P1. rewrite E2 in P2. rewrite proj_cons_same in P1. cbn [rev] in P1.
  rewrite <- app_assoc in P1. cbn [app] in P1. rewrite <- P2 in P1.
  apply app_inv_head in P1.
  destruct (inv_run f s2 W) as [ds I].
  pose proof (inv_acc _ _ I i) as A. rewrite <- P1 in A. apply daccept_cons in A.
  destruct A as [d' [DS _]]. apply dstep_runended in DS.
  destruct (own_frames_run f s2 i W) as [EQ|[k [_ H]]].
  - rewrite E2 in EQ. exact EQ.
  - apply (inv_hold _ _ I) in H. congruence.
Qed.

(* one side-effects frame per logged call, for compiled systems: the three facts above together *)
Lemma c11_one_frame_proof c actors sched i :
  wf_cfg c = true ->
  (own i (ends_a (tr_of c actors sched)) = own i (frames (tr_of c actors sched))
   \/ exists k, own i (ends_a (tr_of c actors sched)) = (i, k) :: own i (frames (tr_of c actors sched))
                /\ holder (run (sys c actors) sched) = Some i)
  /\ (forall k, In (i, IApp k) (tr_of c actors sched) ->
        happens_before (i, IEnd k true true) (i, IApp k) (tr_of c actors sched))
  /\ (forall l1 l2, tr_of c actors sched = l1 ++ (i, IRunEnded) :: l2 ->
        own i (ends_a l2) = own i (frames l2)).
Proof.
  intros W. pose proof (sys_wf c actors W) as WS. split; [|split].
  - apply own_frames_run. exact WS.
  - intros k. apply frame_after_end. exact WS.
  - intros l1 l2. apply frames_complete_at_run_end. exact WS.
Qed.

Lemma compile_span_end_flag l k m s k' m' a' :
  In (IEnd k' m' a') (compile_span l k m s) -> m' = m /\ a' = (l && has_append s)%bool.
Proof.
  unfold compile_span. intros HI. apply in_flat_map in HI. destruct HI as [o [_ Hi]].
  destruct o, l; cbn in *; intuition congruence.
Qed.

Lemma compile_calls_end_flag c names : spans_ok c -> forall k k' a',
  In (IEnd k' true a') (compile_calls c true k names) -> a' = true.
Proof.
  intros S. induction names as [|n r IH]; intros k k' a' HI; cbn [compile_calls] in HI; [destruct HI|].
  apply in_app_or in HI. destruct HI as [HI|HI]; [|eapply IH; exact HI].
  destruct (requires_lock c n); apply compile_span_end_flag in HI; destruct HI as [M A].
  - rewrite A, (so_loop_app _ S). reflexivity.
  - discriminate.
Qed.

(* mutating tool calls of a thread-attached session are logged calls *)
Lemma attached_calls_logged c a k a' :
  wf_cfg c = true ->
  (exists n, a = AEnv n true) \/ (exists ns, a = ALoop ns true) ->
  In (IEnd k true a') (compile_actor c a) -> a' = true.
Proof.
  intros W K HI. apply wf_cfg_spans in W.
  destruct K as [[n ->]|[ns ->]]; cbn [compile_actor] in HI; apply in_app_or in HI;
    destruct HI as [HI|[E|[]]]; try discriminate.
  - destruct (requires_lock c n); apply compile_span_end_flag in HI; destruct HI as [M A].
    + rewrite A, (so_tool_app _ W). reflexivity.
    + discriminate.
  - eapply compile_calls_end_flag; eauto.
Qed.

Lemma count_op_zero_notin o s : count_op o s = 0 -> ~ In o s.
Proof.
  induction s as [|x r IH]; cbn [count_op In]; [tauto|].
  destruct (op_eqb o x) eqn:E; [discriminate|]. intros H [->|HI]; [|apply IH; assumption].
  destruct o; discriminate.
Qed.

Lemma compile_span_no_acq l k m s :
  count_op OAcquire s = 0 -> ~ In IAcq (compile_span l k m s).
Proof.
  intros C HI. unfold compile_span in HI. apply in_flat_map in HI. destruct HI as [o [Ho Hi]].
  destruct o; [exact (count_op_zero_notin _ _ C Ho)|..]; destruct l; cbn in Hi; intuition discriminate.
Qed.

(* the code of a read-only call (either call site, attached or not) contains no acquire *)
Lemma readonly_call_no_acq c l k :
  wf_cfg c = true ->
  ~ In IAcq (compile_span l k false (span_ro c)) /\ ~ In IAcq (compile_span l k false (span_loop_ro c)).
Proof.
  intros W. apply wf_cfg_spans in W. split.
  - apply compile_span_no_acq. apply (so_ro_noacq _ W).
  - apply compile_span_no_acq. apply (so_loop_ro_noacq _ W).
Qed.

Lemma readonly_env_no_acq c n l :
  wf_cfg c = true -> requires_lock c n = false -> ~ In IAcq (compile_actor c (AEnv n l)).
Proof.
  intros W RL HI. cbn [compile_actor] in HI. rewrite RL in HI.
  apply in_app_or in HI. destruct HI as [HI|[E|[]]]; [|discriminate].
  exact (proj1 (readonly_call_no_acq c l 0 W) HI).
Qed.

(* a read-only session never waits: its code has no acquire, and nothing else is ever disabled *)
Lemma c11_readonly_free_proof c actors sched i n l ins rest :
  wf_cfg c = true ->
  actors i = Some (AEnv n l) -> requires_lock c n = false ->
  code (run (sys c actors) sched) i = ins :: rest ->
  ins <> IAcq
  /\ code (step (run (sys c actors) sched) i) i = rest
  /\ trace (step (run (sys c actors) sched) i) = (i, ins) :: trace (run (sys c actors) sched).
Proof.
  intros W A RL EC.
  assert (NA : ins <> IAcq).
  { intros ->. apply (readonly_env_no_acq c n l W RL).
    pose proof (program_order (sys c actors) sched i) as P. rewrite EC in P.
    unfold sys in P at 2. rewrite A in P. rewrite <- P. apply in_or_app. right. left. reflexivity. }
  split; [exact NA|]. apply step_progress; assumption.
Qed.

(* witnesses: overlap of read-only calls with each other and with a mutating call is reachable;
   a blocked acquire is reachable *)
Definition ex_actors : actors_t := fun i =>
  match i with
  | 0 => Some (AEnv s_bash true)
  | 1 => Some (AEnv s_read true)
  | 2 => Some (AEnv s_grep false)
  | 3 => Some (AEnv s_write true)
  | 4 => Some ATask
  | _ => None
  end.

Definition ex_sched_overlap : list nat := [0; 0; 1; 2].

Lemma ex_overlap :
  is_open (tr_of ref_cfg ex_actors ex_sched_overlap) 0 = true
  /\ is_open_ro (tr_of ref_cfg ex_actors ex_sched_overlap) 1 = true
  /\ is_open_ro (tr_of ref_cfg ex_actors ex_sched_overlap) 2 = true.
Proof. vm_compute. auto. Qed.

(* actor 3 (write) and the task 4 try to acquire while 0 is inside: nothing happens; 0 runs to the
   end, then 3 gets the permit, then 4 *)
Definition ex_sched_blocked : list nat := [0; 0; 3; 4; 4; 3; 0; 0; 0; 0; 0; 3; 4; 3; 3; 3; 3; 3; 3; 4; 4; 4; 4].

Lemma ex_blocked :
  frames (tr_of ref_cfg ex_actors ex_sched_blocked) = [(3, 0%N); (0, 0%N)]
  /\ ends_a (tr_of ref_cfg ex_actors ex_sched_blocked) = [(3, 0%N); (0, 0%N)]
  /\ holder (run (sys ref_cfg ex_actors) ex_sched_blocked) = None
  /\ code (run (sys ref_cfg ex_actors) ex_sched_blocked) 4 = [].
Proof. vm_compute. auto. Qed.

(* the guard released before the side-effects append: frames out of order *)
Definition bad_cfg_release_early : cfg := {|
  permits := 1; shared_lock := true; stray_sites := 0; abandon_kills := true;
  class_default_lock := true; class_listed := class_listed ref_cfg;
  registered := registered ref_cfg; aliases := aliases ref_cfg;
  span_tool := [OAcquire; ORun; OEmit; ORelease; OAppend];
  span_ro := span_ro ref_cfg; span_loop_tool := span_loop_tool ref_cfg;
  span_loop_ro := span_loop_ro ref_cfg; span_ckpt := span_ckpt ref_cfg; span_task := span_task ref_cfg
|}.

(* the tool started before the guard is taken: two mutating calls in progress *)
Definition bad_cfg_acquire_late : cfg := {|
  permits := 1; shared_lock := true; stray_sites := 0; abandon_kills := true;
  class_default_lock := true; class_listed := class_listed ref_cfg;
  registered := registered ref_cfg; aliases := aliases ref_cfg;
  span_tool := [ORun; OAcquire; OEmit; OAppend; ORelease];
  span_ro := span_ro ref_cfg; span_loop_tool := span_loop_tool ref_cfg;
  span_loop_ro := span_loop_ro ref_cfg; span_ckpt := span_ckpt ref_cfg; span_task := span_task ref_cfg
|}.

Definition two_writers : actors_t := fun i =>
  match i with 0 | 1 => Some (AEnv s_write true) | _ => None end.

Definition sched_release_early : list nat := [0; 0; 0; 0; 0; 1; 1; 1; 1; 1; 1; 0].

Lemma bad_release_early :
  wf_cfg bad_cfg_release_early = false
  /\ holder (run (sys bad_cfg_release_early two_writers) sched_release_early) = None
  /\ ends_a (tr_of bad_cfg_release_early two_writers sched_release_early) = [(1, 0%N); (0, 0%N)]
  /\ frames (tr_of bad_cfg_release_early two_writers sched_release_early) = [(0, 0%N); (1, 0%N)].
Proof. vm_compute. auto. Qed.

Lemma bad_acquire_late :
  wf_cfg bad_cfg_acquire_late = false
  /\ is_open (tr_of bad_cfg_acquire_late two_writers [0; 1]) 0 = true
  /\ is_open (tr_of bad_cfg_acquire_late two_writers [0; 1]) 1 = true.
Proof. vm_compute. auto. Qed.

(* an allow list that forgets the alias `shell`: the obligation fails *)
Definition bad_cfg_alias_forgotten : cfg := {|
  permits := 1; shared_lock := true; stray_sites := 0; abandon_kills := true;
  class_default_lock := false; class_listed := [s_write; s_apply_patch; s_bash];
  registered := registered ref_cfg; aliases := aliases ref_cfg;
  span_tool := span_tool ref_cfg; span_ro := span_ro ref_cfg; span_loop_tool := span_loop_tool ref_cfg;
  span_loop_ro := span_loop_ro ref_cfg; span_ckpt := span_ckpt ref_cfg; span_task := span_task ref_cfg
|}.

Definition good_cfg_allow_list : cfg := {|
  permits := 1; shared_lock := true; stray_sites := 0; abandon_kills := true;
  class_default_lock := false; class_listed := [s_write; s_apply_patch; s_bash; s_shell];
  registered := registered ref_cfg; aliases := aliases ref_cfg;
  span_tool := span_tool ref_cfg; span_ro := span_ro ref_cfg; span_loop_tool := span_loop_tool ref_cfg;
  span_loop_ro := span_loop_ro ref_cfg; span_ckpt := span_ckpt ref_cfg; span_task := span_task ref_cfg
|}.

Lemma alias_forgotten :
  wf_cfg bad_cfg_alias_forgotten = false /\ requires_lock bad_cfg_alias_forgotten s_shell = false
  /\ wf_cfg good_cfg_allow_list = true.
Proof. vm_compute. auto. Qed.

(* S28 (fixed in /repo c594d9b): before the fix a bash call abandoned by its timeout left the command running: the call's
   instructions went on (emit, append, release, run end) while the End of the command came later.
   That actor does not obey the discipline, and mutual exclusion fails. *)
Definition timeout_unfixed_code : list instr :=
  [IAcq; IStart 0 true; IEmit 0; IApp 0; IRel; IRunEnded; IEnd 0 true true].

Definition timeout_unfixed_sys : nat -> list instr := fun i =>
  match i with
  | 0 => timeout_unfixed_code
  | 1 => compile_actor ref_cfg (AEnv s_write true)
  | _ => []
  end.

Lemma timeout_unfixed_refuted :
  daccept DOut timeout_unfixed_code = false
  /\ is_open (trace (run timeout_unfixed_sys [0; 0; 0; 0; 0; 1; 1])) 0 = true
  /\ is_open (trace (run timeout_unfixed_sys [0; 0; 0; 0; 0; 1; 1])) 1 = true.
Proof. vm_compute. auto. Qed.
