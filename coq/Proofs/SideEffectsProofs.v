(* C11 — the side-effects frame of a mutating tool call lists the files the call changed.
   Built on the theorems the workspace properties already have for the same models:
   C12 apply_patch_atomic / success_effects (Model/Patch.v), C14 write_tool_effect / write_covered (Model/Checkpoint.v). *)
From RipV Require Import Base.Prelude Base.Fs Model.Paths Model.Checkpoint Model.Patch Model.SideEffects.
From RipV Require Import Proofs.FsProofs Proofs.PatchProofs Proofs.PatchAtomic Proofs.PatchEffects.
From RipV Require Proofs.PathsProofs Proofs.CheckpointProofs Proofs.AutoCoverProofs.
Open Scope N_scope.
Open Scope list_scope.

Lemma normalize_rel_idem p : normalize_rel (normalize_rel p) = normalize_rel p.
Proof.
  unfold normalize_rel. rewrite map_map. apply map_ext. intros c.
  destruct (c =? 92) eqn:E; [reflexivity|rewrite E; reflexivity].
Qed.

Lemma norm_all_in l y : In y (norm_all l) <-> exists p, In p l /\ y = normalize_rel p.
Proof.
  unfold norm_all. rewrite sort_dedup_in, in_map_iff. split; intros [p [A B]]; exists p; auto.
Qed.

Lemma reported_both ops : reported MvBoth ops = changed_files ops.
Proof.
  unfold reported, changed_files, affected_paths. f_equal. f_equal.
  apply flat_map_ext. intros [p c|p|p [q|] hs]; reflexivity.
Qed.

Lemma reported_in m ops y : In y (reported m ops) <-> exists o p, In o ops /\ In p (op_reported m o) /\ y = normalize_rel p.
Proof.
  unfold reported. rewrite sort_dedup_in, in_map_iff. split.
  - intros [p [E I]]. apply in_flat_map in I. destruct I as [o [Io Ip]]. exists o, p. auto.
  - intros [o [p [Io [Ip E]]]]. exists p. split; [auto|]. apply in_flat_map. exists o. auto.
Qed.

(* the list of a successful apply: the affected paths, normalised *)
Lemma patch_frame_in ops y : In y (norm_all (reported MvBoth ops)) <-> exists p, In p (affected_paths ops) /\ y = normalize_rel p.
Proof.
  rewrite norm_all_in, reported_both. unfold changed_files. split.
  - intros (p0 & I & ->). apply sort_dedup_in, in_map_iff in I. destruct I as (p & <- & I).
    exists p. split; [exact I|apply normalize_rel_idem].
  - intros (p & I & ->). exists (normalize_rel p). split; [apply sort_dedup_in, in_map; exact I|symmetry; apply normalize_rel_idem].
Qed.

(* what a successful apply changes is named by an operation *)
Lemma obytes_dec (a b : option bytes) : {a = b} + {a <> b}.
Proof. decide equality. apply list_eq_dec. apply N.eq_dec. Qed.

Lemma upd_changed m k v q : upd m k v q <> m q -> k = q.
Proof.
  unfold upd. destruct (path_eqb k q) eqn:E; [intros _; apply path_eqb_eq; exact E|intros N; destruct (N eq_refl)].
Qed.

Lemma op_effect_changed m m1 o q : op_effect m m1 o -> m1 q <> m q -> exists p, In p (op_paths o) /\ comps p = q.
Proof.
  destruct o as [p c|p|p [t|] hs]; cbn [op_effect op_paths].
  - intros [_ H] N. rewrite H in N. exists p. split; [left; reflexivity|exact (upd_changed _ _ _ _ N)].
  - intros [_ H] N. rewrite H in N. exists p. split; [left; reflexivity|exact (upd_changed _ _ _ _ N)].
  - intros (b & b' & _ & _ & _ & _ & _ & H) N. rewrite H in N.
    destruct (obytes_dec (upd m (comps p) None q) (m q)) as [S|D].
    + rewrite <- S in N. exists t. split; [right; left; reflexivity|exact (upd_changed _ _ _ _ N)].
    + exists p. split; [left; reflexivity|exact (upd_changed _ _ _ _ D)].
  - intros (b & b' & _ & _ & _ & H) N. rewrite H in N. exists p. split; [left; reflexivity|exact (upd_changed _ _ _ _ N)].
Qed.

Lemma effects_changed : forall ops m m' q, effects m ops m' -> m' q <> m q ->
  exists p, In p (affected_paths ops) /\ comps p = q.
Proof.
  induction ops as [|o r IH]; intros m m' q; cbn [effects].
  - intros H N. rewrite H in N. congruence.
  - intros [m1 [E1 E2]] N. unfold affected_paths. cbn [flat_map].
    destruct (obytes_dec (m1 q) (m q)) as [S|D].
    + rewrite <- S in N. destruct (IH _ _ _ E2 N) as [p [I C]]. exists p. split; [apply in_or_app; right; exact I|exact C].
    + destruct (op_effect_changed _ _ _ _ E1 D) as [p [I C]]. exists p. split; [apply in_or_app; left; exact I|exact C].
Qed.

(* [listed l q]: the list names the file at component path q *)
Definition listed (l : list str) (q : path) : Prop := exists p, In (normalize_rel p) l /\ comps p = q.

Theorem patch_frame_lists_changed root f input f' fr :
  fs_wf f -> run_call root f (CPatch input) = (f', fr) ->
  match fr with
  | Some l => forall q, file_at f' q <> file_at f q -> listed l q
  | None => forall q, file_at f' q = file_at f q
  end.
Proof.
  intros W. unfold run_call, run_call_gen.
  destruct (apply_patch true [] f input) as [g ch|g e] eqn:AP.
  - unfold apply_patch in AP. destruct (parse_patch input) as [ops|] eqn:PP; [|discriminate].
    intros H. inversion H; subst g fr. clear H. cbn [summarize option_map].
    destruct (success_effects _ _ _ _ W AP) as [EF _].
    intros q N. destruct (effects_changed _ _ _ _ EF N) as [p [I C]].
    exists p. split; [apply patch_frame_in; exists p; split; [exact I|reflexivity]|exact C].
  - intros H. inversion H; subst g fr. clear H.
    pose proof (apply_patch_atomic _ _ _ _ W AP) as AT.
    destruct (summarize None _); [intros q N; elim N; apply AT|exact AT].
Qed.

(* a successful apply lists nothing but paths an operation names *)
Theorem patch_frame_lists_only_named root f input f' ch l :
  apply_patch true [] f input = Applied f' ch ->
  snd (run_call root f (CPatch input)) = Some l ->
  forall y, In y l -> exists ops p, parse_patch input = Some ops /\ In p (affected_paths ops) /\ y = normalize_rel p.
Proof.
  intros AP. unfold run_call, run_call_gen. rewrite AP. unfold apply_patch in AP.
  destruct (parse_patch input) as [ops|] eqn:PP; [|discriminate]. cbn [snd summarize option_map].
  intros H y I. inversion H; subst l. apply patch_frame_in in I. destruct I as (p & I & E).
  exists ops, p. split; [reflexivity|]. split; assumption.
Qed.

(* both ends of a move are listed *)
Theorem move_lists_both_ends root f input f' ch ops p q hs :
  apply_patch true [] f input = Applied f' ch -> parse_patch input = Some ops -> In (Upd p (Some q) hs) ops ->
  exists l, snd (run_call root f (CPatch input)) = Some l /\ In (normalize_rel p) l /\ In (normalize_rel q) l.
Proof.
  intros AP PP I. unfold run_call, run_call_gen. rewrite AP, PP. cbn [snd summarize option_map].
  eexists. split; [reflexivity|].
  assert (forall x, In x [p; q] -> In (normalize_rel x) (norm_all (reported MvBoth ops))) as K.
  { intros x Ix. apply patch_frame_in. exists x. split; [|reflexivity].
    apply in_flat_map. exists (Upd p (Some q) hs). split; [exact I|exact Ix]. }
  split; apply K; cbn [In]; auto.
Qed.

Definition tmp_free (f : fs) (c : call) : Prop :=
  match c with
  | CWrite raw mode data ext => mode = 0 -> lookup f (AutoCoverProofs.wkt raw ext) = None
  | _ => True
  end.

Theorem write_frame_lists_changed root f raw mode data ext f' fr :
  CheckpointProofs.sane f -> tmp_free f (CWrite raw mode data ext) ->
  run_call root f (CWrite raw mode data ext) = (f', fr) ->
  (forall q, file_at f' q <> file_at f q -> q = comps raw)
  /\ (write_ok f (CWrite raw mode data ext) = true -> fr = Some [normalize_rel raw]).
Proof.
  intros S T. unfold run_call, run_call_gen, write_ok. cbn [tmp_free] in T.
  destruct (write_tool expected_tool_steps f raw ext mode data) as [g er] eqn:WT. cbn [snd].
  intros H. inversion H; subst g fr. clear H. split.
  - intros q N. destruct (AutoCoverProofs.write_tool_effect _ _ _ _ _ _ _ WT S T) as [_ [_ [_ O]]].
    destruct (CheckpointProofs.path_dec q (comps raw)) as [E|D]; [exact E|elim N; apply O; exact D].
  - destruct er; [discriminate|]. intros _. reflexivity.
Qed.

(* every call: the patch and shell cases once, the write case as the caller has it *)
Lemma frame_by_cases root f c f' fr : fs_wf f -> run_call root f c = (f', fr) ->
  (forall raw mode data ext, c = CWrite raw mode data ext ->
     match fr with
     | Some l => forall q, file_at f' q <> file_at f q -> listed l q
     | None => forall q, file_at f' q = file_at f q
     end) ->
  match fr with
  | Some l => forall q, file_at f' q <> file_at f q -> listed l q
  | None => is_shell c = true \/ forall q, file_at f' q = file_at f q
  end.
Proof.
  intros W H Hw. destruct c as [raw mode data ext|input|after].
  - pose proof (Hw _ _ _ _ eq_refl) as P. destruct fr; [exact P|right; exact P].
  - pose proof (patch_frame_lists_changed _ _ _ _ _ W H) as P. destruct fr; [exact P|right; exact P].
  - unfold run_call, run_call_gen in H. inversion H; subst. left. reflexivity.
Qed.

(* for a write that succeeds, without a hypothesis on the root *)
Theorem frame_lists_changed_paths root f c f' fr :
  fs_wf f -> CheckpointProofs.sane f -> tmp_free f c -> write_ok f c = true ->
  run_call root f c = (f', fr) ->
  match fr with
  | Some l => forall q, file_at f' q <> file_at f q -> listed l q
  | None => is_shell c = true \/ forall q, file_at f' q = file_at f q
  end.
Proof.
  intros W S T K H. apply (frame_by_cases root f c f' fr W H). intros raw mode data ext ->.
  destruct (write_frame_lists_changed _ _ _ _ _ _ _ _ S T H) as [A B]. rewrite (B K).
  intros q N. exists raw. split; [left; reflexivity|symmetry; exact (A q N)].
Qed.

(* a write that fails: the frame lists the files of the auto checkpoint *)
Lemma wk_comps raw : AutoCoverProofs.wk raw = comps raw.
Proof. reflexivity. Qed.

Lemma ck_files_auto f root raw :
  ck_files f root (match arg_interp expected_auto_steps raw with Ok a => Ok [a] | Err e => Err e end)
  = option_map (map fst) (auto_checkpoint expected_auto_steps f root raw).
Proof.
  unfold ck_files, auto_checkpoint. destruct (arg_interp expected_auto_steps raw) as [a|]; [destruct (create f root [a])|]; reflexivity.
Qed.

Theorem write_frame_any_outcome root f raw mode data ext f' fr :
  is_absolute root = true -> CheckpointProofs.sane f -> tmp_free f (CWrite raw mode data ext) ->
  run_call root f (CWrite raw mode data ext) = (f', fr) ->
  match fr with
  | Some l => forall q, file_at f' q <> file_at f q -> listed l q
  | None => forall q, file_at f' q = file_at f q
  end.
Proof.
  intros HR S T H. destruct (write_frame_lists_changed _ _ _ _ _ _ _ _ S T H) as [A _].
  unfold run_call, run_call_gen in H. rewrite ck_files_auto in H. cbn [tmp_free] in T.
  destruct (write_tool expected_tool_steps f raw ext mode data) as [g er] eqn:WT. injection H as -> <-.
  destruct er as [e|]; [|intros q N; exists raw; split; [left; reflexivity|symmetry; exact (A q N)]].
  pose proof (AutoCoverProofs.write_covered root f raw ext mode data f' (Some e) HR S (fun Hm _ => T Hm) WT) as C.
  destruct (auto_checkpoint expected_auto_steps f root raw) as [ck|]; cbn [option_map summarize]; [|exact C].
  destruct C as (_ & Hk & _). intros q N. destruct (proj1 (Hk q) (eq_sym (A q N))) as (en & Hin & Ek).
  exists (fst en). split; [|exact Ek]. apply norm_all_in. exists (fst en). split; [apply in_map; exact Hin|reflexivity].
Qed.

(* every mutating tool call, whatever its outcome *)
Theorem frame_lists_changed_paths_full root f c f' fr :
  is_absolute root = true -> fs_wf f -> CheckpointProofs.sane f -> tmp_free f c ->
  run_call root f c = (f', fr) ->
  match fr with
  | Some l => forall q, file_at f' q <> file_at f q -> listed l q
  | None => is_shell c = true \/ forall q, file_at f' q = file_at f q
  end.
Proof.
  intros HR W S T H. apply (frame_by_cases root f c f' fr W H). intros raw mode data ext ->.
  exact (write_frame_any_outcome _ _ _ _ _ _ _ _ HR S T H).
Qed.

(* tie T1: a source that passes report_wf reports what the model reports *)
Theorem reported_as_built c ops : report_wf c = true -> reported_by c ops = changed_files ops.
Proof.
  destruct c as [a d u ms md srt tp tw sc sp so ss]. unfold report_wf. simpl. intros H.
  repeat (apply andb_true_iff in H; destruct H as [H ?]). subst.
  reflexivity.
Qed.

(* a source in which the updated path is pushed only when the operation does not move, so that a move reports its
   target alone (trial change C11-9) *)
Definition report_target_only : report_cfg :=
  {| r_add := true; r_del := true; r_upd_plain := true; r_upd_moved_src := false; r_upd_moved_dst := true; r_lib_sorted := true;
     r_tool_patch := true; r_tool_write := true; r_sum_changed := true; r_sum_path := true; r_sum_ck_only_when_none := true; r_sum_sorted := true |}.
Lemma report_target_only_rejected : report_wf report_target_only = false /\ forall ops, reported_by report_target_only ops = reported MvTargetOnly ops.
Proof.
  split; [reflexivity|]. intros ops. unfold reported_by, reported. cbn [r_lib_sorted report_target_only]. f_equal. f_equal.
  apply flat_map_ext. intros [p d|p|p [q|] hs]; reflexivity.
Qed.

Require Import Coq.Strings.String.
Definition s (x : string) : list N := bs x.
Definition nl (x : string) : list N := bs x ++ [10].
Definition ws0 : fs := [([s "a.txt"], File (nl "one")); ([s "b.txt"], File (nl "two"))].
Definition root0 : str := s "/ws".

(* the list is no exact diff — (1) a write of the content the file already has lists the file *)
Definition call_same : call := CWrite (s "a.txt") 0 (nl "one") (s "tmp-0").
Lemma write_same_listed_unchanged :
  snd (run_call root0 ws0 call_same) = Some [s "a.txt"] /\ same_listing (fst (run_call root0 ws0 call_same)) ws0 = true.
Proof. split; vm_compute; reflexivity. Qed.

(* (2) a patch that fails (move onto an existing file) changes nothing; its frame lists the files of the auto
   checkpoint, i.e. every path the patch names *)
Definition patch_onto : list N :=
  nl "*** Begin Patch" ++ nl "*** Update File: a.txt" ++ nl "*** Move to: b.txt" ++ nl "@@" ++ nl "-one" ++ nl "+uno" ++ nl "*** End Patch".
Lemma failed_patch_listed_unchanged :
  snd (run_call root0 ws0 (CPatch patch_onto)) = Some [s "a.txt"; s "b.txt"]
  /\ same_listing (fst (run_call root0 ws0 (CPatch patch_onto))) ws0 = true.
Proof. split; vm_compute; reflexivity. Qed.

(* (3) add and delete of the same file in one patch: nothing changed, the file is listed *)
Definition patch_add_del : list N :=
  nl "*** Begin Patch" ++ nl "*** Add File: n.txt" ++ nl "+x" ++ nl "*** Delete File: n.txt" ++ nl "*** End Patch".
Lemma add_delete_listed_unchanged :
  snd (run_call root0 ws0 (CPatch patch_add_del)) = Some [s "n.txt"]
  /\ same_listing (fst (run_call root0 ws0 (CPatch patch_add_del))) ws0 = true.
Proof. split; vm_compute; reflexivity. Qed.

(* a rename: update a.txt, move it to n.txt *)
Definition patch_move : list N :=
  nl "*** Begin Patch" ++ nl "*** Update File: a.txt" ++ nl "*** Move to: n.txt" ++ nl "@@" ++ nl "-one" ++ nl "+uno" ++ nl "*** End Patch".
Definition ws0_moved : fs := [([s "n.txt"], File (nl "uno")); ([s "b.txt"], File (nl "two"))].
Lemma move_demo :
  snd (run_call root0 ws0 (CPatch patch_move)) = Some [s "a.txt"; s "n.txt"]
  /\ same_listing (fst (run_call root0 ws0 (CPatch patch_move))) ws0_moved = true
  /\ fs_wf ws0 /\ CheckpointProofs.sane ws0.
Proof.
  split; [vm_compute; reflexivity|]. split; [vm_compute; reflexivity|].
  split; [apply wf_fsb_sound; vm_compute; reflexivity|apply CheckpointProofs.sane_b_sound; vm_compute; reflexivity].
Qed.

(* the same call when a move reports only its target: the deleted a.txt is not in the list *)
Lemma move_source_unlisted :
  exists l f', run_call_gen MvTargetOnly root0 ws0 (CPatch patch_move) = (f', Some l)
    /\ file_at f' (comps (s "a.txt")) <> file_at ws0 (comps (s "a.txt"))
    /\ ~ In (normalize_rel (s "a.txt")) l.
Proof.
  eexists. eexists. split; [vm_compute; reflexivity|]. split; [vm_compute; discriminate|].
  vm_compute. intros [H|[]]. discriminate.
Qed.

(* a shell command: the frame carries no list whatever the command did *)
Lemma shell_frame_has_no_list root f after : run_call root f (CShell after) = (after, None).
Proof. reflexivity. Qed.
