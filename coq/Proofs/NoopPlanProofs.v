(* C02, "nothing to do" (Model/NoopPlan.v): with a coherent checkpoint cache the code's planner plans
   exactly what the truth log leaves unplanned; nothing unplanned => nothing planned => the call is one
   of the model's silent invocations.  Refuted for a cache that parses but is not the projection of the stream
   (a partial one: open finding S4-noop-appends; a zero-byte one read as found, `seen false`) and for the
   fallback loop with `>=` in place of `>` (trial patch C02-6). *)
From RipV Require Import Base.Prelude Model.Frames Model.Log Model.ContStore Model.NoopPlan
  Proofs.ContStoreProofs.

(* taking an entry at or before the cut into the accumulator: the bound stays, and the accumulator sits on the
   cut iff it did or the entry does (`better` prefers the greater to_seq, and none is beyond the cut) *)
Lemma keep_hit cut e acc :
  fst e <= cut -> (forall a, acc = Some a -> fst a <= cut) ->
  let acc' := match acc with None => Some e | Some a => if better e a then Some e else Some a end in
  (forall a, acc' = Some a -> fst a <= cut) /\ hit cut acc' = hit cut acc || (fst e =? cut).
Proof.
  intros He Hacc. destruct acc as [a|]; [|split; [intros x [= <-]; exact He|reflexivity]].
  specialize (Hacc a eq_refl). unfold better.
  destruct (N.ltb_spec (fst a) (fst e)); [|destruct (N.eqb_spec (fst e) (fst a)); [destruct (snd a <? snd e)|]];
    cbn [orb andb hit]; (split; [intros x [= <-]; assumption|]);
    destruct (N.eqb_spec (fst a) cut), (N.eqb_spec (fst e) cut); cbn [orb]; try reflexivity; lia.
Qed.

(* the lookup loop answers "a checkpoint sits exactly on the cut" iff some entry does *)
Lemma best_le_hit cut : forall ls acc,
  (forall a, acc = Some a -> fst a <= cut) ->
  hit cut (best_le false cut ls acc) = hit cut acc || existsb (fun e => fst e =? cut) ls.
Proof.
  induction ls as [|e r IH]; intros acc Hacc; cbn [best_le existsb]; [rewrite orb_false_r; reflexivity|].
  destruct (N.ltb_spec cut (fst e)) as [Hlt|Hle].
  - rewrite (IH acc Hacc). replace (fst e =? cut) with false by (symmetry; apply N.eqb_neq; lia). reflexivity.
  - destruct (keep_hit cut e acc Hle Hacc) as [Hb Hh]. rewrite (IH _ Hb), Hh, orb_assoc. reflexivity.
Qed.

Lemma already_coherent t cc cut : coherent t cc -> already false t cc cut = covered t cut.
Proof.
  intros [H|[H|H]]; subst cc; unfold already, lookup, covered;
    rewrite best_le_hit by (intros a Ha; discriminate); reflexivity.
Qed.

(* with a coherent checkpoint cache the planner plans the first max_new of what the truth log leaves *)
Lemma planned_coherent t cc stride max_new :
  coherent t cc -> planned false t cc stride max_new = firstn max_new (unplanned t stride).
Proof.
  intros H. unfold planned, unplanned. f_equal. apply filter_ext.
  intros cut. rewrite (already_coherent t cc cut H). reflexivity.
Qed.

(* nothing unplanned in the truth log => nothing planned, for every stride, max_new and coherent cache *)
Lemma nothing_to_do_plans_nothing t cc stride max_new :
  coherent t cc -> unplanned t stride = [] -> planned false t cc stride max_new = [].
Proof. intros H E. rewrite (planned_coherent t cc stride max_new H), E. destruct max_new; reflexivity. Qed.

(* ... and then auto / auto-schedule are silent invocations of the store model, whatever the other
   facts are: they add nothing in any state *)
Lemma nothing_to_do_is_silent t cc stride max_new (cp : cap) (f : cfacts) (c : N) (st : state) :
  coherent t cc -> unplanned t stride = [] ->
  cp = CapAuto \/ cp = CapAutoSchedule ->
  cf_planned f = length (planned false t cc stride max_new) ->
  s_log (exec (cap_prog cp c f) st) = s_log st.
Proof.
  intros H E Hcp Hf. rewrite (nothing_to_do_plans_nothing t cc stride max_new H E) in Hf. cbn [length] in Hf.
  apply silent_calls_keep_log.
  destruct Hcp; subst cp; cbn [silent]; rewrite Hf; cbn [Nat.eqb]; rewrite !orb_true_r; reflexivity.
Qed.

(* the code counts a zero-byte cache file as absent (`seen true`; S4c-noop-appends, fixed): that state is one of
   the coherent ones: the planner agrees with the truth log there too, for every thread *)
Lemma seen_zero_length_coherent t : coherent t (seen true (CLines [])).
Proof. left. reflexivity. Qed.

Lemma zero_length_counts_as_absent t stride max_new :
  planned false t (seen true (CLines [])) stride max_new = firstn max_new (unplanned t stride).
Proof. apply planned_coherent, seen_zero_length_coherent. Qed.

(* `seen` changes nothing else *)
Lemma seen_other zl cc : cc <> CLines [] -> seen zl cc = cc.
Proof. destruct cc as [| |[|e r]]; intros H; try reflexivity. exfalso. apply H. reflexivity. Qed.

(* the fallback loop with `>=` (trial patch C02-6) is invisible as long as the cache answers ... *)
Lemma skip_eq_fallback_hidden t cc stride max_new :
  cc = CAbsent \/ cc = CLines (t_cps t) ->
  planned true t cc stride max_new = planned false t cc stride max_new.
Proof. intros [H|H]; subst cc; reflexivity. Qed.

(* witnesses (w_): 2 messages (seqs 1, 2), one checkpoint frame (seq 3) covering message 2; stride 2 *)
Definition w_thread : pthread := {| t_msgs := [1; 2]; t_cps := [(2, 3)] |}.
(* 6 messages, checkpoints on messages 2, 4, 6 *)
Definition w_thread6 : pthread := {| t_msgs := [1; 2; 3; 4; 5; 6]; t_cps := [(2, 7); (4, 8); (6, 9)] |}.

Lemma w_nothing_to_do : unplanned w_thread 2 = [] /\ unplanned w_thread6 2 = [].
Proof. vm_compute. split; reflexivity. Qed.

(* ... and plans a covered cut point again once the cache is unparsable *)
Lemma skip_eq_fallback_refuted :
  unplanned w_thread6 2 = [] /\ planned true w_thread6 CUnparsable 2 32 = [6; 4; 2]
  /\ planned false w_thread6 CUnparsable 2 32 = [].
Proof. vm_compute. repeat split; reflexivity. Qed.

(* a zero-byte cache file read as found (`seen false`, the code before S4c-noop-appends was fixed) answers
   "no checkpoint" *)
Lemma zero_length_cache_refuted :
  unplanned w_thread6 2 = [] /\ planned false w_thread6 (seen false (CLines [])) 2 32 = [6; 4; 2].
Proof. vm_compute. split; reflexivity. Qed.

(* open finding S4-noop-appends: a cache re-created by the last append holds the newest checkpoint only *)
Lemma partial_cache_refuted :
  unplanned w_thread6 2 = [] /\ planned false w_thread6 (CLines [(6, 9)]) 2 32 = [4; 2].
Proof. vm_compute. split; reflexivity. Qed.

(* non-vacuity of the positive statements: a thread with work left, and the window of 32 *)
Lemma planner_demo :
  planned false {| t_msgs := [1; 2; 3; 4; 5]; t_cps := [(4, 6)] |} CUnparsable 2 32 = [2]
  /\ planned false {| t_msgs := [1; 2; 3; 4; 5]; t_cps := [(4, 6)] |} (CLines [(4, 6)]) 1 2 = [5; 3]
  /\ length (cut_seqs {| t_msgs := map N.of_nat (List.seq 1 70); t_cps := [] |} 2) = 32%nat
  /\ cut_seqs w_thread6 18446744073709551615 = [] /\ cut_seqs w_thread6 0 = [].
Proof. vm_compute. repeat split; reflexivity. Qed.
