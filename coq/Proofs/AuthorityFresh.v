(* C18 — "a store whose previous authority crashed becomes usable again", with crashes DURING recovery and arbitrary
   environment answers for the others: whatever any number of server loops did on the store — any interleaving, any of them
   crashing anywhere, any ping / timer / deadline answers — as long as none of them has become the authority, a FRESH server
   loop that is then left alone becomes the authority within 20 steps, unless a live contender is between its exclusive
   create and its write (one own step from the guard). *)
From RipV Require Import Base.Prelude Model.Authority Proofs.AuthorityInv Proofs.AuthorityLive Proofs.AuthorityTake Proofs.AuthorityFair.

(* J for schedules with crashes and any environment answers: the processes may be dead, the lock's record is of a dead pid,
   and a half-written lock of a live pid has its creator between create and write *)
Record Jc (s : state) : Prop := mkJc {
  Jc_procs : forall q, In q (s_procs s) -> qpre q;
  Jc_nodup : NoDup (map p_pid (s_procs s));
  Jc_meta : meta_free (s_procs s) (s_meta s);
  Jc_rec : forall p, s_lock s = LRec p -> pid_alive (s_procs s) p = false;
  Jc_half : forall c, s_lock s = LHalf c -> pid_alive (s_procs s) c = true ->
            exists q, In q (s_procs s) /\ p_pid q = c /\ p_alive q = true /\ p_pc q = AcqWrite
}.

Lemma pid_alive_kill_le ps i q p :
  nth_error ps i = Some q -> pid_alive (upd ps i (kill q)) p = true -> pid_alive ps p = true.
Proof. intros Hq H. apply (pid_alive_upd_le ps i q (kill q) p Hq eq_refl); [cbn; discriminate | exact H]. Qed.

Lemma step_Jc s e : Jc s -> Jc (step true s e) \/ holders (step true s e) <> [].
Proof.
  intros [Hps Hnd Hm Hrec Hhalf].
  destruct (step_cases true s e) as [-> _ | i o q s1 q1 -> Hq Ha HM Epid Eal Eps -> | i q -> Hq ->];
    [left; constructor; assumption | |].
  - assert (Hinq : In q (s_procs s)) by (eapply nth_error_In; exact Hq).
    pose proof (Hps q Hinq) as Hqp.
    destruct (pc_eq_dec_acqwrite (p_pc q)) as [Hw|Hnw].
    + right. exact (write_holds _ _ _ _ _ _ Hq Ha HM Hw).
    + left. destruct (micro_pre0 s o q s1 q1 Hqp Hnw HM) as [Hqp1 [Hmeta Hlock]].
      assert (Hal : forall p, pid_alive (upd (s_procs s) i q1) p = pid_alive (s_procs s) p).
      { intros p. apply (pid_alive_upd_eq _ _ _ _ _ Hq Epid Eal). }
      constructor; cbn [with_procs s_procs s_lock s_meta].
      * intros x Hx. destruct (in_upd_cases _ _ _ _ _ Hq Hx) as [->|Hin]; [exact Hqp1 | apply Hps; exact Hin].
      * rewrite (map_upd_same p_pid _ _ _ _ Hq Epid). exact Hnd.
      * intros p Hp. rewrite Hal. destruct Hmeta as [E|E]; rewrite E in Hp; [apply Hm; exact Hp | discriminate].
      * intros p Hp. rewrite Hal. destruct Hlock as [[E _] | [[E _] | [E _]]]; rewrite E in Hp; try discriminate. apply Hrec. exact Hp.
      * intros c Hc Hac. rewrite Hal in Hac. destruct Hlock as [[E Hn1] | [[E Hw1] | [E _]]]; rewrite E in Hc; try discriminate.
        -- destruct (Hhalf c Hc Hac) as [w [Hw [Hwp [Hwa Hwpc]]]]. exists w. split; [|auto].
           eapply in_upd_other; [exact Hq | exact Hw | congruence].
        -- inversion Hc; subst c. exists q1. split; [eapply in_upd_self; exact Hq|]. split; [exact Epid|]. split; [congruence | exact Hw1].
  - left. assert (Hinq : In q (s_procs s)) by (eapply nth_error_In; exact Hq).
    assert (Hle : forall p, pid_alive (s_procs s) p = false -> pid_alive (upd (s_procs s) i (kill q)) p = false).
    { intros p Hp. destruct (pid_alive (upd (s_procs s) i (kill q)) p) eqn:E; [|reflexivity].
      rewrite (pid_alive_kill_le _ _ _ _ Hq E) in Hp. discriminate. }
    constructor; cbn [with_procs s_procs s_lock s_meta].
    + intros x Hx. destruct (in_upd_cases _ _ _ _ _ Hq Hx) as [->|Hin]; [|apply Hps; exact Hin].
      destruct (Hps q Hinq) as [A B C]. constructor; assumption.
    + rewrite (map_upd_same p_pid _ _ (kill q) q Hq eq_refl). exact Hnd.
    + intros p Hp. apply Hle. apply Hm. exact Hp.
    + intros p Hp. apply Hle. apply Hrec. exact Hp.
    + intros c Hc Hac. pose proof (pid_alive_kill_le _ _ _ _ Hq Hac) as Hac0.
      destruct (Hhalf c Hc Hac0) as [w [Hw [Hwp [Hwa Hwpc]]]].
      destruct (In_nth_error _ _ Hw) as [j Hj].
      destruct (Nat.eq_dec j i) as [->|Hne].
      * (* the crashed process was the live starter: then nobody with that pid is alive *)
        exfalso. rewrite Hq in Hj. inversion Hj; subst w.
        apply pid_alive_true in Hac. destruct Hac as [y [Hy [Hyp Hya]]].
        apply in_upd in Hy. destruct Hy as [[-> _]|[k [Hk Hyk]]]; [cbn in Hya; discriminate|].
        apply Hk. eapply (nodup_pid_idx (s_procs s) k i y q Hnd Hyk Hq). congruence.
      * exists w. split; [|auto]. eapply nth_error_In with (n := j). rewrite upd_nth.
        destruct (Nat.eqb i j) eqn:E; [apply Nat.eqb_eq in E; congruence | exact Hj].
Qed.

Lemma run_Jc es : forall s, Jc s -> Jc (run true s es) \/ held s es.
Proof.
  induction es as [|e es IH]; intros s Hj; [left; exact Hj|].
  destruct (step_Jc s e Hj) as [Hj'|Hh]; [|right; apply held_now; exact Hh].
  destruct (IH _ Hj') as [H|H]; [left; exact H | right; apply held_later; exact H].
Qed.

(* events of other processes leave process i alone *)
Lemma step_keeps ag s e i x : ev_idx e <> i -> nth_error (s_procs s) i = Some x -> nth_error (s_procs (step ag s e)) i = Some x.
Proof.
  intros Hne Hx. destruct (step_cases ag s e) as [-> _ | j o q s1 q1 -> _ _ _ _ _ _ -> | j q -> _ ->]; [exact Hx | |];
    cbn [with_procs s_procs ev_idx] in *; rewrite upd_nth; destruct (Nat.eqb j i) eqn:E; try exact Hx;
    apply Nat.eqb_eq in E; congruence.
Qed.
Lemma run_keeps ag es : forall s i x, (forall e, In e es -> ev_idx e <> i) ->
  nth_error (s_procs s) i = Some x -> nth_error (s_procs (run ag s es)) i = Some x.
Proof.
  induction es as [|e es IH]; intros s i x Hall Hx; [exact Hx|].
  change (run ag s (e :: es)) with (run ag (step ag s e) es).
  apply IH; [intros e' He'; apply Hall; right; exact He'|]. apply step_keeps; [apply Hall; left; reflexivity | exact Hx].
Qed.

Lemma fresh_reaches s me :
  Jc s ->
  (exists q, In q (s_procs s) /\ p_alive q = true /\ p_pc q = AcqWrite)
  \/ guard_within 20 s (fresh me DServer) = true.
Proof.
  intros [Hps Hnd Hm Hrec Hhalf].
  destruct s as [l m t ps tl tm]. cbn [s_procs s_lock s_meta] in *. unfold meta_free in Hm.
  destruct l as [|c|c].
  - right. apply (guard_within_le 8); [repeat constructor | apply absent_reaches; [exact Hm | reflexivity]].
  - destruct (pid_alive ps c) eqn:Ec.
    + left. destruct (Hhalf c eq_refl Ec) as [w [Hw [_ [Hwa Hwpc]]]]. exists w. auto.
    + right. (destruct m as [|mp]; [|pose proof (Hm mp eq_refl) as Hmp; cbn [meta_pid] in Hmp]);
        unfold fresh; cbn [start_pc]; to_absent.
  - right. pose proof (Hrec c eq_refl) as Ec.
    (destruct m as [|mp]; [|pose proof (Hm mp eq_refl) as Hmp; cbn [meta_pid] in Hmp]);
      unfold fresh; cbn [start_pc]; to_absent.
Qed.

Lemma init_Jc l m ps :
  (forall q, In q ps -> q = fresh (p_pid q) DServer) -> NoDup (map p_pid ps) -> dead_leftover ps l m -> Jc (init l m ps).
Proof.
  intros Hall Hnd [Hl Hm]. constructor; cbn [init s_procs s_lock s_meta].
  - intros q Hq. rewrite (Hall q Hq). constructor; reflexivity.
  - exact Hnd.
  - exact Hm.
  - intros p ->. apply Hl. reflexivity.
  - intros c -> Hc. rewrite (Hl c eq_refl) in Hc. discriminate.
Qed.

Theorem fresh_start_recovers l m ps es i me :
  (forall q, In q ps -> q = fresh (p_pid q) DServer) -> NoDup (map p_pid ps) -> dead_leftover ps l m ->
  nth_error ps i = Some (fresh me DServer) -> (forall e, In e es -> ev_idx e <> i) ->
  (exists es1 es2, es = es1 ++ es2 /\ holders (run true (init l m ps) es1) <> [])
  \/ (exists q, In q (s_procs (run true (init l m ps) es)) /\ p_alive q = true /\ p_pc q = AcqWrite)
  \/ (exists n, (n <= 20)%nat /\ holders (run true (init l m ps) (es ++ repeat (Step i 2) n)) <> []).
Proof.
  intros Hall Hnd Hd Hi Hes.
  destruct (run_Jc es _ (init_Jc l m ps Hall Hnd Hd)) as [Hj|H]; [|left; exact H].
  right. set (sN := run true (init l m ps) es) in *.
  assert (HiN : nth_error (s_procs sN) i = Some (fresh me DServer)) by (apply run_keeps; [exact Hes | exact Hi]).
  destruct (fresh_reaches sN me Hj) as [Hw|Hgw]; [left; exact Hw|].
  right. destruct (guard_within_holds _ _ _ _ HiN eq_refl Hgw) as [k [Hk Hh]].
  exists k. split; [exact Hk|]. rewrite run_app. exact Hh.
Qed.

(* non-vacuity: a contender crashes between its exclusive create and its write (a NEW half-written lock of a dead pid, made
   during recovery), another one has given up; the third, fresh, left alone, is the authority after 8 steps *)
Definition fresh_three : list proc := [fresh 1 DServer; fresh 2 DServer; fresh 3 DServer].
(* Step 1 4: the deadline of contender 1 has passed *)
Definition crash_mid : list event := [Step 0%nat 0; Step 1%nat 0; Step 1%nat 0; Crash 0%nat; Step 1%nat 4].
Lemma fresh_example :
  NoDup (map p_pid fresh_three) /\ dead_leftover fresh_three LAbsent MAbsent
  /\ (forall e, In e crash_mid -> ev_idx e <> 2%nat)
  /\ s_lock (run true (init LAbsent MAbsent fresh_three) crash_mid) = LHalf 1
  /\ map (fun q => (p_alive q, pc_code (p_pc q))) (s_procs (run true (init LAbsent MAbsent fresh_three) crash_mid))
     = [(false, 2); (true, 0); (true, 1)]
  /\ holders (run true (init LAbsent MAbsent fresh_three) crash_mid) = []
  /\ holders (run true (init LAbsent MAbsent fresh_three) (crash_mid ++ repeat (Step 2%nat 2) 8)) = [3].
Proof.
  split; [vm_compute; repeat constructor; cbn; intuition discriminate|].
  split; [split; intros p Hp; discriminate|].
  split; [intros e He; cbn in He; intuition (subst; cbn; discriminate)|].
  repeat split; vm_compute; reflexivity.
Qed.
