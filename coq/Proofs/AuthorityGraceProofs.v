(* C18 — the corrupt-lock grace timer: a cleanup fires only after the lock at the path has been seen invalid at EVERY poll
   of a window longer than the grace period (and, when instances only change observably, it is one and the same lock
   instance); a lock that became readable resets the timer.  For every step table with the reset statements; refuted for
   the table without the reset in the readable arm (3-phase witness) and without the reset in the Ok(None) arm. *)
From RipV Require Import Base.Prelude Model.Authority Model.AuthorityGrace.

Definition dflt : tobs := {| t_now := 0; t_seen := SAbsent; t_inst := 0; t_cleaned := false |}.
Definition fired (fs : list bool) (i : nat) : bool := nth i fs false.

(* every observation that is not "invalid" forgets the timer *)
Definition obs_ok (g : gtable) (obs : list tobs) : Prop :=
  forall o, In o obs -> t_seen o = SInvalid \/ resets g (t_seen o) = true.

(* polls j..k: all saw an invalid lock, none of them (before k) ended in a successful cleanup, and the clock moved by
   more than the grace period between poll j and poll k *)
Definition window (g : gtable) (obs : list tobs) (fs : list bool) (j k : nat) : Prop :=
  (j <= k)%nat
  /\ expired g (t_now (nth k obs dflt) - t_now (nth j obs dflt)) = true
  /\ forall i, (j <= i <= k)%nat ->
       t_seen (nth i obs dflt) = SInvalid
       /\ ((i < k)%nat -> fired fs i && t_cleaned (nth i obs dflt) = false).

(* the lock instance at the path does not change between two consecutive polls that both see it invalid (unless the
   first of them cleaned it): a change of hands is OBSERVED — as absent, vanished, readable or through meta.json.  The
   schedules excluded here are those of the open finding S13b (another contender's corrupt cleanup plus a new exclusive
   create, both between two polls). *)
Definition stable (obs : list tobs) (fs : list bool) : Prop :=
  forall i, (S i < length obs)%nat ->
    t_seen (nth i obs dflt) = SInvalid -> t_seen (nth (S i) obs dflt) = SInvalid ->
    fired fs i && t_cleaned (nth i obs dflt) = false ->
    t_inst (nth i obs dflt) = t_inst (nth (S i) obs dflt).

Lemma timer_fire_invalid g since now s : snd (timer g since now s) = true -> s = SInvalid.
Proof. destruct s; cbn [timer snd]; congruence. Qed.

Lemma timer_run_cons g since o r :
  timer_run g since (o :: r) =
  (snd (timer g since (t_now o) (t_seen o))
     :: fst (timer_run g (after_cleanup g (fst (timer g since (t_now o) (t_seen o)))
                                          (snd (timer g since (t_now o) (t_seen o))) (t_cleaned o)) r),
   snd (timer_run g (after_cleanup g (fst (timer g since (t_now o) (t_seen o)))
                                     (snd (timer g since (t_now o) (t_seen o))) (t_cleaned o)) r)).
Proof.
  cbn [timer_run]. destruct (timer g since (t_now o) (t_seen o)) as [s1 f]. cbn [fst snd].
  destruct (timer_run g (after_cleanup g s1 f (t_cleaned o)) r) as [fs fin]. reflexivity.
Qed.

(* polls j..k all saw an invalid lock, and none of them before k ended in a successful cleanup *)
Definition all_invalid (obs : list tobs) (fs : list bool) (j k : nat) : Prop :=
  forall i, (j <= i <= k)%nat ->
    t_seen (nth i obs dflt) = SInvalid /\ ((i < k)%nat -> fired fs i && t_cleaned (nth i obs dflt) = false).

Lemma all_invalid_one o r fs : t_seen o = SInvalid -> all_invalid (o :: r) fs 0 0.
Proof. intros Hs i Hi. assert (i = 0)%nat by lia. subst i. split; [exact Hs | intros; lia]. Qed.
Lemma all_invalid_head o r f fs k :
  t_seen o = SInvalid -> f && t_cleaned o = false -> all_invalid r fs 0 k -> all_invalid (o :: r) (f :: fs) 0 (S k).
Proof.
  intros Hs Hn H [|i] Hi; [split; [exact Hs | intros _; exact Hn]|].
  destruct (H i ltac:(lia)) as [A B]. split; [exact A | intros Hlt; apply B; lia].
Qed.
Lemma all_invalid_tail o r f fs j k : all_invalid r fs j k -> all_invalid (o :: r) (f :: fs) (S j) (S k).
Proof. intros H [|i] Hi; [lia|]. destruct (H i ltac:(lia)) as [A B]. split; [exact A | intros Hlt; apply B; lia]. Qed.

(* a run that starts with the timer already set: the window may reach back before the first poll *)
Lemma timer_window_gen g : g_reset_cleaned g = true ->
  forall obs since, obs_ok g obs ->
  forall k, (k < length obs)%nat -> fired (fst (timer_run g since obs)) k = true ->
  (exists j, window g obs (fst (timer_run g since obs)) j k)
  \/ (exists t, since = Some t /\ expired g (t_now (nth k obs dflt) - t) = true
        /\ all_invalid obs (fst (timer_run g since obs)) 0 k).
Proof.
  intros Hrc obs. induction obs as [|o r IH]; intros since Hok k Hk Hf; [cbn [length] in Hk; lia|].
  rewrite timer_run_cons in *. cbn [fst] in *.
  set (s1 := fst (timer g since (t_now o) (t_seen o))) in *.
  set (f := snd (timer g since (t_now o) (t_seen o))) in *.
  set (since' := after_cleanup g s1 f (t_cleaned o)) in *.
  assert (Hokr : obs_ok g r) by (intros x Hx; apply Hok; right; exact Hx).
  destruct k as [|k']; unfold fired in Hf; cbn [nth] in Hf.
  - assert (Hs : t_seen o = SInvalid) by (apply (timer_fire_invalid g since (t_now o)); exact Hf).
    unfold f in Hf. rewrite Hs in Hf. cbn [timer snd] in Hf.
    destruct since as [t|]; [right; exists t; split; [reflexivity|] | left; exists 0%nat; split; [lia|]];
      (split; [exact Hf | exact (all_invalid_one _ _ _ Hs)]).
  - cbn [length] in Hk. destruct (IH since' Hokr k' ltac:(lia) Hf) as [[j [Hjk [He Hw]]] | [t [Hst [Hex Hall]]]].
    + left. exists (S j). split; [lia|]. split; [exact He | exact (all_invalid_tail _ _ _ _ _ _ Hw)].
    + (* the timer was already running when the tail started: the head saw an invalid lock too, and did not clean it *)
      assert (Hs : t_seen o = SInvalid).
      { destruct (Hok o (or_introl eq_refl)) as [Hs | Hr]; [exact Hs | exfalso].
        unfold since', s1, f in Hst. destruct (t_seen o); cbn [timer fst snd resets] in *;
          try rewrite Hr in Hst; unfold after_cleanup in Hst; cbn [andb] in Hst; congruence. }
      assert (Hnc : f && t_cleaned o = false).
      { destruct (f && t_cleaned o) eqn:E; [exfalso | reflexivity].
        unfold since', after_cleanup in Hst. rewrite E, Hrc in Hst. cbn [andb] in Hst. congruence. }
      unfold since', after_cleanup in Hst. rewrite Hnc in Hst. unfold s1 in Hst. rewrite Hs in Hst. cbn [timer fst andb] in Hst.
      pose proof (all_invalid_head _ _ _ _ _ Hs Hnc Hall) as Hrest.
      destruct since as [t0|]; inversion Hst; subst t;
        [right; exists t0; split; [reflexivity|] | left; exists 0%nat; split; [lia|]]; (split; [exact Hex | exact Hrest]).
Qed.

Lemma window_same_inst g obs fs j k :
  window g obs fs j k -> stable obs fs -> (k < length obs)%nat ->
  forall i, (j <= i <= k)%nat -> t_inst (nth i obs dflt) = t_inst (nth k obs dflt).
Proof.
  intros [Hjk [_ Hw]] Hst Hk i Hi.
  remember (k - i)%nat as d eqn:Hd. revert i Hi Hd.
  induction d as [|d IH]; intros i Hi Hd.
  - assert (i = k) by lia. subst i. reflexivity.
  - rewrite (Hst i ltac:(lia)).
    + apply IH; lia.
    + apply (Hw i); lia.
    + apply (Hw (S i)); lia.
    + apply (Hw i); lia.
Qed.

(* any table with the reset after a successful cleanup and a reset for every non-invalid
   observation that occurs, any observation stream, any clock *)
Theorem timer_fires_only_after_grace g obs :
  g_reset_cleaned g = true -> obs_ok g obs ->
  forall k, (k < length obs)%nat -> fired (fst (timer_run g None obs)) k = true ->
  exists j, window g obs (fst (timer_run g None obs)) j k
            /\ (stable obs (fst (timer_run g None obs)) ->
                forall i, (j <= i <= k)%nat -> t_inst (nth i obs dflt) = t_inst (nth k obs dflt)).
Proof.
  intros Hrc Hok k Hk Hf.
  destruct (timer_window_gen g Hrc obs None Hok k Hk Hf) as [[j Hw] | [t [Hc _]]]; [|congruence].
  exists j. split; [exact Hw|]. intros Hst. exact (window_same_inst g obs _ j k Hw Hst Hk).
Qed.

(* a lock that became readable (or absent, or hidden behind a meta.json ...) forgets the timer *)
Lemma timer_reset g since now s : s <> SInvalid -> resets g s = true -> timer g since now s = (None, false).
Proof. intros Hs Hr. destruct s; cbn [timer resets] in *; try rewrite Hr; try reflexivity. congruence. Qed.

Definition pdflt : pollin := {| pi_now := 0; pi_lock := None; pi_meta := MAbsent; pi_reach := false; pi_vanish := false |}.

Lemma client_poll_since g live st p :
  cs_since (po_state (client_poll g live st p)) =
    after_cleanup g (fst (timer g (cs_since st) (pi_now p) (poll_seen p)))
                    (snd (timer g (cs_since st) (pi_now p) (poll_seen p))) (t_cleaned (poll_tobs live p))
  /\ (forall c, po_act (client_poll g live st p) = ACorrupt c ->
        snd (timer g (cs_since st) (pi_now p) (poll_seen p)) = true).
Proof.
  unfold client_poll, poll_tobs. cbn [t_cleaned].
  destruct (timer g (cs_since st) (pi_now p) (poll_seen p)) as [s1 fire] eqn:Et. cbn [fst snd].
  assert (Hnf : poll_seen p <> SInvalid -> fire = false).
  { intros Hn. destruct (poll_seen p); cbn [timer] in Et; inversion Et; try reflexivity. congruence. }
  unfold poll_seen in *. unfold may_spawn.
  destruct (pi_meta p) as [|mp] eqn:Em.
  - destruct (pi_lock p) as [f|] eqn:El.
    + destruct (pi_vanish p) eqn:Ev.
      * rewrite (Hnf ltac:(congruence)). cbn. split; [reflexivity | intros; congruence].
      * destruct (lf_written f) eqn:Ew.
        -- rewrite (Hnf ltac:(congruence)). destruct (live (lf_owner f)); cbn.
           ++ split; [reflexivity | intros; congruence].
           ++ rewrite Ew, N.eqb_refl. cbn. split; [reflexivity | intros; congruence].
        -- destruct fire; cbn; (split; [reflexivity | intros; congruence]).
    + rewrite (Hnf ltac:(congruence)).
      destruct (cs_spawned st) as [t|]; [destruct (cooldown_ms <? pi_now p - t)|]; cbn;
        (split; [reflexivity | intros; congruence]).
  - rewrite (Hnf ltac:(congruence)). unfold after_cleanup. cbn [andb].
    destruct (pi_reach p); [cbn; split; [reflexivity | intros; congruence]|].
    destruct (live mp); [cbn; split; [reflexivity | intros; congruence]|].
    destruct (pi_lock p) as [f|].
    + unfold stale_effect. destruct (lf_written f && (lf_owner f =? mp)); cbn; (split; [reflexivity | intros; congruence]).
    + destruct (cs_spawned st) as [t|]; [destruct (cooldown_ms <? pi_now p - t)|]; cbn;
        (split; [reflexivity | intros; congruence]).
Qed.

Lemma client_all_fired g live : forall polls st k o c,
  nth_error (client_all g live st polls) k = Some o -> po_act o = ACorrupt c ->
  fired (fst (timer_run g (cs_since st) (map (poll_tobs live) polls))) k = true.
Proof.
  induction polls as [|p r IH]; intros st k o c Hn Ha.
  - destruct k; cbn in Hn; congruence.
  - cbn [map]. rewrite timer_run_cons. cbn [fst]. cbn [client_all] in Hn.
    destruct (client_poll_since g live st p) as [Hs Hc].
    destruct k as [|k']; cbn [nth_error] in Hn.
    + inversion Hn; subst o. unfold fired. cbn [nth]. cbn [poll_tobs t_now t_seen]. exact (Hc c Ha).
    + unfold fired. cbn [nth].
      specialize (IH (po_state (client_poll g live st p)) k' o c Hn Ha).
      rewrite Hs in IH. cbn [poll_tobs t_now t_seen t_cleaned] in *. exact IH.
Qed.

Lemma client_run_prefix g live : forall polls st k o,
  nth_error (client_run g live st polls) k = Some o -> nth_error (client_all g live st polls) k = Some o.
Proof.
  induction polls as [|p r IH]; intros st k o Hn; [destruct k; cbn in Hn; congruence|].
  cbn [client_run client_all] in *. destruct k as [|k']; cbn [nth_error] in *; [exact Hn|].
  destruct (terminal (client_poll g live st p)); [destruct k'; cbn in Hn; congruence|].
  apply IH. exact Hn.
Qed.

Lemma client_run_length g live : forall polls st, (length (client_run g live st polls) <= length polls)%nat.
Proof.
  induction polls as [|p r IH]; intros st; cbn [client_run length]; [lia|].
  destruct (terminal (client_poll g live st p)); cbn [length]; [lia|]. specialize (IH (po_state (client_poll g live st p))). lia.
Qed.

Lemma wf_client_obs_ok g live polls : table_wf_client g = true -> obs_ok g (map (poll_tobs live) polls).
Proof.
  unfold table_wf_client. intros H. repeat (apply andb_true_iff in H; destruct H as [H ?]).
  intros o _. destruct (t_seen o); cbn [resets]; auto.
Qed.

(* polls j..k of a client run: no meta.json, a lock.json that is there and unwritten, at every one of them *)
Definition invalid_window (g : gtable) (polls : list pollin) (j k : nat) : Prop :=
  (j <= k)%nat
  /\ expired g (pi_now (nth k polls pdflt) - pi_now (nth j polls pdflt)) = true
  /\ forall i, (j <= i <= k)%nat -> poll_seen (nth i polls pdflt) = SInvalid.

(* no window ends right after a poll that saw something else *)
Lemma no_window_after_valid g polls k :
  expired g 0 = false -> poll_seen (nth k polls pdflt) <> SInvalid -> forall j, ~ invalid_window g polls j (S k).
Proof.
  intros He Hs j [Hjk [Hx Hw]]. destruct (Nat.eq_dec j (S k)) as [->|Hne].
  - rewrite N.sub_diag in Hx. congruence.
  - apply Hs, Hw. lia.
Qed.

Definition inst_of (p : pollin) : N := match pi_lock p with Some f => lf_inst f | None => 0 end.
(* two consecutive polls that both see an invalid lock see the same instance, unless the first one cleaned it *)
Definition stable_polls (g : gtable) (live : pid -> bool) (polls : list pollin) : Prop :=
  stable (map (poll_tobs live) polls) (fst (timer_run g None (map (poll_tobs live) polls))).

Lemma nth_map_tobs live polls i : (i < length polls)%nat ->
  nth i (map (poll_tobs live) polls) dflt = poll_tobs live (nth i polls pdflt).
Proof. intros Hi. rewrite (nth_indep _ dflt (poll_tobs live pdflt)) by (rewrite map_length; exact Hi). apply map_nth. Qed.

Theorem client_grace_resets g live polls :
  table_wf_client g = true ->
  forall k o c, nth_error (client_run g live cstate0 polls) k = Some o -> po_act o = ACorrupt c ->
  exists j, invalid_window g polls j k
            /\ (stable_polls g live polls ->
                forall i, (j <= i <= k)%nat -> inst_of (nth i polls pdflt) = inst_of (nth k polls pdflt)).
Proof.
  intros Hwf k o c Hn Ha.
  assert (Hk : (k < length polls)%nat).
  { pose proof (client_run_length g live polls cstate0).
    assert (k < length (client_run g live cstate0 polls))%nat by (apply nth_error_Some; congruence). lia. }
  pose proof (client_all_fired g live polls cstate0 k o c (client_run_prefix g live polls cstate0 k o Hn) Ha) as Hf.
  cbn [cstate0 cs_since] in Hf.
  assert (Hrc : g_reset_cleaned g = true).
  { unfold table_wf_client in Hwf. apply andb_true_iff in Hwf. tauto. }
  destruct (timer_fires_only_after_grace g (map (poll_tobs live) polls) Hrc (wf_client_obs_ok g live polls Hwf) k
              ltac:(rewrite map_length; exact Hk) Hf) as [j [[Hjk [He Hw]] Hsame]].
  exists j. split.
  - unfold invalid_window. split; [exact Hjk|]. split.
    + rewrite !nth_map_tobs in He by lia. exact He.
    + intros i Hi. destruct (Hw i Hi) as [Hs _]. rewrite nth_map_tobs in Hs by lia. exact Hs.
  - intros Hst i Hi. specialize (Hsame Hst i Hi). rewrite !nth_map_tobs in Hsame by lia. exact Hsame.
Qed.

(* a poll that sees a readable lock leaves lock_invalid_since = None *)
Lemma client_readable_resets g live st p :
  g_reset_readable g = true -> poll_seen p = SReadable ->
  cs_since (po_state (client_poll g live st p)) = None.
Proof.
  intros Hr Hs. destruct (client_poll_since g live st p) as [H _]. rewrite H, Hs.
  cbn [timer resets fst snd]. rewrite Hr. reflexivity.
Qed.

(* C18-6: the table without the reset in the "lock readable" arm.  Three phases in one client wait:
   starter X (pid 101) has created lock.json and not written it yet; X's record is readable for 1.5 s; the lock changes
   hands (observed: X's record, then Y's file) and the client reads starter Y's (pid 102) still-empty lock — and
   cleans it at once. *)
Definition no_readable_reset : gtable :=
  {| g_reset_meta := true; g_reset_readable := false; g_reset_absent := true; g_reset_vanished := true;
     g_reset_cleaned := true; g_grace_ms := 1000; g_strict := true |}.
Definition lock_of (inst : N) (owner : pid) (written : bool) : option lfile :=
  Some {| lf_inst := inst; lf_owner := owner; lf_written := written |}.
Definition poll_at (now : N) (l : option lfile) : pollin :=
  {| pi_now := now; pi_lock := l; pi_meta := MAbsent; pi_reach := false; pi_vanish := false |}.
Definition three_phase : list pollin :=
  [poll_at 0 (lock_of 1 101 false); poll_at 20 (lock_of 1 101 false);
   poll_at 700 (lock_of 1 101 true); poll_at 1400 (lock_of 1 101 true); poll_at 2200 (lock_of 1 101 true);
   poll_at 2400 (lock_of 2 102 false)].
Definition both_live (p : pid) : bool := (p =? 101) || (p =? 102).

Lemma three_phase_acts_unfixed :
  map po_act (client_run no_readable_reset both_live cstate0 three_phase) = [ANone; ANone; ANone; ANone; ANone; ACorrupt true].
Proof. vm_compute. reflexivity. Qed.
Lemma three_phase_acts :
  map po_act (client_run full_table both_live cstate0 three_phase) = [ANone; ANone; ANone; ANone; ANone; ANone].
Proof. vm_compute. reflexivity. Qed.

Lemma three_phase_stable g : stable_polls g both_live three_phase.
Proof.
  unfold stable_polls, stable. intros i Hi H1 H2 _.
  cbn [three_phase map length] in Hi.
  do 6 (destruct i as [|i]; [vm_compute in H1, H2 |- *; try reflexivity; try congruence|]). lia.
Qed.

Lemma client_grace_resets_needs_readable_reset :
  exists o, nth_error (client_run no_readable_reset both_live cstate0 three_phase) 5 = Some o
    /\ po_act o = ACorrupt true
    /\ stable_polls no_readable_reset both_live three_phase
    /\ (forall j, ~ invalid_window no_readable_reset three_phase j 5)
    /\ po_lock o = None                                              (* the live starter's lock is gone *)
    /\ both_live 102 = true.
Proof.
  eexists. split; [vm_compute; reflexivity|]. split; [reflexivity|]. split; [apply three_phase_stable|].
  split; [|split; reflexivity].
  apply (no_window_after_valid _ _ 4); [reflexivity | discriminate].
Qed.

(* S25: the table without the reset in the Ok(None) arm (both loops up to /repo 9a9eff8).  The client saw an unwritten lock,
   then saw that lock VANISH under its read (a second contender's corrupt cleanup), then — more than a second after the
   first poll — reads the fresh, still-empty lock of the live starter 102 and cleans it at once. *)
Definition no_vanished_reset : gtable :=
  {| g_reset_meta := true; g_reset_readable := true; g_reset_absent := true; g_reset_vanished := false;
     g_reset_cleaned := true; g_grace_ms := 1000; g_strict := true |}.
Definition vanish_at (now : N) (l : option lfile) : pollin :=
  {| pi_now := now; pi_lock := l; pi_meta := MAbsent; pi_reach := false; pi_vanish := true |}.
Definition vanished_witness : list pollin :=
  [poll_at 0 (lock_of 1 900 false); vanish_at 600 (lock_of 1 900 false); poll_at 1100 (lock_of 2 102 false)].

Lemma vanished_acts_unfixed :
  map po_act (client_run no_vanished_reset both_live cstate0 vanished_witness) = [ANone; ANone; ACorrupt true].
Proof. vm_compute. reflexivity. Qed.
Lemma vanished_acts :
  map po_act (client_run full_table both_live cstate0 vanished_witness) = [ANone; ANone; ANone].
Proof. vm_compute. reflexivity. Qed.

Lemma client_grace_resets_needs_vanished_reset :
  exists o, nth_error (client_run no_vanished_reset both_live cstate0 vanished_witness) 2 = Some o
    /\ po_act o = ACorrupt true
    /\ stable_polls no_vanished_reset both_live vanished_witness
    /\ (forall j, ~ invalid_window no_vanished_reset vanished_witness j 2)
    /\ po_lock o = None.
Proof.
  eexists. split; [vm_compute; reflexivity|]. split; [reflexivity|]. split.
  - unfold stable_polls, stable. intros i Hi H1 H2 _. cbn [vanished_witness map length] in Hi.
    do 3 (destruct i as [|i]; [vm_compute in H1, H2 |- *; try reflexivity; try congruence|]). lia.
  - split; [|reflexivity]. apply (no_window_after_valid _ _ 1); [reflexivity | discriminate].
Qed.

(* non-vacuity: a run in which the cleanup does fire, legitimately *)
Definition dead_half : list pollin :=
  [poll_at 0 (lock_of 1 900 false); poll_at 500 (lock_of 1 900 false); poll_at 1001 (lock_of 1 900 false)].
Lemma client_grace_example :
  map po_act (client_run full_table both_live cstate0 dead_half) = [ANone; ANone; ACorrupt true]
  /\ invalid_window full_table dead_half 0 2 /\ table_wf_client full_table = true
  /\ stable_polls full_table both_live dead_half.
Proof.
  split; [vm_compute; reflexivity|]. split.
  - unfold invalid_window. split; [lia|]. split; [vm_compute; reflexivity|].
    intros i Hi. do 3 (destruct i as [|i]; [vm_compute; reflexivity|]). lia.
  - split; [reflexivity|]. unfold stable_polls, stable. intros i Hi _ _ _. cbn [dead_half map length] in Hi.
    do 2 (destruct i as [|i]; [vm_compute; reflexivity|]). lia.
Qed.

(* acquire_authority_lock_with_recovery never branches on "meta.json seen": its polls see absent / vanished (both Ok(None)),
   readable or invalid *)
Lemma wf_server_obs_ok g obs :
  table_wf_server g = true -> (forall o, In o obs -> t_seen o <> SMeta) -> obs_ok g obs.
Proof.
  unfold table_wf_server. intros H Hm. repeat (apply andb_true_iff in H; destruct H as [H ?]).
  intros o Ho. specialize (Hm o Ho). destruct (t_seen o); cbn [resets]; auto.
Qed.

Theorem server_timer_fires_only_after_grace g obs :
  table_wf_server g = true -> (forall o, In o obs -> t_seen o <> SMeta) ->
  forall k, (k < length obs)%nat -> fired (fst (timer_run g None obs)) k = true ->
  exists j, window g obs (fst (timer_run g None obs)) j k
            /\ (stable obs (fst (timer_run g None obs)) ->
                forall i, (j <= i <= k)%nat -> t_inst (nth i obs dflt) = t_inst (nth k obs dflt)).
Proof.
  intros Hwf Hm. apply timer_fires_only_after_grace; [|exact (wf_server_obs_ok g obs Hwf Hm)].
  unfold table_wf_server in Hwf. apply andb_true_iff in Hwf. tauto.
Qed.

(* the server table of S25 (no reset in the Ok(None) arm): invalid lock, lock gone (Ok(None)), then — within the same
   call — the fresh empty lock of a starter that won the exclusive create before this loop's next try_acquire *)
Definition server_table_unfixed : gtable :=
  {| g_reset_meta := false; g_reset_readable := true; g_reset_absent := false; g_reset_vanished := false;
     g_reset_cleaned := true; g_grace_ms := 1000; g_strict := true |}.
Definition server_vanished_obs : list tobs :=
  [ {| t_now := 0; t_seen := SInvalid; t_inst := 1; t_cleaned := true |};
    {| t_now := 1020; t_seen := SAbsent; t_inst := 0; t_cleaned := false |};
    {| t_now := 1040; t_seen := SInvalid; t_inst := 2; t_cleaned := true |} ].
Lemma server_timer_needs_absent_reset :
  fst (timer_run server_table_unfixed None server_vanished_obs) = [false; false; true]
  /\ fst (timer_run full_table None server_vanished_obs) = [false; false; false]
  /\ (forall j, ~ window server_table_unfixed server_vanished_obs (fst (timer_run server_table_unfixed None server_vanished_obs)) j 2).
Proof.
  split; [vm_compute; reflexivity|]. split; [vm_compute; reflexivity|].
  intros j [Hjk [He Hw]]. destruct (Nat.eq_dec j 2) as [->|Hne].
  - vm_compute in He. congruence.
  - destruct (Hw 1%nat ltac:(lia)) as [Hs _]. vm_compute in Hs. congruence.
Qed.

(* An authority whose endpoint answers is not gone, WHATEVER the pid probe says about the pid in meta.json (`live` is
   universally quantified: a client in another pid namespace sees every pid of the authority's namespace as dead): the
   poll returns Ok(endpoint) and leaves lock.json and meta.json alone.  For every table and every client state. *)
Theorem client_answering_authority_untouched g live st p mp :
  pi_meta p = MRec mp -> pi_reach p = true ->
  po_act (client_poll g live st p) = AOk
  /\ po_lock (client_poll g live st p) = pi_lock p
  /\ po_meta (client_poll g live st p) = MRec mp.
Proof.
  intros Hm Hr. unfold client_poll.
  assert (Hs : poll_seen p = SMeta) by (unfold poll_seen; rewrite Hm; reflexivity).
  rewrite Hs. destruct (timer g (cs_since st) (pi_now p) SMeta) as [s1 fire]. rewrite Hm, Hr. cbn. auto.
Qed.

(* C18-7, "probe the pid first, ping only when it is not Dead": the loop with the ping answer ignored when the probe says
   Dead *)
Definition no_reach (p : pollin) : pollin :=
  {| pi_now := pi_now p; pi_lock := pi_lock p; pi_meta := pi_meta p; pi_reach := false; pi_vanish := pi_vanish p |}.
Definition client_poll_probe_first (g : gtable) (live : pid -> bool) (st : cstate) (p : pollin) : pollout :=
  match pi_meta p with
  | MRec mp => if live mp then client_poll g live st p else client_poll g live st (no_reach p)
  | MAbsent => client_poll g live st p
  end.
(* authority 800 holds lock.json and meta.json and ANSWERS; the client cannot see pid 800 *)
Definition answering_poll : pollin :=
  {| pi_now := 0; pi_lock := Some {| lf_inst := 1; lf_owner := 800; lf_written := true |}; pi_meta := MRec 800;
     pi_reach := true; pi_vanish := false |}.
Definition other_namespace : pid -> bool := fun _ => false.
Lemma client_probe_first_takes_answering_authority :
  po_act (client_poll_probe_first full_table other_namespace cstate0 answering_poll) = AStale 800 true
  /\ po_lock (client_poll_probe_first full_table other_namespace cstate0 answering_poll) = None
  /\ po_meta (client_poll_probe_first full_table other_namespace cstate0 answering_poll) = MAbsent
  /\ po_act (client_poll full_table other_namespace cstate0 answering_poll) = AOk.
Proof. vm_compute. repeat split; reflexivity. Qed.
Lemma answering_example : pi_meta answering_poll = MRec 800 /\ pi_reach answering_poll = true.
Proof. split; reflexivity. Qed.
