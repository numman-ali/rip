(* C04 — the compiler's parameters as tools/gen/compile_consts.py reads them from /repo's current source on every run
   (Gen/CompileConsts.v): the message limit, the number of summary refs and the checkpoint visibility rule.  Props/C04.v
   states the compile-input theorems once more for these and for the acceptance count of the source (gen_tail_count,
   obligation gen_tail_count_ok). *)
From RipV Require Import Model.Compile Gen.CompileConsts.

Definition p_gen : params := code_params gen_recent_limit gen_max_refs gen_ckpt_frame_rule.
