(* C18 — for ALL schedules (no hypothesis on the interleaving, timer assumption or not): mutual exclusion can only be
   lost by renaming / removing the lock file of another LIVE pid.  As long as that has not happened there is at most one
   authority and the lock carries its record. *)
From RipV Require Import Base.Prelude Model.Authority Proofs.AuthorityInv.

Record Inv2 (s : state) : Prop := mkInv2 {
  I2_nodup : NoDup (map p_pid (s_procs s));
  I2_local : s_took_lock s = false -> forall q, In q (s_procs s) -> p_alive q = true -> local2 s q
}.

Lemma local2_files s1 s2 q : s_lock s2 = s_lock s1 -> local2 s1 q -> local2 s2 q.
Proof. intros El [A B C D]. constructor; rewrite ?El; auto. Qed.

Lemma took_mono ag s o q s' q' : micro ag s o q = (s', q') -> s_took_lock s' = false -> s_took_lock s = false.
Proof.
  intros H T. destruct (micro_files _ _ _ _ _ _ H) as [[_ E | _ _ _ _ E | _ _ _ E | _ _ E] _]; rewrite E in T; try exact T.
  apply orb_false_iff in T. tauto.
Qed.

(* whoever removes the lock of its live owner r sets the flag *)
Lemma micro_other2 ag s o q s' q' r :
  micro ag s o q = (s', q') -> local2 s r ->
  p_pid r <> p_pid q -> pid_alive (s_procs s) (p_pid r) = true ->
  s_took_lock s' = false ->
  local2 s' r.
Proof.
  intros H [Rown Rguard Racq Rdrv] Hne Hra T.
  destruct (micro_files _ _ _ _ _ _ H) as [Hl _].
  constructor; try assumption.
  intros A. specialize (Rown A). destruct Hl as [E _ | _ El _ _ _ | _ El E _ | _ _ Tk].
  - rewrite E. exact Rown.
  - rewrite El in Rown. discriminate.
  - rewrite E. rewrite El in Rown. exact Rown.
  - exfalso. rewrite T, Rown in Tk. symmetry in Tk. apply orb_false_iff in Tk. destruct Tk as [_ Tk].
    unfold takes in Tk. rewrite Hra, andb_true_r in Tk. apply negb_false_iff, N.eqb_eq in Tk. exact (Hne Tk).
Qed.

Lemma step_inv2 ag s e : Inv2 s -> Inv2 (step ag s e).
Proof.
  intros [ND HL].
  destruct (step_cases ag s e) as [-> _ | i o q s' q' -> Hq Ha Hm Epid Eal Eps -> | i q -> Hq ->]; [constructor; assumption | |].
  - assert (Hin : In q (s_procs s)) by (eapply nth_error_In; eassumption).
    constructor; cbn [with_procs s_procs s_took_lock].
    + rewrite (map_upd_same p_pid _ _ _ _ Hq Epid). assumption.
    + intros T x Hx Hax.
      assert (T0 : s_took_lock s = false) by (eapply took_mono; eassumption).
      apply in_upd in Hx. destruct Hx as [[-> _]|[j [Hj Hxj]]].
      * apply (local2_files s'); [reflexivity|]. eapply micro_self2; [eassumption | auto].
      * assert (Hxin : In x (s_procs s)) by (eapply nth_error_In; eassumption).
        apply (local2_files s'); [reflexivity|].
        eapply micro_other2; try eassumption.
        -- auto.
        -- intros E. apply Hj. eapply nodup_pid_idx; eassumption.
        -- apply pid_alive_self; assumption.
  - constructor; cbn [with_procs s_procs s_took_lock].
    + rewrite (map_upd_same p_pid _ _ _ _ Hq); [assumption|reflexivity].
    + intros T x Hx Hax. apply in_upd in Hx. destruct Hx as [[-> _]|[j [Hj Hxj]]].
      * cbn in Hax. discriminate.
      * apply (local2_files s); [reflexivity|]. apply HL; [assumption|eapply nth_error_In; eassumption|assumption].
Qed.

Theorem two_authorities_only_by_taking ag l m ps es :
  init_ok l m ps ->
  s_took_lock (run ag (init l m ps) es) = false ->
  (length (holders (run ag (init l m ps) es)) <= 1)%nat
  /\ (forall p, In p (holders (run ag (init l m ps) es)) -> lock_pid (s_lock (run ag (init l m ps) es)) = Some p).
Proof.
  intros Hok T.
  assert (I0 : Inv2 (init l m ps)).
  { destruct (init_inv _ _ _ Hok) as [ND HL _ _]. constructor; [assumption|]. intros _ q Hq Ha. apply local_local2. auto. }
  destruct (fold_left_inv (step ag) _ (step_inv2 ag) es _ I0) as [ND HL]. apply one_holder; [exact ND|].
  intros q Hin Ha. apply (L2_own _ _ (HL T q Hin Ha)).
Qed.

(* While the authority that holds the lock lives (it neither crashes nor shuts down), NO schedule of ANY contenders,
   crashing wherever they like, timer assumption or not, changes lock.json or meta.json, and nobody else ever holds. *)
(* where a guard-less contender can be while the lock reads LRec b with b alive *)
Definition by_pc (k : pc) : bool :=
  match k with
  | AcqCreate | RdMeta | RdLock | LockExists | Live _ | Ping _ | LiveM _ | LockExistsM _ | StExists _ | StReread _ | Done => true
  | _ => false
  end.
(* ... never in a stale cleanup keyed on b *)
Record blocal (b : pid) (q : proc) : Prop := mkB {
  B_guard : p_guard q = false;
  B_pc : by_pc (p_pc q) = true;
  B_dead : forall d, stale_arg (p_pc q) = Some d -> d <> b;
  B_drv : drv_ok (p_drv q) = true
}.

Lemma micro_by ag s o q s' q' b :
  s_lock s = LRec b -> pid_alive (s_procs s) b = true -> blocal b q -> micro ag s o q = (s', q') ->
  s_lock s' = s_lock s /\ s_meta s' = s_meta s /\ s_tmp s' = s_tmp s
  /\ s_took_lock s' = s_took_lock s /\ s_took_meta s' = s_took_meta s /\ blocal b q'.
Proof.
  intros Hl Hb [Bg Bp Bd Bv] H. apply drv_cases in Bv.
  unfold micro in H. rewrite Hl in H.
  destruct (p_pc q) eqn:Hpc; cbn in Bp; try discriminate;
  destruct Bv as [Hd|[Hd|Hd]]; unfold ret, goto in H; rewrite ?Hd in H; cbn in H.
  all: break; inversion H; subst; clear H; eqbs; cbn in *.
  all: try (exfalso; apply (Bd _ eq_refl); reflexivity).
  all: repeat split; cbn; rewrite ?Hd, ?Hpc; auto.
  all: try (intros d0 E; inversion E; subst; auto; fail).
  all: try (intros d0 E; inversion E; subst; intros ->; congruence).
  all: try (intros d0 E; discriminate).
Qed.

Definition ev_idx (e : event) : nat := match e with Step i _ => i | Crash i => i end.

(* b serves at index 0 with its record in the lock, everybody else is such a contender *)
Record By (b : pid) (s : state) : Prop := mkBy {
  By_lock : s_lock s = LRec b;
  By_procs : exists cs, s_procs s = serving b :: cs /\ forall q, In q cs -> blocal b q
}.

Lemma step_by ag b s e : ev_idx e <> 0%nat -> By b s ->
  By b (step ag s e) /\ s_meta (step ag s e) = s_meta s /\ s_tmp (step ag s e) = s_tmp s
  /\ s_took_lock (step ag s e) = s_took_lock s /\ s_took_meta (step ag s e) = s_took_meta s.
Proof.
  intros Hi [Hl [cs [Hps Hall]]].
  assert (Hb : pid_alive (s_procs s) b = true).
  { rewrite Hps. apply pid_alive_true. exists (serving b). split; [left; reflexivity|split; reflexivity]. }
  destruct e as [[|i] o|[|i]]; cbn in Hi; try congruence; cbn [step]; rewrite Hps; cbn [nth_error].
  - destruct (nth_error cs i) as [q|] eqn:Hq.
    2:{ split; [constructor; [assumption|exists cs; split; assumption]|auto]. }
    destruct (p_alive q).
    2:{ split; [constructor; [assumption|exists cs; split; assumption]|auto]. }
    rewrite <- Hps.
    destruct (micro ag s o q) as [s' q'] eqn:HM.
    destruct (micro_by _ _ _ _ _ _ _ Hl Hb (Hall q (nth_error_In _ _ Hq)) HM) as [A [B [C [D [E F]]]]].
    cbn. split; [|auto].
    constructor; cbn; [congruence|]. rewrite Hps. cbn [upd]. exists (upd cs i q'). split; [reflexivity|].
    intros x Hx. apply in_upd in Hx. destruct Hx as [[-> _]|[j [_ Hj]]]; [assumption|].
    apply Hall. eapply nth_error_In; eassumption.
  - destruct (nth_error cs i) as [q|] eqn:Hq.
    2:{ split; [constructor; [assumption|exists cs; split; assumption]|auto]. }
    cbn. split; [|auto].
    constructor; cbn; [assumption|]. exists (upd cs i (kill q)). split; [reflexivity|].
    intros x Hx. apply in_upd in Hx. destruct Hx as [[-> _]|[j [_ Hj]]].
    + destruct (Hall q (nth_error_In _ _ Hq)) as [A B C D]. constructor; assumption.
    + apply Hall. eapply nth_error_In; eassumption.
Qed.

Lemma run_by ag b es : forall s, (forall e, In e es -> ev_idx e <> 0%nat) -> By b s ->
  By b (run ag s es) /\ s_meta (run ag s es) = s_meta s
  /\ s_took_lock (run ag s es) = s_took_lock s /\ s_took_meta (run ag s es) = s_took_meta s.
Proof.
  induction es as [|e es IH]; intros s Hes HB; [cbn; auto|].
  destruct (step_by ag b s e (Hes e (or_introl eq_refl)) HB) as [A [B [_ [D E]]]].
  destruct (IH (step ag s e) (fun x Hx => Hes x (or_intror Hx)) A) as [A' [B' [D' E']]].
  cbn [run fold_left]. unfold run in *. split; [exact A'|]. split; [congruence|]. split; congruence.
Qed.

Theorem live_authority_never_disturbed ag b m cs es :
  (forall q, In q cs -> contender q) ->
  (forall e, In e es -> ev_idx e <> 0%nat) ->
  s_lock (run ag (init (LRec b) m (serving b :: cs)) es) = LRec b
  /\ s_meta (run ag (init (LRec b) m (serving b :: cs)) es) = m
  /\ holders (run ag (init (LRec b) m (serving b :: cs)) es) = [b]
  /\ s_took_lock (run ag (init (LRec b) m (serving b :: cs)) es) = false
  /\ s_took_meta (run ag (init (LRec b) m (serving b :: cs)) es) = false.
Proof.
  intros Hc Hes.
  assert (B0 : By b (init (LRec b) m (serving b :: cs))).
  { constructor; [reflexivity|]. exists cs. split; [reflexivity|].
    intros q Hq. destruct (Hc q Hq) as [E|E]; rewrite E; constructor; cbn; try reflexivity; intros d X; discriminate. }
  destruct (run_by ag b es _ Hes B0) as [[Hl [cs' [Hps Hall]]] [Hm [Htl Htm]]].
  repeat split; try assumption.
  unfold holders. rewrite Hps. cbn. 
  rewrite filter_none; [reflexivity|].
  intros x Hx. unfold is_holder. rewrite (B_guard _ _ (Hall x Hx)). apply andb_false_r.
Qed.
