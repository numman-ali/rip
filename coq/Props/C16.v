(* C16 — the tool loop answers each provider call exactly once, in output order, in the very next request;
   never runs a barred tool; bounded; a schema-invalid request is never sent; stateless inputs extend each other.
   Statements only; proofs are in Proofs/ToolLoopProofs.v.

   `run g valid tool prompt init script` is the whole agent loop (Model/ToolLoop.v) for configuration g
   (history mode, tool_choice value, follow-up message), ANY payload validator `valid`, ANY tool outcomes
   `tool`, ANY initial context and ANY provider script (list of answers; an answer is either a failed stream or
   the JSON events the collector observed — function-call items, argument deltas, done events in any number,
   order and interleaving, with missing / empty / duplicate ids).
   A "function call the provider emits" is a call id completed in one response (iteration i <-> answer i).
   FIXED = /repo after the `fix:` commits for S16 and S19; UNFIXED = before.

   Last section: the same from the BYTES of the answers.  `run_b A ob g valid tool prompt init bodies` feeds the loop
   from C15's model of the provider stream path (Model/Sse.v + Model/SseJson.v: UTF-8 carry-over, SseDecoder push /
   finish, cut after [DONE], EventFrameMapper) extended by the collector feed of OpenResponsesSsePipe
   (Model/ToolLoopSse.v); "a call the provider emitted" is then a call in a provider-event FRAME of the session
   stream (Sse.frames_of = what C15 proves about), independent of the collector. *)
From Coq Require Import Strings.String Strings.Ascii.
From RipV Require Import Base.Prelude Base.Json Model.ToolLoop Proofs.ToolLoopProofs.
From RipV Require Import Base.Utf8 Model.ToolLoopSse Proofs.ToolLoopSseProofs.
From RipV Require Import Model.ToolLoopGate Proofs.ToolLoopGateProofs.
From RipV Require Model.Sse Model.SseJson Proofs.SseProofs.
From Coq Require Import Permutation Sorted.

(* ---- a tool excluded by the configured tool choice is never executed ---- *)
Theorem c16_barred_never_executed :
  forall g valid tool prompt init script it x,
  In it (res_iters (run g valid tool prompt init script)) -> In x (it_done it) -> x_ran x = true ->
  allows (enforce (g_choice g)) (c_name (x_call x)) = true.
Proof.
  exact (fun g valid tool prompt init script it x Hit Hx Hr =>
           eq_trans (eq_sym (refused_iff_barred g valid tool prompt init script it x Hit Hx)) Hr).
Qed.
Print Assumptions c16_barred_never_executed.

(* ... and what `allows (enforce v)` means for every tool_choice shape *)
Theorem c16_choice_none : enforce (JStr S_none) = NoTools.
Proof. exact enforce_none. Qed.
Print Assumptions c16_choice_none.

Theorem c16_choice_other_string : forall s, s <> S_none -> enforce (JStr s) = AllFunctions.
Proof. exact enforce_string. Qed.
Print Assumptions c16_choice_other_string.

Theorem c16_choice_function :
  forall obj n, get_str K_type obj = Some S_function ->
  (allows (enforce (JObj obj)) n = true <-> (get_str K_name obj = Some n /\ n <> [])).
Proof. exact allows_function. Qed.
Print Assumptions c16_choice_function.

Theorem c16_choice_allowed_tools :
  forall obj n, get_str K_type obj = Some S_allowed_tools ->
  (allows (enforce (JObj obj)) n = true <->
   (get_str K_mode obj <> Some S_none /\
    exists tools t, obind (jget K_tools obj) as_arr = Some tools /\ In t tools /\ In n (allowed_tool_name t))).
Proof. exact allows_allowed_tools. Qed.
Print Assumptions c16_choice_allowed_tools.

Theorem c16_allowed_tool_entry :
  forall t n, In n (allowed_tool_name t) <->
  exists o, t = JObj o /\ get_str K_type o = Some S_function /\ get_str K_name o = Some n /\ n <> [].
Proof. exact in_allowed_tool_name. Qed.
Print Assumptions c16_allowed_tool_entry.

(* malformed values bar nothing (such a configuration never reaches the provider: c16_invalid_never_sent) *)
Theorem c16_choice_malformed_value :
  forall v, match v with JStr _ | JObj _ => False | _ => True end -> enforce v = AllFunctions.
Proof. exact enforce_other_value. Qed.
Print Assumptions c16_choice_malformed_value.

Theorem c16_choice_other_object :
  forall obj,
  match get_str K_type obj with
  | Some ty => ty <> S_function /\ ty <> S_allowed_tools
  | None => True
  end -> enforce (JObj obj) = AllFunctions.
Proof. exact enforce_object_other. Qed.
Print Assumptions c16_choice_other_object.

(* a call is refused exactly when it is barred *)
Theorem c16_refused_iff_barred :
  forall g valid tool prompt init script it x,
  In it (res_iters (run g valid tool prompt init script)) -> In x (it_done it) ->
  x_ran x = allows (enforce (g_choice g)) (c_name (x_call x)).
Proof. exact refused_iff_barred. Qed.
Print Assumptions c16_refused_iff_barred.

(* ---- executed at most once ----
   iteration i processes an initial segment of the calls drained from answer i, position by position; the
   drained calls are the completed calls of that answer, each once (permutation), in output order (sorted by
   output_index, ties in completion order), and there are no more of them than the answer has done events *)
Theorem c16_at_most_once_exec :
  forall g valid tool prompt init script i it,
  nth_error (res_iters (run g valid tool prompt init script)) i = Some it ->
  map x_call (it_done it) = firstn (length (it_done it)) (it_calls it) /\
  (it_calls it = [] \/
   exists rd, nth_error script i = Some rd /\ r_fail rd = false /\
     it_calls it = drain (collect (g_fixed g) (r_events rd)) /\
     Permutation (it_calls it) (k_done (collect (g_fixed g) (r_events rd))) /\
     StronglySorted oi_le (it_calls it) /\
     (forall k, filter (fun c => c_oi c =? k) (it_calls it)
                = filter (fun c => c_oi c =? k) (k_done (collect (g_fixed g) (r_events rd)))) /\
     (length (it_calls it) <= length (filter is_fc_done (r_events rd)))%nat).
Proof. exact at_most_once. Qed.
Print Assumptions c16_at_most_once_exec.

(* within one response a call id is completed (hence executed and answered) once, whatever the provider repeats *)
Theorem c16_call_ids_distinct :
  forall g valid tool prompt init script it,
  g_fixed g = FIXED ->
  In it (res_iters (run g valid tool prompt init script)) -> NoDup (map c_id (it_calls it)).
Proof. exact call_ids_distinct. Qed.
Print Assumptions c16_call_ids_distinct.

(* S19, before the fix: a repeated done event completed the same call id twice *)
Theorem c16_call_ids_distinct_unfixed_refuted :
  exists evs, ~ NoDup (map c_id (drain (collect UNFIXED evs))).
Proof. exact call_ids_distinct_unfixed_refuted. Qed.
Print Assumptions c16_call_ids_distinct_unfixed_refuted.

(* ---- bounded: at most 32 processed (executed or refused) calls, 33 requests; a run cut off by the bound
   stops exactly at 32 — its last iteration has no next request (its calls stay unanswered) ---- *)
Theorem c16_bound :
  forall g valid tool prompt init script,
  nlen (processed (run g valid tool prompt init script)) <= MAX_TOOL_CALLS /\
  nlen (executed (run g valid tool prompt init script)) <= MAX_TOOL_CALLS /\
  (length (sent (run g valid tool prompt init script)) <= 33)%nat /\
  (res_reason (run g valid tool prompt init script) = MaxToolCalls ->
   nlen (processed (run g valid tool prompt init script)) = MAX_TOOL_CALLS).
Proof. exact bound. Qed.
Print Assumptions c16_bound.

(* ---- a request that fails schema validation is never sent: every sent request passed `valid`; a refused
   payload ends the run at once ---- *)
Theorem c16_invalid_never_sent :
  forall g valid tool prompt init script,
  (forall i q, nth_error (sent (run g valid tool prompt init script)) i = Some q -> valid (N.of_nat i) q = true) /\
  (forall q, res_rejected (run g valid tool prompt init script) = Some q ->
     res_reason (run g valid tool prompt init script) = InvalidRequest /\
     valid (nlen (sent (run g valid tool prompt init script))) q = false).
Proof. exact invalid_never_sent. Qed.
Print Assumptions c16_invalid_never_sent.

(* ... instantiated: when the gate applies (at least) the value constraints the OpenResponses schema puts on input
   items (`items_ok`: call_id 1..64 characters, function name 1..64 characters of [a-zA-Z0-9_-], message role one
   of the four, texts <= 10 MiB characters — numbers, pattern and roles are tied to the schema documents by T1,
   `items_ok` to the schema judge of the harness by T2), then whatever call ids and function names the provider
   sends, every function_call / function_call_output item of every request that leaves the loop is within them *)
Theorem c16_sent_items_within_schema_limits :
  forall g valid tool prompt init script i q,
  nth_error (sent (run g (fun k r => items_ok r && valid k r) tool prompt init script)) i = Some q ->
  (forall id cid n a, In (ICall id cid n a) (items_of q) ->
     CALL_ID_MIN <= nlen cid <= CALL_ID_MAX /\ NAME_MIN <= nlen n <= NAME_MAX /\
     (forall c, In c n -> name_char_ok c = true)) /\
  (forall id cid o, In (IOut id cid o) (items_of q) ->
     CALL_ID_MIN <= nlen cid <= CALL_ID_MAX /\ nlen o <= TEXT_MAX) /\
  (forall r t, In (IMsg r t) (items_of q) -> role_ok r = true /\ nlen t <= TEXT_MAX).
Proof. exact sent_within_schema_limits. Qed.
Print Assumptions c16_sent_items_within_schema_limits.

(* ---- answered exactly once, by call id, in output order, in the very next request, and nowhere else:
   for consecutive iterations it1, it2 every drained call of it1 was processed (same order), and
   - stateful: the input of it2's request is exactly the outputs of these calls (+ the follow-up message),
     chained by previous_response_id;
   - stateless: the function_call_output items of it2's request are those of it1's request followed by exactly
     these outputs; with the fix the whole input is it1's input ++ the calls ++ their outputs ++ follow-up ---- *)
Theorem c16_answered_next_request :
  forall g valid tool prompt init script pre it1 it2 post,
  res_iters (run g valid tool prompt init script) = pre ++ it1 :: it2 :: post ->
  map x_call (it_done it1) = it_calls it1 /\ it_calls it1 <> [] /\
  (g_stateless g = false ->
     q_input (it_req it2) = InItems (outputs_for false (it_done it1) ++ fmsg g) /\
     q_prev (it_req it2) <> None /\ q_kind (it_req it2) = 3) /\
  (g_stateless g = true ->
     q_prev (it_req it2) = None /\ q_kind (it_req it2) = 4 /\
     filter is_out (items_of (it_req it2))
       = filter is_out (items_of (it_req it1)) ++ outputs_for true (it_done it1) /\
     (g_fixed g = true ->
        items_of (it_req it2)
        = items_of (it_req it1) ++ map call_item (it_calls it1) ++ outputs_for true (it_done it1) ++ fmsg g)).
Proof. exact answered_next_request. Qed.
Print Assumptions c16_answered_next_request.

(* ... read off by call id: the call ids answered by the next request are the call ids of the drained calls, in
   that order, each once (they are pairwise distinct); in stateless mode appended to those answered before *)
Theorem c16_answered_once_by_call_id :
  forall g valid tool prompt init script pre it1 it2 post,
  res_iters (run g valid tool prompt init script) = pre ++ it1 :: it2 :: post ->
  (g_stateless g = false -> out_ids (items_of (it_req it2)) = map c_id (it_calls it1)) /\
  (g_stateless g = true ->
     out_ids (items_of (it_req it2)) = out_ids (items_of (it_req it1)) ++ map c_id (it_calls it1)) /\
  (g_fixed g = FIXED -> NoDup (map c_id (it_calls it1))).
Proof. exact answered_by_call_id. Qed.
Print Assumptions c16_answered_once_by_call_id.

(* ... and at least once: a call announced by a well-formed done event (function_call item with a non-empty call id
   and a name; the item id may be missing) in answer i is among the calls iteration i drains, whatever else the
   answer contains, whenever the run goes on to a next request — where, by the theorem above, it is answered *)
Theorem c16_emitted_call_answered :
  forall g valid tool prompt init script pre it1 it2 post rd evs1 ev evs2 cid,
  res_iters (run g valid tool prompt init script) = pre ++ it1 :: it2 :: post ->
  nth_error script (length pre) = Some rd -> r_events rd = evs1 ++ ev :: evs2 -> wf_done ev cid ->
  In cid (map c_id (it_calls it1)).
Proof.
  exact (fun g valid tool prompt init script pre it1 it2 post rd evs1 ev evs2 cid E Hrd Hev =>
           emitted_call_answered g valid tool prompt init script pre it1 it2 post rd ev cid E Hrd
             (eq_ind_r (In ev) (in_elt ev evs1 evs2) Hev)).
Qed.
Print Assumptions c16_emitted_call_answered.

(* a run that ends with "completed" left nothing unanswered: its last iteration drained no call, and every
   earlier iteration has a successor (c16_answered_next_request applies to it) *)
Theorem c16_completed_all_answered :
  forall g valid tool prompt init script,
  res_reason (run g valid tool prompt init script) = Completed ->
  exists pre it, res_iters (run g valid tool prompt init script) = pre ++ [it] /\ it_calls it = [] /\ it_done it = [].
Proof. exact completed_all_answered. Qed.
Print Assumptions c16_completed_all_answered.

(* ---- the calls that get NO next request: only the calls of a run's last iteration can stay unanswered
   (c16_answered_next_request covers every other iteration), and only for one of three named reasons:
   - stateful mode and no response id to chain the outputs to: nothing was executed, "provider_error";
   - the 32-call bound (then exactly 32 calls were processed in the run);
   - the payload validator refused the follow-up — and the refused payload was exactly the answer to these calls
     (all of them processed; same shape c16_answered_next_request demands of a next request).
   A next request whose stream fails, or for which nothing is scripted, is still a sent request: it is an
   iteration of its own, so its predecessor's calls were answered. ---- *)
Theorem c16_unanswered_only_when :
  forall g valid tool prompt init script pre it,
  res_iters (run g valid tool prompt init script) = pre ++ [it] -> it_calls it <> [] ->
  (res_reason (run g valid tool prompt init script) = ProviderError /\
   res_rejected (run g valid tool prompt init script) = None /\ g_stateless g = false /\ it_done it = []) \/
  (res_reason (run g valid tool prompt init script) = MaxToolCalls /\
   res_rejected (run g valid tool prompt init script) = None /\
   nlen (processed (run g valid tool prompt init script)) = MAX_TOOL_CALLS) \/
  (res_reason (run g valid tool prompt init script) = InvalidRequest /\
   exists q, res_rejected (run g valid tool prompt init script) = Some q /\
     map x_call (it_done it) = it_calls it /\
     (g_stateless g = false ->
        q_input q = InItems (outputs_for false (it_done it) ++ fmsg g) /\ q_prev q <> None /\ q_kind q = 3) /\
     (g_stateless g = true ->
        q_prev q = None /\ q_kind q = 4 /\
        filter is_out (items_of q) = filter is_out (items_of (it_req it)) ++ outputs_for true (it_done it) /\
        (g_fixed g = true ->
           items_of q = items_of (it_req it) ++ map call_item (it_calls it) ++ outputs_for true (it_done it) ++ fmsg g))).
Proof. exact unanswered_only_when. Qed.
Print Assumptions c16_unanswered_only_when.

(* ---- the same call id across responses.  A call = a call id completed in one response.  Stateful mode: a request
   answers the ids of the response just before it and nothing else (c16_answered_once_by_call_id).  Stateless
   history: request k answers, in order, the ids of ALL earlier responses, response by response, after the outputs
   the initial context already held — so an id that m earlier responses completed is answered exactly m times in
   request k: once per response, never more, never fewer. ---- *)
Theorem c16_answers_accumulate :
  forall g valid tool prompt init script pre it post,
  g_stateless g = true ->
  res_iters (run g valid tool prompt init script) = pre ++ it :: post ->
  out_ids (items_of (it_req it)) = out_ids (init_items init) ++ flat_map (fun i => map c_id (it_calls i)) pre.
Proof. exact answers_accumulate. Qed.
Print Assumptions c16_answers_accumulate.

Theorem c16_answered_once_per_response :
  forall g valid tool prompt init script pre it post cid,
  g_stateless g = true -> g_fixed g = FIXED ->
  res_iters (run g valid tool prompt init script) = pre ++ it :: post ->
  count_occ str_eq_dec (out_ids (items_of (it_req it))) cid
  = (count_occ str_eq_dec (out_ids (init_items init)) cid + length (filter (completes cid) pre))%nat.
Proof. exact answered_once_per_response. Qed.
Print Assumptions c16_answered_once_per_response.

(* the first request answers nothing the initial context did not already hold (both modes) *)
Theorem c16_first_request_answers_nothing :
  forall g valid tool prompt init script it rest,
  res_iters (run g valid tool prompt init script) = it :: rest ->
  out_ids (items_of (it_req it)) = out_ids (init_items init).
Proof. exact first_request_out_ids. Qed.
Print Assumptions c16_first_request_answers_nothing.

(* ---- stateless-history mode: each request's input extends the previous one ---- *)
Theorem c16_stateless_prefix :
  forall g valid tool prompt init script pre it1 it2 post,
  g_stateless g = true -> g_fixed g = FIXED ->
  res_iters (run g valid tool prompt init script) = pre ++ it1 :: it2 :: post ->
  exists ext, items_of (it_req it2) = items_of (it_req it1) ++ ext.
Proof. exact stateless_prefix. Qed.
Print Assumptions c16_stateless_prefix.

(* S16, before the fix: with a follow-up user message request r+2 did not extend request r+1 *)
Theorem c16_stateless_prefix_unfixed_refuted :
  exists g valid tool prompt init script pre it1 it2 post,
    g_stateless g = true /\ g_fixed g = UNFIXED /\
    res_iters (run g valid tool prompt init script) = pre ++ it1 :: it2 :: post /\
    forall ext, items_of (it_req it2) <> items_of (it_req it1) ++ ext.
Proof. exact stateless_prefix_unfixed_refuted. Qed.
Print Assumptions c16_stateless_prefix_unfixed_refuted.

(* ---- the hypotheses are satisfiable: a run with an answered round, one refused and one executed call ---- *)
Example c16_example_run :
  length (res_iters ex_run) = 2%nat /\ res_reason ex_run = Completed /\
  map (fun x => (c_id (x_call x), x_ran x)) (processed ex_run) = [(lit "c2", true); (lit "c1", false)].
Proof. exact ex_run_shape. Qed.

Example c16_example_wf_done : wf_done (w_done 0 "f1" "c1" "write" "{}") (lit "c1").
Proof. exact ex_wf_done. Qed.

Example c16_example_dedupe : length (drain (collect FIXED s19_events)) = 1%nat.
Proof. exact s19_fixed_once. Qed.

(* a run whose follow-up is refused: one iteration, two drained calls left unanswered, the refused payload answers both *)
Example c16_example_refused_followup :
  length (res_iters ex_refused_run) = 1%nat /\ res_reason ex_refused_run = InvalidRequest /\
  map (fun it => map c_id (it_calls it)) (res_iters ex_refused_run) = [[lit "c2"; lit "c1"]] /\
  match res_rejected ex_refused_run with Some q => out_ids (items_of q) = [lit "c2"; lit "c1"] | None => False end.
Proof. exact ex_refused_shape. Qed.

(* the same call id completed by two responses (stateless history): answered once per response *)
Example c16_example_same_id :
  res_reason ex_same_id_run = Completed /\
  map (fun it => out_ids (items_of (it_req it))) (res_iters ex_same_id_run) = [[]; [lit "c1"]; [lit "c1"; lit "c1"]].
Proof. exact ex_same_id_shape. Qed.

(* the provider sends a 70-character call id: the follow-up that would answer it is refused, only the first request is sent *)
Example c16_example_long_call_id :
  nlen (lit ex_long_id) = 70 /\ length (sent ex_long_id_run) = 1%nat /\ res_reason ex_long_id_run = InvalidRequest /\
  match res_rejected ex_long_id_run with Some q => out_ids (items_of q) = [lit ex_long_id] | None => False end.
Proof. exact ex_long_id_shape. Qed.

(* ================= from the body bytes: OpenResponsesSsePipe feeds the collector what it logs as frames ========== *)

(* the collector of a request has observed exactly the payloads of the event frames the pipe emitted for this answer,
   in order — whatever the chunking, incl. the events that only pipe.finish() hands out when the stream ends without
   [DONE] (classify = any classification of payloads, off = any seq offset) *)
Theorem c16_collector_sees_the_frames :
  forall (classify : option str -> str -> Sse.cls) (off : N) (cs : list (list N)),
  seen_of classify OBS_BOTH off cs = frame_data (Sse.frames_of classify Sse.FIXED off cs).
Proof. exact seen_is_frame_data. Qed.
Print Assumptions c16_collector_sees_the_frames.

(* ... i.e. the events of the body by the chunking-free specification of C15: lossy UTF-8 decoding of the whole body,
   the field rules folded over ALL its lines (an unterminated non-empty last line counts: finish()), cut after the
   first [DONE] *)
Theorem c16_collector_sees_the_body_events :
  forall (classify : option str -> str -> Sse.cls) (off : N) (cs : list (list N)),
  seen_of classify OBS_BOTH off cs
  = evs_data (Sse.upto_done (Sse.events_spec classify (lossy_text (concat cs)))).
Proof. exact seen_is_body_events. Qed.
Print Assumptions c16_collector_sees_the_body_events.

(* whichever of the two places feed the collector, the frames are C15's frames *)
Theorem c16_frames_do_not_depend_on_the_collector :
  forall (classify : option str -> str -> Sse.cls) (off : N) (ob : obs_flags) (cs : list (list N)),
  frames_c classify ob off cs = Sse.frames_of classify Sse.FIXED off cs.
Proof. exact frames_c_is_frames_of. Qed.
Print Assumptions c16_frames_do_not_depend_on_the_collector.

(* c16_emitted_call_answered from the BODY: a function call that appears in a provider-event frame of answer i
   (status "event", data = a well-formed output_item.done of a function_call item) is among the calls iteration i
   drains whenever the run goes on to a next request — where it is answered exactly once, by call id, in output
   order (c16_answered_next_request / c16_answered_once_by_call_id apply to run_b as it is a `run`) *)
Theorem c16_emitted_call_answered_from_body :
  forall (A : SseJson.absfns) g valid tool prompt init (bodies : list bround) pre it1 it2 post b
         (off s : N) ev raw d errs rerrs cid,
  res_iters (run_b A OBS_BOTH g valid tool prompt init bodies) = pre ++ it1 :: it2 :: post ->
  nth_error bodies (length pre) = Some b ->
  In (Sse.FProv s 2 ev raw (Some d) errs rerrs) (Sse.frames_of (SseJson.jclassify A) Sse.FIXED off (bb_chunks b)) ->
  wf_done d cid ->
  In cid (map c_id (it_calls it1)).
Proof. exact emitted_call_answered_body. Qed.
Print Assumptions c16_emitted_call_answered_from_body.

(* a run that ends "completed": no frame of its last answer carries a well-formed call (a call in the frames cannot
   be dropped silently) *)
Theorem c16_completed_no_call_in_last_frames :
  forall (A : SseJson.absfns) g valid tool prompt init (bodies : list bround) b (off s : N) ev raw d errs rerrs cid,
  res_reason (run_b A OBS_BOTH g valid tool prompt init bodies) = Completed ->
  nth_error bodies (pred (length (res_iters (run_b A OBS_BOTH g valid tool prompt init bodies)))) = Some b ->
  In (Sse.FProv s 2 ev raw (Some d) errs rerrs) (Sse.frames_of (SseJson.jclassify A) Sse.FIXED off (bb_chunks b)) ->
  wf_done d cid -> False.
Proof. exact completed_no_call_in_last_frames. Qed.
Print Assumptions c16_completed_no_call_in_last_frames.

(* the converse — nothing from nothing.  Every call an iteration drains (hence every call it executes and every call id
   the next request answers: c16_at_most_once_exec, c16_answered_once_by_call_id) carries a call id that a function_call
   item of an output_item.added / output_item.done event of the SAME answer carries (the done item itself or an earlier
   added event of the item) ... *)
Theorem c16_drained_call_was_announced :
  forall g valid tool prompt init script i it c,
  nth_error (res_iters (run g valid tool prompt init script)) i = Some it -> In c (it_calls it) ->
  exists rd ev, nth_error script i = Some rd /\ In ev (r_events rd) /\ carries ev (c_id c).
Proof. exact drained_call_was_announced. Qed.
Print Assumptions c16_drained_call_was_announced.

(* ... and from the body: that event is a provider-event frame of answer i in the session stream *)
Theorem c16_drained_call_in_frames :
  forall (A : SseJson.absfns) g valid tool prompt init (bodies : list bround) i it c (off : N),
  nth_error (res_iters (run_b A OBS_BOTH g valid tool prompt init bodies)) i = Some it -> In c (it_calls it) ->
  exists b s ev raw d errs rerrs,
    nth_error bodies i = Some b /\
    In (Sse.FProv s 2 ev raw (Some d) errs rerrs) (Sse.frames_of (SseJson.jclassify A) Sse.FIXED off (bb_chunks b)) /\
    carries d (c_id c).
Proof. exact drained_call_in_frames. Qed.
Print Assumptions c16_drained_call_in_frames.

(* a pipe whose finish() logs the flushed events without feeding the collector (OBS_PUSH_ONLY) violates both: the
   CRLF body cut between the CR and the LF of its final blank line has the call in frame 1 of answer 0, nothing is
   drained and the run "completes" after one request *)
Theorem c16_finish_not_observed_refuted :
  exists A g valid tool prompt init bodies b fr d cid,
    nth_error bodies 0 = Some b /\
    In fr (frames_c (SseJson.jclassify A) OBS_PUSH_ONLY 0 (bb_chunks b)) /\
    fr = Sse.FProv 1 2 None None (Some d) [] [] /\ wf_done d cid /\
    res_reason (run_b A OBS_PUSH_ONLY g valid tool prompt init bodies) = Completed /\
    length (res_iters (run_b A OBS_PUSH_ONLY g valid tool prompt init bodies)) = 1%nat.
Proof. exact finish_not_observed_refuted. Qed.
Print Assumptions c16_finish_not_observed_refuted.

(* ---- which unterminated tails pipe.finish() dispatches, in general (text = the lossy UTF-8 decoding of the body;
   Sse.events_spec = C15's chunking-free specification, the right-hand side of c16_collector_sees_the_body_events) ---- *)
(* after a complete line, a tail of one or more CRs is the blank line: the event before it IS emitted — the CRLF body
   cut between the CR and the LF of its final blank line (SEED C16-4), also `...\n\r` *)
Theorem c16_cr_tail_is_dispatched :
  forall (classify : option str -> str -> Sse.cls) (t : str) (n : nat),
  Sse.events_spec classify (t ++ Sse.NL :: repeat 13 (S n)) = Sse.events_spec classify (t ++ [Sse.NL; Sse.NL]).
Proof. exact cr_tail_is_blank_line. Qed.
Print Assumptions c16_cr_tail_is_dispatched.

(* after a complete line, any other unterminated tail (a line that is not blank once its trailing CRs are trimmed:
   a data / event / comment line without line end, and — taking t's last line as that data line — the LF body that
   misses its final blank line) dispatches nothing: that call was never emitted, there is nothing to answer *)
Theorem c16_nonblank_tail_is_not_dispatched :
  forall (classify : option str -> str -> Sse.cls) (t l : str),
  SseProofs.no_nl l -> Sse.trim_end_cr l <> [] ->
  Sse.events_spec classify (t ++ Sse.NL :: l) = Sse.events_spec classify (t ++ [Sse.NL]).
Proof. exact nonblank_tail_not_dispatched. Qed.
Print Assumptions c16_nonblank_tail_is_not_dispatched.

(* ---- which tails carry a call (the hypotheses above are satisfiable) ---- *)
(* `...}\r\n\r`, no [DONE]: the last event is handed out by finish(); it is frame 1 and the call is drained *)
Example c16_example_crlf_cut_tail :
  nth_error (Sse.frames_of (SseJson.jclassify A0) Sse.FIXED 0 [body_crlf_cut]) 1 = Some tail_call_frame
  /\ drained_ids OBS_BOTH body_crlf_cut = [lit "call_1"].
Proof. exact ex_crlf_cut. Qed.
Example c16_example_tail_call_wf : wf_done tail_call_data (lit "call_1").
Proof. exact tail_call_wf. Qed.
(* the whole run: executed, answered by request 1 *)
Example c16_example_tail_run :
  res_reason (tail_run OBS_BOTH) = Completed /\
  map (fun it => (q_kind (it_req it), out_ids (items_of (it_req it)), map c_id (it_calls it))) (res_iters (tail_run OBS_BOTH))
  = [(0, [], [lit "call_1"]); (3, [lit "call_1"], [])].
Proof. exact ex_tail_run_answered. Qed.
(* LF line end followed by a lone CR; [DONE] itself in the unterminated tail: dispatched as well *)
Example c16_example_lf_cr_tail : has_call_frame body_lf_cr = true /\ drained_ids OBS_BOTH body_lf_cr = [lit "call_1"].
Proof. exact ex_lf_cr. Qed.
Example c16_example_done_in_tail :
  has_call_frame body_done_in_tail = true /\ drained_ids OBS_BOTH body_done_in_tail = [lit "call_1"].
Proof. exact ex_done_in_tail. Qed.
(* NOT dispatched — no frame, nothing to answer: an LF body missing its final blank line, a last line without any
   line end, a call after [DONE] *)
Example c16_example_lf_noblank_tail : has_call_frame body_lf_noblank = false /\ drained_ids OBS_BOTH body_lf_noblank = [].
Proof. exact ex_lf_noblank. Qed.
Example c16_example_lf_noeol_tail : has_call_frame body_lf_noeol = false /\ drained_ids OBS_BOTH body_lf_noeol = [].
Proof. exact ex_lf_noeol. Qed.
Example c16_example_call_after_done :
  has_call_frame body_call_after_done = false /\ drained_ids OBS_BOTH body_call_after_done = [].
Proof. exact ex_call_after_done. Qed.

(* ================= the send gate one level down: validator messages -> payload.errors() -> gate ================= *)
(* `valid` above is abstract.  In the code it is  validate_create_response_body(&body) -> CreateResponsePayload::new
   (errors = the validator's messages, each through a per-message post-processing `post`; /repo: kept as they are) ->
   `if !req.payload.errors().is_empty() { refuse }`  (Model/ToolLoopGate.v).  jsonschema quotes the offending instance in
   its messages — for an invalid `input` the whole item array, with tool outputs and arguments of any size — so a
   post-processing that looks at the messages (bounding their length, say) sits between the verdict and the gate.
   For every shape of post-processing that T1 accepts (gen_gate_errors_ok: PS_keep = /repo, PS_map = each message
   rewritten by a total function) the gate IS the validator's verdict, with as many errors reported as the validator
   found ... *)
Theorem c16_gate_is_validator_verdict :
  forall s post verrs, shape_never_drops s = true -> shape_admits s post ->
  gate_open post verrs = is_nil verrs /\ length (payload_errors post verrs) = length verrs.
Proof. exact gate_is_verdict. Qed.
Print Assumptions c16_gate_is_validator_verdict.

(* ... so the decision does not depend on the messages (how long they are, what they quote) *)
Theorem c16_gate_ignores_message_lengths :
  forall s post verrs verrs', shape_never_drops s = true -> shape_admits s post ->
  (verrs = [] <-> verrs' = []) -> gate_open post verrs = gate_open post verrs'.
Proof. exact gate_ignores_messages. Qed.
Print Assumptions c16_gate_ignores_message_lengths.

(* c16_invalid_never_sent with the gate spelled out: every request the loop sends had no validator message; a request
   with a message is refused and ends the run *)
Theorem c16_invalid_never_sent_whatever_the_messages :
  forall s post verrs g tool prompt init script,
  shape_never_drops s = true -> shape_admits s post ->
  (forall i q, nth_error (sent (run g (valid_by post verrs) tool prompt init script)) i = Some q ->
     verrs (N.of_nat i) q = []) /\
  (forall q, res_rejected (run g (valid_by post verrs) tool prompt init script) = Some q ->
     res_reason (run g (valid_by post verrs) tool prompt init script) = InvalidRequest /\
     verrs (nlen (sent (run g (valid_by post verrs) tool prompt init script))) q <> []).
Proof. exact invalid_never_sent_by_errors. Qed.
Print Assumptions c16_invalid_never_sent_whatever_the_messages.

(* /repo's post-processing (none) is an admitted shape; so is a clipping that cuts at the last character boundary at
   or below the bound (it never loses a message) *)
Example c16_example_gate_of_repo : shape_admits POST_SHAPE POST_KEEP /\ shape_never_drops POST_SHAPE = true.
Proof. exact post_keep_admitted. Qed.
Theorem c16_clip_at_boundary_never_drops : forall n m, clip_floor n m <> None.
Proof. exact clip_floor_total. Qed.
Print Assumptions c16_clip_at_boundary_never_drops.
Example c16_example_gate_long_and_short :
  gate_open POST_KEEP [MSG_2049; lit "x"; []] = false /\ gate_open (clip_floor 2048) [MSG_2049; lit "x"; []] = false /\
  gate_open POST_KEEP [] = true.
Proof. exact ex_gate_long_and_short. Qed.

(* seeded change C16-8: messages longer than 2048 bytes are cut with `message.get(..2048)?` under filter_map.  `get`
   answers None when byte 2048 is inside a character: the message is dropped, and when it was the only one the gate
   opens.  Witness: a 2049-byte message (one ASCII byte, 1024 two-byte characters) *)
Theorem c16_clip_get_gate_refuted :
  exists verrs, verrs <> [] /\ gate_open (clip_get 2048) verrs = true /\ gate_open (clip_floor 2048) verrs = false.
Proof. exact clip_get_gate_refuted. Qed.
Print Assumptions c16_clip_get_gate_refuted.

(* ... and the loop sends the request the validator has a message for (with the boundary-safe clipping it is refused) *)
Theorem c16_clip_get_sends_invalid_refuted :
  exists q, nth_error (sent (clip_run (clip_get 2048))) 0 = Some q /\ clip_verrs 0 q <> [] /\
            res_rejected (clip_run (clip_get 2048)) = None /\
            sent (clip_run (clip_floor 2048)) = [] /\ res_reason (clip_run (clip_floor 2048)) = InvalidRequest.
Proof. exact clip_get_sends_invalid_refuted. Qed.
Print Assumptions c16_clip_get_sends_invalid_refuted.
