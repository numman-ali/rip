(* C05 — a crash at any write boundary leaves a store that restarts gap-free.
   Statements only; proofs are in Proofs/CrashProofs.v, the model in Model/Crash.v.
   `crash fixed k hist` = the disk after the first k instructions (file-system effects, in-memory updates and
   named crash points, in source order) of ANY history, every volatile thing (BufWriter contents, next_seq map,
   in-memory index) dropped, then ContinuityStore::new;  `run_ops fixed … base more` = ANY further operations.
   `env_runb` = the environment's part (fresh UUIDs: a thread id chosen for creation is not in the log, a
   session whose counter is not in memory is new).  `fixed` = /repo with the two repairs (bd2ee56, 0b0d2b0). *)
From RipV Require Import Base.Prelude Model.CrashCold Model.Crash Proofs.CrashProofs Proofs.CrashCacheProofs Proofs.CrashIndexProofs Proofs.CrashArtifactProofs Proofs.CrashRoundsProofs Proofs.CrashColdProofs Gen.CrashEffects Proofs.CrashGenProofs.

(* whole store replays, every stream 0,1,2,.., whole lines only *)
Theorem c05_recover_valid : forall (hist : list op) (k : nat) (base : N) (more : list op),
  env_runb fixed init 0 hist = true -> nlen hist <= base ->
  env_runb fixed (crash fixed k hist) base more = true ->
  exists fs, replay_validated (run_ops fixed (crash fixed k hist) base more) = Some fs
             /\ Numbered fs
             /\ truth (run_ops fixed (crash fixed k hist) base more) = enc fs.
Proof. exact recover_valid. Qed.
Print Assumptions c05_recover_valid.

(* what rip-log's validator accepts is exactly "each frame carries the number of earlier frames of its stream" *)
Theorem c05_validated_is_numbered : forall fs : list frame, validate fs = true -> Numbered fs.
Proof. exact validate_numbered. Qed.
Print Assumptions c05_validated_is_numbered.

(* every append acknowledged before the crash or after the restart is in the log exactly once *)
Theorem c05_acked_exactly_once : forall (hist : list op) (k : nat) (base : N) (more : list op),
  env_runb fixed init 0 hist = true -> nlen hist <= base ->
  env_runb fixed (crash fixed k hist) base more = true ->
  exists fs, replay_validated (run_ops fixed (crash fixed k hist) base more) = Some fs
             /\ forall fid, In fid (acks (crash fixed k hist))
                            \/ In fid (acks (run_ops fixed (crash fixed k hist) base more)) ->
                            cfid fid fs = 1.
Proof. exact acked_exactly_once. Qed.
Print Assumptions c05_acked_exactly_once.

(* the torn-line question for the single-write append: at EVERY crash point the log is a sequence of whole
   lines that validates (never a partial line, so restart never appends onto one) *)
Theorem c05_crash_leaves_whole_lines : forall (hist : list op) (k : nat),
  env_runb fixed init 0 hist = true ->
  exists fs, truth (crash fixed k hist) = enc fs /\ validate fs = true
             /\ torn (truth (crash fixed k hist)) = false
             /\ replay_validated (crash fixed k hist) = Some fs.
Proof. exact crash_whole_lines. Qed.
Print Assumptions c05_crash_leaves_whole_lines.

(* numbering continues: the first locked append to a thread after restart is refused (thread not in the log)
   or gets seq = the number of frames the thread has in the recovered log — whatever the sidecar says *)
Theorem c05_numbering_continues : forall (hist : list op) (k : nat) (base c len : N) (fs0 : list frame),
  env_runb fixed init 0 hist = true -> nlen hist <= base ->
  replay_validated (crash fixed k hist) = Some fs0 ->
  replay_validated (run_ops fixed (crash fixed k hist) base [OAppend c len]) = Some fs0
  \/ replay_validated (run_ops fixed (crash fixed k hist) base [OAppend c len])
     = Some (fs0 ++ [mkf (2 * c) (cnt (2 * c) fs0) (4 * base) len None]).
Proof. exact numbering_continues. Qed.
Print Assumptions c05_numbering_continues.

(* the hypotheses are satisfiable: a history with every kind of operation (frames below and above the
   BufWriter capacity, checkpoint, branch, handoff, cache loss), killed at instruction 230, restarted,
   continued; 8 acknowledgements before the crash, 12 at the end *)
Example c05_hypotheses_satisfiable :
  env_runb fixed init 0 ex_hist = true /\ nlen ex_hist <= 10
  /\ env_runb fixed (crash fixed 230 ex_hist) 10 ex_more = true
  /\ nlen (acks (crash fixed 230 ex_hist)) = 8
  /\ nlen (acks (run_ops fixed (crash fixed 230 ex_hist) 10 ex_more)) = 12.
Proof. exact ex_env. Qed.
Print Assumptions c05_hypotheses_satisfiable.

(* S7 (repaired by /repo bd2ee56): with the two-write append (`v_s7`) a crash between body and newline of an
   8 192-byte frame leaves a torn line; the acknowledged follow-up append is glued onto it; replay fails *)
Theorem c05_torn_line_unfixed_refuted :
  env_runb v_s7 init 0 s7_hist = true /\ env_runb v_s7 (crash v_s7 38 s7_hist) 2 s7_more = true
  /\ has_ok (compile v_s7 (crash v_s7 38 s7_hist) 2 (OAppend 0 10)) = true
  /\ replay_validated (run_ops v_s7 (crash v_s7 38 s7_hist) 2 s7_more) = None
  /\ torn (truth (crash v_s7 38 s7_hist)) = true.
Proof. exact s7_witness. Qed.
Print Assumptions c05_torn_line_unfixed_refuted.

(* S3 (repaired by /repo 0b0d2b0): numbering from the sidecar tail (`v_s3`) after a crash between the
   truth-log flush and the sidecar append re-issues a seq; the recovered log was valid, the acknowledged
   follow-up append makes replay fail *)
Theorem c05_dup_after_crash_unfixed_refuted :
  env_runb v_s3 init 0 s3_hist = true /\ env_runb v_s3 (crash v_s3 64 s3_hist) 3 s3_more = true
  /\ has_ok (compile v_s3 (crash v_s3 64 s3_hist) 3 (OAppend 0 10)) = true
  /\ replay_validated (crash v_s3 64 s3_hist) <> None
  /\ replay_validated (run_ops v_s3 (crash v_s3 64 s3_hist) 3 s3_more) = None.
Proof. exact s3_witness. Qed.
Print Assumptions c05_dup_after_crash_unfixed_refuted.

(* the flush after EVERY frame is needed: were output-chunk frames of session / task streams left in the
   BufWriter (`v_nf`; seeded change "the closing frame flushes them"), the acknowledged append (frame 4) would be
   absent from the disk of a process that dies right after the call returned; with `fixed` it is there once *)
Theorem c05_unflushed_ack_unfixed_refuted :
  env_runb v_nf init 0 nf_hist = true
  /\ In 4 (acks (crash v_nf 1000 nf_hist))
  /\ cfid 4 (frames_of (truth (crash v_nf 1000 nf_hist))) = 0
  /\ cfid 4 (frames_of (truth (crash fixed 1000 nf_hist))) = 1.
Proof. exact nf_witness. Qed.
Print Assumptions c05_unflushed_ack_unfixed_refuted.

(* OPEN (read side of S3, KNOWN_FINDINGS class full_sidecar_wellformed_stale_prefix): "the caches are
   reconciled or ignored" is false of the recovered store — after a crash between the truth-log flush and the
   sidecar append, replay_events serves the well-formed sidecar, a proper prefix of the thread's stream *)
Theorem c05_caches_reconciled_after_crash_refuted :
  env_runb fixed init 0 stale_hist = true
  /\ snd (replay_events (crash fixed 43 stale_hist) 0) = Some [mkf 0 0 0 300 None]
  /\ stream 0 (frames_of (truth (crash fixed 43 stale_hist))) = [mkf 0 0 0 300 None; mkf 0 1 4 10 None].
Proof. exact stale_witness. Qed.
Print Assumptions c05_caches_reconciled_after_crash_refuted.

(* The positive half of the last clause, for the full sidecar (second invariant SOK: every full sidecar on disk
   is, at EVERY instruction boundary, a chunk-prefix of the thread's perfect sidecar, or something try_replay
   refuses now and after any later appended line): what try_replay ACCEPTS after any crash point, restart and any
   further operations is a PREFIX of the thread's stream in the truth log — stale at worst, never inconsistent
   (no hole, no foreign or duplicated frame, no frame the log does not hold) *)
Theorem c05_caches_after_crash : forall (hist : list op) (k : nat) (base : N) (more : list op) (c : N) (evs : list frame),
  env_runb fixed init 0 hist = true -> nlen hist <= base ->
  env_runb fixed (crash fixed k hist) base more = true ->
  try_replay (run_ops fixed (crash fixed k hist) base more) c = Some evs ->
  exists fs rest, replay_validated (run_ops fixed (crash fixed k hist) base more) = Some fs
                  /\ stream (2 * c) fs = evs ++ rest.
Proof. exact caches_after_crash. Qed.
Print Assumptions c05_caches_after_crash.

(* "reconciled or ignored" for replay_events on the recovered store: it answers (never Err) with a prefix of the
   thread's stream, and when try_replay refuses the sidecar (absent, torn-and-glued, hole, wrong numbering) the
   answer is the whole stream read from the truth log (the sidecar is ignored and rebuilt) *)
Theorem c05_replay_events_after_crash : forall (hist : list op) (k : nat) (base : N) (more : list op) (c : N),
  env_runb fixed init 0 hist = true -> nlen hist <= base ->
  env_runb fixed (crash fixed k hist) base more = true ->
  exists fs evs rest, replay_validated (run_ops fixed (crash fixed k hist) base more) = Some fs
    /\ snd (replay_events (run_ops fixed (crash fixed k hist) base more) c) = Some evs
    /\ stream (2 * c) fs = evs ++ rest
    /\ (try_replay (run_ops fixed (crash fixed k hist) base more) c = None -> rest = []).
Proof. exact replay_events_after_crash. Qed.
Print Assumptions c05_replay_events_after_crash.

(* the hypotheses of c05_caches_after_crash are met by the open finding's state: the stale sidecar is accepted *)
Example c05_caches_after_crash_nonvacuous :
  env_runb fixed init 0 stale_hist = true /\ nlen stale_hist <= 2 /\ env_runb fixed (crash fixed 43 stale_hist) 2 [] = true
  /\ try_replay (run_ops fixed (crash fixed 43 stale_hist) 2 []) 0 = Some [mkf 0 0 0 300 None].
Proof. exact stale_is_prefix. Qed.
Print Assumptions c05_caches_after_crash_nonvacuous.

(* ---- the thread index (continuities/index.json) across a crash.  save_index = write the temp file, rename it over
   index.json.  For EVERY code version, EVERY history and EVERY number k of executed instructions (no hypothesis): with
   n = the number of operations complete after k instructions, the index on disk is the one a clean run of the first n
   operations leaves (OLD) or the one the first n+1 leave (NEW) — never none, never something in between *)
Theorem c05_rename_atomic_views : forall (v : ver) (hist : list op) (k : nat),
  idx (crash v k hist) = idx (run_ops v init 0 (firstn (done_ops v k init 0 hist) hist))
  \/ idx (crash v k hist) = idx (run_ops v init 0 (firstn (S (done_ops v k init 0 hist)) hist)).
Proof. exact (fun v hist k => atomic_views v hist k init 0). Qed.
Print Assumptions c05_rename_atomic_views.

(* what ANY completed (= acknowledged) operation left in index.json is still there after a crash at ANY later
   instruction, restart and ANY further operations (`idx_ext a b`: if a exists then b exists, lists every thread a
   lists, and has a's default thread if a has one) *)
Theorem c05_index_never_loses : forall (v : ver) (hist : list op) (k j : nat) (base : N) (more : list op),
  (j <= done_ops v k init 0 hist)%nat ->
  idx_ext (idx (run_ops v init 0 (firstn j hist))) (idx (run_ops v (crash v k hist) base more)).
Proof. exact index_never_loses. Qed.
Print Assumptions c05_index_never_loses.

(* the default thread a completed operation had on disk is what the restarted store answers ensure_default with
   (from its index: no log scan, no new thread) *)
Theorem c05_default_survives : forall (v : ver) (hist : list op) (k j : nat) (x : idxv) (d c len : N),
  (j <= done_ops v k init 0 hist)%nat ->
  idx (run_ops v init 0 (firstn j hist)) = Some x -> ix_default x = Some d ->
  ix_default (midx (crash v k hist)) = Some d /\ compile v (crash v k hist) (nlen hist) (OEnsure c len) = [IOk].
Proof. exact default_survives. Qed.
Print Assumptions c05_default_survives.

(* the index is saved BEFORE the call returns: a branch / handoff that returns Ok has its child listed on disk, an
   ensure_default that returns Ok has the default it answers on disk (`K` = memory index equals disk index, true of
   `init`, of every restarted store and after every operation) *)
Theorem c05_created_thread_listed : forall (v : ver) (s : st) (i : N) (o : op) (p c : N), K s ->
  (exists l0 l1, o = OBranch p c l0 l1) \/ (exists a l0 l1, o = OHandoff p c a l0 l1) ->
  has_ok (compile v s i o) = true ->
  exists x, idx (run_instrs s (compile v s i o)) = Some x /\ In c (ix_known x).
Proof. exact created_listed. Qed.
Print Assumptions c05_created_thread_listed.

Theorem c05_ensured_default_on_disk : forall (v : ver) (s : st) (i c len : N), K s ->
  has_ok (compile v s i (OEnsure c len)) = true ->
  exists x d, idx (run_instrs s (compile v s i (OEnsure c len))) = Some x /\ ix_default x = Some d
              /\ ix_default (midx (run_instrs s (compile v s i (OEnsure c len)))) = Some d.
Proof. exact ensured_default_on_disk. Qed.
Print Assumptions c05_ensured_default_on_disk.

Theorem c05_index_boundary_invariant : forall (v : ver) (ops : list op) (s : st) (i : N), K s ->
  K (run_ops v s i ops) /\ idx_ext (idx s) (idx (run_ops v s i ops)).
Proof. exact run_ops_boundary. Qed.
Print Assumptions c05_index_boundary_invariant.

(* the hypotheses are met: crashes inside the branch of [ensure_default; message; branch], before and after the rename *)
Example c05_index_views_nonvacuous :
  (2 <= done_ops fixed 70 init 0 ul_hist)%nat
  /\ idx (run_ops fixed init 0 (firstn 2 ul_hist)) = Some {| ix_default := Some 0; ix_known := [0] |}
  /\ idx (crash fixed 70 ul_hist) = Some {| ix_default := Some 0; ix_known := [0] |}
  /\ idx (crash fixed 200 ul_hist) = Some {| ix_default := Some 0; ix_known := [0; 1] |}.
Proof. exact ul_example. Qed.
Print Assumptions c05_index_views_nonvacuous.

(* REFUTED for "unlink the destination, then rename" (`unlink_first`: fs::remove_file(index.json) inserted before
   fs::rename(tmp, index.json), the pattern local_authority.rs uses; seeded change C05-4): the process dies between the
   two effects of the branch's index save.  The two completed operations had thread 0 listed and default and their
   frames acknowledged; the log is intact and holds the half-created child (thread 1); but there is NO index.json, the
   restarted store lists nothing, and ensure_default adopts the child as the workspace's default thread.  With rip's
   save_index the same boundary leaves the old index (and the new one in the temp file) *)
Theorem c05_unlink_then_rename_refuted :
  idx (run_ops fixed init 0 (firstn 2 ul_hist)) = Some {| ix_default := Some 0; ix_known := [0] |}
  /\ In 0 (acks (crashx unlink_first fixed ul_k ul_hist)) /\ In 4 (acks (crashx unlink_first fixed ul_k ul_hist))
  /\ option_map (map (fun f => (f_sid f, f_seq f))) (replay_validated (crashx unlink_first fixed ul_k ul_hist))
     = Some [(0, 0); (0, 1); (2, 0)]
  /\ idx (crashx unlink_first fixed ul_k ul_hist) = None
  /\ ix_known (midx (crashx unlink_first fixed ul_k ul_hist)) = []
  /\ compile fixed (crashx unlink_first fixed ul_k ul_hist) 3 (OEnsure 9 300) = [IIdxMem (Some 1) None] ++ save_index ++ [IOk]
  /\ idx (crash fixed ul_k_fixed ul_hist) = Some {| ix_default := Some 0; ix_known := [0] |}
  /\ idx_tmp (crash fixed ul_k_fixed ul_hist) = Some {| ix_default := Some 0; ix_known := [0; 1] |}.
Proof. exact ul_witness. Qed.
Print Assumptions c05_unlink_then_rename_refuted.

(* ---- artifacts (compaction summaries, handoff bundles): the blob is complete (temp + rename) BEFORE the frame that
   names it is handed to the log writer.  For EVERY code version, EVERY history, EVERY crash point k, restart and ANY
   further operations: every artifact named by a frame of the log is in the artifact store (no dangling reference,
   which an append-only log could never repair) *)
Theorem c05_artifact_before_frame : forall (v : ver) (hist : list op) (k : nat) (base : N) (more : list op) (f : frame) (a : N),
  In f (frames_of (truth (run_ops v (crash v k hist) base more))) -> f_art f = Some a ->
  In a (arts (run_ops v (crash v k hist) base more)).
Proof. exact artifact_before_frame. Qed.
Print Assumptions c05_artifact_before_frame.

(* non-vacuous: a crash after the checkpoint's frame is in the log (artifact 7 complete), and a crash between the blob's
   temp write and its rename (no frame names it yet: the .tmp file is an orphan nothing references) *)
Example c05_artifact_before_frame_nonvacuous :
  map f_art (frames_of (truth (crash fixed 1000 art_hist))) = [None; None; Some 7]
  /\ arts (crash fixed 1000 art_hist) = [7]
  /\ map f_art (frames_of (truth (crash fixed 57 art_hist))) = [None; None]
  /\ arts (crash fixed 57 art_hist) = [] /\ art_tmps (crash fixed 57 art_hist) = [7].
Proof. exact art_example. Qed.
Print Assumptions c05_artifact_before_frame_nonvacuous.

(* ---- the snapshot file (rip_log::write_snapshot = create, ONE write of the whole JSON array, flush; the effect list is
   read from the source by T1): a crash at ANY of its instructions leaves the file as it was (before the create), EMPTY, or
   COMPLETE, whatever the payload length — never a proper part of the payload.  An empty file does not parse: the readers
   (aggregate_session_output_text) fall back to the log; a complete one equals the stream in the log (harness oracle:
   verify_snapshot on every recovered store) *)
Theorem c05_snapshot_file_views : forall (old : option (list chunk)) (payload : list chunk) (k : nat),
  snap_crash old payload k = old \/ snap_crash old payload k = Some [] \/ snap_crash old payload k = Some payload.
Proof. exact snapshot_views. Qed.
Print Assumptions c05_snapshot_file_views.

Theorem c05_snapshot_file_complete : forall (old : option (list chunk)) (payload : list chunk) (k : nat),
  (5 <= k)%nat -> snap_crash old payload k = Some payload.
Proof. exact snapshot_complete. Qed.
Print Assumptions c05_snapshot_file_complete.

Example c05_snapshot_file_nonvacuous :
  snap_crash None [Body (mkf 1 0 0 100 None)] 4 = Some []
  /\ snap_crash None [Body (mkf 1 0 0 9000 None)] 3 = Some [Body (mkf 1 0 0 9000 None)]
  /\ snap_crash (Some [NL]) [Body (mkf 1 0 0 100 None)] 0 = Some [NL].
Proof. exact snapshot_example. Qed.
Print Assumptions c05_snapshot_file_nonvacuous.

(* ---- ANY NUMBER of crash / restart rounds.  `run_rounds fixed init 0 rs`: round (ops, k) runs the first k instructions
   of its operations from the restarted state of the previous round, then the process dies again — so a crash may hit the
   recovery work itself (the sidecar rebuild of the first append after a restart, the index back-fill).  After all rounds
   and ANY further operations the store has every property of the single-crash theorems *)
Theorem c05_rounds_recover_valid : forall (rs : list (list op * nat)) (more : list op),
  env_rounds fixed init 0 rs = true ->
  env_runb fixed (fst (run_rounds fixed init 0 rs)) (snd (run_rounds fixed init 0 rs)) more = true ->
  let fin := run_ops fixed (fst (run_rounds fixed init 0 rs)) (snd (run_rounds fixed init 0 rs)) more in
  exists fs, replay_validated fin = Some fs /\ Numbered fs /\ truth fin = enc fs
             /\ (forall fid, In fid (acks fin) -> cfid fid fs = 1)
             /\ (forall c evs, try_replay fin c = Some evs -> exists rest, stream (2 * c) fs = evs ++ rest).
Proof. exact rounds_recover_valid. Qed.
Print Assumptions c05_rounds_recover_valid.

(* acknowledgements are never withdrawn by a round, so `acks fin` above holds every append acknowledged in any round *)
Theorem c05_rounds_keep_acks : forall (v : ver) (rs : list (list op * nat)) (s : st) (i : N),
  incl (acks s) (acks (fst (run_rounds v s i rs))).
Proof. exact acks_rounds. Qed.
Print Assumptions c05_rounds_keep_acks.

Theorem c05_rounds_index_never_loses : forall (v : ver) (rs rs' : list (list op * nat)) (more : list op),
  let s1 := run_rounds v init 0 rs in
  let s2 := run_rounds v (fst s1) (snd s1) rs' in
  idx_ext (idx (fst s1)) (idx (run_ops v (fst s2) (snd s2) more)).
Proof. exact rounds_index_never_loses. Qed.
Print Assumptions c05_rounds_index_never_loses.

Theorem c05_rounds_artifact_before_frame : forall (v : ver) (rs : list (list op * nat)) (more : list op) (f : frame) (a : N),
  let s1 := run_rounds v init 0 rs in
  In f (frames_of (truth (run_ops v (fst s1) (snd s1) more))) -> f_art f = Some a ->
  In a (arts (run_ops v (fst s1) (snd s1) more)).
Proof. exact rounds_artifact_before_frame. Qed.
Print Assumptions c05_rounds_artifact_before_frame.

(* three rounds — a crash inside a message append (log line flushed, sidecar stale), a crash inside the sidecar REBUILD the
   next append starts with, a crash inside a branch right after its index save — then three more operations *)
Example c05_rounds_nonvacuous :
  env_rounds fixed init 0 rd_rounds = true
  /\ env_runb fixed (fst (run_rounds fixed init 0 rd_rounds)) (snd (run_rounds fixed init 0 rd_rounds)) rd_more = true
  /\ snd (run_rounds fixed init 0 rd_rounds) = 4
  /\ option_map (map (fun f => (f_sid f, f_seq f)))
       (replay_validated (run_ops fixed (fst (run_rounds fixed init 0 rd_rounds)) 4 rd_more))
     = Some [(0, 0); (0, 1); (2, 0); (0, 2); (2, 1)].
Proof. exact rd_example. Qed.
Print Assumptions c05_rounds_nonvacuous.

(* T1 (Gen/CrashEffects.v is regenerated from /repo on every run): the order of file-system effects, crash points and
   counter updates read from EventLog::append, append_best_effort, rebuild_best_effort, the 11 locked appends,
   create_continuity(_locked), branch, handoff, save_index, write_blob_atomic and load_next_seq_for equals the
   skeleton of the model's compiled programs, the artifact is written before the checkpoint frame, and the code
   version read from the source (one write per log line, the log decides the next seq, flush after every frame) is
   the one the theorems above are about *)
Theorem c05_effect_order_tied : gen_crash_effects_ok_b = true /\ gen_ver = fixed.
Proof. exact (conj gen_crash_effects_ok (ver_eqb_eq gen_ver fixed gen_ver_ok)). Qed.
Print Assumptions c05_effect_order_tied.

(* the central statements over the GENERATED code version, for every version passing the generated check *)
Theorem c05_recover_valid_generated : forall (hist : list op) (k : nat) (base : N) (more : list op),
  env_runb gen_ver init 0 hist = true -> nlen hist <= base ->
  env_runb gen_ver (crash gen_ver k hist) base more = true ->
  exists fs, replay_validated (run_ops gen_ver (crash gen_ver k hist) base more) = Some fs
             /\ Numbered fs
             /\ truth (run_ops gen_ver (crash gen_ver k hist) base more) = enc fs
             /\ (forall fid, In fid (acks (crash gen_ver k hist)) \/ In fid (acks (run_ops gen_ver (crash gen_ver k hist) base more)) ->
                             cfid fid fs = 1)
             /\ (forall c evs, try_replay (run_ops gen_ver (crash gen_ver k hist) base more) c = Some evs ->
                               exists rest, stream (2 * c) fs = evs ++ rest).
Proof. exact (fun hist k base more => recover_valid_ver gen_ver hist k base more gen_ver_ok). Qed.
Print Assumptions c05_recover_valid_generated.

(* ---- the first append of EVERY writer after a restart (Model/CrashCold.v).  A restart forgets every in-memory
   counter; each writer has its own `None => ..` arm that finds the seq on disk.  One thread's stream at the level of
   seq numbers: log, full sidecar (written after the log: it lags by the frame of a call that died in between),
   counter; `srcs w` = where writer w takes its cold-start seq from.  When every writer that appends takes it from
   the log (load_next_seq_for as repaired in /repo 0b0d2b0), then after ANY sequence of complete appends, appends that
   die between their log flush and their sidecar write (+ restart) and clean restarts, by ANY writers: the stream is
   0,1,2,.., the sidecar is a prefix of it, and whenever a counter is in memory it is the stream's length and the
   sidecar is the whole stream *)
Theorem c05_cold_start_numbered : forall (srcs : nat -> src) (es : list ev),
  (forall w, In w (writers es) -> srcs w = FromLog) ->
  numbered_b (c_log (CrashCold.run srcs created es)) = true
  /\ (exists k, c_side (CrashCold.run srcs created es) = firstn k (c_log (CrashCold.run srcs created es)))
  /\ (forall m, c_ctr (CrashCold.run srcs created es) = Some m ->
        m = N.of_nat (length (c_log (CrashCold.run srcs created es)))
        /\ c_side (CrashCold.run srcs created es) = c_log (CrashCold.run srcs created es)).
Proof. exact cold_start_numbered. Qed.
Print Assumptions c05_cold_start_numbered.

(* .. over the sources READ FROM THE CODE in this run (Gen/CrashEffects.v gen_cold_start: per locked append, is
   load_next_seq_for the only source of a seq in the `None =>` arm of `match next_seq.get(..)`), writers 0..10 *)
Theorem c05_cold_start_generated : forall es : list ev,
  (forall w, In w (writers es) -> (w < 11)%nat) ->
  numbered_b (c_log (CrashCold.run (srcs_of gen_cold_start) created es)) = true.
Proof. exact cold_start_generated. Qed.
Print Assumptions c05_cold_start_generated.

(* ONE writer that trusts the sidecar's tail (seed C05-11: append_compaction_checkpoint_created through
   try_read_last_seq) breaks it, all others numbering from the log: append, an append that dies after its log flush,
   restart, the sidecar-tail writer first: seq 2 is issued twice *)
Theorem c05_cold_start_side_tail_refuted : exists (srcs : nat -> src) (es : list ev),
  (forall w, w <> 1%nat -> srcs w = FromLog) /\ numbered_b (c_log (CrashCold.run srcs created es)) = false.
Proof. exact cold_start_side_tail_refuted. Qed.
Print Assumptions c05_cold_start_side_tail_refuted.

Example c05_cold_start_nonvacuous :
  c_log (CrashCold.run (fun _ => FromLog) created [EAppend 0; ECrashMid 3; EAppend 7; ERestart; EAppend 10]) = [0; 1; 2; 3; 4]
  /\ c_side (CrashCold.run (fun _ => FromLog) created [EAppend 0; ECrashMid 3]) = [0; 1].
Proof. exact cold_start_example. Qed.
Print Assumptions c05_cold_start_nonvacuous.
