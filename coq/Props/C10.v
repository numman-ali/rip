(* C10 - Branch and handoff record correct lineage and never touch the parent.
   Statements only; proofs are in Proofs/LineageProofs.v.  Every theorem is closed by `exact`.
   Model: Model/Lineage.v (resolve_cut = the cut arithmetic of ContinuityStore::branch/handoff,
   branch_view / handoff_gen = the operations on the truth log, sequentially; `view` = what
   replay_events(parent) returned; handoff_gen chk bf: chk = a caller-given summary_artifact_id is
   tested for existence, bf = the bundle is written before the child is created; (false,false) = the
   code as found (handoff_unfixed), (true,true) = the repaired code (handoff_view)). *)
From RipV Require Import Base.Prelude Base.Fs Model.Frames Model.Log Proofs.LogProofs Model.Lineage Proofs.LineageProofs
  Model.ArtGuard Proofs.ArtGuardProofs Gen.HandoffGuard.

(* ---- no frame is added to the source thread - or to any stream other than the fresh child's -
   by a successful OR failing branch / handoff, for every log, view, selector, summary class *)
Theorem c10_parent_untouched : forall (view : list frame) (l : log) (arts : astore) (parent : N)
    (sel : selector) (fr : fresh) (t : N),
  t <> f_child fr ->
  cstream t (fst (branch_view view l parent sel fr)) = cstream t l
  /\ forall chk bf md art bok,
     cstream t (fst (fst (handoff_gen chk bf view l arts parent sel md art bok fr))) = cstream t l.
Proof. exact (fun view l arts parent sel fr t H => conj (ext_other_threads _ _ _ t (branch_ext view l parent sel fr) H) (fun chk bf md art bok => ext_other_threads _ _ _ t (handoff_ext chk bf view l arts parent sel md art bok fr) H)). Qed.
Print Assumptions c10_parent_untouched.

Theorem c10_other_streams_untouched_branch : forall view l parent sel fr k s,
  (k, s) <> (KContinuity, f_child fr) ->
  stream k s (fst (branch_view view l parent sel fr)) = stream k s l.
Proof. exact (fun view l parent sel fr k s => ext_other_streams _ _ _ k s (branch_ext view l parent sel fr)). Qed.
Print Assumptions c10_other_streams_untouched_branch.

Theorem c10_other_streams_untouched_handoff : forall chk bf view l arts parent sel md art bok fr k s,
  (k, s) <> (KContinuity, f_child fr) ->
  stream k s (fst (fst (handoff_gen chk bf view l arts parent sel md art bok fr))) = stream k s l.
Proof. exact (fun chk bf view l arts parent sel md art bok fr k s => ext_other_streams _ _ _ k s (handoff_ext chk bf view l arts parent sel md art bok fr)). Qed.
Print Assumptions c10_other_streams_untouched_handoff.

Theorem c10_log_prefix : forall view l arts parent sel fr,
  (exists ext, fst (branch_view view l parent sel fr) = l ++ ext)
  /\ forall chk bf md art bok, exists ext, fst (fst (handoff_gen chk bf view l arts parent sel md art bok fr)) = l ++ ext.
Proof. exact (fun view l arts parent sel fr => conj (ext_prefix _ _ _ (branch_ext view l parent sel fr)) (fun chk bf md art bok => ext_prefix _ _ _ (handoff_ext chk bf view l arts parent sel md art bok fr))). Qed.
Print Assumptions c10_log_prefix.

(* ---- the new thread begins [creation; lineage] with seqs 0,1; the response equals the record *)
Theorem c10_child_prefix_branch : forall view l parent sel fr l' c cut om,
  cstream (f_child fr) l = [] ->
  branch_view view l parent sel fr = (l', Ok (c, cut, om)) ->
  c = f_child fr /\ resolve_cut sel view = Ok (cut, om)
  /\ cstream c l' = [created_frame c (f_e0 fr); branched_frame c (f_e1 fr) parent cut om].
Proof. exact branch_child_prefix. Qed.
Print Assumptions c10_child_prefix_branch.

Theorem c10_child_prefix_handoff : forall chk bf view l arts parent sel md art bok fr l' arts' c cut om,
  cstream (f_child fr) l = [] ->
  handoff_gen chk bf view l arts parent sel md art bok fr = (l', arts', Ok (c, cut, om)) ->
  c = f_child fr /\ resolve_cut sel view = Ok (cut, om)
  /\ exists a, cstream c l' = [created_frame c (f_e0 fr); handoff_frame c (f_e1 fr) parent cut om (Some a) md]
     /\ ((art = Some a /\ arts' = arts /\ (chk = true -> art_has a arts' = true))
         \/ (art = None /\ md = true /\ bok = true /\ a = f_art fr
             /\ arts' = (a, [parent; cut; opt om]) :: arts)).
Proof. exact handoff_child_prefix. Qed.
Print Assumptions c10_child_prefix_handoff.

Theorem c10_valid_preserved_branch : forall view l parent sel fr,
  Valid l -> cstream (f_child fr) l = [] -> Valid (fst (branch_view view l parent sel fr)).
Proof. exact (fun view l parent sel fr => ext_valid _ _ _ (branch_ext view l parent sel fr)). Qed.
Print Assumptions c10_valid_preserved_branch.

Theorem c10_valid_preserved_handoff : forall chk bf view l arts parent sel md art bok fr,
  Valid l -> cstream (f_child fr) l = [] ->
  Valid (fst (fst (handoff_gen chk bf view l arts parent sel md art bok fr))).
Proof. exact (fun chk bf view l arts parent sel md art bok fr => ext_valid _ _ _ (handoff_ext chk bf view l arts parent sel md art bok fr)). Qed.
Print Assumptions c10_valid_preserved_handoff.

(* ---- the recorded cut lies within the source thread as it was ---- *)
Theorem c10_cut_in_range : forall sel fs cut om,
  SeqsBelowHead fs -> resolve_cut sel fs = Ok (cut, om) -> cut <= head_seq fs.
Proof. exact cut_in_range. Qed.
Print Assumptions c10_cut_in_range.

(* the hypothesis holds for every stream of a valid log *)
Theorem c10_valid_stream_below_head : forall l k s, Valid l -> SeqsBelowHead (stream k s l).
Proof. exact valid_stream_below_head. Qed.
Print Assumptions c10_valid_stream_below_head.

Theorem c10_cut_is_a_frame_seq : forall sel fs cut om,
  (forall n, sel <> SelSeq n) -> resolve_cut sel fs = Ok (cut, om) -> exists f, In f fs /\ seq f = cut.
Proof. exact cut_is_a_frame_seq. Qed.
Print Assumptions c10_cut_is_a_frame_seq.

(* ---- none / from_seq: the recorded message is the last message at or before the cut ---- *)
Theorem c10_cut_names_last_message : forall sel fs cut om,
  (forall m, sel <> SelMsg m) -> SeqsBelowHead fs ->
  resolve_cut sel fs = Ok (cut, om) -> LastMsgAtOrBefore cut fs om.
Proof. exact cut_names_last_message. Qed.
Print Assumptions c10_cut_names_last_message.

Theorem c10_last_message_is_max : forall cut fs m,
  Consecutive fs -> LastMsgAtOrBefore cut fs (Some m) ->
  exists f, In f fs /\ is_msg f = true /\ fid f = m /\ seq f <= cut
    /\ forall g, In g fs -> is_msg g = true -> seq g <= cut -> seq g <= seq f.
Proof. exact last_message_is_max. Qed.
Print Assumptions c10_last_message_is_max.

(* ---- from_message_id: the requested message and the end of the run that answered it ---- *)
(* for EVERY stream: the largest seq among the last message frame with that id and the run frames
   naming it that stand after it *)
Theorem c10_from_message_cut : forall m fs cut om,
  resolve_cut (SelMsg m) fs = Ok (cut, om) ->
  om = Some m /\ exists pre f post,
    fs = pre ++ f :: post /\ is_msg f = true /\ fid f = m
    /\ (forall g, In g post -> is_msg_id m g = false)
    /\ cut = maxl (seq f) (map seq (filter (is_run_of m) post)).
Proof. exact from_message_cut. Qed.
Print Assumptions c10_from_message_cut.

(* for streams numbered 0,1,2,.. (every stream of a valid log): the largest seq among the message and
   ALL run_spawned / run_ended frames naming it *)
Theorem c10_from_message_cut_all_related : forall m fs cut om,
  Consecutive fs -> resolve_cut (SelMsg m) fs = Ok (cut, om) ->
  exists f, In f fs /\ is_msg f = true /\ fid f = m
    /\ cut = maxl (seq f) (map seq (filter (is_run_of m) fs)).
Proof. exact from_message_cut_all_related. Qed.
Print Assumptions c10_from_message_cut_all_related.

(* without that hypothesis the statement above is false of the code (a run frame that stands before
   its message with a larger seq is forgotten): only histories ripd cannot write *)
Theorem c10_from_message_ignores_earlier_runs_unsorted_refuted :
  exists fs m cut om f, resolve_cut (SelMsg m) fs = Ok (cut, om) /\ In f fs /\ is_msg f = true /\ fid f = m
    /\ cut <> maxl (seq f) (map seq (filter (is_run_of m) fs)).
Proof. exact from_message_ignores_earlier_runs_unsorted. Qed.
Print Assumptions c10_from_message_ignores_earlier_runs_unsorted_refuted.

(* ---- selector errors ---- *)
Theorem c10_selector_errors : forall (fs : list frame),
  (forall m n, resolve_cut (SelBoth m n) fs = Err EBoth)
  /\ (forall sel, resolve_cut sel [] = Err (match sel with SelBoth _ _ => EBoth | _ => ENoParent end))
  /\ (forall n, fs <> [] -> head_seq fs < n -> resolve_cut (SelSeq n) fs = Err EOutOfRange)
  /\ (forall m, fs <> [] -> (forall f, In f fs -> is_msg f = true -> fid f <> m) ->
        resolve_cut (SelMsg m) fs = Err ENotFound).
Proof. exact (fun fs => conj (fun m n => sel_both_err m n fs) (conj sel_empty_parent (conj (fun n => sel_seq_out_of_range n fs) (fun m => sel_msg_not_found m fs)))). Qed.
Print Assumptions c10_selector_errors.

Theorem c10_selector_ok_iff : forall sel fs,
  (exists r, resolve_cut sel fs = Ok r) <->
  fs <> [] /\ match sel with
              | SelNone => True
              | SelSeq n => n <= head_seq fs
              | SelMsg m => exists f, In f fs /\ is_msg f = true /\ fid f = m
              | SelBoth _ _ => False
              end.
Proof. exact resolve_ok_iff. Qed.
Print Assumptions c10_selector_ok_iff.

(* a failing call writes nothing ... *)
Theorem c10_branch_error_writes_nothing : forall view l parent sel fr l' e,
  branch_view view l parent sel fr = (l', Err e) -> l' = l /\ resolve_cut sel view = Err e.
Proof. exact branch_err_unchanged. Qed.
Print Assumptions c10_branch_error_writes_nothing.

(* the repaired handoff as well, whatever fails (selector, summary, unknown artifact, artifact store) *)
Theorem c10_handoff_error_writes_nothing : forall chk view l arts parent sel md art bok fr l' arts' e,
  handoff_gen chk true view l arts parent sel md art bok fr = (l', arts', Err e) -> l' = l /\ arts' = arts.
Proof. exact handoff_fixed_err_unchanged. Qed.
Print Assumptions c10_handoff_error_writes_nothing.

(* all variants: the only failing call that can write is the as-found one whose bundle write fails after the
   child was created (the child then has a creation frame and no lineage record) *)
Theorem c10_handoff_error_writes_nothing_unless_bundle_fails_late :
  forall chk bf view l arts parent sel md art bok fr l' arts' e,
  handoff_gen chk bf view l arts parent sel md art bok fr = (l', arts', Err e) ->
  arts' = arts /\ (e <> EBundle \/ bf = true -> l' = l)
  /\ (e = EBundle -> md = true /\ art = None /\ bok = false
                     /\ l' = if bf then l else l ++ [created_frame (f_child fr) (f_e0 fr)]).
Proof. exact handoff_err_unchanged. Qed.
Print Assumptions c10_handoff_error_writes_nothing_unless_bundle_fails_late.

Theorem c10_handoff_orphan_child_unfixed_refuted :
  exists l arts parent sel md art bok fr l' arts' e,
    handoff_op_unfixed l arts parent sel md art bok fr = (l', arts', Err e) /\ l' <> l
    /\ cstream (f_child fr) l = [] /\ cstream (f_child fr) l' = [created_frame (f_child fr) (f_e0 fr)].
Proof. exact handoff_orphan_child_unfixed_refuted. Qed.
Print Assumptions c10_handoff_orphan_child_unfixed_refuted.

(* ---- a handoff always carries a resolvable summary ---- *)
Theorem c10_handoff_without_summary_rejected : forall chk bf view l arts parent sel bok fr,
  handoff_gen chk bf view l arts parent sel false None bok fr = (l, arts, Err ENoSummary).
Proof. exact (fun chk bf view l arts parent sel bok fr => eq_refl). Qed.
Print Assumptions c10_handoff_without_summary_rejected.

(* repaired code: the recorded summary_artifact_id is in the artifact store when the lineage frame is written,
   for every accepted summary class; when ripd wrote it, it names the recorded cut *)
Theorem c10_handoff_has_summary : forall bf view l arts parent sel md art bok fr l' arts' c cut om,
  handoff_gen true bf view l arts parent sel md art bok fr = (l', arts', Ok (c, cut, om)) ->
  exists a, l' = l ++ [created_frame c (f_e0 fr); handoff_frame c (f_e1 fr) parent cut om (Some a) md]
    /\ art_has a arts' = true /\ (art = None -> md = true /\ art_get a arts' = Some [parent; cut; opt om]).
Proof. exact handoff_summary_resolvable. Qed.
Print Assumptions c10_handoff_has_summary.

Theorem c10_handoff_bundle_matches : forall chk bf view l arts parent sel bok fr l' arts' c cut om,
  handoff_gen chk bf view l arts parent sel true None bok fr = (l', arts', Ok (c, cut, om)) ->
  art_get (f_art fr) arts' = Some [parent; cut; opt om]
  /\ l' = l ++ [created_frame c (f_e0 fr); handoff_frame c (f_e1 fr) parent cut om (Some (f_art fr)) true].
Proof. exact handoff_bundle_matches. Qed.
Print Assumptions c10_handoff_bundle_matches.

(* the code as found recorded a caller-given artifact id without looking it up *)
Theorem c10_handoff_unchecked_artifact_unfixed_refuted :
  exists l arts parent sel a fr l' arts' r,
    handoff_op_unfixed l arts parent sel false (Some a) true fr = (l', arts', Ok r)
    /\ art_has a arts' = false
    /\ exists c e cut om, In (handoff_frame c e parent cut om (Some a) false) l'.
Proof. exact handoff_unchecked_artifact_refuted. Qed.
Print Assumptions c10_handoff_unchecked_artifact_unfixed_refuted.

(* ---- a CALLER-SUPPLIED summary_artifact_id, every shape of id x every state of the artifact store ----
   Model/ArtGuard.v: the guard artifact_exists as a predicate over a file-system model (a path is a regular file / a
   directory / absent); `resolve f base id` = stat(<blobs>.join(id)): PathBuf::join + the kernel's path walk (empty
   and "." segments, "..", a segment after a regular file, a missing name, NAME_MAX, PATH_MAX, NUL);
   guard_sound g = g is `is_file` with or without the non-empty test.  For EVERY id (empty, ".", "..", path-like,
   absolute, a directory name, a blob name, with NUL, of any length) and EVERY file system: *)
Theorem c10_artifact_guard_resolves : forall g f base id,
  guard_sound g = true -> guard_eval g f base id = true ->
  exists p c, resolve f base id = WAt p (File c) /\ lookup f p = Some (File c) /\ read_back f base id = Some c
              /\ is_dir_at f base id = false.
Proof. exact guard_sound_resolves. Qed.
Print Assumptions c10_artifact_guard_resolves.

Theorem c10_artifact_guard_rejects_directories_and_absent : forall g f base id,
  (guard_sound g = true -> is_dir_at f base id = true -> guard_eval g f base id = false)
  /\ (exists_at f base id = false -> guard_eval g f base id = false).
Proof. exact (fun g f base id => conj (guard_sound_rejects_dir g f base id) (guard_rejects_absent g f base id)). Qed.
Print Assumptions c10_artifact_guard_rejects_directories_and_absent.

(* the non-empty test of the guard as built is implied by is_file ("" joins to "<blobs>/", and a walk whose last
   segment is empty never stands at a regular file): the two sound shapes are ONE predicate *)
Theorem c10_artifact_guard_nonempty_test_redundant : forall f base id,
  guard_eval GNonEmptyIsFile f base id = guard_eval GIsFile f base id.
Proof. exact nonempty_test_redundant. Qed.
Print Assumptions c10_artifact_guard_nonempty_test_redundant.

(* the handoff over the file system (handoff_fs g = Lineage's repaired handoff whose artifact store holds the
   caller's id exactly when guard g lets it pass): an accepted handoff appends [created; lineage], the lineage frame
   records the caller's id, and the id names a regular file of the file system whose bytes read back *)
Theorem c10_handoff_caller_artifact_resolves : forall g f base view l parent sel md a id fr l' arts' c cut om,
  guard_sound g = true ->
  handoff_fs g f base view l parent sel md a id fr = (l', arts', Ok (c, cut, om)) ->
  l' = l ++ [created_frame c (f_e0 fr); handoff_frame c (f_e1 fr) parent cut om (Some a) md]
  /\ exists p content, resolve f base id = WAt p (File content) /\ lookup f p = Some (File content)
                       /\ read_back f base id = Some content.
Proof. exact handoff_fs_summary_resolves. Qed.
Print Assumptions c10_handoff_caller_artifact_resolves.

(* ... at the guard read from the source on this run (T1: tools/gen/handoff_guard.py -> Gen/HandoffGuard.v) *)
Theorem c10_handoff_caller_artifact_resolves_as_built : forall f base view l parent sel md a id fr l' arts' c cut om,
  handoff_fs gen_art_guard f base view l parent sel md a id fr = (l', arts', Ok (c, cut, om)) ->
  l' = l ++ [created_frame c (f_e0 fr); handoff_frame c (f_e1 fr) parent cut om (Some a) md]
  /\ exists p content, resolve f base id = WAt p (File content) /\ lookup f p = Some (File content)
                       /\ read_back f base id = Some content.
Proof. exact (fun f base view l parent sel md a id fr l' arts' c cut om => handoff_fs_summary_resolves gen_art_guard f base view l parent sel md a id fr l' arts' c cut om eq_refl). Qed.
Print Assumptions c10_handoff_caller_artifact_resolves_as_built.

(* a refused id leaves no child thread, no frame, nothing stored - whatever the guard *)
Theorem c10_handoff_refused_artifact_writes_nothing : forall g f base view l parent sel md a id fr,
  guard_eval g f base id = false ->
  handoff_fs g f base view l parent sel md a id fr = (l, [], Err ENoArtifact).
Proof. exact handoff_fs_refused. Qed.
Print Assumptions c10_handoff_refused_artifact_writes_nothing.

(* `exists()` in place of `is_file()` (seeded change C10-10): an id that resolves to a DIRECTORY - "" joins to the
   blobs directory itself - is accepted, the lineage frame records it, nothing can be read back *)
Theorem c10_handoff_exists_guard_refuted :
  exists g f base view l parent sel a id fr l' arts' r,
    handoff_fs g f base view l parent sel false a id fr = (l', arts', Ok r)
    /\ read_back f base id = None
    /\ exists c e cut om, In (handoff_frame c e parent cut om (Some a) false) l'.
Proof. exact handoff_exists_guard_refuted. Qed.
Print Assumptions c10_handoff_exists_guard_refuted.

(* the guard AS FOUND (`!id.is_empty() && is_file`) did not confine the id to the blobs directory: "../x" passed when
   <artifacts>/x is a regular file (finding S30; replayed on the real store; repaired in /repo) *)
Theorem c10_artifact_guard_confined_to_store_refuted :
  exists f base id p c,
    guard_eval GNonEmptyIsFile f base id = true /\ resolve f base id = WAt p (File c) /\ under_base base p = false.
Proof. exact as_built_guard_escapes_store. Qed.
Print Assumptions c10_artifact_guard_confined_to_store_refuted.

(* ... while an id that is ONE plain name (not empty, no separator, not "." / ".." - every id rip draws itself) resolves
   to the entry of that name IN the blobs directory: under the guard `plain id && is_file` (the repair proposed for
   S30) an accepted id is a blob of the store, for every id and file system *)
Theorem c10_plain_artifact_id_confined_to_store : forall f base id,
  guard_plain f base id = true ->
  exists q c, resolve f base [46] = WAt q Dir /\ resolve f base id = WAt (q ++ [id]) (File c)
              /\ read_back f base id = Some c.
Proof. exact guard_plain_confined. Qed.
Print Assumptions c10_plain_artifact_id_confined_to_store.

(* since the repair of S30 (artifact_exists: the id is one normal path component && is_file): the handoff over the
   file system, at the guard read from the source on this run, records only ids that are the entry of that name in
   the blobs directory - an accepted handoff's summary is a blob OF THE STORE whose bytes read back *)
Theorem c10_handoff_caller_artifact_in_store : forall g f base view l parent sel md a id fr l' arts' c cut om,
  guard_confines g = true ->
  handoff_fs g f base view l parent sel md a id fr = (l', arts', Ok (c, cut, om)) ->
  l' = l ++ [created_frame c (f_e0 fr); handoff_frame c (f_e1 fr) parent cut om (Some a) md]
  /\ exists q content, resolve f base [46] = WAt q Dir /\ resolve f base id = WAt (q ++ [id]) (File content)
                        /\ read_back f base id = Some content.
Proof. exact handoff_fs_summary_in_store. Qed.
Print Assumptions c10_handoff_caller_artifact_in_store.

Theorem c10_handoff_caller_artifact_in_store_as_built : forall f base view l parent sel md a id fr l' arts' c cut om,
  handoff_fs gen_art_guard f base view l parent sel md a id fr = (l', arts', Ok (c, cut, om)) ->
  l' = l ++ [created_frame c (f_e0 fr); handoff_frame c (f_e1 fr) parent cut om (Some a) md]
  /\ exists q content, resolve f base [46] = WAt q Dir /\ resolve f base id = WAt (q ++ [id]) (File content)
                        /\ read_back f base id = Some content.
Proof. exact (fun f base view l parent sel md a id fr l' arts' c cut om => handoff_fs_summary_in_store gen_art_guard f base view l parent sel md a id fr l' arts' c cut om eq_refl). Qed.
Print Assumptions c10_handoff_caller_artifact_in_store_as_built.

Example c10_demo_repaired_guard :
  guard_eval GPlainIsFile w_fs w_base [107] = true
  /\ guard_eval GPlainIsFile w_fs w_base [46; 47; 107] = false
  /\ guard_eval GPlainIsFile w_fs w_base [47; 98; 47; 107] = false
  /\ guard_eval GPlainIsFile w_fs w_base [46; 46; 47; 120] = false
  /\ guard_eval GPlainIsFile w_fs w_base [] = false /\ guard_eval GPlainIsFile w_fs w_base [46] = false
  /\ guard_eval GPlainIsFile w_fs w_base [46; 46] = false /\ guard_eval GPlainIsFile w_fs w_base [115] = false
  /\ guard_eval GPlainIsFile w_fs w_base [107; 47] = false
  /\ w_handoff GPlainIsFile [46; 46; 47; 120] = (demo_log, [], Err ENoArtifact).
Proof. exact repaired_guard_examples. Qed.

Example c10_demo_plain_guard :
  guard_plain w_fs w_base [46; 46; 47; 120] = false /\ guard_plain w_fs w_base [107] = true
  /\ guard_plain w_fs w_base [] = false /\ guard_plain w_fs w_base [46] = false /\ guard_plain w_fs w_base [115] = false.
Proof. exact guard_plain_examples. Qed.

Example c10_demo_artifact_guard :
  guard_sound GNonEmptyIsFile = true
  /\ w_handoff GNonEmptyIsFile [107]
     = (demo_log ++ [created_frame 1 20; handoff_frame 1 21 0 6 (Some 15) (Some 40) false], [(40, [])], Ok (1, 6, Some 15))
  /\ w_handoff GNonEmptyIsFile [] = (demo_log, [], Err ENoArtifact).
Proof. exact art_hypotheses_satisfiable. Qed.

(* ---- non-vacuity ---- *)
(* the HTTP layer (server.rs): the response is 201 exactly for the calls the store serves; every rejected call
   answers 400 (both selectors, from_seq out of range, no summary), 404 (no such thread / message / artifact)
   or 500 (the bundle could not be written) - and, by c10_branch_error_writes_nothing /
   c10_handoff_error_writes_nothing, has written nothing *)
Theorem c10_http_created_iff_served : forall r : result resp,
  http_status r = 201 <-> exists x, r = Ok x.
Proof. exact http_status_created_iff. Qed.
Print Assumptions c10_http_created_iff_served.

Theorem c10_http_status_classes : forall r : result resp,
  http_status r = 201 \/ http_status r = 400 \/ http_status r = 404 \/ http_status r = 500.
Proof. exact http_status_classes. Qed.
Print Assumptions c10_http_status_classes.

Example c10_demo_hypotheses :
  Valid demo_log /\ Consecutive demo_parent /\ cstream (f_child demo_fresh) demo_log = []
  /\ cstream 0 demo_log = demo_parent.
Proof. exact (conj demo_valid (conj demo_consecutive (conj demo_child_fresh demo_view))). Qed.

Example c10_demo_cuts :
  resolve_cut SelNone demo_parent = Ok (6, Some 15)
  /\ resolve_cut (SelSeq 4) demo_parent = Ok (4, Some 13)
  /\ resolve_cut (SelSeq 0) demo_parent = Ok (0, None)
  /\ resolve_cut (SelSeq 7) demo_parent = Err EOutOfRange
  /\ resolve_cut (SelMsg 11) demo_parent = Ok (4, Some 11)
  /\ resolve_cut (SelMsg 13) demo_parent = Ok (3, Some 13)
  /\ resolve_cut (SelMsg 12) demo_parent = Err ENotFound
  /\ resolve_cut (SelMsg 77) demo_parent = Err ENotFound
  /\ resolve_cut (SelBoth 11 1) demo_parent = Err EBoth.
Proof. exact demo_cuts. Qed.

Example c10_demo_branch :
  demo_branch_result
  = (demo_log ++ [created_frame 1 20; branched_frame 1 21 0 4 (Some 11)], Ok (1, 4, Some 11)).
Proof. exact demo_branch. Qed.

Example c10_demo_handoff :
  demo_handoff_md
  = (demo_log ++ [created_frame 1 20; handoff_frame 1 21 0 6 (Some 15) (Some 30) true],
     [(30, [0; 6; 16])], Ok (1, 6, Some 15)).
Proof. exact demo_handoff. Qed.

Example c10_demo_repaired :
  dangling_fixed = (demo_log, [], Err ENoArtifact) /\ orphan_fixed = (demo_log, [], Err EBundle).
Proof. exact fixed_eq. Qed.
