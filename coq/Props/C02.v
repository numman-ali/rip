(* C02 - the truth log is append-only; read-only, dry-run and no-op capabilities never write.
   Statements only; proofs are in Proofs/ContStoreProofs.v and Proofs/LogProofs.v. *)
From RipV Require Import Base.Prelude Model.Frames Model.Log Model.ContStore Model.LogBytes
  Model.CapEffects Model.SidecarInv Proofs.LogProofs Proofs.ContStoreProofs Proofs.LogBytesProofs
  Proofs.CapEffectsProofs Proofs.SidecarInvProofs Model.C02Cases Proofs.C02CasesProofs Model.NoopPlan Proofs.NoopPlanProofs Model.C02Decide Proofs.C02DecideProofs Model.LogFile Proofs.LogFileProofs Gen.LogOpen Gen.Effects.

(* one micro-step of any actor running ANY program (well-formed or not) in ANY state leaves the
   log as it was or adds exactly one frame at the end *)
Theorem c02_step_appends_at_most_one_frame : forall (st : state) (a : N),
  s_log (step st a) = s_log st \/ exists f, s_log (step st a) = s_log st ++ [f].
Proof. exact step_log. Qed.
Print Assumptions c02_step_appends_at_most_one_frame.

(* hence for every number of actors, every mix of calls and every schedule the old log is a prefix *)
Theorem c02_prefix_any_schedule : forall (sched : list N) (st : state),
  exists fs, s_log (run sched st) = s_log st ++ fs.
Proof. exact run_log. Qed.
Print Assumptions c02_prefix_any_schedule.

(* byte view: previous file content is an exact prefix; what was added splits into whole,
   newline-terminated frame lines with nothing left over - for every frame printer that never
   emits LF inside a line *)
Theorem c02_bytes_prefix_whole_lines : forall (enc : frame -> bytes) (sched : list N) (st : state),
  (forall f, ~ In 10 (enc f)) ->
  exists fs, log_bytes enc (s_log (run sched st)) = log_bytes enc (s_log st) ++ log_bytes enc fs
             /\ split_lines (log_bytes enc fs) = (map enc fs, []).
Proof. exact run_bytes. Qed.
Print Assumptions c02_bytes_prefix_whole_lines.

Theorem c02_restart_keeps_log : forall st, s_log (restart st) = s_log st.
Proof. exact restart_keeps_log. Qed.
Print Assumptions c02_restart_keeps_log.

(* status, cut-point, replay, streaming, dry-run and no-op invocations add nothing - for every
   capability, thread id (known or not), argument facts and store state *)
Theorem c02_silent_invocations_add_nothing : forall (cp : cap) (c : N) (f : cfacts) (st : state),
  silent cp f = true -> s_log (exec (cap_prog cp c f) st) = s_log st.
Proof. exact silent_calls_keep_log. Qed.
Print Assumptions c02_silent_invocations_add_nothing.

Theorem c02_read_only_capabilities_always_silent : forall (cp : cap) (f : cfacts),
  cap_can_append cp = false -> silent cp f = true.
Proof. exact read_only_caps_silent. Qed.
Print Assumptions c02_read_only_capabilities_always_silent.

(* ... also when any number of them run concurrently under any schedule *)
Theorem c02_quiet_calls_concurrently : forall (ps : list (list mstep * N)) (sched : list N) (st : state),
  Forall (fun x => quiet_prog (fst x) = true) ps -> s_log (run sched (spawn ps st)) = s_log st.
Proof. exact quiet_calls_keep_log. Qed.
Print Assumptions c02_quiet_calls_concurrently.

(* a write capability aimed at a thread id that does not exist fails before it appends (`rest`:
   whatever the same call would have done afterwards, e.g. the run_spawned append of a POST) *)
Theorem c02_unknown_thread_adds_nothing : forall st c t ar rest,
  skip_call rest = [] ->
  s_mu st = None -> s_next st c = None -> s_side st c = None -> cstream c (s_log st) = [] ->
  s_log (exec (MTarget c :: locked_append t ar ++ rest) st) = s_log st.
Proof. exact unknown_thread_append_silent. Qed.
Print Assumptions c02_unknown_thread_adds_nothing.

(* ---------- T1: the call graph of the source, regenerated on every run (Gen/Effects.v) ----------
   every row of the generated table "capability -> can its function reach self.event_log.append"
   says what the model's table says ... *)
Theorem c02_generated_call_graph_agrees : forall (cp : cap) (b : bool),
  In (cp, b) gen_cap_reaches_append -> b = cap_can_append cp.
Proof. exact (effects_agree_rows gen_cap_reaches_append (proj1 (andb_prop _ _ (proj1 (andb_prop _ _ gen_effects_ok))))). Qed.
Print Assumptions c02_generated_call_graph_agrees.

(* ... so a capability from which the source cannot reach an append adds nothing, whatever its
   arguments, the thread id and the store state *)
Theorem c02_unreachable_capabilities_add_nothing : forall (cp : cap),
  In (cp, false) gen_cap_reaches_append ->
  forall (c : N) (f : cfacts) (st : state), s_log (exec (cap_prog cp c f) st) = s_log st.
Proof. exact (unreachable_caps_silent gen_cap_reaches_append (proj1 (andb_prop _ _ (proj1 (andb_prop _ _ gen_effects_ok))))). Qed.
Print Assumptions c02_unreachable_capabilities_add_nothing.

(* the same for the thread routes of the HTTP router (handler -> store methods it calls) *)
Theorem c02_generated_routes_agree : forall (i : N) (b : bool),
  In (i, b) gen_route_reaches_append -> exists cp, route_cap i = Some cp /\ b = cap_can_append cp.
Proof. exact (routes_agree_rows gen_route_reaches_append gen_routes_ok). Qed.
Print Assumptions c02_generated_routes_agree.

(* non-vacuity: compaction_status_v1 cannot reach an append, compaction_auto_schedule_v1 can;
   GET /threads/{id}/events cannot, POST .../compaction-auto-schedule can *)
Example c02_call_graph_nontrivial :
  has_cap_row gen_cap_reaches_append 5 false = true /\ has_cap_row gen_cap_reaches_append 15 true = true
  /\ has_route_row gen_route_reaches_append 6 false = true /\ has_route_row gen_route_reaches_append 13 true = true.
Proof. exact (conj eq_refl (conj eq_refl (conj eq_refl eq_refl))). Qed.

(* ---------- which ids get a cache file ----------
   The thread id of a call reaches the cache's path_for verbatim (`../events` names the truth log).
   In the model a sidecar exists only for an id that some frame IN THE LOG carries as stream id - for
   every number of actors, every program, every schedule ... *)
Theorem c02_sidecars_only_for_ids_in_the_log : forall (sched : list N) (st : state) (c : N),
  SideInv st -> s_side (run sched st) c <> None ->
  exists f, In f (s_log (run sched st)) /\ sid f = c.
Proof. exact sidecars_named_any_schedule. Qed.
Print Assumptions c02_sidecars_only_for_ids_in_the_log.

(* ... and for every history of capability calls (any ids, known or not), cache faults and restarts *)
Theorem c02_sidecars_only_for_ids_in_the_log_histories : forall (ks : list call) (c : N),
  s_side (snd (run_calls empty_state ks)) c <> None ->
  exists f, In f (s_log (snd (run_calls empty_state ks))) /\ sid f = c.
Proof. exact sidecars_named_any_history. Qed.
Print Assumptions c02_sidecars_only_for_ids_in_the_log_histories.

(* false without the emptiness guard of replay_events (seeded change C02-1): one read of an id that
   no frame names leaves a cache file for it *)
Theorem c02_sidecars_unguarded_rebuild_refuted :
  snd (replay_events_unguarded empty_state 7) 7 <> None /\ ~ (exists f, In f (s_log empty_state) /\ sid f = 7).
Proof. exact unguarded_rebuild_refuted. Qed.
Print Assumptions c02_sidecars_unguarded_rebuild_refuted.

Example c02_sidecar_demo :
  let st := snd (run_calls empty_state [KCap CapEnsureDefault 0 fact_ok; KCap CapReplay 0 fact_ok; KCap CapReplay 99 fact_ok]) in
  s_side st 0 <> None /\ s_side st 4294967295 = None /\ map sid (s_log st) = [0].
Proof. exact sidecar_demo. Qed.

(* ---------- byte level: what is IN THE FILE after every write(2) of EventLog::append ----------
   BufWriter rule (Model/LogBytes.v): bytes reach the file when the buffer is flushed or when one
   write is at least as large as the capacity.  For EVERY capacity, every sequence of frames appended
   with the single write of frame+LF, and every instant (= after each write(2)): the file is the old
   bytes followed by whole, newline-terminated frames - a reader, a second handle or a crash never
   meets part of a line. *)
Theorem c02_file_is_whole_lines_at_every_step :
  forall (cap : N) (enc : frame -> bytes) (l fs : list frame) (b : bytes),
  (forall f, ~ In 10 (enc f)) ->
  In b (bw_trace cap (bw_at (log_bytes enc l)) (appends_single enc fs)) ->
  exists k, b = log_bytes enc l ++ log_bytes enc (firstn k fs)
            /\ split_lines (log_bytes enc (firstn k fs)) = (map enc (firstn k fs), []).
Proof. exact file_whole_lines_every_step. Qed.
Print Assumptions c02_file_is_whole_lines_at_every_step.

Theorem c02_file_after_appends : forall (cap : N) (enc : frame -> bytes) (l fs : list frame),
  bw_final cap (bw_at (log_bytes enc l)) (appends_single enc fs) = bw_at (log_bytes enc (l ++ fs)).
Proof. exact file_after_appends. Qed.
Print Assumptions c02_file_after_appends.

(* T1: the writer calls read off EventLog::append on this run ARE that single-write program *)
Theorem c02_generated_append_is_single_write : forall (enc : frame -> bytes) (pieces : frame -> list bytes) (f : frame),
  prog_of_shape enc pieces f gen_append_shape = append_single enc f.
Proof. exact (fun enc pieces f => shape_single_prog enc pieces f gen_append_shape gen_append_shape_ok). Qed.
Print Assumptions c02_generated_append_is_single_write.

(* frame and terminator as two writes (the shape before /repo bd2ee56): every frame whose printed
   form fills the buffer is in the file WITHOUT its newline at some instant *)
Theorem c02_two_write_append_exposes_partial_line :
  forall (cap : N) (enc : frame -> bytes) (l : list frame) (f : frame),
  (forall g, ~ In 10 (enc g)) -> cap <= blen (enc f) -> enc f <> [] ->
  exists b, In b (bw_trace cap (bw_at (log_bytes enc l)) (append_two_writes enc f))
            /\ partial_tail b = enc f /\ partial_tail b <> [].
Proof. exact two_writes_partial_line. Qed.
Print Assumptions c02_two_write_append_exposes_partial_line.

(* a serializer streaming into the BufWriter (serde_json::to_writer + write_all(b"\n")): every frame
   longer than the buffer is in the file in part at some instant, however it is cut into pieces *)
Theorem c02_streamed_append_exposes_partial_line :
  forall (cap : N) (enc : frame -> bytes) (l : list frame) (pieces : list bytes),
  (forall g, ~ In 10 (enc g)) -> ~ In 10 (concat pieces) -> cap < blen (concat pieces) ->
  exists b, In b (bw_trace cap (bw_at (log_bytes enc l)) (append_streamed pieces)) /\ partial_tail b <> [].
Proof. exact streamed_partial_line. Qed.
Print Assumptions c02_streamed_append_exposes_partial_line.

(* so `c02_file_is_whole_lines_at_every_step` is FALSE of those two shapes at std's capacity 8192 *)
Theorem c02_file_is_whole_lines_two_writes_refuted :
  exists b, In b (bw_trace bufwriter_capacity (bw_at (log_bytes w_enc [w_frame])) (append_two_writes w_enc w_frame))
            /\ partial_tail b <> [].
Proof. exact w_two_writes_refuted. Qed.
Print Assumptions c02_file_is_whole_lines_two_writes_refuted.

Theorem c02_file_is_whole_lines_streamed_refuted :
  exists b, In b (bw_trace bufwriter_capacity (bw_at (log_bytes w_enc [w_frame])) (append_streamed w_pieces))
            /\ partial_tail b <> [].
Proof. exact w_streamed_refuted. Qed.
Print Assumptions c02_file_is_whole_lines_streamed_refuted.

(* non-vacuity: capacity 4, lines of 7 bytes: the single-write append passes through old, old+f1,
   old+f1+f2 only; the two-write append passes through old+"{1}AAA" *)
Example c02_byte_trace_demo :
  bw_trace 4 (bw_at (log_bytes d_enc [w_frame])) (appends_single d_enc (tl d_frames)) =
  [log_bytes d_enc [w_frame]; log_bytes d_enc (firstn 2 d_frames); log_bytes d_enc (firstn 2 d_frames);
   log_bytes d_enc (firstn 2 d_frames); log_bytes d_enc d_frames; log_bytes d_enc d_frames]
  /\ bw_trace 4 (bw_at (log_bytes d_enc [w_frame])) (append_two_writes d_enc (nth 1 d_frames w_frame)) =
     [log_bytes d_enc [w_frame]; log_bytes d_enc [w_frame] ++ d_enc (nth 1 d_frames w_frame);
      log_bytes d_enc (firstn 2 d_frames)].
Proof. exact d_trace. Qed.

(* non-vacuity: the same model does append for the non-silent invocations *)
Example c02_demo_nontrivial :
  let st := exec (create_prog []) empty_state in
  let f := {| cf_ok := true; cf_stride0 := false; cf_dry := false; cf_planned := 1%nat;
              cf_inflight := false; cf_execute := true; cf_created := 1%nat; cf_ended := true |} in
  map seq (s_log (exec (cap_prog CapPost 0 f) st)) = [0; 1; 2]
  /\ map seq (s_log (exec (cap_prog CapAuto 0 f) st)) = [0; 1; 2; 3]
  /\ silent CapAuto f = false
  /\ map seq (s_log (exec (cap_prog CapPost 77 f) st)) = [0].
Proof. exact c02_demo. Qed.

(* ---------- second round (builder log02b) ----------
   T1: every method of impl ContinuityStore that a READ-ONLY capability shares with a capability that may
   append (reachable from both in the regenerated call graph) is listed in Gen/Effects.v with its
   "can reach self.event_log.append" bit; the list is not empty and no shared helper can append.
   (Seed C02-5 put an append into find_inflight_compaction_job_id_best_effort_v1, which
   compaction_status_v1 shares with the scheduler.) *)
Theorem c02_shared_helpers_cannot_append :
  gen_shared_helpers <> [] /\ forall n b, In (n, b) gen_shared_helpers -> b = false.
Proof. exact (shared_helpers_rows gen_shared_helpers gen_shared_helpers_ok). Qed.
Print Assumptions c02_shared_helpers_cannot_append.

(* Histories of the correspondence, second round (Model/C02Cases.v, call2): capability calls, faults on
   the full sidecar, faults on ONE derived cache file, garbage lines appended to / inserted into the
   full sidecar, restarts, and ageing (every timestamp moved, store re-opened).  For every such
   history and every point in it: the log at that point is a prefix of the log at the end ... *)
Theorem c02_prefix_extended_histories : forall (ks1 ks2 : list call2),
  exists fs, s_log (snd (run_calls2 empty_state (ks1 ++ ks2)))
             = s_log (snd (run_calls2 empty_state ks1)) ++ fs.
Proof. exact history2_prefix. Qed.
Print Assumptions c02_prefix_extended_histories.

(* ... a fault of any of these kinds, a restart and the passing of time leave the log as it is, in
   every state ... *)
Theorem c02_faults_garbage_and_time_keep_the_log : forall (st : state) (k : call2),
  is_fault2 k = true -> s_log (do_call2 st k) = s_log st.
Proof. exact fault2_keeps_log. Qed.
Print Assumptions c02_faults_garbage_and_time_keep_the_log.

(* ... an invocation the property names as silent (read-only; dry run; stride 0; nothing planned) adds
   nothing in whatever state such a history has led to ... *)
Theorem c02_silent_invocation_anywhere_in_a_history : forall (ks : list call2) (cp : cap) (th : nat) (f : cfacts),
  silent cp f = true ->
  s_log (do_call2 (snd (run_calls2 empty_state ks)) (K (KCap cp th f))) = s_log (snd (run_calls2 empty_state ks)).
Proof. exact (fun ks cp th f H => silent_call2_keeps_log (snd (run_calls2 empty_state ks)) cp th f H). Qed.
Print Assumptions c02_silent_invocation_anywhere_in_a_history.

(* ... and a sidecar still exists only for ids that a frame in the log carries *)
Theorem c02_sidecars_only_for_ids_in_the_log_extended_histories : forall (ks : list call2) (c : N),
  s_side (snd (run_calls2 empty_state ks)) c <> None ->
  exists f, In f (s_log (snd (run_calls2 empty_state ks))) /\ sid f = c.
Proof. exact sidecars_named_any_history2. Qed.
Print Assumptions c02_sidecars_only_for_ids_in_the_log_extended_histories.

(* non-vacuity: the settings of seeds C02-6 / C02-5 as a model history (2 messages, auto creates a
   checkpoint, comp sidecar torn, garbage in the full sidecar, an hour passes, auto with nothing to
   do, status): frames in the log after each step *)
Example c02_extended_history_demo :
  fst (run_calls2 empty_state demo2_history) = [1; 2; 3; 6; 6; 6; 6; 6; 6].
Proof. exact demo2. Qed.

(* ---------- "nothing to do" (Model/NoopPlan.v) ----------
   The planner of compaction-auto / compaction-auto-schedule as the code runs it (cut points of the stride, newest
   32; per cut point the "latest checkpoint at or before" lookup through the checkpoint cache <id>.comp.v1.jsonl:
   absent -> rebuilt and scanned, unparsable -> the caller's fallback loop over the replayed stream, parsable ->
   answered from its lines as found) against the judgement of the truth log alone (`unplanned`: cut points no
   checkpoint frame sits on).  For every thread, stride, max_new and every cache state that is absent, unparsable
   or the projection of the stream: the code plans exactly the first max_new unplanned cut points ... *)
Theorem c02_planner_agrees_with_the_truth_log : forall (t : pthread) (cc : comp_cache) (stride : N) (max_new : nat),
  coherent t cc -> planned false t cc stride max_new = firstn max_new (unplanned t stride).
Proof. exact planned_coherent. Qed.
Print Assumptions c02_planner_agrees_with_the_truth_log.

(* ... so when the truth log leaves nothing to do, auto and auto-schedule (with whatever dry_run, execute,
   block_on_inflight) are silent invocations: they add nothing, in every state of the store model *)
Theorem c02_nothing_to_do_adds_nothing :
  forall (t : pthread) (cc : comp_cache) (stride : N) (max_new : nat) (cp : cap) (f : cfacts) (c : N) (st : state),
  coherent t cc -> unplanned t stride = [] ->
  cp = CapAuto \/ cp = CapAutoSchedule ->
  cf_planned f = length (planned false t cc stride max_new) ->
  s_log (exec (cap_prog cp c f) st) = s_log st.
Proof. exact nothing_to_do_is_silent. Qed.
Print Assumptions c02_nothing_to_do_adds_nothing.

(* FALSE for a cache file that parses but is not the projection - the code answers from it as found (open
   findings S4c-noop-appends: zero bytes; S4-noop-appends: re-created by the last append): 6 messages, checkpoints
   on 2, 4, 6, nothing to do, yet cut points are planned *)
Theorem c02_nothing_to_do_zero_length_cache_refuted :
  unplanned w_thread6 2 = [] /\ planned false w_thread6 (seen false (CLines [])) 2 32 = [6; 4; 2].
Proof. exact zero_length_cache_refuted. Qed.
Print Assumptions c02_nothing_to_do_zero_length_cache_refuted.
(* `seen zl`: how the source looks at the file (zl = false: `path.exists()`, the zero-byte file is answered from as
   found - the witness above; zl = true: the file must hold data, a zero-byte file counts as absent - the S4c
   repair).  Which one the source does is regenerated on every run (gen_zero_length_comp_sidecar_is_absent,
   obligation gen_zero_length_policy_ok) and the correspondence cases are checked under that value.  Under
   zl = true the zero-byte state is coherent: the planner agrees with the truth log for every thread *)
Theorem c02_zero_length_cache_counts_as_absent : forall (t : pthread) (stride : N) (max_new : nat),
  planned false t (seen true (CLines [])) stride max_new = firstn max_new (unplanned t stride).
Proof. exact zero_length_counts_as_absent. Qed.
Print Assumptions c02_zero_length_cache_counts_as_absent.
Theorem c02_seen_changes_only_the_zero_length_state : forall (zl : bool) (cc : comp_cache),
  cc <> CLines [] -> seen zl cc = cc.
Proof. exact seen_other. Qed.
Print Assumptions c02_seen_changes_only_the_zero_length_state.

Theorem c02_nothing_to_do_partial_cache_refuted :
  unplanned w_thread6 2 = [] /\ planned false w_thread6 (CLines [(6, 9)]) 2 32 = [4; 2].
Proof. exact partial_cache_refuted. Qed.
Print Assumptions c02_nothing_to_do_partial_cache_refuted.

(* the fallback loop with `>=` instead of `>` (seeded change C02-6): indistinguishable while the cache answers,
   for every thread ... *)
Theorem c02_skip_eq_fallback_hidden_while_the_cache_answers :
  forall (t : pthread) (cc : comp_cache) (stride : N) (max_new : nat),
  cc = CAbsent \/ cc = CLines (t_cps t) ->
  planned true t cc stride max_new = planned false t cc stride max_new.
Proof. exact skip_eq_fallback_hidden. Qed.
Print Assumptions c02_skip_eq_fallback_hidden_while_the_cache_answers.

(* ... and it plans every covered cut point again once the cache file is unparsable *)
Theorem c02_skip_eq_fallback_refuted :
  unplanned w_thread6 2 = [] /\ planned true w_thread6 CUnparsable 2 32 = [6; 4; 2]
  /\ planned false w_thread6 CUnparsable 2 32 = [].
Proof. exact skip_eq_fallback_refuted. Qed.
Print Assumptions c02_skip_eq_fallback_refuted.

(* non-vacuity: a thread with work left (unparsable cache, stride 2; parsable cache, stride 1, max_new 2),
   the window of 32 on 70 messages, strides u64::MAX and 0 *)
Example c02_planner_demo :
  planned false {| t_msgs := [1; 2; 3; 4; 5]; t_cps := [(4, 6)] |} CUnparsable 2 32 = [2]
  /\ planned false {| t_msgs := [1; 2; 3; 4; 5]; t_cps := [(4, 6)] |} (CLines [(4, 6)]) 1 2 = [5; 3]
  /\ length (cut_seqs {| t_msgs := map N.of_nat (List.seq 1 70); t_cps := [] |} 2) = 32%nat
  /\ cut_seqs w_thread6 18446744073709551615 = [] /\ cut_seqs w_thread6 0 = [].
Proof. exact planner_demo. Qed.

(* ---------- third round (builder log02c): the decisions before an append (Model/C02Decide.v) ----------
   provider-cursor-rotate and ensure_default are no-ops exactly when a SEARCH finds something (ensure) or
   nothing (rotate).  In the histories of this round (Model/C02Cases.v, call3) the model takes those decisions
   itself - from what the code reads - instead of being told the outcome by the implementation's response;
   the theorems say that the decision is the one the TRUTH LOG alone gives.

   ROTATE.  No provider cursor frame of the thread in the truth log passes the request's filters (a filter
   that is present is passed only by a recorded value that is present and equal; recorded endpoint / model are
   optional) => the call appends nothing - for every state whose sidecars hold only frames of the log ... *)
Theorem c02_rotate_nothing_to_find_adds_nothing : forall (st : state) (known : bool) (c : N) (rq : rot_req),
  SideSub st -> rotate_has_target rq c (s_log st) = false ->
  s_log (exec (rotate_prog false known c rq st) st) = s_log st.
Proof. exact rotate_nothing_in_the_log_adds_nothing. Qed.
Print Assumptions c02_rotate_nothing_to_find_adds_nothing.

(* ... which is every state a history of capability calls (any filters, any recorded fields), cursor appends with
   and without endpoint / model, frames written behind the store's back, cache faults, garbage, index faults,
   restarts for any workspace and ageing can lead to *)
Theorem c02_rotate_nothing_to_find_anywhere_in_a_history : forall (ks : list call3) (th : nat) (fp fe fm : N),
  let d := snd (run_calls3 dstate0 ks) in
  rotate_has_target (req_of fp fe fm) (nth_thread (s_log (d_st d)) th) (s_log (d_st d)) = false ->
  s_log (d_st (fst (do_call3 d (DRotate th fp fe fm)))) = s_log (d_st d).
Proof. exact rotate_noop_anywhere_in_a_history. Qed.
Print Assumptions c02_rotate_nothing_to_find_anywhere_in_a_history.

(* a thread id the in-memory index does not list (index behind the log): not_found, nothing appended *)
Theorem c02_rotate_unlisted_thread_adds_nothing : forall (lenient : bool) (st : state) (c : N) (rq : rot_req),
  s_log (exec (rotate_prog lenient false c rq st) st) = s_log st.
Proof. exact rotate_unknown_adds_nothing. Qed.
Print Assumptions c02_rotate_unlisted_thread_adds_nothing.

(* FALSE of the reading `recorded.is_some_and(|r| r != filter)` (seeded change C02-7): a cursor frame without a
   model, a request for model 5: nothing to find by the truth log, yet a frame is appended; the two readings
   agree on every frame that records both fields - which is all the repository's tests have *)
Theorem c02_rotate_lenient_filter_refuted :
  rotate_has_target w_rot_req 0 (s_log w_rot_state) = false
  /\ map seq (s_log (exec (rotate_prog true true 0 w_rot_req w_rot_state) w_rot_state)) = [0; 1; 2]
  /\ map seq (s_log (exec (rotate_prog false true 0 w_rot_req w_rot_state) w_rot_state)) = [0; 1].
Proof. exact rotate_lenient_filter_refuted. Qed.
Print Assumptions c02_rotate_lenient_filter_refuted.

Theorem c02_rotate_lenient_filter_hidden_on_full_frames : forall (rq : rot_req) (f : frame) (p e m : N),
  cursor_fields f = Some (p, Some e, Some m) -> rot_match true rq f = rot_match false rq f.
Proof. exact rot_match_lenient_same_on_full_frames. Qed.
Print Assumptions c02_rotate_lenient_filter_hidden_on_full_frames.

(* ENSURE_DEFAULT (the store's one get-or-create).  The log holds a thread of the store's workspace => the call
   appends nothing - for EVERY in-memory index and EVERY state of continuities/index.json (the statement does
   not mention them) ... *)
Theorem c02_ensure_thread_in_the_log_adds_nothing : forall (d : dstate),
  log_has_ws (d_ws d) (s_log (d_st d)) = true ->
  s_log (d_st (fst (ensure false d))) = s_log (d_st d).
Proof. exact ensure_thread_in_the_log_adds_nothing. Qed.
Print Assumptions c02_ensure_thread_in_the_log_adds_nothing.

(* ... spelled out for a restart: whatever is left in index.json (absent, unreadable, another version, any older or
   foreign content) and whichever workspace the store is opened for ... *)
Theorem c02_ensure_after_restart_any_index_file : forall (d : dstate) (file : idx_file) (ws : N),
  log_has_ws ws (s_log (d_st d)) = true ->
  s_log (d_st (fst (ensure false (reopen {| d_st := d_st d; d_ws := d_ws d; d_file := file; d_mem := d_mem d |} ws))))
  = s_log (d_st d).
Proof. exact ensure_after_restart_any_index_file. Qed.
Print Assumptions c02_ensure_after_restart_any_index_file.

(* ... and at any point of any history: index fault, restart, ensure *)
Theorem c02_ensure_idempotent_anywhere_in_a_history : forall (ks : list call3) (x : idx_fault) (ws : N),
  let d := snd (run_calls3 dstate0 ks) in
  log_has_ws ws (s_log (d_st d)) = true ->
  s_log (d_st (snd (run_calls3 d [DIdx x; DReopen ws; DEnsure]))) = s_log (d_st d).
Proof. exact (fun ks x ws => ensure_idempotent (snd (run_calls3 dstate0 ks)) x ws). Qed.
Print Assumptions c02_ensure_idempotent_anywhere_in_a_history.

(* the answer comes from the log: when the in-memory index names only threads the log holds for that workspace
   (MemSound), the thread answered is a thread of the workspace in the log *)
Theorem c02_ensure_answers_from_the_log : forall (d : dstate),
  MemSound d -> log_has_ws (d_ws d) (s_log (d_st d)) = true -> validate (s_log (d_st d)) = true ->
  answer_code (d_ws d) (s_log (d_st (fst (ensure false d)))) (snd (ensure false d)) = 1.
Proof. exact ensure_answers_from_the_log. Qed.
Print Assumptions c02_ensure_answers_from_the_log.

(* FALSE of `scan the log only when index.json is missing` (seeded change C02-9): the thread is in the log, the
   file is there but lists nothing, the store is restarted: a second continuity_created (seq 0) is appended *)
Theorem c02_ensure_skip_scan_when_index_file_exists_refuted :
  log_has_ws 0 (s_log (d_st w_ens_state)) = true
  /\ map seq (s_log (d_st (fst (ensure true w_ens_state)))) = [0; 0]
  /\ map seq (s_log (d_st (fst (ensure false w_ens_state)))) = [0]
  /\ snd (ensure false w_ens_state) = Some 0.
Proof. exact ensure_skip_refuted. Qed.
Print Assumptions c02_ensure_skip_scan_when_index_file_exists_refuted.

(* ... invisible while the file is missing or the in-memory index knows the workspace *)
Theorem c02_ensure_skip_scan_hidden_without_file_or_in_one_process : forall (d : dstate),
  d_file d = IAbsent \/ ws_lookup (ix_ws (d_mem d)) (d_ws d) <> None ->
  ensure true d = ensure false d.
Proof. exact ensure_skip_hidden. Qed.
Print Assumptions c02_ensure_skip_scan_hidden_without_file_or_in_one_process.

(* prefix over the histories of this round; index faults and re-opening leave the log as it is *)
Theorem c02_prefix_decided_histories : forall (ks1 ks2 : list call3),
  exists fs, s_log (d_st (snd (run_calls3 dstate0 (ks1 ++ ks2))))
             = s_log (d_st (snd (run_calls3 dstate0 ks1))) ++ fs.
Proof. exact history3_prefix. Qed.
Print Assumptions c02_prefix_decided_histories.

Theorem c02_index_faults_and_reopening_keep_the_log : forall (d : dstate) (x : idx_fault) (ws : N),
  s_log (d_st (fst (do_call3 d (DIdx x)))) = s_log (d_st d)
  /\ s_log (d_st (fst (do_call3 d (DReopen ws)))) = s_log (d_st d).
Proof. exact index_fault_and_reopen_keep_the_log. Qed.
Print Assumptions c02_index_faults_and_reopening_keep_the_log.

(* non-vacuity: frames in the log (and the answer code of each ensure) along a history with two workspaces, a
   crash between the log append of the second thread and save_index, another version, a child, a lost index, a
   third workspace; a rotate that finds nothing and one that rotates *)
Example c02_decided_history_demo :
  fst (run_calls3 dstate0 demo3_history) = [1; 1; 2; 2; 3; 3; 4; 1; 4; 4; 4; 1; 4; 4; 4; 1; 6; 6; 6; 6; 1; 6; 7; 1].
Proof. exact demo3. Qed.

Example c02_ensure_hypotheses_satisfiable :
  MemSound w_ens_state /\ log_has_ws 0 (s_log (d_st w_ens_state)) = true /\ validate (s_log (d_st w_ens_state)) = true.
Proof. exact mem_sound_demo. Qed.

(* T1: what the two searches look at, read off the source on every run (Gen/Effects.v): in ensure_default the log
   scan is on the straight-line path behind the in-memory index hit (no test of what is on disk before it) - the
   model's `ensure false`; the filter closure of provider_cursor_rotate_v1 compares the recorded endpoint / model
   with `Some(filter)` - the model's `rot_match false` *)
Theorem c02_generated_decisions_are_the_models :
  gen_ensure_scans_the_log_whenever_memory_misses = true /\ gen_rotate_filters_reject_absent_fields = true.
Proof. exact (andb_prop _ _ gen_decisions_ok). Qed.
Print Assumptions c02_generated_decisions_are_the_models.

(* ================= fourth round (builder log02d): the FILE across restarts, whatever state it is in =================
   Model/LogFile.v: the bytes of events.jsonl under FOpen (EventLog::new and everything that opens the log through it:
   ContinuityStore::new, SessionEngine::new, the CLI's local mode, build_app), FRead (replay*, last_seq, the read-only
   capabilities), FTorn d (whatever a crash or a partial write left at the end: d is ANY byte string, with or without
   line ends, valid JSON or garbage, 1 byte or megabytes) and FAppend line (one O_APPEND write). *)

(* opening is the identity on the file - for every content *)
Theorem c02_open_preserves_bytes : forall (b : bytes), open_file OKeep b = b.
Proof. exact open_keep_id. Qed.
Print Assumptions c02_open_preserves_bytes.

(* any number of opens and reads in any order: the same bytes, for every content *)
Theorem c02_opens_and_reads_preserve_bytes : forall (ops : list fop) (b : bytes),
  forallb opens_or_reads ops = true -> ffinal OKeep b ops = b.
Proof. exact opens_and_reads_keep_bytes. Qed.
Print Assumptions c02_opens_and_reads_preserve_bytes.

(* append-only across process lifetimes: for every initial content and every history of opens, reads, torn writes and
   appends, the content at any earlier moment is an exact prefix of the content at any later moment *)
Theorem c02_prefix_across_restarts_and_torn_tails : forall (b : bytes) (ops1 ops2 : list fop),
  is_prefix_of (ffinal OKeep b ops1) (ffinal OKeep b (ops1 ++ ops2)).
Proof. exact history_prefix. Qed.
Print Assumptions c02_prefix_across_restarts_and_torn_tails.

Theorem c02_prefix_at_every_step_across_restarts : forall (b : bytes) (ops : list fop) (i j : nat) (x y : bytes),
  (i <= j)%nat -> nth_error (ftrace OKeep b ops) i = Some x -> nth_error (ftrace OKeep b ops) j = Some y ->
  is_prefix_of x y.
Proof. exact trace_prefix. Qed.
Print Assumptions c02_prefix_at_every_step_across_restarts.

(* what the code does with the next frame after a torn tail (bd2ee56: frame + LF in one write; the open does not look
   at the tail): after any number of restarts and reads the frame is put behind the torn bytes - every earlier byte
   stays, the file is whole lines again, every earlier line is untouched, and the torn bytes share ONE line with the
   new frame *)
Theorem c02_append_after_torn_tail : forall (enc : frame -> bytes) (b d : bytes) (f : frame) (ops : list fop),
  forallb opens_or_reads ops = true ->
  ffinal OKeep b (FTorn d :: ops ++ [FAppend (frame_line enc f)]) = b ++ d ++ enc f ++ [10].
Proof. exact append_after_torn_tail. Qed.
Print Assumptions c02_append_after_torn_tail.

Theorem c02_append_after_torn_tail_whole_lines : forall (enc : frame -> bytes) (l : list frame) (d : bytes) (f : frame),
  (forall g, ~ In 10 (enc g)) -> ~ In 10 d ->
  split_lines (log_bytes enc l ++ d ++ enc f ++ [10]) = (map enc l ++ [d ++ enc f], []).
Proof. exact append_after_torn_tail_lines. Qed.
Print Assumptions c02_append_after_torn_tail_whole_lines.

(* FALSE of an open that cuts an unterminated tail off, looking at the last `window` bytes (seeded change C02-10; the
   64 KiB witness as a small instance: window 4, log "a\n", torn part "bbbb"): the content before the restart is not a
   prefix of the content after it - and the WHOLE log is gone *)
Theorem c02_open_cutting_unterminated_tail_refuted :
  exists (w : N) (b d : bytes),
    ~ is_prefix_of (ffinal OKeep b [FTorn d]) (ffinal (OCutTail w) b [FTorn d; FOpen])
    /\ ffinal (OCutTail w) b [FTorn d; FOpen] = [].
Proof. exact open_cutting_tail_refuted. Qed.
Print Assumptions c02_open_cutting_unterminated_tail_refuted.

(* ... with a torn part shorter than the window the whole lines survive, the restart still rewrites the file *)
Theorem c02_open_cutting_short_tail_refuted :
  exists (w : N) (b d : bytes),
    ~ is_prefix_of (ffinal OKeep b [FTorn d]) (ffinal (OCutTail w) b [FTorn d; FOpen])
    /\ ffinal (OCutTail w) b [FTorn d; FOpen] = b.
Proof. exact open_cutting_tail_small_refuted. Qed.
Print Assumptions c02_open_cutting_short_tail_refuted.

(* ... in general: no file that ends in anything but LF survives such an open, whatever the window *)
Theorem c02_open_cutting_tail_never_keeps_a_torn_tail : forall (w : N) (b : bytes) (x : N),
  w <> 0 -> x <> 10 -> ~ is_prefix_of (b ++ [x]) (open_file (OCutTail w) (b ++ [x])).
Proof. exact open_cutting_tail_never_keeps_a_torn_tail. Qed.
Print Assumptions c02_open_cutting_tail_never_keeps_a_torn_tail.

(* ... and invisible on an empty file and on a file of whole lines - every state a test reaches that lets its appends finish *)
Theorem c02_open_cutting_tail_hidden_on_whole_lines : forall (w : N) (b : bytes),
  b = [] \/ (exists b', b = b' ++ [10]) -> open_file (OCutTail w) b = b.
Proof. exact cut_tail_hidden_on_whole_lines. Qed.
Print Assumptions c02_open_cutting_tail_hidden_on_whole_lines.

(* T1: the file-system effects in the call closure of EventLog::new / of the readers of impl EventLog, read off the
   source on every run, leave the bytes of an existing log alone - for every content *)
Theorem c02_generated_open_and_read_paths_keep_bytes : forall (b : bytes),
  effects_bytes gen_open_effects b = Some b /\ effects_bytes gen_read_effects b = Some b.
Proof. exact (fun b => conj (open_effects_ok_keep_bytes gen_open_effects b gen_open_effects_ok)
                            (read_effects_ok_keep_bytes gen_read_effects b gen_read_effects_ok)). Qed.
Print Assumptions c02_generated_open_and_read_paths_keep_bytes.

(* non-vacuity: (bytes in the file, bytes after the last LF) along a history with a torn tail, two restarts and reads,
   a glued append, a torn region with a line end inside, a restart, a clean append *)
Example c02_file_history_demo :
  model_obs_logfile {| lf_ops := lf_demo_ops; lf_expect := [] |} =
  [5; 0;  8; 3;  8; 3;  8; 3;  8; 3;  12; 0;  18; 4;  18; 4;  20; 0].
Proof. exact lf_demo. Qed.
