(* C15 — Provider stream decoding is lossless and chunking-invariant.
   Statements only; proofs are in Proofs/SseProofs.v, Proofs/SseJsonProofs.v and Proofs/Utf8Proofs.v.
   The chunking theorems hold for EVERY classification `classify` of payloads and every seq offset.  The
   content theorems (c15_payload_unchanged, c15_classified_event, c15_kept_as_text, c15_text_is_concat_of_deltas,
   c15_text_delta_spec, c15_extractor_agrees) are about the executable classification `jclassify A` of
   Model/SseJson.v: serde_json::from_str as JsonParse.parse + `canon` (BTreeMap objects, number spelling), the
   nesting bound, the id normalisation of the compat validation mode, the event-name / type mismatch error and the
   text delta; `A : absfns` holds the validation mode and the parts that stay abstract (text of serde_json's error
   message, re-spelling of non-integer number tokens, the two schema validators) and is universally quantified.  FIXED = the code after the two `fix:` commits for S11 (what
   /repo contains now), UNFIXED = the code before them. *)
From RipV Require Import Base.Prelude Base.Utf8 Base.Json Model.Sse Model.SseJson Model.SseFacts.
From RipV Require Import Proofs.Utf8Proofs Proofs.SseProofs Proofs.SseJsonProofs.
From RipV Require Base.JsonParse.

(* the frames depend on the body only: any two partitions into chunks (every split position, inside
   a multi-byte character, between CR and LF, inside a field name, one byte at a time, empty
   chunks) give the same frames with the same numbers *)
Theorem c15_chunk_invariant :
  forall (classify : option str -> str -> cls) (off : N) (body : list N) (cs1 cs2 : list (list N)),
  concat cs1 = body -> concat cs2 = body ->
  frames_of classify FIXED off cs1 = frames_of classify FIXED off cs2.
Proof. exact chunk_invariant. Qed.
Print Assumptions c15_chunk_invariant.

(* ... because they are the frames of the chunking-free specification: lossy UTF-8 decoding of the
   whole body, the field rules folded over all its lines, cut after the first [DONE] *)
Theorem c15_frames_are_spec :
  forall (classify : option str -> str -> cls) (off : N) (cs : list (list N)),
  frames_of classify FIXED off cs = frames_whole classify off (concat cs).
Proof. exact frames_of_whole. Qed.
Print Assumptions c15_frames_are_spec.

(* exactly one provider-event frame per server-sent event, in order, incl. the terminal marker and
   invalid-JSON payloads (prov_frame carries raw = the payload for those, the parsed data otherwise) *)
Theorem c15_one_frame_per_event :
  forall (classify : option str -> str -> cls) (off : N) (cs : list (list N)),
  map strip_seq (filter is_prov (frames_of classify FIXED off cs))
  = map (prov_frame 0) (upto_done (events_spec classify (lossy_text (concat cs)))).
Proof. exact one_frame_per_event. Qed.
Print Assumptions c15_one_frame_per_event.

(* the payload handed to classify is the '\n'-join of the block's data values, unchanged *)
Theorem c15_payload_is_joined_data :
  forall (classify : option str -> str -> cls) (vals : list str) (ev : option str),
  vals <> [] -> Forall (fun v => trim_start v = v /\ trim_end_cr v = v /\ no_nl v) vals ->
  snd (fold_lines classify (ev, []) (map (fun v => S_DATA ++ 32 :: v) vals ++ [[]]))
  = [parse_event classify ev (join_nl vals)].
Proof. exact event_payload_is_joined_data. Qed.
Print Assumptions c15_payload_is_joined_data.

(* ... and in general: a block of field lines (no blank line inside) followed by the blank line gives exactly one event
   iff it has a data line, with payload = the '\n'-join of ALL its data values in order and the last event name given;
   comments, unknown fields, `event:` lines in between, CR line ends and the blanks after the colon do not matter *)
Theorem c15_block_is_one_event :
  forall (classify : option str -> str -> cls) (block : list str) (ev0 : option str) (acc : list str),
  forallb (fun l => negb (is_blank l)) block = true ->
  fold_lines classify (ev0, acc) (block ++ [[]]) =
  match acc ++ block_data block with
  | [] => ((block_event ev0 block, []), [])
  | d => ((None, []), [parse_event classify (block_event ev0 block) (join_nl d)])
  end.
Proof. exact block_dispatch. Qed.
Print Assumptions c15_block_is_one_event.

(* "each carrying the payload unchanged": the provider frames of ANY chunked run, paired in order with the
   server-sent events of the body.  Terminal marker and payloads that are not JSON (or JSON nested too deep to be
   stored in a frame): raw = the payload = the joined data lines (c15_payload_is_joined_data), code point for code
   point.  JSON: data = canon (parse payload) — the parse of the text as serde_json::Value — and the canonical print
   of data parses back to data.  Hypothesis on the abstract float printer: what it writes is a JSON number. *)
Theorem c15_payload_unchanged :
  forall (A : absfns) (off : N) (cs : list (list N)),
  (forall t t', a_fmt_float A t = Some t' -> num_ok t' = true) ->
  Forall2 (fun (f : frame) (e : pev) =>
     match f with
     | FDelta _ _ => False
     | FProv _ st ev raw data _ _ =>
       st = pe_kind e /\ ev = pe_event e /\
       ((st = 0 /\ raw = Some (pe_raw e) /\ data = None /\ pe_raw e = S_DONE)
        \/ (st = 1 /\ raw = Some (pe_raw e) /\ data = None /\
            (parse_value_of A (pe_raw e) = None
             \/ exists v, parse_value_of A (pe_raw e) = Some v /\ (MAX_PAYLOAD_NESTING < json_depth v)%nat))
        \/ (st = 2 /\ raw = None /\
            exists j v, JsonParse.parse (pe_raw e) = Some j /\ canon A j = Some v /\ data = Some v
                        /\ JsonParse.parse (print v) = Some v))
     end)
    (filter is_prov (frames_of (jclassify A) FIXED off cs))
    (upto_done (events_spec (jclassify A) (lossy_text (concat cs)))).
Proof. exact payload_unchanged. Qed.
Print Assumptions c15_payload_unchanged.

(* one payload classified as an event: value, round trip, nesting bound, delta, errors = validation errors then the
   event-name / type mismatch message *)
Theorem c15_classified_event :
  forall (A : absfns) (ev : option str) (raw : str) (v : json) (errs rerrs : list str) (dl : option str),
  (forall t t', a_fmt_float A t = Some t' -> num_ok t' = true) ->
  jclassify A ev raw = CEvent v errs rerrs dl ->
  (exists j, JsonParse.parse raw = Some j /\ canon A j = Some v)
  /\ JsonParse.parse (print v) = Some v
  /\ (json_depth v <= MAX_PAYLOAD_NESTING)%nat
  /\ dl = text_delta v
  /\ errs = a_vstream A (validation_data A v) ++ name_mismatch ev v
  /\ rerrs = response_errors A v.
Proof. exact jclassify_event. Qed.
Print Assumptions c15_classified_event.

(* one payload kept as text: serde_json refuses it, or it nests deeper than a frame can store *)
Theorem c15_kept_as_text :
  forall (A : absfns) (ev : option str) (raw : str) (errs : list str),
  jclassify A ev raw = CInvalid errs ->
  (parse_value_of A raw = None /\ errs = [a_json_err A raw])
  \/ (exists v, parse_value_of A raw = Some v /\ (MAX_PAYLOAD_NESTING < json_depth v)%nat /\ errs = [nest_msg (json_depth v)]).
Proof. exact jclassify_invalid. Qed.
Print Assumptions c15_kept_as_text.

(* ... and at the level of serde_json::Value: the data of a frame, printed (serde_json::to_string) and read back
   (serde_json::from_str), is the same Value — data is canonical (keys strictly ascending, numbers in the printer's
   spelling).  Second hypothesis on the abstract float printer: its output is a fixpoint of the number normalisation
   ("100.0" is re-spelled "100.0") *)
Theorem c15_value_round_trip :
  forall (A : absfns),
  (forall t t', a_fmt_float A t = Some t' -> num_ok t' = true) ->
  (forall t t', a_fmt_float A t = Some t' -> norm_num A t' = Some t') ->
  forall (ev : option str) (raw : str) (v : json) (errs rerrs : list str) (dl : option str),
  jclassify A ev raw = CEvent v errs rerrs dl -> parse_value_of A (print v) = Some v.
Proof. exact value_round_trip. Qed.
Print Assumptions c15_value_round_trip.

(* strict or compat validation (ValidationOptions): same status, same raw / data, same text delta for every payload —
   the id normalisation only feeds the validators, it never reaches a frame's data *)
Theorem c15_validation_mode_only_errors :
  forall (A B : absfns) (ev : option str) (raw : str),
  (forall r, a_json_err A r = a_json_err B r) /\ (forall t, a_fmt_float A t = a_fmt_float B t) ->
  match jclassify A ev raw, jclassify B ev raw with
  | CInvalid e, CInvalid e' => e = e'
  | CEvent v _ _ d, CEvent v' _ _ d' => v = v' /\ d = d'
  | _, _ => False
  end.
Proof. exact mode_only_errors. Qed.
Print Assumptions c15_validation_mode_only_errors.

(* the parser only builds number tokens it has checked, so every parsed payload prints to JSON *)
Theorem c15_parsed_numbers_ok :
  forall (txt : str) (j : json), JsonParse.parse txt = Some j -> nums_ok j = true.
Proof. exact parse_nums_ok. Qed.
Print Assumptions c15_parsed_numbers_ok.

(* derived output text = concatenation of the provider's text deltas: over the provider frames of any chunked run, in
   order, of the text delta each frame's data holds ... *)
Theorem c15_text_is_concat_of_deltas :
  forall (A : absfns) (off : N) (cs : list (list N)),
  output_text (frames_of (jclassify A) FIXED off cs)
  = concat (map data_delta (filter is_prov (frames_of (jclassify A) FIXED off cs))).
Proof. exact text_is_concat_of_deltas. Qed.
Print Assumptions c15_text_is_concat_of_deltas.

(* ... where the text delta of a value is the `delta` string of an object whose `type` is
   "response.output_text.delta" (the SSE event name plays no part) *)
Theorem c15_text_delta_spec :
  forall (v : json) (d : str),
  text_delta v = Some d <->
  exists kvs, v = JObj kvs /\ assoc S_TYPE kvs = Some (JStr S_OTD) /\ assoc S_DELTA kvs = Some (JStr d).
Proof. exact text_delta_spec. Qed.
Print Assumptions c15_text_delta_spec.

(* the same at event level, for every classification *)
Theorem c15_text_is_concat_of_event_deltas :
  forall (classify : option str -> str -> cls) (off : N) (cs : list (list N)),
  output_text (frames_of classify FIXED off cs)
  = concat (map delta_of (upto_done (events_spec classify (lossy_text (concat cs))))).
Proof. exact text_is_concat_of_event_deltas. Qed.
Print Assumptions c15_text_is_concat_of_event_deltas.

(* the library's own reading of the provider frames (stream_transformers::extract_text_deltas: payload `type`, else
   the frame's event name) gives the same text, provided no payload without a string `type` but with a string `delta`
   arrives under the event name "response.output_text.delta" ... *)
Theorem c15_extractor_agrees :
  forall (A : absfns) (off : N) (cs : list (list N)),
  Forall (fun e => match pe_data e with
                   | Some v => pe_event e = Some S_OTD -> get_str S_TYPE v = None -> get_str S_DELTA v = None
                   | None => True
                   end)
         (upto_done (events_spec (jclassify A) (lossy_text (concat cs)))) ->
  concat (extract_text_deltas (frames_of (jclassify A) FIXED off cs)) = output_text (frames_of (jclassify A) FIXED off cs).
Proof. exact extractor_agrees. Qed.
Print Assumptions c15_extractor_agrees.

(* ... and not otherwise (the helper falls back to the event name, EventFrameMapper does not) *)
Theorem c15_extractor_agrees_unconditional_refuted :
  exists A off cs,
    concat (extract_text_deltas (frames_of (jclassify A) FIXED off cs)) <> output_text (frames_of (jclassify A) FIXED off cs).
Proof. exact extractor_agrees_unconditional_refuted. Qed.
Print Assumptions c15_extractor_agrees_unconditional_refuted.

(* frame numbering continues from the offset without a gap ... *)
Theorem c15_seq_contiguous :
  forall (classify : option str -> str -> cls) (off : N) (cs : list (list N)),
  map fseq (frames_of classify FIXED off cs) = iotaN off (length (frames_of classify FIXED off cs)).
Proof. exact (fun classify off cs => proj1 (run_pipe_shape classify off cs None)). Qed.
Print Assumptions c15_seq_contiguous.

(* ... also when the stream breaks with a transport error, and *seq ends right after the last frame *)
Theorem c15_seq_contiguous_transport_error :
  forall (classify : option str -> str -> cls) (off : N) (cs : list (list N)) (h : str),
  let fs := fst (run_pipe classify FIXED off cs (Some h)) in
  map fseq fs = iotaN off (length fs) /\ snd (run_pipe classify FIXED off cs (Some h)) = off + nlen fs.
Proof. exact (fun classify off cs h => run_pipe_shape classify off cs (Some h)). Qed.
Print Assumptions c15_seq_contiguous_transport_error.

(* the seq numbers are u64 in the code (mapper-local `seq += 1`, `frame.seq += seq_offset`, `*seq += frame_count`),
   unbounded in the model.  No-overflow hypothesis, explicit: while seq_offset + number of frames < 2^64 no addition
   wraps (release build) or panics (overflow checks), i.e. the unbounded model is exact ... *)
Theorem c15_seq_no_wrap :
  forall (classify : option str -> str -> cls) (off : N) (cs : list (list N)) (terr : option str),
  off + nlen (fst (run_pipe classify FIXED off cs terr)) < TWO64 ->
  wrap_run (run_pipe classify FIXED off cs terr) = run_pipe classify FIXED off cs terr
  /\ run_overflows (run_pipe classify FIXED off cs terr) = false.
Proof. exact seq_no_wrap. Qed.
Print Assumptions c15_seq_no_wrap.

(* ... and `*seq += frame_count` overflows exactly when it does not hold *)
Theorem c15_seq_overflow_iff :
  forall (classify : option str -> str -> cls) (off : N) (cs : list (list N)) (terr : option str),
  run_overflows (run_pipe classify FIXED off cs terr) = true
  <-> TWO64 <= off + nlen (fst (run_pipe classify FIXED off cs terr)).
Proof. exact seq_overflow_iff. Qed.
Print Assumptions c15_seq_overflow_iff.

(* T1: the model's rule for one complete line IS the interpreter of the rule table, and the table, the split / trim
   characters and the other source facts are re-read from the Rust source on every run (Gen/SseGen.v:
   gen_sse_decoder_ok, gen_sse_mapper_ok, gen_sse_pipe_ok) *)
Theorem c15_line_rule_is_table :
  forall (classify : option str -> str -> cls) (s : lstate) (l : str),
  line_step classify s l = line_step_gen classify LINE_RULES CR s l.
Proof. exact line_step_is_rules. Qed.
Print Assumptions c15_line_rule_is_table.

(* the SseDecoder alone (library level, text chunks) *)
Theorem c15_decoder_chunk_invariant :
  forall (classify : option str -> str -> cls) (cs1 cs2 : list str),
  concat cs1 = concat cs2 -> run_dec classify cs1 = run_dec classify cs2.
Proof. exact run_dec_concat. Qed.
Print Assumptions c15_decoder_chunk_invariant.

(* UTF-8 carry-over law behind the byte level: decoding a ++ b = decoding a, then (carry-over ++ b) *)
Theorem c15_utf8_carry_over :
  forall a b : list N,
  lossyF (a ++ b) = let '(t1, r1) := lossyF a in let '(t2, r2) := lossyF (r1 ++ b) in (t1 ++ t2, r2).
Proof. exact lossyF_app. Qed.
Print Assumptions c15_utf8_carry_over.

(* lossless on valid input: the lossy decoder inverts the UTF-8 encoder on scalar values *)
Theorem c15_utf8_lossless :
  forall s : list N, forallb is_scalar s = true -> lossyF (encode s) = (s, []).
Proof. exact lossy_encode. Qed.
Print Assumptions c15_utf8_lossless.

(* ... so for a body that is valid UTF-8 (the encoding of a text of scalar values) the byte layer is the identity: the
   frames of any chunking — also one that cuts inside characters — are those of the text's events *)
Theorem c15_valid_utf8_body :
  forall (classify : option str -> str -> cls) (off : N) (text : list N) (cs : list (list N)),
  forallb is_scalar text = true -> concat cs = encode text ->
  frames_of classify FIXED off cs = frames_from off (upto_done (events_spec classify text)).
Proof. exact valid_utf8_body. Qed.
Print Assumptions c15_valid_utf8_body.

(* S11, first half: before the repair an invalid sequence at buffer position 0 lost one byte where
   elsewhere it lost error_len bytes, so the number of U+FFFD depended on the chunk boundary *)
Theorem c15_ffd_at_buffer_start_refuted :
  exists cs1 cs2, concat cs1 = concat cs2 /\ frames_of cls0 UNFIXED 0 cs1 <> frames_of cls0 UNFIXED 0 cs2.
Proof. exact ffd_at_buffer_start_refuted. Qed.
Print Assumptions c15_ffd_at_buffer_start_refuted.

(* S11, second half: events after [DONE] were emitted iff they arrived in the same chunk *)
Theorem c15_after_done_refuted :
  exists cs1 cs2, concat cs1 = concat cs2 /\ frames_of cls0 UNFIXED 0 cs1 <> frames_of cls0 UNFIXED 0 cs2.
Proof. exact after_done_refuted. Qed.
Print Assumptions c15_after_done_refuted.

(* non-vacuity: CRLF, comment, event name, multi-line data, a 3-byte character cut by the chunking,
   an invalid byte, [DONE] and trailing events: three frames whichever way the body is split, and
   the cut after [DONE] really removes something *)
Example c15_demo_nontrivial :
  frames_whole demo_cls 5 demo_body = demo_expected
  /\ frames_of demo_cls FIXED 5 (map (fun b => [b]) demo_body) = demo_expected
  /\ frames_of demo_cls FIXED 5 [firstn 32 demo_body; skipn 32 demo_body] = demo_expected
  /\ events_spec demo_cls (lossy_text demo_body) <> upto_done (events_spec demo_cls (lossy_text demo_body)).
Proof. exact demo_nontrivial. Qed.

(* non-vacuity of the content theorems: CRLF and LF blocks through the instantiated classification — a text delta with
   an escape, keys out of order, a duplicate key, a value over two data lines; a name / type mismatch; a payload that
   is not JSON; a typeless payload under the delta event name; [DONE]; an event after it *)
Example c15_json_demo :
  frames_of (jclassify demoA) FIXED 5 [demo2_body] = demo2_expected
  /\ frames_of (jclassify demoA) FIXED 5 (map (fun b => [b]) demo2_body) = demo2_expected
  /\ output_text demo2_expected = [104; 233]
  /\ Forall2 (carries demoA) (filter is_prov demo2_expected)
       (upto_done (events_spec (jclassify demoA) (lossy_text demo2_body))).
Proof. exact demo2_nontrivial. Qed.

Example c15_demoA_fmt_ok : forall t t', a_fmt_float demoA t = Some t' -> num_ok t' = true.
Proof. exact demoA_fmt_ok. Qed.
Example c15_demoA_fmt_idem : forall t t', a_fmt_float demoA t = Some t' -> norm_num demoA t' = Some t'.
Proof. exact demoA_fmt_idem. Qed.

(* the no-overflow hypothesis is satisfiable at the very top of the range (6 frames from 2^64 - 7), and one more wraps *)
Example c15_seq_top_of_range :
  nlen (fst (top_run (TWO64 - 1 - 6))) = 6
  /\ wrap_run (top_run (TWO64 - 1 - 6)) = top_run (TWO64 - 1 - 6) /\ run_overflows (top_run (TWO64 - 1 - 6)) = false
  /\ run_overflows (top_run (TWO64 - 6)) = true
  /\ wrap_run (top_run (TWO64 - 6)) <> top_run (TWO64 - 6).
Proof. exact seq_top_of_range. Qed.

(* a block with a comment, an event name with blanks around it, an unknown field, data lines with no / many blanks after the
   colon and CR line ends: one event "x\ny" named "e" *)
Example c15_block_demo :
  forallb (fun l => negb (is_blank l)) demo_block = true
  /\ block_data demo_block = [[120]; [121]] /\ block_event None demo_block = Some [101]
  /\ snd (fold_lines cls0 (None, []) (demo_block ++ [[]])) = [parse_event cls0 (Some [101]) [120; 10; 121]].
Proof. exact demo_block_event. Qed.
