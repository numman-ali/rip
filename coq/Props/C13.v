(* C13 — no path argument can reach outside the workspace root.
   Statements only; proofs are in Proofs/PathsProofs.v.  Every theorem is closed by `exact`.
   Path strings are lists of code points; `kresolve cwd p` is where the operating system lands when
   it is handed the string p while the process working directory is cwd (no symbolic links);
   `real_segs raw` are the segments of raw other than '' and '.'. *)
From RipV Require Import Base.Prelude Base.Fs Model.Paths Proofs.PathsProofs Proofs.PathToolsProofs Proofs.PathToolsWitness
  Gen.Resolvers.

(* the resolver of read / write / ls / grep / bash cwd / task cwd and Workspace::safe_join: whatever
   string is accepted lands exactly at <root>/<real segments of the string> — for every root, every
   string and every process working directory *)
Theorem c13_resolver_sound : forall (root raw p : str) (cwd : list str),
  resolve_tool root raw = Ok p -> kresolve cwd p = kresolve cwd root ++ real_segs raw.
Proof. exact resolver_sound. Qed.
Print Assumptions c13_resolver_sound.

Theorem c13_resolver_under : forall (root raw p : str) (cwd : list str),
  resolve_tool root raw = Ok p -> under cwd root p.
Proof. exact resolver_under. Qed.
Print Assumptions c13_resolver_under.

(* absolute strings and strings with a parent-directory segment are refused ... *)
Theorem c13_resolver_refuses : forall (root raw : str),
  is_absolute raw = true \/ has_parent raw = true ->
  resolve_tool root raw = Err V_ABS \/ resolve_tool root raw = Err V_PARENT.
Proof. exact resolver_refuses. Qed.
Print Assumptions c13_resolver_refuses.

(* ... and nothing else is *)
Theorem c13_resolver_accepts : forall (root raw : str),
  is_absolute raw = false -> has_parent raw = false -> resolve_tool root raw = Ok (join root raw).
Proof. exact resolver_accepts. Qed.
Print Assumptions c13_resolver_accepts.

(* patch headers (Add / Delete / Update / Move to) as the apply_patch tool uses them *)
Theorem c13_patch_header_sound : forall (root raw p : str) (cwd : list str),
  patch_target root raw = Ok p -> kresolve cwd p = kresolve cwd root ++ real_segs (trim raw).
Proof. exact patch_target_sound. Qed.
Print Assumptions c13_patch_header_sound.

Theorem c13_patch_header_refuses : forall (raw : str),
  trim raw = [] \/ is_absolute (trim raw) = true \/ has_parent (trim raw) = true ->
  exists e, parse_rel_path raw = Err e.
Proof. exact patch_refuses. Qed.
Print Assumptions c13_patch_header_refuses.

(* checkpoint create / rewind (as repaired): the string recorded for a requested path is relative
   and free of `..`; the path create probes and reads and the path rewind writes or deletes are the
   same string, it lands below the root whatever the process working directory is, and so does the
   copy inside the checkpoint store *)
Theorem c13_checkpoint_recorded_path_guarded : forall (root raw rel : str),
  to_relative root raw = Ok rel -> is_absolute rel = false /\ has_parent rel = false.
Proof. exact to_relative_ok. Qed.
Print Assumptions c13_checkpoint_recorded_path_guarded.

Theorem c13_checkpoint_paths_confined : forall (root raw rel : str) (cwd : list str),
  to_relative root raw = Ok rel ->
  under cwd root (probe_path root rel) /\ under cwd root (restore_path root rel)
  /\ probe_path root rel = restore_path root rel.
Proof. exact checkpoint_paths_confined. Qed.
Print Assumptions c13_checkpoint_paths_confined.

Theorem c13_checkpoint_store_copy_confined : forall (root raw rel files_root : str) (cwd : list str),
  to_relative root raw = Ok rel -> under cwd files_root (join files_root rel).
Proof. exact store_copy_confined. Qed.
Print Assumptions c13_checkpoint_store_copy_confined.

(* `..` is refused by checkpoint create whether the string is relative or absolute (a root without `..`) *)
Theorem c13_checkpoint_refuses_parent : forall (root raw : str),
  is_absolute root = true -> has_parent root = false -> has_parent raw = true ->
  to_relative root raw = Err V_PARENT \/ to_relative root raw = Err V_OUTSIDE.
Proof. exact to_relative_refuses_parent. Qed.
Print Assumptions c13_checkpoint_refuses_parent.

(* a relative string: refused iff it has `..`; otherwise recorded under a name with the same real
   segments, i.e. the very file the file tools address for that string *)
Theorem c13_checkpoint_relative : forall (root raw : str),
  is_absolute root = true -> is_absolute raw = false ->
  (has_parent raw = true -> to_relative root raw = Err V_PARENT)
  /\ (has_parent raw = false -> exists rel, to_relative root raw = Ok rel /\ real_segs rel = real_segs raw).
Proof. exact to_relative_relative. Qed.
Print Assumptions c13_checkpoint_relative.

(* the auto-checkpoint taken before `write` / `apply_patch` (as repaired): a request the tool refuses
   is refused before anything is handed to the checkpoint store *)
Theorem c13_refused_write_reaches_no_store : forall (root raw : str) (e : N),
  resolve_tool root raw = Err e -> auto_write_paths raw = Err e.
Proof. exact auto_write_refused_before_store. Qed.
Print Assumptions c13_refused_write_reaches_no_store.

Theorem c13_refused_patch_reaches_no_store : forall (root raw : str) (e : N),
  patch_target root raw = Err e -> parse_rel_path raw = Err e.
Proof. exact auto_patch_refused_before_store. Qed.
Print Assumptions c13_refused_patch_reaches_no_store.

(* tie T1: the resolvers are interpreted from STEP LISTS; tools/gen/resolvers.py reads the lists from /repo's
   source on every run (Gen/Resolvers.v).  For every source whose lists are well-formed: the three tool / task /
   safe_join resolvers (ids 1-3) are sound, parse_rel_path (4) yields a trimmed string that passes them,
   to_relative (5) yields a string that passes them and lands below the root, and the auto-checkpoint's write
   guard (6) refuses whatever the tool refuses *)
Theorem c13_generated_resolvers_sound : forall (found : bool) (st ord : list (N * list N)),
  resolvers_wf found st ord = true ->
  forall (root raw p : str) (cwd : list str),
    (interp (steps_of st 1) root raw = Ok p \/ interp (steps_of st 2) root raw = Ok p \/ interp (steps_of st 3) root raw = Ok p ->
       kresolve cwd p = kresolve cwd root ++ real_segs raw)
    /\ (interp (steps_of st 4) root raw = Ok p -> resolve_tool root p = Ok (join root p) /\ p = trim raw)
    /\ (interp (steps_of st 5) root raw = Ok p ->
          resolve_tool root p = Ok (restore_path root p) /\ kresolve cwd (restore_path root p) = kresolve cwd root ++ real_segs p)
    /\ (forall e, resolve_tool root raw = Err e -> interp (steps_of st 6) root raw = Err e).
Proof. exact generated_resolvers_sound. Qed.
Print Assumptions c13_generated_resolvers_sound.

(* the lists read from /repo's working tree on this run are well-formed; so are the order facts: create_checkpoint
   relativises and joins to the root before it touches the store and probes / reads only the joined path, rewind
   joins the recorded path to the root, every path-taking tool resolves its argument before its first
   file-system or process use, and there is no builtin module the extractor does not know *)
Theorem c13_repo_resolvers_wf : resolvers_wf gen_resolvers_found gen_resolver_steps gen_path_orders = true.
Proof. exact gen_resolvers_ok. Qed.
Print Assumptions c13_repo_resolvers_wf.

(* the behaviour before the repairs (S10): the relativised string kept `..`, so rewind's
   `root.join(rel)` left the root *)
Theorem c13_to_relative_unfixed_refuted :
  exists root raw rel, to_relative_unfixed root raw = Ok rel /\ underb [] root (restore_path root rel) = false.
Proof. exact to_relative_unfixed_refuted. Qed.
Print Assumptions c13_to_relative_unfixed_refuted.

(* ... create probed the raw string (process cwd) while rewind restored root.join(rel) ... *)
Theorem c13_probe_unfixed_cwd_refuted :
  exists cwd root raw rel, is_absolute raw = false /\ has_parent raw = false
    /\ to_relative_unfixed root raw = Ok rel
    /\ kresolve cwd (probe_path_unfixed root raw) <> kresolve cwd (restore_path root rel).
Proof. exact probe_unfixed_cwd_refuted. Qed.
Print Assumptions c13_probe_unfixed_cwd_refuted.

(* ... and the auto-checkpoint stored a path the tool then refused *)
Theorem c13_auto_write_unfixed_refuted :
  exists root raw rel e, auto_write_paths_unfixed raw = Ok raw /\ to_relative root raw = Ok rel
    /\ resolve_tool root raw = Err e.
Proof. exact auto_write_unfixed_refuted. Qed.
Print Assumptions c13_auto_write_unfixed_refuted.

(* ---------- what the tools do with the resolved path ----------
   `tool_run progs t ex root raw ext names` = the verdict and every (operation, path string) a path-taking tool hands to
   the operating system: read, write (append / atomic with its temporary file / plain), ls and grep (the walk and every
   entry `names` below it), the working directory of the bash tool and of pipes / pty tasks with and without a cwd
   argument, the four patch headers of apply_patch incl. its undo, checkpoint create (source side) and rewind (snapshot,
   restore, undo).  The programs are (operation, derivation) lists READ FROM THE SOURCE (Gen/Resolvers.v); `ex` says which
   path strings exist (create_dir_all walks up to the first existing ancestor; the workspace root exists).
   For every tool, every root without `..`, every string, every process working directory: a refused request makes no
   access at all, and every access of an accepted one lands at or below the workspace root.  The one hypothesis is about
   std's Path::with_extension (the atomic write's temporary file), which is NOT confined for every file name - see
   c13_write_tmp_dotdot_refuted - and is discharged by c13_write_tmp_confined for every string that ends with its file
   name (`inside R q`: q is absolute, free of `..`, and its real segments extend R). *)
Theorem c13_tools_confined : forall (t : tool) (ex : str -> bool) (root raw ext : str) (names : list str) (cwd : list str)
    (found : bool) (progs : list (N * list (N * N))) (v : N) (accs : list (N * str)),
  tools_wf found progs = true ->
  is_absolute root = true -> has_parent root = false ->
  (forall s, is_absolute s = true -> has_parent s = false -> real_segs s = real_segs root -> ex s = true) ->
  forallb proper_name names = true ->
  (forall p, tool_path t root raw = Ok p -> real_segs p <> real_segs root ->
     inside (real_segs root) (with_extension p ext)) ->
  tool_run progs t ex root raw ext names = (v, accs) ->
  (v <> 0 -> accs = []) /\ (forall o q, In (o, q) accs -> under cwd root q).
Proof. exact tools_confined. Qed.
Print Assumptions c13_tools_confined.

(* the temporary file of an atomic write to `d ++ name` (d empty or a directory text ending in '/'; name a file name
   other than `..x`): next to the target, below the root *)
Theorem c13_write_tmp_confined : forall (root d name ext : str),
  is_absolute root = true -> has_parent root = false -> no_sep root = false ->
  is_absolute d = false -> has_parent d = false -> (d = [] \/ exists dir, d = dir ++ [47]) ->
  proper_name name = true -> tmp_safe name = true -> ext <> [] -> ~ In 47 ext ->
  inside (real_segs root) (with_extension (join root (d ++ name)) ext).
Proof. exact (fun root d name ext Ha Hn _ => write_tmp_inside root d name ext Ha Hn). Qed.
Print Assumptions c13_write_tmp_confined.

(* Path::parent and the create_dir_all chain, entries of a walk: where they land *)
Theorem c13_parent_lands_above : forall (q q' : str),
  is_absolute q = true -> parent q = Some q' -> is_absolute q' = true /\ real_segs q' = removelast (real_segs q).
Proof. exact parent_spec. Qed.
Print Assumptions c13_parent_lands_above.

Theorem c13_walk_entries_below : forall (names : list str) (q : str),
  is_absolute q = true -> has_parent q = false -> forallb proper_name names = true ->
  is_absolute (descend q names) = true /\ has_parent (descend q names) = false
  /\ real_segs (descend q names) = real_segs q ++ names.
Proof. exact descend_props. Qed.
Print Assumptions c13_walk_entries_below.

(* tie T1: the (operation, derivation) list of every path-taking function as read from /repo on this run: every
   file-system / process call takes the resolver's result, its parent behind the stated check, its with_extension, an
   entry of the walk started at it, or (no cwd argument) the workspace root - nothing else *)
Theorem c13_repo_tools_wf : tools_wf gen_tools_found gen_tool_progs = true.
Proof. exact gen_tools_ok. Qed.
Print Assumptions c13_repo_tools_wf.

(* the write tool before 0a47111 (S10b): the parent chain / temporary file of '' '.' './' lie next to the root *)
Theorem c13_write_unguarded_refuted :
  exists raw o q, In (o, q) (snd (tool_run_unguarded expected_progs TWrite t_ex t_root raw t_ext t_names))
    /\ underb [] t_root q = false.
Proof. exact write_unguarded_refuted. Qed.
Print Assumptions c13_write_unguarded_refuted.

(* std's with_extension on a file name `..x`: the "temporary file" is the directory above (an open that always fails
   with EISDIR; replayed on the real tool: "write failed", nothing created or changed) - why c13_tools_confined carries
   its hypothesis *)
Theorem c13_write_tmp_dotdot_refuted :
  exists raw o q, tool_refuses_dir TWrite raw = false
    /\ In (o, q) (snd (tool_run expected_progs TWrite t_ex t_root raw t_ext t_names))
    /\ underb [] t_root q = false /\ tmp_safe raw = false.
Proof. exact write_tmp_dotdot_refuted. Qed.
Print Assumptions c13_write_tmp_dotdot_refuted.

(* the hypotheses are satisfiable *)
Example c13_ex_resolve : resolve_tool w_root w_dotted = Ok w_dotted_abs.
Proof. exact ex_resolve. Qed.
Example c13_ex_patch : patch_target w_root w_header = Ok w_header_abs.
Proof. exact ex_patch. Qed.
Example c13_ex_to_relative : to_relative w_root w_messy_abs = Ok w_dotted.
Proof. exact ex_to_relative. Qed.
Example c13_ex_fixed_refuses_witnesses :
  to_relative w_root w_up = Err V_PARENT /\ to_relative w_root w_abs_up = Err V_PARENT
  /\ to_relative w_root w_plain = Ok w_plain /\ to_relative w_root w_abs_in = Ok w_plain.
Proof. exact to_relative_fixed_on_witnesses. Qed.
Example c13_ex_tool_write : tool_run expected_progs TWrite t_ex t_root t_raw t_ext t_names = (0, t_write_accs).
Proof. exact ex_write_run. Qed.
Example c13_ex_tool_grep : tool_run expected_progs TGrep t_ex t_root t_dir t_ext t_names = (0, t_grep_accs).
Proof. exact ex_grep_run. Qed.
Example c13_ex_tool_refused : tool_run expected_progs TWrite t_ex t_root t_up t_ext t_names = (V_PARENT, [])
  /\ tool_run expected_progs TWrite t_ex t_root t_dotslash t_ext t_names = (V_NOFILE, [])
  /\ tool_run expected_progs TCwdDefault t_ex t_root [] t_ext t_names = (0, [(9, t_root)]).
Proof. exact ex_refused_run. Qed.
Example c13_ex_tool_hyps : is_absolute t_root = true /\ has_parent t_root = false /\ no_sep t_root = false
  /\ forallb proper_name t_names = true /\ t_ext <> [] /\ ~ In 47 t_ext
  /\ proper_name t_name = true /\ tmp_safe t_name = true.
Proof. exact ex_hyps. Qed.
