(* C14 — rewind restores exactly the checkpointed files from any later state.
   Statements only; proofs are in Proofs/CheckpointProofs.v.  Every theorem is closed by `exact`.
   The workspace is a Base/Fs.v file system whose top directory is the workspace root; `create` and
   `rewind` are the model of Workspace::create_checkpoint / rewind_to_checkpoint as repaired (abf09af);
   `tgt_of rel` is the OS-level target <root>/<rel>, `key rel` its component list;
   `sane_b f` (decidable; evaluated on every observed workspace by the correspondence) says every
   file of f is reachable through directories — true of every real tree. *)
From RipV Require Import Base.Prelude Base.Fs Model.Paths Model.Checkpoint Proofs.PathsProofs Proofs.CheckpointProofs
  Proofs.AutoCoverProofs Proofs.CheckpointMultiProofs Proofs.AutoPatchProofs Gen.AutoCover
  Model.ToolDispatch Proofs.ToolDispatchProofs Gen.ToolNames Model.StampReuse Proofs.StampReuseProofs.
From RipV Require Model.Patch.
Require Import Coq.Strings.String.

(* For every workspace f, every list of requested path strings, EVERY later workspace f2 (whatever
   happened in between) : if rewind succeeds then every covered path that was a file is readable with
   exactly the bytes it had when the checkpoint was taken, every covered path that did not exist holds
   no file, and no uncovered file changed. *)
Theorem c14_rewind_exact : forall (f : fs) (root : str) (raws : list str) (ck : list entry) (f2 f3 : fs),
  create f root raws = Ok ck -> sane_b f2 = true -> rewind f2 ck = (f3, None) ->
  (forall rel saved, In (rel, saved) ck ->
     match saved with
     | Some b => os_read f (tgt_of rel) = Ok b /\ os_read f3 (tgt_of rel) = Ok b
     | None => os_exists f (tgt_of rel) = false /\ file_at f3 (key rel) = None
     end)
  /\ (forall q, (forall rel saved, In (rel, saved) ck -> key rel <> q) -> file_at f3 q = file_at f2 q).
Proof. exact (fun f root raws ck f2 f3 Hc Hs => rewind_exact f root raws ck f2 f3 Hc (sane_b_sound f2 Hs)). Qed.
Print Assumptions c14_rewind_exact.

(* every requested path is covered, under a recorded name that is relative, free of `..`, and lands
   below the root (C13) *)
Theorem c14_create_covers_requested : forall (f : fs) (root : str) (raws : list str) (ck : list entry),
  create f root raws = Ok ck ->
  forall raw, In raw raws -> exists rel saved, to_relative root raw = Ok rel /\ In (rel, saved) ck.
Proof. exact create_covers. Qed.
Print Assumptions c14_create_covers_requested.

(* the auto-checkpoint taken before `write` (resp. `apply_patch`, per header path) is not refused for a
   request the tool accepts, and covers exactly the file the tool addresses: the recorded name has the
   real segments of the tool's target below the root *)
Theorem c14_auto_covers_write : forall (root raw p : str) (cwd : list str),
  is_absolute root = true -> resolve_tool root raw = Ok p ->
  exists rel, auto_write_paths raw = Ok raw /\ to_relative root raw = Ok rel
    /\ real_segs rel = real_segs raw /\ kresolve cwd p = kresolve cwd root ++ real_segs rel.
Proof. exact auto_write_covers. Qed.
Print Assumptions c14_auto_covers_write.

Theorem c14_auto_covers_patch_header : forall (root raw p : str) (cwd : list str),
  is_absolute root = true -> patch_target root raw = Ok p ->
  exists t rel, parse_rel_path raw = Ok t /\ to_relative root t = Ok rel
    /\ real_segs rel = real_segs t /\ kresolve cwd p = kresolve cwd root ++ real_segs rel.
Proof. exact auto_patch_covers. Qed.
Print Assumptions c14_auto_covers_patch_header.

(* two recorded names for the same file carry the same recorded state (aliases such as d/x and d/./x) *)
Theorem c14_checkpoint_consistent : forall (f : fs) (root : str) (raws : list str) (ck : list entry),
  create f root raws = Ok ck -> consistent ck.
Proof. exact create_consistent. Qed.
Print Assumptions c14_checkpoint_consistent.

(* a rewind that fails — at ANY step, for whatever reason the model's file system can fail: a covered
   path or one of its ancestors replaced by a directory / a file, a name too long — leaves every file
   of the workspace, covered or not, with the bytes (or the absence) it had before the rewind
   (directories created on the way are not removed) *)
Theorem c14_rewind_failure_restores : forall (f : fs) (root : str) (raws : list str) (ck : list entry) (f2 f3 : fs) (e : N),
  create f root raws = Ok ck -> sane_b f = true -> sane_b f2 = true -> rewind f2 ck = (f3, Some e) ->
  forall q, file_at f3 q = file_at f2 q.
Proof. exact (fun f root raws ck f2 f3 e Hc Hs Hs2 Hr => proj2 (rewind_outcome f root raws ck f2 f3 (Some e) Hc (sane_b_sound f Hs) (sane_b_sound f2 Hs2) Hr)). Qed.
Print Assumptions c14_rewind_failure_restores.

(* a rewind that cannot even snapshot the current state (a covered path is now a directory) changes nothing *)
Theorem c14_rewind_snapshot_error_changes_nothing : forall (f : fs) (ck : list entry) (e : N),
  map_res (save_one f) (map fst ck) = Err e -> rewind f ck = (f, Some e).
Proof. exact rewind_snapshot_error. Qed.
Print Assumptions c14_rewind_snapshot_error_changes_nothing.

(* the behaviour before the repair (S10, second half): existence was probed in the process working
   directory; a file of the root that the cwd does not have was recorded as absent and rewind deleted it *)
Theorem c14_probe_unfixed_refuted :
  exists root raw rel (f fcwd : fs) b f3,
    to_relative_unfixed root raw = Ok rel /\ save_one_unfixed fcwd raw rel = Ok (rel, None)
    /\ file_at f (key rel) = Some b /\ rewind f [(rel, None)] = (f3, None) /\ file_at f3 (key rel) = None.
Proof. exact probe_unfixed_refuted. Qed.
Print Assumptions c14_probe_unfixed_refuted.

(* ---------- "an automatic checkpoint ... covers every file that tool can change, so an edit can always be undone" ----------
   `tree_b f` / `nonul_b f` (decidable; evaluated on observed workspaces): every entry of the listing is reachable
   through directories and no name holds a NUL byte - true of every real tree. *)

(* ANY edit that changes only covered files (it may also create directories) can be undone: from the edited
   workspace f' the rewind SUCCEEDS and every file, covered or not, has again the bytes / the absence it had when
   the checkpoint was taken.  (What the tool has to guarantee is exactly the three hypotheses about f'.) *)
Theorem c14_covered_edit_undone : forall (f : fs) (root : str) (raws : list str) (ck : list entry) (f' : fs),
  create f root raws = Ok ck -> tree_b f = true -> nonul_b f = true -> sane_b f' = true ->
  (forall r, lookup f r = Some Dir -> lookup f' r = Some Dir) ->
  (forall rel saved, In (rel, saved) ck -> lookup f' (key rel) <> Some Dir) ->
  (forall q, (forall rel saved, In (rel, saved) ck -> key rel <> q) -> file_at f' q = file_at f q) ->
  exists f2, rewind f' ck = (f2, None) /\ forall q, file_at f2 q = file_at f q.
Proof. exact covered_edit_undone. Qed.
Print Assumptions c14_covered_edit_undone.

(* The write tool (run_write: resolve_path, the `file_name` refusal, create_dir_all of the parent, then append /
   temporary file + remove + rename / plain write, with every error branch) changes no file but the one its
   argument names, creates directories only, and never turns the named path into a directory - for every
   workspace, argument string, mode, content, and whether the call succeeds or fails.  In atomic mode (0) the
   name of the temporary file, `with_extension(ext)` as std computes it, must not be taken. *)
Theorem c14_write_changes_only_its_target : forall (f : fs) (raw ext : str) (mode : N) (data : bytes) (f' : fs) (er : option N),
  write_tool expected_tool_steps f raw ext mode data = (f', er) -> sane_b f = true ->
  (mode = 0 -> lookup f (t_path (tmp_tgt raw ext)) = None) ->
  (forall p b, lookup f' p = Some (File b) -> dirs_ok f' [] p = None)      (* every file of f' is reachable *)
  /\ (forall r, lookup f r = Some Dir -> lookup f' r = Some Dir)
  /\ (lookup f' (t_path (mk_tgt [] raw)) = Some Dir -> lookup f (t_path (mk_tgt [] raw)) = Some Dir)
  /\ (forall q, q <> t_path (mk_tgt [] raw) -> file_at f' q = file_at f q).
Proof. exact (fun f raw ext mode data f' er H Hs => write_tool_effect f raw ext mode data f' er H (sane_b_sound f Hs)). Qed.
Print Assumptions c14_write_changes_only_its_target.

(* The two together, for EVERY extraction that passes cover_wf: the step lists of the tool's resolver and of the
   checkpoint's files_for_invocation, the way the temporary name is made and the file-system program of run_write
   (all read from /repo on every run, tools/gen/autocover.py).  Whatever `write` is asked, when it returns, either
   ToolRunner took an automatic checkpoint before the call - then rewinding to it succeeds and EVERY file of the
   workspace (named by the call or not) is as it was before the call - or no checkpoint could be taken (argument
   refused / names a directory) and then the call has not changed any file. *)
Theorem c14_auto_write_undone : forall (found : bool) (ts as_ : list N) (tk : N) (prog : list (N * N)),
  cover_wf found ts as_ tk prog = true ->
  forall (f : fs) (root raw ext : str) (mode : N) (data : bytes) (f' : fs) (er : option N),
  is_absolute root = true -> tree_b f = true -> nonul_b f = true ->
  (mode = 0 -> forall x, arg_interp ts raw = Ok x -> lookup f (t_path (tmp_tgt x ext)) = None) ->
  write_tool ts f raw ext mode data = (f', er) ->
  match auto_checkpoint as_ f root raw with
  | Some ck => exists f2, rewind f' ck = (f2, None) /\ forall q, file_at f2 q = file_at f q
  | None => forall q, file_at f' q = file_at f q
  end.
Proof. exact (fun found ts as_ tk prog W f root raw ext mode data f' er Hr Ht Hn => auto_write_undone found ts as_ tk prog W f root raw ext mode data f' er Hr (tree_b_sound f Ht) (nonul_b_sound f Hn)). Qed.
Print Assumptions c14_auto_write_undone.

(* this run's /repo passes (generated obligation Gen/AutoCover.v gen_cover_ok) *)
Theorem c14_repo_auto_cover_wf :
  cover_wf gen_cover_found gen_tool_steps gen_auto_steps gen_tmp_kind gen_write_prog = true.
Proof. exact gen_cover_ok. Qed.
Print Assumptions c14_repo_auto_cover_wf.

(* apply_patch is not modelled beyond its paths; what ties it to c14_covered_edit_undone is read from /repo on every
   run: the auto checkpoint gets Patch::affected_paths, which pushes the path of every AddFile / DeleteFile / UpdateFile
   and the destination of every move, PatchOp has no other variant, and every file-system call of
   Workspace::apply_patch and of its undo is on a path derived from safe_join of one of these (plus the undo-by-effect
   oracle on the real tool) *)
Theorem c14_repo_patch_wf : patch_wf gen_patch_variants_ok gen_patch_cover gen_patch_progs = true.
Proof. exact gen_patch_ok. Qed.
Print Assumptions c14_repo_patch_wf.

(* apply_patch on the model of C12 (Model/Patch.v: parser, hunks, exec / run with the undo list, rollback - tied to
   the real Workspace::apply_patch by C12's correspondence).  For EVERY workspace and every operation list whose paths
   passed the parser's guards (relative, no `..`): if no affected path lies strictly below another affected path (one
   that is not a directory of the workspace), the checkpoint of Patch::affected_paths - what files_for_invocation hands
   to the store - undoes a successful apply completely: the rewind succeeds and every file of the workspace is as
   before the call.  (A failed apply changes no file: C12's c12_atomic.) *)
Theorem c14_auto_patch_undone_partial : forall (f : fs) (root : str) (ops : list Patch.op) (g : fs) (c : list (list N)) (ck : list entry),
  is_absolute root = true -> tree_b f = true -> nonul_b f = true ->
  (forall p, In p (Patch.affected_paths ops) -> is_absolute p = false /\ has_parent p = false) ->
  (forall p q, In p (Patch.affected_paths ops) -> In q (Patch.affected_paths ops) ->
     (exists s, comps q = comps p ++ s /\ comps p <> [] /\ s <> []) -> lookup f (comps p) = Some Dir) ->
  create f root (Patch.affected_paths ops) = Ok ck ->
  Patch.apply_ops true [] f ops = Patch.Applied g c ->
  exists f2, rewind g ck = (f2, None) /\ forall q, file_at f2 q = file_at f q.
Proof. exact (fun f root ops g c ck Hr Ht Hn => auto_patch_undone f root ops g c ck Hr (tree_b_sound f Ht) (nonul_b_sound f Hn)). Qed.
Print Assumptions c14_auto_patch_undone_partial.

(* the same for a patch TEXT: every path the parser accepts is relative and free of `..` (parse_rel_path), so the
   hypothesis about the paths is discharged: whatever text apply_patch accepts and applies *)
Theorem c14_auto_patch_text_undone_partial : forall (f : fs) (root : str) (text : list N) (g : fs) (c : list (list N)) (ck : list entry),
  is_absolute root = true -> tree_b f = true -> nonul_b f = true ->
  forall ops, Patch.parse_patch text = Some ops ->
  (forall p q, In p (Patch.affected_paths ops) -> In q (Patch.affected_paths ops) ->
     (exists s, comps q = comps p ++ s /\ comps p <> [] /\ s <> []) -> lookup f (comps p) = Some Dir) ->
  create f root (Patch.affected_paths ops) = Ok ck ->
  Patch.apply_patch true [] f text = Patch.Applied g c ->
  exists f2, rewind g ck = (f2, None) /\ forall q, file_at f2 q = file_at f q.
Proof. exact auto_patch_text_undone. Qed.
Print Assumptions c14_auto_patch_text_undone_partial.

(* the other half of the dichotomy: when the checkpoint of the affected paths CANNOT be taken (for a parsed patch
   that is only possible because an affected path is a directory), the patch does not apply - and a patch that does
   not apply changes no file (C12's atomicity).  `Patch.wf_fsb` = C12's decidable tree well-formedness. *)
Theorem c14_auto_patch_no_checkpoint_no_change : forall (f : fs) (root : str) (text : list N) (ops : list Patch.op) (e : N),
  is_absolute root = true -> Patch.wf_fsb f = true -> Patch.parse_patch text = Some ops ->
  create f root (Patch.affected_paths ops) = Err e ->
  exists g e', Patch.apply_patch true [] f text = Patch.Failed g e' /\ forall q, file_at g q = file_at f q.
Proof. exact auto_patch_text_no_checkpoint. Qed.
Print Assumptions c14_auto_patch_no_checkpoint_no_change.

(* the full statement (no hypothesis on nesting) is FALSE of the model and of the code - OPEN finding S10j *)
Definition c14_auto_patch_undone_full : Prop :=
  forall (f : fs) (root : str) (ops : list Patch.op) (g : fs) (c : list (list N)) (ck : list entry),
  is_absolute root = true -> tree_b f = true -> nonul_b f = true ->
  (forall p, In p (Patch.affected_paths ops) -> is_absolute p = false /\ has_parent p = false) ->
  create f root (Patch.affected_paths ops) = Ok ck ->
  Patch.apply_ops true [] f ops = Patch.Applied g c ->
  exists f2, rewind g ck = (f2, None) /\ forall q, file_at f2 q = file_at f q.

(* `*** Delete File: a.txt` + `*** Add File: a.txt/x.txt`: the patch applies, a.txt is a directory afterwards, and the
   rewind to the checkpoint of its affected paths fails (EISDIR while it snapshots a.txt) - the edit cannot be undone.
   Replayed on the real ToolRunner + hook: corpus/C14/s10j_patch_dir_at_covered_file.json, KNOWN_FINDINGS S10j (open). *)
Theorem c14_auto_patch_dir_refuted :
  exists f root text g c ck e,
    tree_b f = true /\ nonul_b f = true
    /\ Patch.apply_patch true [] f text = Patch.Applied g c
    /\ (exists ops, Patch.parse_patch text = Some ops /\ create f root (Patch.affected_paths ops) = Ok ck)
    /\ rewind g ck = (g, Some e) /\ g <> f.
Proof. exact auto_patch_dir_refuted. Qed.
Print Assumptions c14_auto_patch_dir_refuted.

(* the hypotheses of c14_auto_patch_undone_partial are satisfiable: add under new directories + delete *)
Example c14_ex_auto_patch_undone :
  tree_b k_ws = true /\ nonul_b k_ws = true
  /\ exists ck g c f2, create k_ws j_root (Patch.affected_paths k_ops) = Ok ck
       /\ Patch.apply_ops true [] k_ws k_ops = Patch.Applied g c
       /\ file_at g [k_b] = None /\ rewind g ck = (f2, None) /\ file_at f2 [k_b] = Some (bs "bee"%string).
Proof. exact ex_auto_patch_undone. Qed.

(* a tool-side resolver that trims its argument while the checkpoint side takes it literally (seeded change C14-4):
   `write "notes.txt "` checkpoints the absent "notes.txt ", edits notes.txt, and the rewind succeeds without
   undoing the edit *)
Theorem c14_auto_cover_trim_refuted :
  exists ts f root raw ext mode data ck f' f2 q,
    ts <> expected_tool_steps
    /\ tree_b f = true /\ nonul_b f = true
    /\ auto_checkpoint expected_auto_steps f root raw = Some ck
    /\ write_tool ts f raw ext mode data = (f', None)
    /\ rewind f' ck = (f2, None) /\ file_at f2 q <> file_at f q.
Proof. exact auto_cover_trim_refuted. Qed.
Print Assumptions c14_auto_cover_trim_refuted.

(* a fixed temporary name (`with_extension("tmp")`, seeded change C14-6): the hypothesis "the name is not taken"
   cannot be assumed; with a sibling report.tmp the write of report.txt destroys it and the rewind cannot bring it back *)
Theorem c14_fixed_tmp_refuted :
  exists f root raw data ck f' f2 q,
    tree_b f = true /\ nonul_b f = true
    /\ auto_checkpoint expected_auto_steps f root raw = Some ck
    /\ write_tool expected_tool_steps f raw x_tmp_ext 0 data = (f', None)
    /\ rewind f' ck = (f2, None) /\ file_at f2 q <> file_at f q.
Proof. exact fixed_tmp_refuted. Qed.
Print Assumptions c14_fixed_tmp_refuted.

(* the hypotheses of c14_auto_write_undone are satisfiable: the same call with the uuid-suffixed name *)
Example c14_ex_auto_write_undone :
  tree_b x_ws6 = true /\ nonul_b x_ws6 = true
  /\ lookup x_ws6 (t_path (tmp_tgt x_report corr_ext)) = None
  /\ auto_checkpoint expected_auto_steps x_ws6 x_root x_report = Some x_ck6
  /\ exists f', write_tool expected_tool_steps x_ws6 x_report corr_ext 0 x_data = (f', None)
                /\ file_at f' [x_report] = Some x_data /\ rewind f' x_ck6 = (x_ws6, None).
Proof. exact ex_auto_write_undone. Qed.

(* ---------- "before EVERY file-editing tool runs": the NAME of the invocation ----------
   ToolRunner::run decides the automatic checkpoint from the invocation's name (files_for_invocation: a match on name
   literals, every other name: no checkpoint) and finds the handler through ToolRegistry::get, which resolves aliases
   (register_alias) - two tables.  `registry` (Model/ToolDispatch.v) holds both as data: registered name -> handler
   kind (0 reads only, 2 spawns a process, 11 the write tool, 12 apply_patch), alias -> target, name literal -> arm kind;
   `handler_of` = ToolRegistry::get (a registered name, else ONE level of alias), `arm_of` = the arm the name reaches,
   `run_tool` = emit_checkpoint_events by name, then the handler (arguments of another tool's shape: `invalid args`).
   `dispatch_wf` is decidable; this run's /repo passes it (tools/gen/toolnames.py reads register_builtin_tools, every
   handler's module, ToolRegistry::get and the arms of files_for_invocation). *)

(* under a well-formed registry every name - registered or alias - that reaches an editing handler reaches the
   checkpoint arm of that very handler *)
Theorem c14_editing_name_has_arm : forall (dfound : bool) (r : registry) (name : str) (k : N),
  dispatch_wf dfound r = true -> handler_of r name = Some k ->
  known_kind k = true /\ (edits k = true -> arm_of r name = Some k).
Proof. exact (fun dfound r name k W => editing_name_has_arm r name k (dispatch_wf_registry dfound r W)). Qed.
Print Assumptions c14_editing_name_has_arm.

(* EVERY invocation that edits - whatever name it came under, whatever argument (any write request in any mode, any
   patch text) - is preceded by an automatic checkpoint, and rewinding to that checkpoint succeeds and gives back
   EVERY file of the workspace: for every well-formed pair of tables and every extraction passing cover_wf.
   `arg_ok`: the temporary name of an atomic write is not taken (Uuid::new_v4); no affected path of a patch lies
   strictly below another one that is not a directory (without it: open finding S10j, c14_auto_patch_dir_refuted).
   The shell is excluded (what a command does is not a function of the tool's arguments). *)
Theorem c14_every_name_checkpointed :
  forall (dfound : bool) (r : registry) (found : bool) (ts as_ : list N) (tk : N) (prog : list (N * N)),
  dispatch_wf dfound r = true -> cover_wf found ts as_ tk prog = true ->
  forall (f : fs) (root name : str) (a : targ) (ck : option (list entry)) (f' : fs),
  is_absolute root = true -> tree_b f = true -> nonul_b f = true -> Patch.wf_fsb f = true ->
  arg_ok ts f a -> handler_of r name <> Some K_PROCESS ->
  run_tool r ts as_ f root name a = (ck, f') ->
  forall q, file_at f' q <> file_at f q ->
  exists c f2, ck = Some c /\ rewind f' c = (f2, None) /\ forall q', file_at f2 q' = file_at f q'.
Proof. exact (fun dfound r found ts as_ tk prog W => every_name_checkpointed r found ts as_ tk prog (dispatch_wf_registry dfound r W)). Qed.
Print Assumptions c14_every_name_checkpointed.

(* this run's /repo: the generated tables pass (Gen/ToolNames.v gen_registry_ok) *)
Theorem c14_repo_registry_wf : dispatch_wf gen_dispatch_found gen_registry = true.
Proof. exact gen_registry_ok. Qed.
Print Assumptions c14_repo_registry_wf.

(* aliases that reach the editing handlers while the match stays on the literal name (seeded change C14-9:
   write_file -> write, patch -> apply_patch): the tables are not well formed, and `write_file a.txt` edits a.txt
   with no checkpoint taken - nothing to rewind to *)
Theorem c14_alias_unchecked_refuted :
  exists name a,
    handler_of aliased_registry name = Some K_WRITE /\ arm_of aliased_registry name = None
    /\ tree_b d_ws = true /\ nonul_b d_ws = true /\ Patch.wf_fsb d_ws = true
    /\ run_tool aliased_registry expected_tool_steps expected_auto_steps d_ws d_root name a = (None, d_after)
    /\ file_at d_after [d_a] <> file_at d_ws [d_a].
Proof. exact alias_unchecked_refuted. Qed.
Print Assumptions c14_alias_unchecked_refuted.

(* the hypotheses are satisfiable, and the two repairs (the arms list the aliases / the match is on the resolved
   name) are well formed: the same call under the registered name and under the alias is checkpointed and undone *)
Example c14_ex_named_write_undone :
  run_tool small_registry expected_tool_steps expected_auto_steps d_ws d_root n_write (AWrite d_a corr_ext 0 d_data) = (Some d_ck, d_after)
  /\ run_tool aliased_arms_registry expected_tool_steps expected_auto_steps d_ws d_root n_write_file (AWrite d_a corr_ext 0 d_data) = (Some d_ck, d_after)
  /\ run_tool aliased_resolved_registry expected_tool_steps expected_auto_steps d_ws d_root n_write_file (AWrite d_a corr_ext 0 d_data) = (Some d_ck, d_after)
  /\ rewind d_after d_ck = (d_ws, None)
  /\ arg_ok expected_tool_steps d_ws (AWrite d_a corr_ext 0 d_data)
  /\ handler_of small_registry n_write <> Some K_PROCESS.
Proof. exact ex_named_write_undone. Qed.
Example c14_ex_registries_wf :
  registry_wf small_registry = true /\ registry_wf aliased_registry = false
  /\ registry_wf aliased_arms_registry = true /\ registry_wf aliased_resolved_registry = true.
Proof. exact ex_registries_wf. Qed.

(* ---------- "all orders of multiple checkpoints and rewinds" ----------
   A session is any list of: take a checkpoint of some paths (HCreate; a refused request leaves none), rewind to
   the i-th checkpoint taken so far (HRewind; it may succeed or fail), anything else that happens to the
   workspace (HEdit g: it becomes g, any g in which every file is reachable).  run_hist returns the final workspace
   and, per checkpoint taken, its entries and the workspace it was taken from.  After ANY session, a rewind to ANY
   checkpoint taken so far either succeeds - every file that checkpoint covers has exactly the bytes (or the
   absence) it had in the workspace the checkpoint was taken from, and no uncovered file changes - or fails and
   leaves every file as it was. *)
Theorem c14_multi : forall (root : str) (f0 : fs) (h : list hop) (f : fs) (cks : list (list entry * fs)),
  sane_b f0 = true -> hist_sane h = true -> run_hist root f0 [] h = (f, cks) ->
  forall (i : nat) (ck : list entry) (fi f3 : fs) (r : option N),
  nth_error cks i = Some (ck, fi) -> rewind f ck = (f3, r) ->
  match r with
  | None =>
    (forall rel saved, In (rel, saved) ck ->
       match saved with
       | Some b => os_read fi (tgt_of rel) = Ok b /\ os_read f3 (tgt_of rel) = Ok b
       | None => os_exists fi (tgt_of rel) = false /\ file_at f3 (key rel) = None
       end)
    /\ (forall q, (forall rel saved, In (rel, saved) ck -> key rel <> q) -> file_at f3 q = file_at f q)
  | Some _ => forall q, file_at f3 q = file_at f q
  end.
Proof. exact multi. Qed.
Print Assumptions c14_multi.

(* a session with two checkpoints, edits in between, rewinds to the second, the first, the second again; then a
   rewind to the first: b.txt, absent when the first checkpoint was taken, is absent again *)
Example c14_ex_multi :
  sane_b m_f0 = true /\ hist_sane m_hist = true
  /\ exists f cks ck0 ck1, run_hist w_root m_f0 [] m_hist = (f, cks)
       /\ nth_error cks 0 = Some (ck0, m_f0) /\ nth_error cks 1 = Some (ck1, m_f1)
       /\ file_at f [m_a] = Some (bs "a0"%string) /\ file_at f [m_b] = Some (bs "b1"%string)
       /\ exists f3, rewind f ck0 = (f3, None) /\ file_at f3 [m_b] = None.
Proof. exact ex_multi. Qed.

(* ---------- a create that trusts file metadata (seeded change C14-8) ----------
   `create_reuse mt prev` = create_checkpoint that does not read a file whose stamp (length, modification time `mt`)
   equals the one the previous checkpoint of the session recorded, and reuses that checkpoint's stored bytes.  With
   nothing recorded it is `create` ... *)
Theorem c14_create_reuse_first : forall (mt : str -> N) (f : fs) (root : str) (raws : list str),
  create_reuse mt [] f root raws = create f root raws.
Proof. exact create_reuse_first. Qed.
Print Assumptions c14_create_reuse_first.

(* ... but "same length and same modification time" is not "same bytes": on a clock that does not advance (or after
   a tool put the old time back) the second checkpoint of config.toml, taken after `retries = 3` became `retries = 5`,
   records the first checkpoint's bytes, and the rewind to it succeeds with bytes the file did not have then.  /repo's
   create reads every file (T1 gen_store_ok); the harness runs a third of its histories on a frozen clock. *)
Theorem c14_stamp_reuse_refuted :
  exists mt f1 f2 f3 root raws ck1 ck2 f4 b,
    create_reuse mt [] f1 root raws = Ok ck1
    /\ create_reuse mt (recorded mt ck1) f2 root raws = Ok ck2
    /\ create f2 root raws <> Ok ck2
    /\ sane_b f3 = true /\ rewind f3 ck2 = (f4, None)
    /\ os_read f2 (tgt_of t_a) = Ok b /\ os_read f4 (tgt_of t_a) <> Ok b.
Proof. exact stamp_reuse_refuted. Qed.
Print Assumptions c14_stamp_reuse_refuted.

(* ---------- the store side ----------
   The store lies inside the workspace, so a stored copy can be changed or removed between create and rewind
   (`store` = the copies that differ now from what create wrote; `stored st rel b` = what rewind reads for a file
   recorded with bytes b).  rewind_st true = rewind as repaired (138f7db): the copy it reads is compared with the
   recorded sha256 (idealised as collision free).  A rewind that SUCCEEDS has the conclusion of c14_rewind_exact,
   whatever happened to the store ... *)
Theorem c14_rewind_store_verified : forall (f : fs) (root : str) (raws : list str) (ck : list entry) (st : store) (f2 f3 : fs),
  create f root raws = Ok ck -> sane_b f2 = true -> rewind_st true st f2 ck = (f3, None) ->
  (forall rel saved, In (rel, saved) ck ->
     match saved with
     | Some b => os_read f (tgt_of rel) = Ok b /\ os_read f3 (tgt_of rel) = Ok b
     | None => os_exists f (tgt_of rel) = false /\ file_at f3 (key rel) = None
     end)
  /\ (forall q, (forall rel saved, In (rel, saved) ck -> key rel <> q) -> file_at f3 q = file_at f2 q).
Proof. exact (fun f root raws ck st f2 f3 Hc Hs Hr => rewind_exact f root raws ck f2 f3 Hc (sane_b_sound f2 Hs) (rewind_st_verified_ok st f2 ck f3 Hr)). Qed.
Print Assumptions c14_rewind_store_verified.

(* ... and a rewind that FAILS - at any step, also because a stored copy is gone or does not match its recorded
   hash (with or without the comparison) - leaves every file of the workspace as it was *)
Theorem c14_rewind_store_failure_restores : forall (v : bool) (st : store) (f : fs) (root : str) (raws : list str) (ck : list entry) (f2 f3 : fs) (e : N),
  create f root raws = Ok ck -> sane_b f = true -> sane_b f2 = true -> rewind_st v st f2 ck = (f3, Some e) ->
  forall q, file_at f3 q = file_at f2 q.
Proof. exact (fun v st f root raws ck f2 f3 e Hc Hs Hs2 Hr => proj2 (rewind_st_failed v st f root raws ck f2 f3 e Hc (sane_b_sound f Hs) (sane_b_sound f2 Hs2) Hr)). Qed.
Print Assumptions c14_rewind_store_failure_restores.

(* with an intact store rewind_st is the rewind of the theorems above *)
Theorem c14_rewind_store_intact : forall (v : bool) (st : store) (f : fs) (ck : list entry),
  (forall rel b, In (rel, Some b) ck -> stored st rel b = Some b) -> rewind_st v st f ck = rewind f ck.
Proof. exact rewind_st_intact. Qed.
Print Assumptions c14_rewind_store_intact.

(* before the repair the recorded hash was never looked at: a stored copy overwritten through the write tool was
   restored as if it were the checkpointed content and the rewind reported success (genuine defect S10i, replayed
   on the real tool; corpus/C14/s10i_tampered_store_copy.json) *)
Theorem c14_rewind_store_unverified_refuted :
  exists f root raws ck st f2 f3 rel b b',
    create f root raws = Ok ck /\ sane_b f2 = true /\ rewind_st false st f2 ck = (f3, None)
    /\ In (rel, Some b) ck /\ os_read f3 (tgt_of rel) = Ok b' /\ b' <> b.
Proof. exact rewind_store_unverified_refuted. Qed.
Print Assumptions c14_rewind_store_unverified_refuted.

(* this run's /repo compares the hash between reading the stored copy and touching the target (Gen/AutoCover.v) *)
Theorem c14_repo_store_wf : store_wf gen_restore_order = true.
Proof. exact gen_store_ok. Qed.
Print Assumptions c14_repo_store_wf.

(* a tampered store on which the repaired rewind fails and changes nothing while the unrepaired one restores the forged bytes *)
Example c14_ex_tampered_store :
  create m_f0 w_root [m_a] = Ok s_ck /\ sane_b s_later = true
  /\ rewind_st false s_store s_later s_ck = (s_forged, None)
  /\ os_read s_forged (tgt_of m_a) = Ok (bs "forged"%string)
  /\ exists e, rewind_st true s_store s_later s_ck = (s_later, Some e).
Proof. exact unverified_restores_forged. Qed.

(* the hypotheses are satisfiable: a create / edit / rewind round trip *)
Example c14_ex_round_trip :
  create w_ws w_root [w_abs_in; w_dot_b] = Ok w_ck
  /\ sane_b w_later = true /\ rewind w_later w_ck = (w_ws, None).
Proof. exact ex_round_trip. Qed.

(* ... and a failing rewind: b.txt (absent at create time) is now a directory; a.txt was already
   restored when the failure hit and is put back *)
Example c14_ex_failing_rewind :
  sane_b w_later_dir = true /\ exists e, rewind w_later_dir w_ck = (w_later_dir, Some e).
Proof. exact ex_failing_rewind. Qed.
