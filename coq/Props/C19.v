(* C19 — secrets never reach frames, artifacts, snapshots, caches, request dumps or diagnostics;
   diagnostics report only presence and source.
   Statements only; proofs are in Proofs/SecretFlowProofs.v.  Every theorem is closed by `exact`.

   PARTIAL CLAIM (DESIGN §4 C19 "weakest tie"): the theorems are about the data-flow MODEL
   Model/SecretFlow.v (layered configuration, resolution, request builders, agent loop with every
   frame it emits, request dump, doctor summary).  A "secret" is whatever sits in an inline `api_key`,
   in a header value, or in an environment variable other than the seven RIP_OPENRESPONSES_* variables
   whose values the code copies into frames (`public_env_names`).  `low_world` erases exactly these
   values (keeping only blank / non-blank, which decides presence).  TOOL OUTPUT is outside the claim
   (hypothesis `tools_blind`; the unrestricted statement is refuted below).  The provider is a function of
   (request index, endpoint, request BODY) — the property's "HTTP error whose body echoes the request
   body"; a provider that echoes request HEADERS is outside the quantifier.  Third-party crates'
   logging and everything the model does not contain is covered only by the canary search of the
   harness (rv c19). *)
From Coq Require Import Strings.String Strings.Ascii.
From RipV Require Import Base.Prelude Model.SecretFlow Proofs.SecretFlowProofs Gen.SecretUses.

(* Noninterference.  A run's environment is a `wscript`: validator, provider (a function of request index, endpoint
   and request BODY) and TOOLS, whose output is a function of the call and of the WORLD — the shell tools inherit the
   authority's whole environment and the file tools can read the configuration files.

   Full-strength statement (all fuels, all scripts, both entry points, all prompts / initial items): two worlds that
   differ only in secret values store and show the same frames on both streams and the same doctor summary. *)
Definition c19_noninterference_full : Prop :=
  forall (fuel : nat) (ws : wscript) (thread : bool) (w1 w2 : world) (prompt : str) (initial : list item),
    low_world w1 = low_world w2 ->
    persisted (run_w fuel ws thread w1 prompt initial) = persisted (run_w fuel ws thread w2 prompt initial)
    /\ doctor w1 = doctor w2.

(* It is FALSE of the faithful model (and of the code: KNOWN_FINDINGS C19/B1, corpus/C19/b1_printenv.json): with the
   key supplied through the environment, a provider-requested `bash -c 'printenv RIP_OPENRESPONSES_API_KEY'` puts the
   key into the tool-output frames. *)
Theorem c19_noninterference_full_refuted : ~ c19_noninterference_full.
Proof. exact noninterference_full_refuted. Qed.
Print Assumptions c19_noninterference_full_refuted.

(* Proved in part: under the hypothesis that tool output does not depend on secret values (`tools_blind`: the tools
   give the same answer in the world with every secret erased) the statement holds for everything else — every layer,
   inline or {env:..} indirection, env fallbacks, header values, per-request overrides; request-dump artifacts, error
   frames (transport, HTTP error echoing the body, validation), tool frames, provider cursor, doctor. *)
Theorem c19_noninterference_partial : forall (fuel : nat) (ws : wscript) (thread : bool) (w1 w2 : world)
                                             (prompt : str) (initial : list item),
  tools_blind ws ->
  low_world w1 = low_world w2 ->
  persisted (run_w fuel ws thread w1 prompt initial) = persisted (run_w fuel ws thread w2 prompt initial)
  /\ doctor w1 = doctor w2.
Proof. exact noninterference_blind_tools. Qed.
Print Assumptions c19_noninterference_partial.

(* the hypothesis is satisfiable (every tool that ignores the world) and is exactly what the witness violates *)
Example c19_world_independent_tools_are_blind : forall v p t, tools_blind (mkWScript v p (fun _ => t)).
Proof. exact const_tools_blind. Qed.
Example c19_printenv_tool_is_not_blind : ~ tools_blind leak_script.
Proof. exact printenv_not_blind. Qed.

(* After the fix of B1 (rip-tools secret_env.rs; shell.rs, ripd tasks/pipes.rs, pty.rs): what rip HANDS to a tool subprocess is
   the authority's environment without the credential variables (RIP_OPENRESPONSES_API_KEY, OPENAI_API_KEY,
   OPENROUTER_API_KEY and every `{ "env": NAME }` key source of the loaded configuration). *)
Theorem c19_tool_env_has_no_credential_variable : forall (w : world) (k : str),
  In k (secret_env_names w) -> getenv (tool_env w) k = None.
Proof. exact (fun w => getenv_stripped (secret_env_names w) (w_env w)). Qed.
Print Assumptions c19_tool_env_has_no_credential_variable.

(* Noninterference for ALL tools that are functions of the call and of the environment rip hands them (every fuel,
   validator, provider, both entry points): worlds that differ only in secret values - inline keys, header values, the
   values of credential variables - store and show the same.  (A tool that fetches the secret itself with the user's
   OS permissions - a configuration file with an inline key, /proc/<authority pid>/environ - is a function of the whole
   world: c19_noninterference_full_refuted / hypothesis tools_blind.) *)
Theorem c19_noninterference_env_tools : forall (fuel : nat) (v : body -> list str) (p : N -> str -> body -> presp)
                                               (t : env -> tcall -> list str * str) (thread : bool) (w1 w2 : world)
                                               (prompt : str) (initial : list item),
  low_world w1 = low_world w2 ->
  tool_env w1 = tool_env w2 ->
  persisted (run_w fuel (mkWScript v p (fun w => t (tool_env w))) thread w1 prompt initial)
  = persisted (run_w fuel (mkWScript v p (fun w => t (tool_env w))) thread w2 prompt initial)
  /\ doctor w1 = doctor w2.
Proof. exact noninterference_env_tools. Qed.
Print Assumptions c19_noninterference_env_tools.

Example c19_b1_worlds_get_the_same_tool_env :
  tool_env (leak_world (lit "sk-AAAA")) = tool_env (leak_world (lit "sk-BBBB"))
  /\ tool_env (leak_world (lit "sk-AAAA")) = [(E_ENDPOINT, lit "http://127.0.0.1:9/v1/responses")].
Proof. exact leak_world_tool_env. Qed.
Example c19_printenv_prints_nothing_after_the_fix :
  tool_events (fst (persisted (run_w 10 fixed_script false (leak_world (lit "sk-AAAA")) (lit "probe") []))) = [[]].
Proof. exact fixed_tool_events. Qed.
Example c19_env_reference_is_removed_too : tool_env (envref_world (lit "sk-AAAA")) = [(lit "HOME", lit "/home/u")].
Proof. exact envref_world_tool_env. Qed.

(* The authority over TIME.  The configuration is re-read on every request while the process lives on: a process is a
   sequence of loads (engine start, every per-request resolution of the thread path, every doctor call - each sees the
   files as they are THEN) and subprocess spawns (bash / shell tool, pipes / pty task).  Every load adds the `{ "env":
   NAME }` names of what it loaded to a registry that only grows, and a spawn removes the three fixed variables + the
   registry AS IT IS AT SPAWN TIME.  EVERY subprocess spawned after configuration w was loaded - whatever the process
   loaded or spawned before (r0, pre) and whatever it loads or spawns later (rest) - gets an environment without the
   credential variables of w.  (Seeded change C19-4: a key source added to a configuration file while the authority runs.) *)
Theorem c19_tool_env_follows_the_loaded_configuration :
  forall (r0 : registry) (pre rest : list aevent) (w : world) (e : env) (k : str),
    In k (secret_env_names w) ->
    Forall (fun env => getenv env k = None)
           (skipn (length (spawn_envs r0 e pre)) (spawn_envs r0 e (pre ++ ALoad w :: rest))).
Proof. exact tool_env_follows_the_loaded_configuration. Qed.
Print Assumptions c19_tool_env_follows_the_loaded_configuration.

(* one load, one spawn is the environment of the theorems above *)
Theorem c19_tool_env_at_single_load : forall w : world, tool_env_at [w] (w_env w) = tool_env w.
Proof. exact tool_env_at_single. Qed.
Print Assumptions c19_tool_env_at_single_load.

(* what the code must NOT do: with the merged list built at the first spawn and reused ("spawn-path optimisation",
   spawn_envs_memo) the statement is false - start without files, spawn, the file naming ACME_LLM_TOKEN appears and is
   loaded, spawn: the second subprocess still sees the variable *)
Theorem c19_memoised_credential_list_refuted : ~ memoised_list_follows_configuration.
Proof. exact memoised_list_refuted. Qed.
Print Assumptions c19_memoised_credential_list_refuted.
Example c19_memoised_probe_sees_the_key :
  spawn_envs_memo [] None memo_env [ALoad memo_world_before; ASpawn; ALoad memo_world_after; ASpawn] = [memo_env; memo_env].
Proof. exact memo_probe_sees_the_key. Qed.
Example c19_faithful_probe_does_not :
  spawn_envs [] memo_env [ALoad memo_world_before; ASpawn; ALoad memo_world_after; ASpawn] = [memo_env; [(lit "HOME", lit "/home/u")]].
Proof. exact faithful_probe_does_not. Qed.

(* Noninterference for whole HISTORIES of one authority process (loads and runs in any order; a thread-path run loads
   first, a session-path run does not; tools = ALL functions of the call and of the environment rip hands them at that
   time): two histories that differ only in secret values - inline keys, header values, and the values of variables
   that are removed whenever a subprocess is spawned (ops_agree) - persist the same frames in every run. *)
Theorem c19_process_noninterference :
  forall (fuel : nat) (v : body -> list str) (p : N -> str -> body -> presp) (t : env -> tcall -> list str * str)
         (o1 o2 : list aop),
    ops_agree [] o1 o2 -> process_runs fuel v p t [] o1 = process_runs fuel v p t [] o2.
Proof. exact process_noninterference. Qed.
Print Assumptions c19_process_noninterference.
(* non-vacuity: the C19-4 sequence.  Before the file names ACME_LLM_TOKEN the variable is an ordinary one (the first
   run's `printenv` shows it); once the configuration naming it is loaded, the subprocess of the next run does not get it,
   and the histories from that load on agree for any two keys. *)
Example c19_history_second_run_hides_the_key :
  map (fun p => tool_events (fst p))
      (process_runs 10 (ws_validate leak_script) (ws_prov leak_script) printenv_acme [] (hist_ops (lit "sk-AAAA")))
  = [[[lit "sk-AAAA"]]; [[]]].
Proof. exact hist_second_run_hides_the_key. Qed.
Example c19_history_agrees_from_the_load_on :
  ops_agree [] [OLoad (hist_after (lit "sk-AAAA")); ORun true (hist_after (lit "sk-AAAA")) (lit "probe") []]
               [OLoad (hist_after (lit "sk-BBBB")); ORun true (hist_after (lit "sk-BBBB")) (lit "probe") []].
Proof. exact hist_tail_agrees. Qed.

(* T1 for the spawn path, regenerated from /repo on every run (tools/gen/secret_uses.py, `spawn_path_facts`): the fixed
   variable list of rip-tools/src/secret_env.rs is the model's; secret_env_names() rebuilds its answer from the
   registry on EVERY call (no static / OnceLock / lazy / thread_local / get_or_init in its body; the file's only static
   is the registry); register_secret_env_names only extends the set and nothing in the file removes from it;
   load_effective_config calls it unconditionally (top level of the body, no return / ? before it) with the
   ApiKeySource::Env names of config.provider; the per-request resolution, SessionEngine::new and the doctor load; and
   EVERY subprocess spawn site of rip-tools and ripd (Command::new / CommandBuilder::new) runs `for name in
   secret_env_names() { cmd.env_remove(name) }` unconditionally, before the call's own env and before the spawn; and no
   string literal shaped like a credential variable (.._KEY, _TOKEN, _SECRET, _PASSWORD, _CREDENTIALS) occurs in ripd, rip-cli
   or rip-tools outside that fixed list (a new fallback variable the spawn path would not know). *)
Theorem c19_code_spawn_path_as_modelled :
  sf_fixed_names gen_spawn_facts = [E_API_KEY; E_OPENAI; E_OPENROUTER]
  /\ sf_names_fresh gen_spawn_facts = true /\ sf_registry_grows_only gen_spawn_facts = true
  /\ sf_load_registers gen_spawn_facts = true /\ sf_loaders_found gen_spawn_facts = true
  /\ 1 <= sf_spawn_sites gen_spawn_facts /\ sf_spawn_sites gen_spawn_facts = sf_spawn_sites_stripping gen_spawn_facts
  /\ sf_unlisted_key_vars gen_spawn_facts = 0.
Proof. exact gen_spawn_path_as_modelled. Qed.
Print Assumptions c19_code_spawn_path_as_modelled.

(* T1, the STEP ORDER of the spawn sites: tools/gen/secret_uses.py reads, for every Command::new / CommandBuilder::new of rip-tools
   and ripd, the statements between the construction and the spawn - the cwd statement, the removal loop over secret_env_names()
   and WHERE it sits (top level of the function, then- / else-block of the cwd statement, another condition), the call's own env,
   the spawn.  The generated obligation: the sites are exactly the three the model has, and each one's step list, run by the
   model's interpreter of step lists, is the model's site (so c19_every_spawn_path_strips speaks about the code's order of steps). *)
Theorem c19_code_spawn_sites_as_modelled :
  map fst gen_spawn_site_steps = modelled_spawn_sites
  /\ Forall (fun s => forall (m : bool) (r : registry) (e : env) (q : spawn_req),
                        run_steps (snd s) m r q (cmd_new e) = site_cmd true m r e q) gen_spawn_site_steps.
Proof. exact gen_spawn_sites_as_modelled. Qed.
Print Assumptions c19_code_spawn_sites_as_modelled.
(* the step list the extractor reads off the seeded change C19-8 is the site that does not strip when `cwd` is given *)
Theorem c19_cwd_else_strip_steps_are_the_unstripped_site : forall (m : bool) (r : registry) (e : env) (q : spawn_req),
  run_steps [SCwd; SStripIfNoCwd; SOwnEnv; SSpawn] m r q (cmd_new e) = site_cmd false m r e q.
Proof. exact cwd_else_strip_steps_run. Qed.
Print Assumptions c19_cwd_else_strip_steps_are_the_unstripped_site.

(* ... and not only for today's order: EVERY step order in which, on both branches of the cwd statement, a removal loop has run by
   the time of the spawn (steps_safe) keeps the authority's credential variables from the child - whatever is in a child's
   environment under a credential name was put there by the call's own env.  The seeded order is not safe; neither is a removal
   that depends on the call bringing no env. *)
Theorem c19_any_safe_step_order_strips : forall (p : list sstep) (m : bool) (r : registry) (e : env) (q : spawn_req) (c : cmd) (k v : str),
  steps_safe p = true ->
  run_steps p m r q (cmd_new e) = Some c ->
  In k (stripped_names r) -> getenv (cm_env c) k = Some v -> In (k, v) (req_env q).
Proof. exact any_safe_step_order_strips. Qed.
Print Assumptions c19_any_safe_step_order_strips.
Example c19_step_orders_safe_or_not :
  steps_safe modelled_steps = true
  /\ steps_safe [SCwd; SStripIfNoCwd; SOwnEnv; SSpawn] = false
  /\ steps_safe [SCwd; SOwnEnv; SStripCond; SSpawn] = false
  /\ steps_safe [SCwd; SOwnEnv; SSpawn] = false
  /\ steps_safe [SCwd; SStripIfCwd; SStripIfNoCwd; SOwnEnv; SSpawn] = true
  /\ steps_safe [SOwnEnv; SStrip; SCwd; SSpawn] = true.
Proof. exact step_orders_safe_or_not. Qed.

(* The SPAWN PATH as a function of its arguments.  spawn_cmd is the command one of the three spawn sites builds (rip-tools
   shell.rs run_command for the bash / shell tool; ripd tasks/pipes.rs and tasks/pty.rs for background tasks, execution_mode
   absent = pipes) from the environment `e` of the authority, the registry `r` as it is at that moment and the request `q`
   (how it is spawned, the `cwd` argument - absent / below the root / the root itself / missing / refused -, the call's own
   `env`, the title): start from `e`; current_dir; env_remove for every name of secret_env_names(); env(k, v) for the call's
   own pairs; spawn.  For ALL r, e, q and every credential variable k (the three fixed names and every registered name): when
   something is spawned, k is in the child's environment exactly as the CALL's own `env` has it (the last pair naming k) -
   in particular not at all when the call supplies no `env` - never with the authority's value. *)
Theorem c19_every_spawn_path_strips : forall (r : registry) (e : env) (q : spawn_req) (c : cmd) (k : str),
  spawn_cmd r e q = Some c -> In k (stripped_names r) -> getenv (cm_env c) k = getenv (rev (req_env q)) k.
Proof. exact every_spawn_path_strips. Qed.
Print Assumptions c19_every_spawn_path_strips.

Theorem c19_child_without_own_env_sees_no_credential : forall (r : registry) (e : env) (q : spawn_req) (ce : env) (k : str),
  child_env r e q = Some ce -> In k (stripped_names r) -> sp_env q = None -> getenv ce k = None.
Proof. exact child_without_own_env_sees_no_credential. Qed.
Print Assumptions c19_child_without_own_env_sees_no_credential.

(* the child's environment is a function of the STRIPPED environment and of the request - whatever the site, the directory, the
   call's env - so two environments of the authority that differ only in credential variables give every child the same
   environment (this is what the tools of c19_process_noninterference / c19_noninterference_env_tools are handed) *)
Theorem c19_child_env_factors_through_the_stripped_environment : forall (r : registry) (e : env) (q : spawn_req),
  child_env r e q = child_env_of (spawn_env r e) q.
Proof. exact child_env_factors_through_the_stripped_environment. Qed.
Print Assumptions c19_child_env_factors_through_the_stripped_environment.

Theorem c19_child_env_noninterference : forall (r : registry) (e1 e2 : env) (q : spawn_req),
  spawn_env r e1 = spawn_env r e2 -> child_env r e1 q = child_env r e2 q.
Proof. exact child_env_noninterference. Qed.
Print Assumptions c19_child_env_noninterference.

(* over TIME: the credential variables of EVERY configuration the process has loaded so far are handled that way, for every way
   of spawning *)
Theorem c19_child_env_follows_the_loaded_configurations : forall (hist : list world) (w : world) (e : env) (q : spawn_req)
                                                                 (ce : env) (k : str),
  In w hist -> In k (secret_env_names w) ->
  child_env (reg_after hist) e q = Some ce ->
  getenv ce k = getenv (rev (req_env q)) k.
Proof. exact child_env_follows_the_loaded_configurations. Qed.
Print Assumptions c19_child_env_follows_the_loaded_configurations.

(* what the code must NOT do (seeded change C19-8): with the removal loop of run_pipes_task on the branch WITHOUT `cwd` only, a
   pipes task that is given a `cwd` keeps the authority's key; the same task without `cwd` does not (a check that never passes
   `cwd` sees nothing) *)
Theorem c19_strip_only_without_cwd_refuted : ~ spawn_path_strips spawn_cmd_cwd_unstripped.
Proof. exact strip_only_without_cwd_refuted. Qed.
Print Assumptions c19_strip_only_without_cwd_refuted.

Example c19_cwd_unstripped_example :
  option_map cm_env (spawn_cmd_cwd_unstripped [] cwdleak_env (cwdleak_req (Some (lit "sub")))) = Some cwdleak_env.
Proof. exact cwd_unstripped_pipes_task_with_cwd_sees_the_key. Qed.
Example c19_cwd_unstripped_without_cwd_example :
  option_map cm_env (spawn_cmd_cwd_unstripped [] cwdleak_env (cwdleak_req None)) = Some [(lit "HOME", lit "/home/u")].
Proof. exact cwd_unstripped_pipes_task_without_cwd_does_not. Qed.
Example c19_faithful_task_with_cwd_example :
  child_env [] cwdleak_env (cwdleak_req (Some (lit "sub"))) = Some [(lit "HOME", lit "/home/u")].
Proof. exact faithful_pipes_task_with_cwd_does_not. Qed.
(* (a pty task whose directory is missing IS spawned: portable_pty falls back to the home directory; the last line below) *)
(* non-vacuity: a pty task with a `cwd`, a registered reference and a call that itself supplies a credential variable and a new
   one: the child gets the call's pairs, not the authority's key, not the referenced variable *)
Example c19_call_env_reaches_the_child :
  child_env [lit "ACME_LLM_TOKEN"] ((lit "ACME_LLM_TOKEN", lit "sk-BBBB") :: cwdleak_env)
            (mkSpawn (VTask (Some XPty)) (Some (lit "./sub/")) true
                     (Some [(E_API_KEY, lit "from-the-call"); (lit "EXTRA", lit "1")]) (Some (lit "t")))
  = Some [(lit "EXTRA", lit "1"); (E_API_KEY, lit "from-the-call"); (lit "HOME", lit "/home/u")].
Proof. exact call_env_reaches_the_child. Qed.
Example c19_refused_and_missing_directories_spawn_nothing :
  child_env [] cwdleak_env (mkSpawn VTool (Some (lit "../outside")) false None None) = None
  /\ child_env [] cwdleak_env (mkSpawn VTool (Some (lit "/usr")) true None None) = None
  /\ child_env [] cwdleak_env (mkSpawn (VTask (Some XPipes)) (Some (lit "a/../b")) true None None) = None
  /\ child_env [] cwdleak_env (mkSpawn (VTask (Some XPipes)) (Some (lit "nope/missing")) false None None) = None
  /\ child_env [] cwdleak_env (mkSpawn (VTask (Some XPipes)) (Some (lit "..hidden/x..")) true None None) = Some [(lit "HOME", lit "/home/u")]
  /\ child_env [] cwdleak_env (mkSpawn (VTask (Some XPty)) (Some (lit "nope/missing")) false None None) = Some [(lit "HOME", lit "/home/u")].
Proof. exact refused_and_missing_directories_spawn_nothing. Qed.

(* the special case of tools given as a fixed function of the call *)
Theorem c19_noninterference : forall (fuel : nat) (sc : script) (thread : bool) (w1 w2 : world)
                                     (prompt : str) (initial : list item),
  low_world w1 = low_world w2 ->
  persisted (run fuel sc thread w1 prompt initial) = persisted (run fuel sc thread w2 prompt initial)
  /\ doctor w1 = doctor w2.
Proof. exact noninterference. Qed.
Print Assumptions c19_noninterference.

(* the same, as "every sink is a function of the public projection" *)
Theorem c19_sinks_factor_through_low : forall (fuel : nat) (sc : script) (thread : bool) (w : world)
                                              (prompt : str) (initial : list item),
  persisted (run fuel sc thread w prompt initial) = persisted (run fuel sc thread (low_world w) prompt initial)
  /\ doctor w = doctor (low_world w).
Proof. exact sinks_factor_through_low. Qed.
Print Assumptions c19_sinks_factor_through_low.

(* erasure forgets the value: secrets of the same blankness are indistinguishable after erasure *)
Theorem c19_erasure_forgets_values : forall a b : str, blank a = blank b -> mask a = mask b.
Proof. exact mask_same_blank. Qed.
Print Assumptions c19_erasure_forgets_values.

(* Diagnostics: the summary consists of public resolution results, the PRESENCE of a key (a boolean),
   its SOURCE label (absent, "inline" or "env:NAME") and the header NAMES. *)
Theorem c19_doctor_reports_presence_and_source_only : forall (w : world) (d : doctor_summary),
  doctor w = Some d ->
  exists r, resolve_world w no_ovr = Some r
    /\ d_has_key d = is_some (r_key r)
    /\ d_key_source d = r_key_source r
    /\ source_shape (d_key_source d)
    /\ d_header_names d = map fst (r_headers r)
    /\ d_provider_id d = r_provider_id r /\ d_route d = r_route r /\ d_endpoint d = r_endpoint r
    /\ d_model d = r_model r /\ d_stateless d = r_stateless r /\ d_parallel d = r_parallel r
    /\ d_followup d = r_followup r.
Proof. exact doctor_presence_and_source_only. Qed.
Print Assumptions c19_doctor_reports_presence_and_source_only.

(* Where the secret DOES go (session.rs: bearer_auth / request.header on the outgoing request): every request of a
   run carries exactly the configured endpoint, key and header list — and by c19_noninterference nothing else does. *)
Theorem c19_secret_attached_to_requests_only : forall (fuel : nat) (sc : script) (thread : bool) (w : world)
                                                      (prompt : str) (initial : list item) (c : orcfg),
  (if thread then thread_cfg w else session_cfg w) = Some c ->
  Forall (sent_ok c) (out_sent (run fuel sc thread w prompt initial)).
Proof. exact secret_attached_to_requests_only. Qed.
Print Assumptions c19_secret_attached_to_requests_only.

(* T1 (regenerated from /repo on every run by tools/gen/secret_uses.py): every syntactic use of a
   secret-bearing value in crates/ripd/src and crates/rip-cli/src (non-test code) is of a kind of flow the
   model has — declaration, copy between the secret-bearing records, resolution, presence test,
   bearer_auth, request.header, header-name projection, secret env read / set — never an argument of a
   formatting / printing / logging / panic macro, a serialisation, a field of a struct that is not
   secret-bearing (an Event, the doctor summary) or an unclassifiable use; the Debug / Serialize /
   Display capabilities of secret-bearing types are exactly the nine known today.  Errors count as values: the result
   of deserialising a secret-bearing type (or the configuration document into any typed target) is tainted on BOTH
   sides - serde's type errors quote the offending scalar - so the only such site, config.rs load_effective_config,
   must discard its error on the spot (UDeserErrDropped) or have it tracked into allowed uses only; the configuration
   document itself (file text / serde_json::Value) may be parsed, merged and moved but not formatted or serialised. *)
Theorem c19_code_uses_within_model_flows :
  gen_found_all = true
  /\ Forall (fun k => exists u, use_kind_code u = k /\ u <> UFormat /\ u <> USerialize /\ u <> UOther) gen_use_kinds
  /\ Forall (fun d => In d allowed_derives) gen_derives.
Proof. exact gen_uses_within_model_flows. Qed.
Print Assumptions c19_code_uses_within_model_flows.

(* The schema stage (config.rs load_effective_config): a merged document that is valid JSON of the wrong SHAPE - a string
   where the header map is expected, an unquoted numeric token, a provider without its id level - is dropped whole and
   silently; serde's type error QUOTES the offending scalar, which may be the secret.  The whole diagnostic report
   (`sources[*].error` texts + summary) depends on the world only through its low projection, in which the scalar at the
   mis-shaped position is erased as well. *)
Theorem c19_doctor_report_noninterference : forall w1 w2 : world,
  low_world w1 = low_world w2 -> doctor_report w1 = doctor_report w2.
Proof. exact doctor_report_noninterference. Qed.
Print Assumptions c19_doctor_report_noninterference.

(* Why the schema error must stay dropped (or be reported without the serde text): surfaced through the per-source report
   with the `error: Some(err.to_string())` idiom of the neighbouring parse-error branch it would make the diagnostic depend
   on the secret.  `source_errors_surfaced` is NOT what the code does; the statement is the justification of the T1 taint
   rule "an error produced by deserialising secret-bearing configuration is secret-tainted". *)
Theorem c19_surfaced_schema_error_refuted : ~ surfaced_noninterference.
Proof. exact surfaced_noninterference_refuted. Qed.
Print Assumptions c19_surfaced_schema_error_refuted.

Theorem c19_surfaced_schema_error_quotes_scalar : forall (q : str) (w : world), w_misfit w = Some q ->
  exists a b, source_errors_surfaced w = [a ++ q ++ b].
Proof. exact surfaced_quotes_the_scalar. Qed.
Print Assumptions c19_surfaced_schema_error_quotes_scalar.

(* Non-vacuity of the schema stage: two misfit worlds that differ in the secret at the offending position have the same
   low projection; the report has no error text and the summary is the env-only resolution (every layer dropped). *)
Example c19_misfit_worlds_low_equal : low_world (misfit_world misfit_q1) = low_world (misfit_world misfit_q2).
Proof. exact misfit_low_equal. Qed.
Example c19_misfit_report :
  doctor_report (misfit_world misfit_q1)
  = ([], Some (mkDoctor None None (lit "http://127.0.0.1:9/v1/responses") None false None [] false false None)).
Proof. exact misfit_doctor. Qed.

(* Process output: what the authority prints at start-up besides its address (stderr of `ripd`; authority.log when `rip`
   spawned it) - the warning about an unusable RIP_OPENRESPONSES_TOOL_CHOICE - is a function of public variables. *)
Theorem c19_startup_output_noninterference : forall w1 w2 : world,
  low_world w1 = low_world w2 -> startup_warnings (w_env w1) = startup_warnings (w_env w2).
Proof. exact startup_output_noninterference. Qed.
Print Assumptions c19_startup_output_noninterference.
Example c19_startup_warning_example :
  startup_warnings [(E_ENDPOINT, lit "localhost/v1/responses"); (E_API_KEY, lit "sk-AAAA"); (E_TOOL_CHOICE, lit "bogus")]
  = [lit "invalid RIP_OPENRESPONSES_TOOL_CHOICE=""bogus"": unsupported value (expected auto|none|required|function:<name>|json:<tool_choice_json>); defaulting to auto"].
Proof. exact startup_warning_example. Qed.

(* The JSON stage in front of the typed configuration.  The code merges the configuration FILES as JSON values (two objects
   merge key by key, anything else is replaced by the overlay) and types the merged value at the end; a `doc` is a file as
   far as the secret-bearing positions go, with their SHAPES (a scalar where a map is expected, a number where a string is
   expected, arrays, objects).  `world_of` = merge the files, decide whether the result fits the schema (`doc_error`: the
   scalar serde would quote), take the typed view.  Erasing every scalar at a secret-bearing position of every file,
   whatever its shape, commutes with all of that - so every theorem about typed worlds holds for worlds given by their
   possibly mis-shaped files: stored frames, the doctor report incl. per-source error texts, start-up output. *)
Theorem c19_world_of_files_commutes_with_erasure : forall j : jworld, world_of (low_jworld j) = low_world (world_of j).
Proof. exact world_of_low. Qed.
Print Assumptions c19_world_of_files_commutes_with_erasure.

Theorem c19_files_noninterference : forall (fuel : nat) (sc : script) (thread : bool) (j1 j2 : jworld)
                                           (prompt : str) (initial : list item),
  low_jworld j1 = low_jworld j2 ->
  persisted (run fuel sc thread (world_of j1) prompt initial) = persisted (run fuel sc thread (world_of j2) prompt initial)
  /\ doctor_report (world_of j1) = doctor_report (world_of j2)
  /\ startup_warnings (jw_env j1) = startup_warnings (jw_env j2).
Proof. exact files_noninterference. Qed.
Print Assumptions c19_files_noninterference.

(* a curl-style header string in a project file replaces the header map of the global file and makes the WHOLE configuration
   misfit (serde would quote the secret; the doctor shows the env-only resolution and no error text); a still higher file
   with a header map repairs it - and the global file's header is gone with the replaced string *)
Example c19_files_misfit_example :
  w_misfit (world_of (ex_jworld [ex_global; ex_bad (lit "tok-AAAA")])) = Some (lit "X-Api-Key: tok-AAAA")
  /\ low_jworld (ex_jworld [ex_global; ex_bad (lit "tok-AAAA")]) = low_jworld (ex_jworld [ex_global; ex_bad (lit "tok-BBBB")])
  /\ doctor_report (world_of (ex_jworld [ex_global; ex_bad (lit "tok-AAAA")]))
     = ([], Some (mkDoctor None None (lit "http://127.0.0.1:9/v1/responses") None false None [] false false None)).
Proof. exact ex_files_misfit. Qed.
Example c19_files_repaired_example :
  w_misfit (world_of (ex_jworld [ex_global; ex_bad (lit "tok-AAAA"); ex_repair])) = None
  /\ option_map d_header_names (doctor (world_of (ex_jworld [ex_global; ex_bad (lit "tok-AAAA"); ex_repair]))) = Some [lit "X-Api-Key"].
Proof. exact ex_files_repaired. Qed.

(* rip-cli (`rip run --provider P [--model ..] [--stateless-history] ..`, main.rs apply_openresponses_env): the CLI copies the
   provider's key variable into RIP_OPENRESPONSES_API_KEY of its own environment, which the authority it spawns inherits,
   and sends the public settings as per-request overrides.  In two worlds that differ only in secret values it bails out
   in both or goes on in worlds that again differ only in secret values; so the frames of the run, the doctor report and
   the start-up output of the spawned authority are the same. *)
Theorem c19_cli_provider_flags_preserve_low : forall (f : cli_flags) (w1 w2 : world),
  low_world w1 = low_world w2 ->
  option_map low_world (cli_world f w1) = option_map low_world (cli_world f w2).
Proof. exact cli_provider_flags_preserve_low. Qed.
Print Assumptions c19_cli_provider_flags_preserve_low.

Theorem c19_cli_run_noninterference : forall (f : cli_flags) (fuel : nat) (sc : script) (w1 w2 w1' w2' : world)
                                             (prompt : str) (initial : list item),
  low_world w1 = low_world w2 ->
  cli_world f w1 = Some w1' -> cli_world f w2 = Some w2' ->
  persisted (run fuel sc true w1' prompt initial) = persisted (run fuel sc true w2' prompt initial)
  /\ doctor_report w1' = doctor_report w2'
  /\ startup_warnings (w_env w1') = startup_warnings (w_env w2').
Proof. exact cli_run_noninterference. Qed.
Print Assumptions c19_cli_run_noninterference.

Example c19_cli_env_example :
  cli_env (mkFlags POpenai None false false None) [(E_OPENAI, lit "sk-AAAA")]
  = Some [(E_API_KEY, lit "sk-AAAA"); (E_ENDPOINT, lit "https://api.openai.com/v1/responses"); (E_OPENAI, lit "sk-AAAA")]
  /\ cli_env (mkFlags POpenrouter None false false None) [(E_OPENAI, lit "sk-AAAA")] = None.
Proof. exact cli_env_example. Qed.

(* Non-vacuity: two worlds with different keys / header values / env values have the same low
   projection; in both the secret DOES leave the process — in the outgoing request only. *)
Example c19_example_low_equal :
  low_world (ex_world (lit "sk-AAAA") (lit "tok-1") (lit "zz"))
  = low_world (ex_world (lit "sk-BBBBBBBB") (lit "tok-22") (lit "y")).
Proof. exact ex_low_equal. Qed.

Example c19_example_secret_reaches_the_request_only :
  map s_auth (out_sent (ex_run (lit "sk-AAAA") (lit "tok-1") (lit "zz"))) = [Some (lit "sk-AAAA"); Some (lit "sk-AAAA")]
  /\ map s_auth (out_sent (ex_run (lit "sk-BBBBBBBB") (lit "tok-22") (lit "y"))) = [Some (lit "sk-BBBBBBBB"); Some (lit "sk-BBBBBBBB")]
  /\ map s_headers (out_sent (ex_run (lit "sk-AAAA") (lit "tok-1") (lit "zz"))) = [[(lit "X-Api-Key", lit "tok-1")]; [(lit "X-Api-Key", lit "tok-1")]].
Proof. exact ex_sent_differ. Qed.

Example c19_example_run_is_nontrivial :
  (length (fst (persisted (ex_run (lit "sk-AAAA") (lit "tok-1") (lit "zz")))) = 12)%nat
  /\ doctor (ex_world (lit "sk-AAAA") (lit "tok-1") (lit "zz"))
     = Some (mkDoctor (Some (lit "acme")) (Some (lit "acme/m1")) (lit "http://127.0.0.1:9/v1/responses") (Some (lit "m1"))
                      true (Some (lit "inline")) [lit "X-Api-Key"] false false None).
Proof. exact ex_frames_nontrivial. Qed.
