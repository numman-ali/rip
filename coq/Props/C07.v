(* C07 — Run lifecycle frames are complete, unique and causally ordered.
   Statements only; proofs are in Proofs/RunLifecycleProofs.v, the model in Model/RunLifecycle.v.

   `act_events aok a` = everything one activity writes to events.jsonl, in program order, for ANY input
   kind (prompt / tool envelope / checkpoint envelope), ANY compile outcome, ANY list of provider answers
   (each: invalid request, send error, HTTP error, empty body, first-chunk error, error after any number of
   decoded events, or a complete stream with any events / response id / function calls), ANY tool outcomes
   (unknown tool, timeout, any stdout/stderr counts and exit code, auto checkpoint created/failed, barred
   by tool_choice, needs the workspace lock or not), with or without a provider configuration, stateless
   or not; `aok` says which continuity appends succeed.  The log `l` of a store is ANY interleaving of the
   activities' event lists (`Interleave`: each activity's own order is kept, nothing else is assumed about
   the schedule).  `WfActs` = session / message / job ids are fresh (pairwise distinct). *)
From RipV Require Import Base.Prelude Model.RunLifecycle Gen.RunLifecycleGen Proofs.RunLifecycleProofs.

(* A session stream starts with its start frame at seq 0, ends with exactly one end frame, has no other
   start/end frame in between, and its seqs are 0,1,2,… — for every started run (linked or not), under
   every schedule, whatever the provider or the tools do, whichever continuity appends fail. *)
Theorem c07_session_shape : forall (aok : ck -> bool) (acts : list act) (l : list ev) (a : act) (sid : N),
  WfActs acts -> Interleave (map (act_events aok) acts) l ->
  In a acts -> In sid (act_sids a) -> act_started aok a = true ->
  SessionShape (sess_stream sid l).
Proof. exact session_shape. Qed.
Print Assumptions c07_session_shape.

(* Per run the thread records: run_spawned; [selection_decided; compiled]?; side_effects*; cursor_updated?;
   run_ended — and in the log projected on the run, run_ended is the frame right after the run's own
   terminal session frame (so nothing of the run follows it) and carries that frame's reason.
   AppendOk (every continuity append succeeds) is a hypothesis: see c07_end_dropped_when_append_fails_refuted. *)
Theorem c07_thread_order : forall (aok : ck -> bool) (acts : list act) (l : list ev) (g : cfg) (mid sid : N) (inp : input),
  WfActs acts -> Interleave (map (act_events aok) acts) l -> In (APost g mid sid inp) acts ->
  (forall k, aok k = true) ->
  exists pre q r,
    filter (of_run sid) l
    = EC (CRunSpawned sid mid) :: ES sid 0 SStarted :: pre ++ [ES sid q (SEnded r); EC (CRunEnded sid mid r)]
    /\ mid_kinds (map snd (sess_stream sid pre)) = true
    /\ ThreadShape sid mid (conts (filter (of_run sid) l)) r.
Proof. exact thread_order. Qed.
Print Assumptions c07_thread_order.

(* … and WITHOUT AppendOk (run_session drops the result of every thread append: `let _ = continuities.append_…`): failing
   appends delete exactly the thread frames whose append failed - nothing else of the run changes (same session frames, same
   seqs, same reasons) … *)
Theorem c07_failing_appends_only_delete : forall (g : cfg) (sid : N) (link : option N) (aok : ck -> bool) (inp : input),
  run_session g sid link aok inp = filter (keeps aok) (run_session g sid link all_ok inp).
Proof. exact run_session_keeps. Qed.
Print Assumptions c07_failing_appends_only_delete.

(* … so under ARBITRARY failing appends (only the message and its run_spawned reached the thread), under every schedule,
   the run's projection of the log is a full AppendOk-shaped sequence - ThreadShape, run_ended right after the terminal
   session frame and carrying its reason - from which exactly the frames whose append failed are missing: the frames that are
   there keep their causal order.  (What the harness's oracle checks on fault-injected runs: thread_regex_faulted.) *)
Theorem c07_thread_order_failing_appends : forall (aok : ck -> bool) (acts : list act) (l : list ev) (g : cfg) (mid sid : N) (inp : input),
  WfActs acts -> Interleave (map (act_events aok) acts) l -> In (APost g mid sid inp) acts ->
  aok (CMessage mid) = true -> aok (CRunSpawned sid mid) = true ->
  exists pre q r,
    filter (of_run sid) l
    = filter (keeps aok)
        (EC (CRunSpawned sid mid) :: ES sid 0 SStarted :: pre ++ [ES sid q (SEnded r); EC (CRunEnded sid mid r)])
    /\ mid_kinds (map snd (sess_stream sid pre)) = true
    /\ ThreadShape sid mid
         (conts (EC (CRunSpawned sid mid) :: ES sid 0 SStarted :: pre ++ [ES sid q (SEnded r); EC (CRunEnded sid mid r)])) r.
Proof. exact thread_order_faulted. Qed.
Print Assumptions c07_thread_order_failing_appends.

(* each message that reached the thread has exactly one run_spawned frame *)
Theorem c07_one_spawn_per_message : forall (aok : ck -> bool) (acts : list act) (l : list ev) (g : cfg) (mid sid : N) (inp : input),
  WfActs acts -> Interleave (map (act_events aok) acts) l -> In (APost g mid sid inp) acts ->
  aok (CMessage mid) = true -> aok (CRunSpawned sid mid) = true ->
  count_ck (is_spawn_of mid) l = 1%nat.
Proof. exact one_spawn_per_message. Qed.
Print Assumptions c07_one_spawn_per_message.

(* "each message posted produces exactly one run_spawned frame" when the CLIENT HANGS UP: hyper/axum drop the handler future
   of a connection that went away while it is suspended.  thread_post_message has one suspension point (the lock of the
   router's session map); `post_message_hung po … dropped` = the handler with that point placed as `po` says, dropped there
   or not.  With the point BEFORE the message append (server.rs today; re-read by the extractor on every run: gen_post_order,
   obligations gen_post_ok / gen_post_safe) a message that reached the thread has its run_spawned frame, dropped or not … *)
Theorem c07_hung_up_post_message_has_run : forall (po : post_order) (g : cfg) (aok : ck -> bool) (mid sid : N) (inp : input) (dropped : bool),
  post_order_safe po = true -> aok (CRunSpawned sid mid) = true ->
  count_ck (is_spawn_of mid) (post_message_hung po g aok mid sid inp dropped)
  = count_ck (is_message_of mid) (post_message_hung po g aok mid sid inp dropped).
Proof. exact post_hung_message_has_run. Qed.
Print Assumptions c07_hung_up_post_message_has_run.

(* … indeed a dropped request is no activity at all and an undropped one is post_message, so every theorem above covers
   stores whose clients hang up (as built: at the order read from the source) … *)
Theorem c07_hung_up_post_as_built : forall (g : cfg) (aok : ck -> bool) (mid sid : N) (inp : input) (dropped : bool),
  post_message_hung gen_post_order g aok mid sid inp dropped = if dropped then [] else post_message g aok mid sid inp.
Proof. exact (fun g aok mid sid inp dropped => post_hung_safe gen_post_order g aok mid sid inp dropped gen_post_safe). Qed.
Print Assumptions c07_hung_up_post_as_built.

(* … REFUTED for the order before the fix (append message; lock; append run_spawned; spawn): the request dropped at the
   lock leaves a message on the thread that never gets a run.  Replayed on the real code: corpus/C07/post_client_hangs_up.json *)
Theorem c07_hung_up_post_unfixed_refuted :
  exists g aok mid sid inp,
    count_ck (is_message_of mid) (post_message_hung PoAppendFirst g aok mid sid inp true) = 1%nat
    /\ count_ck (is_spawn_of mid) (post_message_hung PoAppendFirst g aok mid sid inp true) = 0%nat.
Proof. exact (ex_intro _ g_stub (ex_intro _ all_ok (ex_intro _ 7 (ex_intro _ 1 (ex_intro _ (IPrompt true []) post_hung_unfixed_orphan))))). Qed.
Print Assumptions c07_hung_up_post_unfixed_refuted.

(* every spawned run has exactly one run_ended frame — under AppendOk for that frame *)
Theorem c07_one_end_per_spawn : forall (aok : ck -> bool) (acts : list act) (l : list ev) (g : cfg) (mid sid : N) (inp : input),
  WfActs acts -> Interleave (map (act_events aok) acts) l -> In (APost g mid sid inp) acts ->
  aok (CMessage mid) = true -> aok (CRunSpawned sid mid) = true ->
  (forall r, aok (CRunEnded sid mid r) = true) ->
  count_ck (is_end_of sid) l = 1%nat.
Proof. exact one_end_per_spawn. Qed.
Print Assumptions c07_one_end_per_spawn.

(* … and never more than one, whatever fails *)
Theorem c07_end_at_most_once : forall (aok : ck -> bool) (acts : list act) (l : list ev) (g : cfg) (mid sid : N) (inp : input),
  WfActs acts -> Interleave (map (act_events aok) acts) l -> In (APost g mid sid inp) acts ->
  aok (CMessage mid) = true -> aok (CRunSpawned sid mid) = true ->
  (count_ck (is_end_of sid) l <= 1)%nat.
Proof. exact end_at_most_once. Qed.
Print Assumptions c07_end_at_most_once.

(* a background job is ended at most once (any job outcome, any failing appends, any schedule) *)
Theorem c07_job_ended_at_most_once : forall (aok : ck -> bool) (acts : list act) (l : list ev) (j : N),
  WfActs acts -> Interleave (map (act_events aok) acts) l ->
  (count_ck (is_job_end_of j) l <= 1)%nat.
Proof. exact job_ended_at_most_once. Qed.
Print Assumptions c07_job_ended_at_most_once.

(* the projection used above really is "the run's own frames": the log filtered on a run's id equals the
   run's own event list, under every schedule *)
Theorem c07_run_projection : forall (aok : ck -> bool) (acts : list act) (l : list ev) (a : act) (sid : N),
  WfActs acts -> Interleave (map (act_events aok) acts) l -> In a acts -> In sid (act_sids a) ->
  filter (of_run sid) l = filter (of_run sid) (act_events aok a).
Proof. exact run_projection. Qed.
Print Assumptions c07_run_projection.

(* "for all provider behaviours": a provider is an unbounded sequence of answers; the run never looks
   beyond answer number MAX_TOOL_CALLS (every continued round spends tool-call budget), so quantifying
   over finite lists of answers loses nothing *)
Theorem c07_provider_prefix_suffices : forall (g : cfg) (sid : N) (link : option N) (aok : ck -> bool) (cok : bool) (reqs extra : list req_out),
  (N.to_nat MAX_TOOL_CALLS < length reqs)%nat ->
  run_session g sid link aok (IPrompt cok (reqs ++ extra)) = run_session g sid link aok (IPrompt cok reqs).
Proof. exact run_session_prefix. Qed.
Print Assumptions c07_provider_prefix_suffices.

(* … and WHY it never looks further: the tool budget.  `run_session_a ac` is run_session with the placement of
   `tool_call_count += 1` as a parameter (at ACCT it is run_session, c07_accounting_as_modelled; the extractor re-reads the
   placement from run_openresponses_agent_loop on every run: gen_acct, obligations gen_budget_ok / gen_acct_all).
   When every drained call is paid for - refused by tool_choice or not - a run makes at most MAX_TOOL_CALLS provider
   requests, for EVERY list of provider answers however long (a provider that answers for ever included): the run ends. *)
Theorem c07_requests_bounded : forall (ac : acct) (g : cfg) (sid : N) (link : option N) (aok : ck -> bool) (inp : input),
  acct_all ac = true ->
  (nreq (run_session_a ac g sid link aok inp) <= N.to_nat MAX_TOOL_CALLS)%nat.
Proof. exact requests_bounded. Qed.
Print Assumptions c07_requests_bounded.

Theorem c07_requests_bounded_as_built : forall (g : cfg) (sid : N) (link : option N) (aok : ck -> bool) (inp : input),
  (nreq (run_session_a gen_acct g sid link aok inp) <= N.to_nat MAX_TOOL_CALLS)%nat.
Proof. exact (fun g sid link aok inp => requests_bounded gen_acct g sid link aok inp gen_acct_all). Qed.
Print Assumptions c07_requests_bounded_as_built.

Theorem c07_accounting_as_modelled : forall (g : cfg) (sid : N) (link : option N) (aok : ck -> bool) (inp : input),
  run_session_a ACCT g sid link aok inp = run_session g sid link aok inp.
Proof. exact run_session_a_every. Qed.
Print Assumptions c07_accounting_as_modelled.

(* c07_provider_prefix_suffices restated for the accounting read from the source *)
Theorem c07_provider_prefix_suffices_as_built : forall (g : cfg) (sid : N) (link : option N) (aok : ck -> bool) (cok : bool) (reqs extra : list req_out),
  (N.to_nat MAX_TOOL_CALLS < length reqs)%nat ->
  run_session_a gen_acct g sid link aok (IPrompt cok (reqs ++ extra)) = run_session_a gen_acct g sid link aok (IPrompt cok reqs).
Proof. exact (fun g sid link aok cok reqs extra => run_session_a_prefix gen_acct g sid link aok cok reqs extra gen_acct_all). Qed.
Print Assumptions c07_provider_prefix_suffices_as_built.

(* REFUTED when a call refused by tool_choice is free (`tool_call_count += 1` only in the dispatching branches): against
   the stubborn provider - every answer is one call of a refused function - the run asks again after EVERY answer.  For every
   n there is a script of n such answers after which the run is still open: it has made request n+1 (fuel-indexed form
   of "the run never ends against a provider that never stops") … *)
Theorem c07_requests_unbounded_when_refused_calls_are_free_refuted : forall n : nat,
  exists reqs, length reqs = n /\ forallb is_refused_answer reqs = true
    /\ nreq (run_session_a AcctDispatchedOnly g_stateless_prov 1 (Some 2) all_ok (IPrompt true reqs)) = S n.
Proof. exact requests_unbounded_dispatched_only. Qed.
Print Assumptions c07_requests_unbounded_when_refused_calls_are_free_refuted.

(* … so no finite prefix of the provider's answers determines the run: one more answer always changes it *)
Theorem c07_provider_prefix_fails_when_refused_calls_are_free_refuted : forall n : nat,
  run_session_a AcctDispatchedOnly g_stateless_prov 1 (Some 2) all_ok (IPrompt true (repeat refused_answer n ++ [refused_answer]))
  <> run_session_a AcctDispatchedOnly g_stateless_prov 1 (Some 2) all_ok (IPrompt true (repeat refused_answer n)).
Proof. exact prefix_fails_dispatched_only. Qed.
Print Assumptions c07_provider_prefix_fails_when_refused_calls_are_free_refuted.

(* AppendOk cannot be dropped: `let _ = continuities.append_run_ended(..)` (session.rs:308-317) — when that
   append fails the run stays spawned-but-never-ended on the thread and nobody is told *)
Theorem c07_end_dropped_when_append_fails_refuted :
  exists aok acts l g mid sid inp,
    WfActs acts /\ Interleave (map (act_events aok) acts) l /\ In (APost g mid sid inp) acts
    /\ count_ck (is_spawn_of mid) l = 1%nat /\ count_ck (is_end_of sid) l = 0%nat.
Proof. exact end_dropped_refuted. Qed.
Print Assumptions c07_end_dropped_when_append_fails_refuted.

(* RUN_ENDED IS UNCONDITIONAL ON SIDE WRITES.  Besides the log, the end of a run makes best-effort writes that can fail -
   the snapshot (write_snapshot), the thread's sidecar / index caches, artifacts, checkpoints: disk full, a read-only data
   directory, a tool that put something else where the target should be.  `act_events_x gate swf aok a` = the activity with
   the exit GATE (the side writes whose failure the code lets suppress append_run_ended) and the failure pattern
   `swf : session id -> side_write -> bool` (which side write fails in which run - a damaged directory fails every later run
   too) as parameters.  With nothing in the gate, for EVERY failure pattern, every set of activities and every schedule:
   every run announced on the thread has exactly one run_ended … *)
Theorem c07_lifecycle_complete_under_failing_side_writes :
  forall (gate : list side_write) (swf : N -> side_write -> bool) (aok : ck -> bool) (acts : list act) (l : list ev) (g : cfg) (mid sid : N) (inp : input),
  gate_unconditional gate = true ->
  WfActs acts -> Interleave (map (act_events_x gate swf aok) acts) l -> In (APost g mid sid inp) acts ->
  aok (CMessage mid) = true -> aok (CRunSpawned sid mid) = true ->
  (forall r, aok (CRunEnded sid mid r) = true) ->
  count_ck (is_end_of sid) l = 1%nat.
Proof. exact one_end_per_spawn_x. Qed.
Print Assumptions c07_lifecycle_complete_under_failing_side_writes.

(* … right after the run's own terminal session frame and carrying its reason (c07_thread_order for every failure pattern) … *)
Theorem c07_thread_order_under_failing_side_writes :
  forall (gate : list side_write) (swf : N -> side_write -> bool) (aok : ck -> bool) (acts : list act) (l : list ev) (g : cfg) (mid sid : N) (inp : input),
  gate_unconditional gate = true ->
  WfActs acts -> Interleave (map (act_events_x gate swf aok) acts) l -> In (APost g mid sid inp) acts ->
  (forall k, aok k = true) ->
  exists pre q r,
    filter (of_run sid) l
    = EC (CRunSpawned sid mid) :: ES sid 0 SStarted :: pre ++ [ES sid q (SEnded r); EC (CRunEnded sid mid r)]
    /\ mid_kinds (map snd (sess_stream sid pre)) = true
    /\ ThreadShape sid mid (conts (filter (of_run sid) l)) r.
Proof. exact thread_order_x. Qed.
Print Assumptions c07_thread_order_under_failing_side_writes.

(* … as built: at the gate the extractor reads from run_session on every run (the blocks around the append_run_ended call, the
   use of write_snapshot's result; obligations gen_exit_gate_ok / gen_exit_gate_unconditional), an activity under ANY failure
   pattern is an activity every theorem above speaks about: the same run on the input the failing side writes leave it
   (`act_under`: a context bundle that cannot be written = compile failure, an auto checkpoint that cannot be written =
   checkpoint_failed; a failing snapshot / thread-cache write changes nothing) *)
Theorem c07_side_writes_as_built : forall (swf : N -> side_write -> bool) (aok : ck -> bool) (a : act),
  act_events_x gen_exit_gate swf aok a = act_events aok (act_under swf a).
Proof. exact (fun swf aok a => act_events_x_ungated gen_exit_gate swf aok a gen_exit_gate_unconditional). Qed.
Print Assumptions c07_side_writes_as_built.

(* "unconditional" cannot be weakened: EVERY non-empty gate is closed by one failing side write of it, and a run whose
   gate is closed writes its terminal session frame (the session stream keeps its shape) and no run_ended, ever -
   for every configuration, input, provider and tool behaviour *)
Theorem c07_gated_run_is_never_ended :
  forall (gate : list side_write), gate_unconditional gate = false ->
  exists w, In w gate /\
    forall (g : cfg) (sid mid : N) (aok : ck -> bool) (inp : input),
      count_ck (is_end_of sid) (run_session_x gate (side_write_eqb w) g sid (Some mid) aok inp) = 0%nat
      /\ SessionShape (sess_stream sid (run_session_x gate (side_write_eqb w) g sid (Some mid) aok inp)).
Proof. exact gated_run_never_ended. Qed.
Print Assumptions c07_gated_run_is_never_ended.

(* … store-wide: with a non-empty gate ONE side write that fails in every run (a damaged directory, a full disk) leaves EVERY
   run announced on any thread of the store open - every set of activities, every schedule: each message still gets its
   run_spawned, no run ever gets its run_ended (the store then behaves exactly as if every run_ended append failed) *)
Theorem c07_one_failing_side_write_leaves_every_run_open :
  forall (gate : list side_write), gate_unconditional gate = false ->
  exists w, In w gate /\
    forall (aok : ck -> bool) (acts : list act) (l : list ev) (g : cfg) (mid sid : N) (inp : input),
      WfActs acts -> Interleave (map (act_events_x gate (fun _ => side_write_eqb w) aok) acts) l ->
      In (APost g mid sid inp) acts -> aok (CMessage mid) = true -> aok (CRunSpawned sid mid) = true ->
      count_ck (is_spawn_of mid) l = 1%nat /\ count_ck (is_end_of sid) l = 0%nat.
Proof. exact gated_store_never_ends. Qed.
Print Assumptions c07_one_failing_side_write_leaves_every_run_open.

(* REFUTED for a gate that holds the snapshot (`if let (Some(link), Ok(_)) = (continuity_run, snapshot)`): a run whose own
   tool replaces <data>/snapshots by a regular file, then a plain prompt on the same thread - write_snapshot fails in both
   runs; both are announced, both end their session, NEITHER gets its run_ended (under AppendOk).  Replayed on the real
   code: corpus/C07/seeded_c07_9_tool_replaces_snapshot_dir.json (the oracle demands one run_ended for both) *)
Theorem c07_run_ended_gated_by_snapshot_refuted :
  exists swf acts l g1 mid1 sid1 inp1 g2 mid2 sid2 inp2,
    WfActs acts /\ Interleave (map (act_events_x [SwSnapshot] swf all_ok) acts) l
    /\ In (APost g1 mid1 sid1 inp1) acts /\ In (APost g2 mid2 sid2 inp2) acts /\ sid1 <> sid2
    /\ count_ck (is_spawn_of mid1) l = 1%nat /\ count_ck (is_end_of sid1) l = 0%nat
    /\ count_ck (is_spawn_of mid2) l = 1%nat /\ count_ck (is_end_of sid2) l = 0%nat.
Proof. exact end_lost_when_snapshot_gates_refuted. Qed.
Print Assumptions c07_run_ended_gated_by_snapshot_refuted.

(* S6: freshness of the session id cannot be dropped either — two run_session tasks on ONE session id
   (what POST /sessions/{id}/input twice did before the repair) write two start frames at seq 0 *)
Theorem c07_double_input_unfixed_refuted :
  exists g sid inp1 inp2 l,
    Interleave [run_session g sid None all_ok inp1; run_session g sid None all_ok inp2] l
    /\ ~ SessionShape (sess_stream sid l).
Proof. exact double_input_refuted. Qed.
Print Assumptions c07_double_input_unfixed_refuted.

(* S6 under CONCURRENT inputs.  Any number of callers hold one SessionHandle and call spawn_session with their
   inputs `inps`; `sched` = the order in which they take their steps (any list of caller numbers; at least one
   caller takes a step).  `run_guard gk n sched` plays the started-guard of kind `gk`; the session's log is any
   interleaving of the run_session tasks of the ACCEPTED inputs.  When the guard is one atomic read-modify-write
   the session stream has the shape of exactly one run — whatever the number of callers and the schedule. *)
Theorem c07_double_input : forall (gk : guard_kind) (g : cfg) (sid : N) (inps : list input) (a : nat) (sched : list nat) (l : list ev),
  guard_atomic gk = true -> (a < length inps)%nat ->
  Interleave (map (run_session g sid None all_ok)
                  (accepted_inputs (snd (run_guard gk (length inps) (a :: sched))) inps)) l ->
  SessionShape (sess_stream sid l).
Proof. exact double_input_guarded. Qed.
Print Assumptions c07_double_input.

(* … instantiated at the guard kind the extractor reads from runner.rs on every run (obligation gen_guard_atomic) *)
Theorem c07_double_input_as_built : forall (g : cfg) (sid : N) (inps : list input) (a : nat) (sched : list nat) (l : list ev),
  (a < length inps)%nat ->
  Interleave (map (run_session g sid None all_ok)
                  (accepted_inputs (snd (run_guard gen_guard (length inps) (a :: sched))) inps)) l ->
  SessionShape (sess_stream sid l).
Proof. exact (fun g sid inps a sched l => double_input_guarded gen_guard g sid inps a sched l gen_guard_atomic). Qed.
Print Assumptions c07_double_input_as_built.

(* exactly one of the concurrent inputs is accepted (the count, not only the shape) *)
Theorem c07_one_input_accepted : forall (gk : guard_kind) (n a : nat) (sched : list nat),
  guard_atomic gk = true -> (a < n)%nat ->
  nacc (snd (run_guard gk n (a :: sched))) = 1%nat.
Proof. exact guard_one_accepted. Qed.
Print Assumptions c07_one_input_accepted.

(* a check-then-set guard (`load` … spawn … `store(true)`) is NOT enough: two callers, schedule
   load, load, spawn+store, spawn+store — both inputs are accepted, two runs write one session stream *)
Theorem c07_double_input_check_then_set_refuted :
  exists g sid (inps : list input) sched l,
    Forall (fun a => (a < length inps)%nat) sched /\ sched <> []
    /\ Interleave (map (run_session g sid None all_ok)
                       (accepted_inputs (snd (run_guard GCheckThenSet (length inps) sched)) inps)) l
    /\ ~ SessionShape (sess_stream sid l).
Proof. exact double_input_check_then_set_refuted. Qed.
Print Assumptions c07_double_input_check_then_set_refuted.

(* the schedule the harness forces through the hook point session.spawn.guarded (every caller up to the point,
   then all released): one accepted input for an atomic guard and any number n >= 1 of callers *)
Theorem c07_stepped_race_accepts_one : forall n : N, 0 < n -> race_accepted GAtomicRmw n = 1.
Proof. exact race_accepted_atomic. Qed.
Print Assumptions c07_stepped_race_accepts_one.

(* the cut of a text is a total function that yields a prefix made of whole characters' bytes *)
Theorem c07_cut_is_prefix : forall (n : N) (l : list N), exists rest, l = cut_floor n l ++ rest.
Proof. exact cut_floor_prefix. Qed.
Print Assumptions c07_cut_is_prefix.

(* … and for every text (any code points, any repetition) and every n the cut is a well-formed UTF-8 text of at
   most n bytes: the offset is never inside a character.  (`&body[..n]`, a byte slice, is partial: it panics there,
   and a panicking run task never reaches the single exit — no end frame, no snapshot, no run_ended.) *)
Theorem c07_cut_whole_characters : forall (text : list (N * N)) (n : N),
  WfU8 (cut_floor n (seg_bytes text)) /\ nlen (cut_floor n (seg_bytes text)) <= n.
Proof. exact cut_of_text_wf. Qed.
Print Assumptions c07_cut_whole_characters.

(* non-vacuity: four activities (a provider run with a tool round, a tool-envelope run that times out, an
   unlinked run whose provider stream breaks, a job), really interleaved; the hypotheses hold and the run's
   thread frames are the full sequence *)
Example c07_hypotheses_satisfiable :
  WfActs demo_acts /\ Interleave (map (act_events all_ok) demo_acts) demo_log.
Proof. exact (conj demo_wf demo_interleave). Qed.

Example c07_demo_nontrivial :
  conts (filter (of_run 100) demo_log)
  = [CRunSpawned 100 200; CSelection 100 200; CCompiled 100; CSideEffects 100; CCursor 100; CRunEnded 100 200 0]
  /\ map snd (sess_stream 101 demo_log) = [SStarted; SToolStarted; SToolFailed; SOutput; SEnded 0]
  /\ map snd (sess_stream 102 demo_log)
     = [SStarted; SReqStarted; SHeaders; SFirstByte; SProvider; SOutput; SProvider; SEnded 1]
  /\ demo_log <> concat (map (act_events all_ok) demo_acts)
  /\ count_ck (is_job_end_of 300) demo_log = 1%nat.
Proof. exact demo_facts. Qed.

(* the stubborn provider (64 identical answers, each one refused call) against the code's accounting: the run makes 32
   requests and ends max_tool_calls_exceeded, run_ended last *)
Example c07_stubborn_provider_as_built :
  nreq stubborn_run = 32%nat
  /\ last stubborn_run (EC (CMessage 0)) = EC (CRunEnded 1 2 R_MAX_TOOL_CALLS)
  /\ forallb is_refused_answer (repeat refused_answer 64) = true.
Proof. exact stubborn_run_ends. Qed.

(* failing appends: a full run (selection, compiled, side effects, cursor, run_ended) whose compiled / cursor / run_ended
   appends fail leaves selection_decided and the side effects, in that order *)
Example c07_failing_appends_demo :
  conts (run_session g_prov 100 (Some 200) aok_demo
           (IPrompt true [ROk [false] true [{| c_allowed := true; c_lock := true; c_tool := {| t_auto := 1; t_res := TDone 0 0 |} |}]; ROk [true] true []]))
  = [CSelection 100 200; CSideEffects 100].
Proof. exact faulted_demo. Qed.

(* the store of the refutation under the gate the code has: the tool run (snapshot directory replaced by a file) and the
   next prompt run are both closed, each right after its own frames *)
Example c07_failing_snapshot_demo :
  Interleave (map (act_events_x EXIT_GATE swf_snapshot_dir_damaged all_ok) gated_acts) ungated_log
  /\ conts ungated_log = [CMessage 7; CRunSpawned 1 7; CSideEffects 1; CRunEnded 1 7 R_COMPLETED; CMessage 8; CRunSpawned 2 8; CRunEnded 2 8 R_COMPLETED].
Proof. exact ungated_facts. Qed.

(* failing side writes BEFORE the exit: with the artifact and checkpoint directories damaged a linked provider run ends
   context_compile_failed and a `write` envelope logs checkpoint_failed before the tool - both are closed, with those reasons *)
Example c07_failing_workspace_writes_demo :
  map snd (sess_stream 1 ws_damaged_log) = [SStarted; SEnded R_COMPILE_FAILED]
  /\ map snd (sess_stream 2 ws_damaged_log) = [SStarted; SCkFailed; SToolStarted; SToolStdout; SToolEnded; SOutput; SEnded R_COMPLETED]
  /\ conts ws_damaged_log = [CMessage 7; CRunSpawned 1 7; CRunEnded 1 7 R_COMPILE_FAILED; CMessage 8; CRunSpawned 2 8; CSideEffects 2; CRunEnded 2 8 R_COMPLETED].
Proof. exact ws_damaged_facts. Qed.
