(* C11 — workspace mutations never overlap and are logged in the order they happened.
   Statements only; proofs in Proofs/WsLockProofs.v.  [tr_of c actors sched] is the trace of the
   one-permit-semaphore LTS running the actors [actors : nat -> option akind] (any number of
   sessions / tasks) compiled with the configuration [c] under the schedule [sched]; the
   configuration regenerated from the source satisfies [wf_cfg] (obligation
   Gen.LockSpans.gen_lockspans_wf). *)
From RipV Require Import Base.Prelude Model.WsLock Proofs.WsLockProofs.

(* for every schedule and any number of actors: at most one actor is between Start and End of a
   mutating call (every prefix of a schedule is a schedule, so this covers every reachable point) *)
Theorem c11_mutex : forall c actors sched i j,
  wf_cfg c = true ->
  is_open (tr_of c actors sched) i = true ->
  is_open (tr_of c actors sched) j = true -> i = j.
Proof. exact (fun c actors sched i j W => mutex_run _ sched i j (sys_wf c actors W)). Qed.
Print Assumptions c11_mutex.

(* the actor inside a mutating call is the holder of the single permit *)
Theorem c11_mutating_holds_permit : forall c actors sched i,
  wf_cfg c = true ->
  is_open (tr_of c actors sched) i = true -> holder (run (sys c actors) sched) = Some i.
Proof. exact (fun c actors sched i W => open_holds _ sched i (sys_wf c actors W)). Qed.
Print Assumptions c11_mutating_holds_permit.

(* the same for any system of actors obeying the lock discipline (not only compiled ones) *)
Theorem c11_mutex_disciplined : forall f sched i j,
  wf_sys f ->
  is_open (trace (run f sched)) i = true ->
  is_open (trace (run f sched)) j = true -> i = j.
Proof. exact mutex_run. Qed.
Print Assumptions c11_mutex_disciplined.

(* read-only calls are never blocked: whatever the state of the permit, the next instruction of a
   read-only session is not an acquire and executes at once *)
Theorem c11_readonly_free : forall c actors sched i n l ins rest,
  wf_cfg c = true ->
  actors i = Some (AEnv n l) -> requires_lock c n = false ->
  code (run (sys c actors) sched) i = ins :: rest ->
  ins <> IAcq
  /\ code (step (run (sys c actors) sched) i) i = rest
  /\ trace (step (run (sys c actors) sched) i) = (i, ins) :: trace (run (sys c actors) sched).
Proof. exact c11_readonly_free_proof. Qed.
Print Assumptions c11_readonly_free.

(* ... for every actor of every system only an acquire can wait, and the code of a read-only call
   (envelope or agent-loop site, attached or not) contains no acquire *)
Theorem c11_only_acquire_waits : forall f sched i ins rest,
  code (run f sched) i = ins :: rest -> ins <> IAcq ->
  code (step (run f sched) i) i = rest
  /\ trace (step (run f sched) i) = (i, ins) :: trace (run f sched).
Proof. exact (fun f sched => step_progress (run f sched)). Qed.
Print Assumptions c11_only_acquire_waits.

Theorem c11_readonly_call_no_acquire : forall c l k,
  wf_cfg c = true ->
  ~ In IAcq (compile_span l k false (span_ro c)) /\ ~ In IAcq (compile_span l k false (span_loop_ro c)).
Proof. exact readonly_call_no_acq. Qed.
Print Assumptions c11_readonly_call_no_acquire.

(* frames on the thread are in the order of the End events of the logged mutating calls: the
   frame list is the End list minus at most its newest element, and equal to it whenever the
   permit is free (in particular at the end of every complete run) *)
Theorem c11_order : forall c actors sched,
  wf_cfg c = true ->
  exists p, ends_a (tr_of c actors sched) = p ++ frames (tr_of c actors sched)
            /\ (length p <= 1)%nat
            /\ (holder (run (sys c actors) sched) = None -> p = []).
Proof. exact (fun c actors sched W => order_run _ sched (sys_wf c actors W)). Qed.
Print Assumptions c11_order.

(* one side-effects frame per logged mutating call of an actor: its frames are its ended logged calls
   in the same order — all of them, except that the newest call's frame may still be pending while
   the actor holds the permit; a frame comes after the End of its call; when the run ends
   (IRunEnded) every ended call of the run has its frame already *)
Theorem c11_one_side_effect_frame_per_call : forall c actors sched i,
  wf_cfg c = true ->
  (own i (ends_a (tr_of c actors sched)) = own i (frames (tr_of c actors sched))
   \/ exists k, own i (ends_a (tr_of c actors sched)) = (i, k) :: own i (frames (tr_of c actors sched))
                /\ holder (run (sys c actors) sched) = Some i)
  /\ (forall k, In (i, IApp k) (tr_of c actors sched) ->
        happens_before (i, IEnd k true true) (i, IApp k) (tr_of c actors sched))
  /\ (forall l1 l2, tr_of c actors sched = l1 ++ (i, IRunEnded) :: l2 ->
        own i (ends_a l2) = own i (frames l2)).
Proof. exact c11_one_frame_proof. Qed.
Print Assumptions c11_one_side_effect_frame_per_call.

(* ... and every mutating tool call of a thread-attached session is a logged call *)
Theorem c11_attached_calls_logged : forall c a k a',
  wf_cfg c = true ->
  (exists n, a = AEnv n true) \/ (exists ns, a = ALoop ns true) ->
  In (IEnd k true a') (compile_actor c a) -> a' = true.
Proof. exact attached_calls_logged. Qed.
Print Assumptions c11_attached_calls_logged.

(* every compiled actor obeys the discipline; observed traces accepted by [replay] are runs *)
Theorem c11_compiled_disciplined : forall c a,
  wf_cfg c = true -> daccept DOut (compile_actor c a) = true.
Proof. exact compile_wf. Qed.
Print Assumptions c11_compiled_disciplined.

Theorem c11_replay_is_run : forall steps st st',
  replay st steps = Some st' -> st' = fold_left step (sched_of steps) st.
Proof. exact replay_is_run. Qed.
Print Assumptions c11_replay_is_run.

(* non-vacuity *)
Example c11_ref_cfg_wf : wf_cfg ref_cfg = true.
Proof. exact ref_cfg_wf. Qed.

Example c11_overlap_reachable :
  is_open (tr_of ref_cfg ex_actors ex_sched_overlap) 0 = true
  /\ is_open_ro (tr_of ref_cfg ex_actors ex_sched_overlap) 1 = true
  /\ is_open_ro (tr_of ref_cfg ex_actors ex_sched_overlap) 2 = true.
Proof. exact ex_overlap. Qed.

Example c11_blocked_then_ordered :
  frames (tr_of ref_cfg ex_actors ex_sched_blocked) = [(3%nat, 0%N); (0%nat, 0%N)]
  /\ ends_a (tr_of ref_cfg ex_actors ex_sched_blocked) = [(3%nat, 0%N); (0%nat, 0%N)]
  /\ holder (run (sys ref_cfg ex_actors) ex_sched_blocked) = None
  /\ code (run (sys ref_cfg ex_actors) ex_sched_blocked) 4%nat = [].
Proof. exact ex_blocked. Qed.

(* the generated obligation is not decoration: with the guard released before the append the frames
   come out of order, with the guard taken after the tool started two mutating calls overlap *)
Example c11_wf_needed_order :
  wf_cfg bad_cfg_release_early = false
  /\ holder (run (sys bad_cfg_release_early two_writers) sched_release_early) = None
  /\ ends_a (tr_of bad_cfg_release_early two_writers sched_release_early) = [(1%nat, 0%N); (0%nat, 0%N)]
  /\ frames (tr_of bad_cfg_release_early two_writers sched_release_early) = [(0%nat, 0%N); (1%nat, 0%N)].
Proof. exact bad_release_early. Qed.

Example c11_wf_needed_mutex :
  wf_cfg bad_cfg_acquire_late = false
  /\ is_open (tr_of bad_cfg_acquire_late two_writers [0%nat; 1%nat]) 0%nat = true
  /\ is_open (tr_of bad_cfg_acquire_late two_writers [0%nat; 1%nat]) 1%nat = true.
Proof. exact bad_acquire_late. Qed.

(* the classification obligation covers aliases: an allow list without `shell` is rejected, one
   with it is accepted *)
Example c11_alias_must_be_classified :
  wf_cfg bad_cfg_alias_forgotten = false /\ requires_lock bad_cfg_alias_forgotten s_shell = false
  /\ wf_cfg good_cfg_allow_list = true.
Proof. exact alias_forgotten. Qed.

(* S28, fixed in /repo c594d9b: a bash call abandoned by its timeout whose command keeps running
   (End after Release) breaks the discipline and mutual exclusion; with the fix the command is
   killed when the call ends, which is what the model's IEnd stands for *)
Example c11_timeout_unfixed_refuted :
  daccept DOut timeout_unfixed_code = false
  /\ is_open (trace (run timeout_unfixed_sys [0%nat; 0%nat; 0%nat; 0%nat; 0%nat; 1%nat; 1%nat])) 0%nat = true
  /\ is_open (trace (run timeout_unfixed_sys [0%nat; 0%nat; 0%nat; 0%nat; 0%nat; 1%nat; 1%nat])) 1%nat = true.
Proof. exact timeout_unfixed_refuted. Qed.

(* ---------- "... exactly one side-effects frame ..., LISTING THE FILES IT CHANGED" ----------
   Model/SideEffects.v: [run_call root f c] = the workspace after the mutating tool call [c] of a run attached to
   a thread and the affected_paths of its continuity_tool_side_effects frame, computed as the code does: the
   tool (apply_patch = Model/Patch.v, parser + Workspace::apply_patch with undo log and revert; write =
   Model/Checkpoint.v write_tool; a shell command = any new workspace), what the tool reports (`changed_files`:
   every path an operation names, BOTH ends of a move; `path` of write; nothing for a shell command), the files
   of the auto checkpoint when the call returned no artifacts, and session.rs
   summarize_continuity_tool_side_effects (normalise, sort, dedup).  [listed l q]: the list names the file whose
   component path is q.  Files are compared by content and existence ([file_at]). *)
From RipV Require Import Base.Fs Model.Paths Model.Checkpoint Model.Patch Model.SideEffects.
From RipV Require Import Proofs.FsProofs Proofs.SideEffectsProofs.
From RipV Require Proofs.CheckpointProofs Proofs.AutoCoverProofs.

(* apply_patch, every patch document (parsable or not), every workspace, success or failure at any operation:
   every file the call created, deleted or modified is listed; a frame without a list means nothing changed *)
Theorem c11_patch_frame_lists_changed_paths : forall (root : str) (f : fs) (input : list N) (f' : fs) (fr : option (list str)),
  fs_wf f -> run_call root f (CPatch input) = (f', fr) ->
  match fr with
  | Some l => forall q, file_at f' q <> file_at f q -> listed l q
  | None => forall q, file_at f' q = file_at f q
  end.
Proof. exact patch_frame_lists_changed. Qed.
Print Assumptions c11_patch_frame_lists_changed_paths.

(* both ends of every move of a successful patch are in the list (the source is deleted, the target created) *)
Theorem c11_move_lists_both_ends : forall (root : str) (f : fs) (input : list N) (f' : fs) (ch : list (list N))
    (ops : list op) (p q : list N) (hs : list hunk),
  apply_patch true [] f input = Applied f' ch -> parse_patch input = Some ops -> In (Upd p (Some q) hs) ops ->
  exists l, snd (run_call root f (CPatch input)) = Some l /\ In (normalize_rel p) l /\ In (normalize_rel q) l.
Proof. exact move_lists_both_ends. Qed.
Print Assumptions c11_move_lists_both_ends.

(* the list of a successful patch holds nothing but paths its operations name (it is NOT the exact diff: see
   c11_listed_but_unchanged below) *)
Theorem c11_patch_frame_lists_only_named_paths : forall (root : str) (f : fs) (input : list N) (f' : fs) (ch l : list (list N)),
  apply_patch true [] f input = Applied f' ch ->
  snd (run_call root f (CPatch input)) = Some l ->
  forall y, In y l -> exists ops p, parse_patch input = Some ops /\ In p (affected_paths ops) /\ y = normalize_rel p.
Proof. exact patch_frame_lists_only_named. Qed.
Print Assumptions c11_patch_frame_lists_only_named_paths.

(* write, all four modes, whether it succeeds or fails: no file but the one its argument names changes; a write
   that reports success is listed under that name.  [tmp_free]: the temporary name of the atomic mode is not taken
   (it carries a fresh uuid) *)
Theorem c11_write_frame_lists_changed_path : forall (root : str) (f : fs) (raw : str) (mode : N) (data : bytes) (ext : str)
    (f' : fs) (fr : option (list str)),
  CheckpointProofs.sane f -> tmp_free f (CWrite raw mode data ext) ->
  run_call root f (CWrite raw mode data ext) = (f', fr) ->
  (forall q, file_at f' q <> file_at f q -> q = comps raw)
  /\ (write_ok f (CWrite raw mode data ext) = true -> fr = Some [normalize_rel raw]).
Proof. exact write_frame_lists_changed. Qed.
Print Assumptions c11_write_frame_lists_changed_path.

(* every mutating tool call, whatever its outcome (a write that fails lists the file of its auto checkpoint, which
   is the one file it can have changed; when there is no checkpoint either - argument refused, or the path is a
   directory - nothing changed).  [is_absolute root]: the engine's workspace root.  A frame without a list belongs
   to a shell command or to a call that changed nothing *)
Theorem c11_frame_lists_changed_paths : forall (root : str) (f : fs) (c : call) (f' : fs) (fr : option (list str)),
  is_absolute root = true -> fs_wf f -> CheckpointProofs.sane f -> tmp_free f c ->
  run_call root f c = (f', fr) ->
  match fr with
  | Some l => forall q, file_at f' q <> file_at f q -> listed l q
  | None => is_shell c = true \/ forall q, file_at f' q = file_at f q
  end.
Proof. exact frame_lists_changed_paths_full. Qed.
Print Assumptions c11_frame_lists_changed_paths.

(* a shell command's frame carries no list, whatever the command did to the workspace (the property's "listing
   the files it changed" is not delivered for bash / shell: stated limitation, see props/C11.json) *)
Theorem c11_shell_frame_has_no_list : forall (root : str) (f after : fs), run_call root f (CShell after) = (after, None).
Proof. exact shell_frame_has_no_list. Qed.
Print Assumptions c11_shell_frame_has_no_list.

(* tie T1 (tools/gen/sidefx.py -> Gen/SideFx.v, regenerated on every run): which paths each arm of
   Workspace::apply_patch pushes to `changed_files` and under which condition, the sort + dedup, the artifacts of the
   two tools, the shape of summarize_continuity_tool_side_effects.  Every source that passes report_wf reports what
   the model reports; the source as it is passes; the shape "a moved file is reported under its new name only" is
   rejected and is exactly the refuted MvTargetOnly variant *)
From RipV Require Import Gen.SideFx.
Theorem c11_reported_as_built : forall (c : report_cfg) (ops : list op),
  report_wf c = true -> reported_by c ops = changed_files ops.
Proof. exact reported_as_built. Qed.
Print Assumptions c11_reported_as_built.

Theorem c11_generated_report_wf : gen_ok_sidefx = true /\ report_wf gen_report = true.
Proof. exact (conj gen_sidefx_found gen_sidefx_wf). Qed.
Print Assumptions c11_generated_report_wf.

Theorem c11_report_target_only_rejected :
  report_wf report_target_only = false /\ forall ops, reported_by report_target_only ops = reported MvTargetOnly ops.
Proof. exact report_target_only_rejected. Qed.
Print Assumptions c11_report_target_only_rejected.

Require Import Coq.Strings.String.
(* non-vacuity: a rename on a well-formed workspace — update a.txt, move it to n.txt: both names listed *)
Example c11_move_demo :
  snd (run_call root0 ws0 (CPatch patch_move)) = Some [s "a.txt"; s "n.txt"]
  /\ same_listing (fst (run_call root0 ws0 (CPatch patch_move))) ws0_moved = true
  /\ fs_wf ws0 /\ CheckpointProofs.sane ws0.
Proof. exact move_demo. Qed.

(* the condition is needed: when a move reports only its target (MvTargetOnly), the same call deletes a.txt and
   its frame does not list it *)
Theorem c11_move_source_unreported_refuted :
  exists l f', run_call_gen MvTargetOnly root0 ws0 (CPatch patch_move) = (f', Some l)
    /\ file_at f' (comps (s "a.txt")) <> file_at ws0 (comps (s "a.txt"))
    /\ ~ In (normalize_rel (s "a.txt")) l.
Proof. exact move_source_unlisted. Qed.
Print Assumptions c11_move_source_unreported_refuted.

(* the list is an upper bound, not the exact diff: a write of the content the file already has, a patch that
   fails (move onto an existing file: nothing changed, the auto checkpoint's files are listed), add + delete of
   one file in one patch *)
Example c11_listed_but_unchanged :
  (snd (run_call root0 ws0 call_same) = Some [s "a.txt"] /\ same_listing (fst (run_call root0 ws0 call_same)) ws0 = true)
  /\ (snd (run_call root0 ws0 (CPatch patch_onto)) = Some [s "a.txt"; s "b.txt"]
      /\ same_listing (fst (run_call root0 ws0 (CPatch patch_onto))) ws0 = true)
  /\ (snd (run_call root0 ws0 (CPatch patch_add_del)) = Some [s "n.txt"]
      /\ same_listing (fst (run_call root0 ws0 (CPatch patch_add_del))) ws0 = true).
Proof. exact (conj write_same_listed_unchanged (conj failed_patch_listed_unchanged add_delete_listed_unchanged)). Qed.

(* ---------- "... are ever IN PROGRESS at the same time": how long an execution that runs a shell command is in progress ----------
   Model/WsLockTree.v: the execution (a background task in pipes or pty mode, a bash / shell tool call) acquires the
   permit, spawns its command, waits for the shell, JOINS its two output streams and releases.  The command is any
   set of processes (the shell, children, double-forked grandchildren), each with a program of workspace writes and
   of closes of the streams it inherited; other executions acquire / write / release; every interleaving.
   [waiter_wf w]: the waiter releases only after both streams were joined by a plain await (a join that passes
   only at end-of-stream, i.e. when no live process holds the stream any more).  The three waiters are read from
   the source on every run (tools/gen/lockjoin.py -> Gen/LockJoin.v, on top of the C17 extractor pump_join.py).
   [ETreeWrite p k att h]: process p of the command writes; att = it still holds one of the execution's streams;
   h = who holds the permit at that moment. *)
From RipV Require Import Model.WsLockTree Proofs.WsLockTreeProofs Gen.LockJoin.

(* every write of a process that is still attached to the execution happens while the execution holds the permit;
   every write of another execution happens while that one holds it: they never overlap *)
Theorem c11_attached_writes_under_lock : forall (w : list top) (ps : list proc) (n : nat) (sched : list sch),
  waiter_wf w = true ->
  (forall p k h, In (ETreeWrite p k true h) (ttrace (trun w ps n sched)) -> h = Some 0%nat)
  /\ (forall j h, In (EOtherWrite j h) (ttrace (trun w ps n sched)) -> h = Some (S j)).
Proof. exact tree_writes_under_lock. Qed.
Print Assumptions c11_attached_writes_under_lock.

(* the same as an order of events: once the execution has released the permit nothing that is still attached to
   it writes any more (l1 = the events after the release; traces are newest first) *)
Theorem c11_no_attached_write_after_release : forall (w : list top) (ps : list proc) (n : nat) (sched : list sch) (l1 l2 : list ev),
  waiter_wf w = true ->
  ttrace (trun w ps n sched) = l1 ++ ETask TRel :: l2 ->
  forall p k h, ~ In (ETreeWrite p k true h) l1.
Proof. exact tree_no_attached_write_after_release. Qed.
Print Assumptions c11_no_attached_write_after_release.

(* the waiters of the pipes task, the pty task and the shell tool as they are in the source satisfy it *)
Theorem c11_generated_waiters_wf :
  gen_ok_lockjoin = true
  /\ waiter_wf gen_pipes_task_waiter && waiter_wf gen_pty_task_waiter && waiter_wf gen_shell_tool_waiter = true.
Proof. exact (conj gen_lockjoin_found gen_lockjoin_wf). Qed.
Print Assumptions c11_generated_waiters_wf.

(* a drain that is bounded in time (seeded change C11-10: the pumps are given 1 s each, then aborted) is rejected by
   the obligation, and with it an attached child writes while ANOTHER execution holds the permit *)
Theorem c11_bounded_drain_refuted :
  exists ps n sched p k j, In (ETreeWrite p k true (Some (S j))) (ttrace (trun bounded_waiter ps n sched)).
Proof. exact bounded_drain_refuted. Qed.
Print Assumptions c11_bounded_drain_refuted.

Example c11_bounded_waiter_rejected : waiter_wf bounded_waiter = false.
Proof. exact bounded_waiter_not_wf. Qed.

(* non-vacuity: the waiter as built is well-formed, and on the very schedule of the refutation it keeps the permit
   until the child (`( sleep 4; echo x > f ) & echo started`) has written *)
Example c11_waiter_as_built_holds :
  waiter_wf ref_waiter = true
  /\ tholder (trun ref_waiter bg_procs 1 sched_handover) = Some 0%nat
  /\ In (ETreeWrite 1 2 true (Some 0%nat)) (ttrace (trun ref_waiter bg_procs 1 sched_handover)).
Proof. exact (conj ref_waiter_wf ref_waiter_holds). Qed.

(* what is NOT claimed: a child that closed every stream it inherited before it writes is invisible to the
   execution; its write can land in the next execution's span (the property text does not speak of it) *)
Example c11_detached_child_outlives_span :
  In (ETreeWrite 1 2 false (Some 1%nat)) (ttrace (trun ref_waiter detached_procs 1 sched_detached)).
Proof. exact detached_child_outlives_span. Qed.

(* "... while read-only tools may overlap freely": a read-only call takes no workspace permit (c11_readonly_free), but
   every tool call takes one of the tool runner's slots for as long as it runs.  The number of slots is read from
   the source (a constant handed to the runner by SessionEngine::new): with at least two, a read-only call finds
   one next to the mutating call in progress; with one (seeded change C11-11) it waits for that call to end *)
Theorem c11_runner_admits_readonly_beside_mutator : forall slots readers : N,
  runner_wf slots = true -> (readers + 1 < slots)%N -> runner_admits slots (1 + readers) = true.
Proof. exact runner_readonly_beside_mutator. Qed.
Print Assumptions c11_runner_admits_readonly_beside_mutator.

Theorem c11_generated_runner_slots_ok : runner_wf gen_runner_slots = true.
Proof. exact gen_runner_slots_ok. Qed.
Print Assumptions c11_generated_runner_slots_ok.

Example c11_one_slot_serialises : runner_wf 1 = false /\ runner_admits 1 1 = false.
Proof. exact runner_one_slot_serialises. Qed.
