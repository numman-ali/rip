(* C04 — Caches are transparent: losing or corrupting them never changes an answer; every read
   terminates however long the thread is.
   Statements only; proofs are in Proofs/TailLoopProofs.v, Proofs/CacheProofs.v, Proofs/CacheGenProofs.v,
   Proofs/CacheCompileProofs.v (the compile input; on top of builder compile's Model/Compile.v + Proofs/CompileProofs.v).
   Every theorem is closed by `exact`.
   Two models meet here: Model/Cache.v (frames with byte lengths; imported last, so `log`, `frame`, `valid_log`, `fseq`
   mean its versions) and Model/Compile.v (the context compiler's frames; written `Compile.log`, `Compile.valid_log`). *)
From RipV Require Import Base.Prelude Model.Compile Proofs.CompileProofs Model.CacheCompile Proofs.CacheCompileProofs
  Gen.CompileConsts Proofs.CacheCompileGenProofs Model.SeekIndex Proofs.SeekIndexProofs.
From RipV Require Import Model.TailLoop Model.Cache Proofs.TailLoopProofs Proofs.CacheProofs
  Gen.TailLoops Proofs.CacheGenProofs.

(* ---------------------------------------------------------------- termination *)
(* The tail-doubling driver leaves within 1 + log2_up(MAX) - log2(tail_bytes) rounds from every state,
   for arbitrary constants, arbitrary scan results (any sidecar content, any length) and arbitrary
   accumulators — provided the cap break is there. *)
Theorem c04_terminates :
  forall (E A : Type) (c : cfg) (scan : N -> N -> sres E) (acc0 : A) (examine : A -> list E -> A) (done : A -> bool),
  l_cap_break c = true ->
  forall st : lstate A, 0 < s_tb st ->
  exists (n : nat) (fin : lstate A),
    (n <= rounds_bound c (s_tb st))%nat /\ iter c scan acc0 examine done n st = Some fin.
Proof. exact (@loop_terminates). Qed.
Print Assumptions c04_terminates.

Theorem c04_run_loop_total :
  forall (E A : Type) (c : cfg) (scan : N -> N -> sres E) (acc0 : A) (examine : A -> list E -> A) (done : A -> bool),
  l_cap_break c = true -> 0 < l_initial c ->
  exists fin, run_loop c scan acc0 examine done = Some fin.
Proof. exact (@run_loop_some). Qed.
Print Assumptions c04_run_loop_total.

(* hypotheses are satisfiable and the bound is tight: the real constants, a scan that never completes *)
Example c04_terminates_example :
  loop_wf s1_cfg_fixed = true /\
  rounds_bound s1_cfg_fixed (l_initial s1_cfg_fixed) = 6%nat /\
  iter s1_cfg_fixed s1_scan None s1_examine s1_done 5 (l_init s1_cfg_fixed None) = None /\
  option_map (@s_tb _) (iter s1_cfg_fixed s1_scan None s1_examine s1_done 6 (l_init s1_cfg_fixed None)) = Some 8388608.
Proof. exact fixed_demo. Qed.

(* S1 (fixed in /repo): without the cap break the driver has a fixpoint — no fuel suffices, from the
   initial state either *)
Theorem c04_status_diverges_refuted :
  exists (c : cfg) (scan : N -> N -> sres N) (st : lstate (option N)),
    l_cap_break c = false /\ 0 < l_initial c /\
    (forall fuel, iter c scan None s1_examine s1_done fuel st = None) /\
    (forall fuel, iter c scan None s1_examine s1_done fuel (l_init c None) = None).
Proof. exact status_diverges_unfixed. Qed.
Print Assumptions c04_status_diverges_refuted.

(* tie T1: the five loops as read from the current source all leave, within 6 rounds *)
Theorem c04_source_loops_terminate :
  forall c, In c gen_loops ->
  forall (E A : Type) (scan : N -> N -> sres E) (acc0 : A) (examine : A -> list E -> A) (done : A -> bool),
  exists fin, run_loop c scan acc0 examine done = Some fin.
Proof. exact gen_loops_terminate. Qed.
Print Assumptions c04_source_loops_terminate.

Theorem c04_source_loops_rounds :
  forall c, In c gen_loops -> (rounds_bound c (l_initial c) <= 6)%nat.
Proof. exact gen_loops_rounds. Qed.
Print Assumptions c04_source_loops_rounds.

(* ---------------------------------------------------------------- transparency *)
(* Full statement (DESIGN §4): for every reachable cache state outside the undetectable classes every
   query's fast path equals its truth path.  Proved below for the queries whose fast path reads the
   full sidecar only (replay, cursor status, rotate target, selection status, schedule-decision /
   job-outcome part of compaction status, branch / handoff cut) with Undetectable = K1; the queries over
   the derived sidecars and indexes have their own theorems further down (latest checkpoint and cut points: classes
   K2, K3; the context compiled for a run: class K2m, c04_compile_transparent_partial); the bounded inflight-job scan,
   hierarchical checkpoints through `.comp.idx` and the seek / message-id indexes are covered by the correspondence and
   the oracle only. *)
Definition c04_transparent_full : Prop :=
  forall (k : consts) (l : log) (s : sfile) (q : query) (a : list N),
    consts_wf k -> valid_log l = true -> FullFaithful l s ->
    q_fast k s l q = Some a -> a = q_truth k l q.

Theorem c04_transparent_partial :
  forall (k : consts) (l : log) (s : sfile) (q : query) (a : list N),
    consts_wf k -> valid_log l = true -> FullFaithful l s -> q <> QInflight ->
    q_fast k s l q = Some a -> a = q_truth k l q.
Proof. exact full_sidecar_transparent. Qed.
Print Assumptions c04_transparent_partial.

(* ... instantiated with the constants and loop shapes of the current source *)
Theorem c04_transparent_source_partial :
  forall (l : log) (s : sfile) (q : query) (a : list N),
    valid_log l = true -> FullFaithful l s -> q <> QInflight ->
    q_fast k_gen s l q = Some a -> a = q_truth k_gen l q.
Proof. exact (fun l s q a => full_sidecar_transparent k_gen l s q a gen_tail_loops_wf). Qed.
Print Assumptions c04_transparent_source_partial.

(* the building blocks, usable by C08/C10: what a bounded backward scan may return, and replay *)
Theorem c04_scan_returns_truth_tail :
  forall (l : log) (s : sfile), valid_log l = true -> FullFaithful l s ->
  forall me mb fs cpl, scan_tail s me mb = STail fs cpl ->
    (exists pre, l = pre ++ fs) /\ (cpl = true -> fs = l).
Proof. exact scan_tail_spec. Qed.
Print Assumptions c04_scan_returns_truth_tail.

Theorem c04_replay_transparent :
  forall (l : log) (s : sfile), valid_log l = true -> FullFaithful l s -> replay_fast s l = l.
Proof. exact replay_faithful. Qed.
Print Assumptions c04_replay_transparent.

(* an intact sidecar is faithful (so the hypotheses hold after every rebuild), and a concrete run *)
Theorem c04_intact_sidecar_faithful : forall l : log, FullFaithful l (Some (project_full l)).
Proof. exact project_full_faithful. Qed.
Print Assumptions c04_intact_sidecar_faithful.

Example c04_transparent_example :
  consts_wf k_small /\ valid_log wlog = true /\ FullFaithful wlog wside
  /\ q_fast k_small wside wlog (QSelection 3) = Some [2; 3; 1]
  /\ q_truth k_small wlog (QSelection 3) = [2; 3; 1].
Proof. exact transparent_example. Qed.

(* ---------------------------------------------------------------- the undetectable class K1 is not vacuous *)
Theorem c04_K1_changes_answer :
  valid_log wlog = true /\ ~ FullFaithful wlog wstale
  /\ q_fast k_small wstale wlog QReplay = Some [3; 0; 1; 2] /\ q_truth k_small wlog QReplay = [4; 0; 1; 2; 3]
  /\ q_fast k_small wstale wlog (QSelection 3) = Some [1; 1] /\ q_truth k_small wlog (QSelection 3) = [2; 3; 1].
Proof. exact K1_changes_answer. Qed.
Print Assumptions c04_K1_changes_answer.

(* ---------------------------------------------------------------- the defects fixed in /repo, on the unfixed skeletons *)
(* S2: accumulator not cleared per scan => duplicates *)
Theorem c04_selection_no_dup_refuted :
  selection_fast (wcfg true false true) 3 wside wlog = Some [3; 3; 3]
  /\ selection_truth 3 wlog = [3; 1].
Proof. exact selection_dup_unfixed. Qed.
Print Assumptions c04_selection_no_dup_refuted.

(* cap break without the truth fallback after a non-exhaustive scan *)
Theorem c04_cursor_no_fallback_refuted :
  option_map enc_cstat (cursor_status_fast (wcfg true true false) 32 (Some (project_full wlog2)) wlog2) = Some [1; 2; 1; 2]
  /\ enc_cstat (cursor_status_truth 32 wlog2) = [1; 2; 2; 1; 2].
Proof. exact cursor_no_fallback_unfixed. Qed.
Print Assumptions c04_cursor_no_fallback_refuted.

(* zero-byte sidecar / sidecar re-created by an append after its loss reported as complete history *)
Theorem c04_empty_sidecar_refuted :
  FullFaithful wlog (Some [])
  /\ selection_fast_with (scan_tail_unfixed (Some [])) (wcfg true true true) 3 (Some []) wlog = Some []
  /\ selection_fast (wcfg true true true) 3 (Some []) wlog = Some [3; 1].
Proof. exact empty_sidecar_unfixed. Qed.
Print Assumptions c04_empty_sidecar_refuted.

Theorem c04_recreated_suffix_refuted :
  FullFaithful wlog (Some [LGood wf2; LGood wf3])
  /\ selection_fast_with (scan_tail_unfixed (Some [LGood wf2; LGood wf3])) (wcfg true true true) 3 (Some [LGood wf2; LGood wf3]) wlog = Some [3]
  /\ selection_fast (wcfg true true true) 3 (Some [LGood wf2; LGood wf3]) wlog = Some [3; 1].
Proof. exact recreated_suffix_unfixed. Qed.
Print Assumptions c04_recreated_suffix_refuted.

(* inflight-job scan without a sidecar *)
Theorem c04_inflight_absent_refuted :
  inflight_fast_unfixed 512 524288 None = None
  /\ inflight_fast 512 524288 None wjob = Some 0
  /\ inflight_truth 512 524288 wjob = Some 0.
Proof. exact inflight_absent_unfixed. Qed.
Print Assumptions c04_inflight_absent_refuted.

(* why the bounded inflight-job scan is excluded above: in the model a faithful sidecar with an
   unparsable line of another length just outside the byte window gives a shorter window than the
   rebuilt sidecar does (not reached on the real code through the public API: notes/cache.md) *)
Theorem c04_inflight_window_model_refuted :
  valid_log wjob3 = true /\ FullFaithful wjob3 wshift
  /\ inflight_fast 512 20 wshift wjob3 = None /\ inflight_truth 512 20 wjob3 = Some 0.
Proof. exact inflight_window_shift. Qed.
Print Assumptions c04_inflight_window_model_refuted.

(* ---------------------------------------------------------------- the message ordinal index (derived cache, class K3) *)
(* appends never repair a misaligned index: it is refused by the count reader for ever *)
Theorem c04_ord_misaligned_stays_rejected :
  forall (recs : list N) (torn : N) (seqs : list N) (mr_last : ores N),
  torn <> 0 -> ord_count (fold_left ord_append seqs (OFile recs torn)) mr_last = OErr.
Proof. exact ord_append_never_repairs. Qed.
Print Assumptions c04_ord_misaligned_stays_rejected.

(* everything the count reader checks: alignment and the LAST record *)
Theorem c04_ord_count_accepts :
  forall (f : ofile) (mr_last : ores N) (n : N),
  ord_count f mr_last = OSome n ->
  exists recs last, f = OFile recs 0 /\ mr_last = OSome last /\ n = nlen recs /\ hd_error (rev recs) = Some last.
Proof. exact ord_count_accepts. Qed.
Print Assumptions c04_ord_count_accepts.

(* on the projection of the truth stream both readers answer from truth *)
Theorem c04_ord_projection_transparent :
  forall (msgs : list N) (last : N),
  hd_error (rev msgs) = Some last ->
  ord_count (OFile msgs 0) (OSome last) = OSome (nlen msgs)
  /\ forall k known, (forall m, In m msgs -> known m = true) -> 0 < k ->
       ord_by_ordinal (OFile msgs 0) known k =
       match nth_error msgs (N.to_nat (k - 1)) with Some m => OSome m | None => ONone end.
Proof. exact ord_projection_transparent. Qed.
Print Assumptions c04_ord_projection_transparent.

(* K3 is not vacuous: a record lost in the middle is accepted (count 2 of 3, ordinal 2 = third message) *)
Theorem c04_K3_changes_answer :
  ord_count (OFile [1; 5] 0) (OSome 5) = OSome 2
  /\ ord_by_ordinal (OFile [1; 5] 0) (fun _ => true) 2 = OSome 5
  /\ nlen [1; 3; 5] = 3 /\ nth_error [1; 3; 5] 1 = Some 3.
Proof. exact K3_changes_answer. Qed.
Print Assumptions c04_K3_changes_answer.

(* ---------------------------------------------------------------- the checkpoint sidecar (derived cache, class K2) *)
(* compaction_status_v1.latest_checkpoint through the `.comp.v1.jsonl` sidecar (as found, or built from the
   full sidecar's line headers), for all scan bounds: outside K1 and K2 it is the truth answer.  K2 is
   spelled out: the sidecar, when present, is the projection of the truth stream; when absent, a full sidecar
   without an unparsable line is the truth stream. *)
Theorem c04_latest_checkpoint_transparent_partial :
  forall (me mb : N) (comp full : sfile) (l : log),
  valid_log l = true -> log_lens_pos l = true -> FullFaithful l full -> CompFaithful l comp full ->
  status_ckpt_fast me mb comp full l = option_map fseq (latest_ckpt_truth U64MAX l).
Proof. exact status_ckpt_transparent. Qed.
Print Assumptions c04_latest_checkpoint_transparent_partial.

Example c04_latest_checkpoint_example :
  CompFaithful wlog3 (Some (comp_projection wlog3)) (Some (project_full wlog3))
  /\ CompFaithful wlog3 None (Some (project_full wlog3))
  /\ status_ckpt_fast 100 1000 (Some (comp_projection wlog3)) (Some (project_full wlog3)) wlog3 = Some 3
  /\ status_ckpt_fast 100 1000 None (Some (project_full wlog3)) wlog3 = Some 3.
Proof. exact status_ckpt_example. Qed.

(* K2 is not vacuous (S4): the sidecar re-created by the append of a later checkpoint with a smaller to_seq *)
Theorem c04_K2_changes_answer :
  valid_log wlog3 = true /\ log_lens_pos wlog3 = true /\ FullFaithful wlog3 (Some (project_full wlog3))
  /\ ~ CompFaithful wlog3 (Some [LGood (wck 4 1)]) (Some (project_full wlog3))
  /\ status_ckpt_fast 100 1000 (Some [LGood (wck 4 1)]) (Some (project_full wlog3)) wlog3 = Some 4
  /\ option_map fseq (latest_ckpt_truth U64MAX wlog3) = Some 3.
Proof. exact K2_changes_answer. Qed.
Print Assumptions c04_K2_changes_answer.

(* the order in which the checkpoint frames are met does not matter (sidecar scans are latest-first, the
   replay is oldest-first) *)
Theorem c04_latest_checkpoint_order_independent :
  forall (mt : N) (fs : list frame) (b : option frame), seq_inj fs ->
  latest_ckpt mt b (rev fs) = latest_ckpt mt b fs.
Proof. exact latest_ckpt_rev. Qed.
Print Assumptions c04_latest_checkpoint_order_independent.

(* ---------------------------------------------------------------- continuities/index.json (only the default-thread recovery is claimed) *)
Theorem c04_default_recovery :
  forall (ws : N) (cs : list created) (children : list N) (id : N),
  recover_default_fixed ws cs children = Some id -> exists c, In c cs /\ cr_id c = id /\ cr_ws c = ws.
Proof. exact default_recovery_existing_fixed. Qed.
Print Assumptions c04_default_recovery.

Theorem c04_default_recovery_creates_only_when_none :
  forall (ws : N) (cs : list created) (children : list N),
  recover_default_fixed ws cs children = None -> forall c, In c cs -> cr_ws c <> ws.
Proof. exact default_recovery_none_fixed. Qed.
Print Assumptions c04_default_recovery_creates_only_when_none.

(* the identity of the default is recovered whenever it is the only thread of the workspace that is not a branch /
   handoff child, however many children there are (S15, fixed in /repo: the scan skips threads whose stream carries a
   continuity_branched / continuity_handoff_created frame).  Still partial with respect to "the default thread": a
   workspace with several ROOT threads keeps the newest-root heuristic (the log does not record which one was default) *)
Theorem c04_default_recovery_identity_partial :
  forall (ws ts id : N) (others : list created) (children : list N),
  ~ In id children ->
  (forall c, In c others -> cr_ws c <> ws \/ In (cr_id c) children) ->
  recover_default_fixed ws ((ts, id, ws) :: others) children = Some id.
Proof. exact default_recovery_root. Qed.
Print Assumptions c04_default_recovery_identity_partial.

(* S15 on the scan before the fix (`recover_default` alone): default thread 1 created at t=100, its branch child 2 at
   t=105, same workspace key: the child was returned; the repaired scan returns thread 1 *)
Theorem c04_default_recovery_identity_refuted :
  recover_default 7 [(100, 1, 7); (105, 2, 7)] = Some 2
  /\ recover_default_fixed 7 [(100, 1, 7); (105, 2, 7)] [2] = Some 1.
Proof. exact default_recovery_child. Qed.
Print Assumptions c04_default_recovery_identity_refuted.

(* ---------------------------------------------------------------- zero-length derived sidecars (S4c, fixed in /repo) *)
(* a zero-length `.comp.v1.jsonl` is read as a lost sidecar (rebuilt from the full sidecar like a missing one); the reader
   before the fix scanned it as a complete empty history: "no checkpoint" on a thread whose latest checkpoint is frame 3.
   With the fix a zero-length file is OUTSIDE K2 (CompFaithful / CompFaithfulC / MrFaithful treat it as absent), so the
   transparency theorems above cover it. *)
Theorem c04_zero_length_checkpoint_sidecar_is_absent :
  forall (me mb : N) (full : sfile) (mt : N),
  latest_ckpt_cache me mb (Some []) full mt = latest_ckpt_cache me mb None full mt.
Proof. exact (fun me mb full mt => eq_refl). Qed.
Print Assumptions c04_zero_length_checkpoint_sidecar_is_absent.

Theorem c04_zero_length_checkpoint_sidecar_refuted :
  latest_ckpt_cache_unfixed 100 1000 (Some []) (Some (project_full wlog3)) U64MAX = CkSome None
  /\ latest_ckpt_cache 100 1000 (Some []) (Some (project_full wlog3)) U64MAX = CkSome (Some (wck 3 2))
  /\ CompFaithful wlog3 (Some []) (Some (project_full wlog3)).
Proof. exact zero_length_comp_unfixed. Qed.
Print Assumptions c04_zero_length_checkpoint_sidecar_refuted.

(* ---------------------------------------------------------------- cut points through the caches *)
(* compaction_cut_points_v1 on a store whose ordinal index is the projection (count and ordinal look-ups
   answered from it: c04_ord_projection_transparent), with the per-cut-point checkpoint look-up through
   the `.comp` sidecar and all its fallbacks: outside K1 and K2 it is the truth answer, for all scan
   bounds, strides and limits. *)
Theorem c04_cut_points_fast_eq_truth_partial :
  forall (me mb : N) (comp full : sfile) (l : log) (stride limit : N),
  valid_log l = true -> log_lens_pos l = true -> FullFaithful l full -> CompFaithful l comp full ->
  cut_points_fast me mb comp full l stride limit = cut_points_truth l stride limit.
Proof. exact cut_points_fast_eq_truth. Qed.
Print Assumptions c04_cut_points_fast_eq_truth_partial.

(* the probe of DESIGN §0 (S4) in the model: only the newest checkpoint left in the sidecar *)
Theorem c04_K2_changes_cut_points :
  snd (cut_points_fast 100 1000 (Some [LGood (wck 4 1)]) (Some (project_full wlog3)) wlog3 1 2)
    = [ {| cp_ordinal := 2; cp_to_seq := 2; cp_already := false; cp_latest := None |};
        {| cp_ordinal := 1; cp_to_seq := 1; cp_already := true; cp_latest := Some 4 |} ]
  /\ snd (cut_points_truth wlog3 1 2)
    = [ {| cp_ordinal := 2; cp_to_seq := 2; cp_already := true; cp_latest := Some 3 |};
        {| cp_ordinal := 1; cp_to_seq := 1; cp_already := true; cp_latest := Some 4 |} ].
Proof. exact K2_changes_cut_points. Qed.
Print Assumptions c04_K2_changes_cut_points.

(* ... and with the ordinal-index route (count, ordinal look-ups, their fallbacks) in the model as well: outside
   K1, K2 and K3 the cut points are the truth answer.  K3 (¬OrdFaithful): the complete records of the index
   are not a prefix of the projection, or an aligned index is not all of it. *)
Theorem c04_cut_points_eq_truth_partial :
  forall (me mb : N) (comp full : sfile) (l : log) (ord : ofile) (known : N -> bool) (stride limit : N),
  valid_log l = true -> log_lens_pos l = true -> FullFaithful l full -> CompFaithful l comp full -> OrdFaithful l ord ->
  cut_points_ord me mb comp full l ord known stride limit = cut_points_truth l stride limit.
Proof. exact cut_points_ord_eq_truth. Qed.
Print Assumptions c04_cut_points_eq_truth_partial.

Theorem c04_K3_changes_cut_points :
  valid_log wlog5 = true /\ ~ OrdFaithful wlog5 (OFile [1; 5] 0)
  /\ fst (cut_points_ord 100 1000 None (Some (project_full wlog5)) wlog5 (OFile [1; 5] 0) (fun _ => true) 1 4) = 2
  /\ map cp_to_seq (snd (cut_points_ord 100 1000 None (Some (project_full wlog5)) wlog5 (OFile [1; 5] 0) (fun _ => true) 1 4)) = [5; 1]
  /\ fst (cut_points_truth wlog5 1 4) = 3
  /\ map cp_to_seq (snd (cut_points_truth wlog5 1 4)) = [5; 3; 1].
Proof. exact K3_changes_cut_points. Qed.
Print Assumptions c04_K3_changes_cut_points.

(* ---------------------------------------------------------------- the context compiled for a run *)
(* load_context_compile_input_recent_messages_v1 over the cache files AS FOUND — the messages+runs sidecar present with any
   content / absent and built from the full sidecar's lines / unreadable, the full sidecar's tail readable or not — with
   every failure leg and fallback of the loader (Model/CacheCompile.v), any schedule of scan budgets `ks`, any sound
   acceptance count `r`, followed by the context compiler (Model/Compile.v): decision and bundle are exactly what the
   full replay of the truth log gives, or both fail.  Hypotheses, spelled out: the thread's seqs increase and frames
   name earlier frames (C01 / fresh ids); outside K2m (MrFaithful: every suffix of the mr sidecar that parses is a suffix
   of the projection of truth, the whole file only the whole projection; absent: a full sidecar that parses is the truth
   stream); outside K1 as far as this reader looks (HeadFaithful: the full sidecar's last line, if it parses, is the
   thread's last frame); and — the part NOT modelled — the seek-window producer over the seek / message-id indexes
   answers, when it answers, with an admissible window (what C08 proves of the healthy one: c08_window_path_agrees).
   The checkpoint source of the compiler is the projection of the stream (the `.comp` look-ups are
   c04_latest_checkpoint_transparent_partial's subject). *)
Definition c04_compile_transparent_full : Prop :=
  forall (r : tail_count) (P : params) (texts : N -> N) (l : Compile.log) (a : N) (ks : list nat)
         (mr full : cfile) (window : option (Compile.log * N)),
  tail_count_sound r = true -> incr l -> wf_refs l = true ->
  MrFaithful l mr full -> HeadFaithful l full ->
  compile_fast r P texts ks mr full window l a = compile P texts l a.

Theorem c04_compile_transparent_partial :
  forall (r : tail_count) (P : params) (texts : N -> N) (l : Compile.log) (a : N) (ks : list nat)
         (mr full : cfile) (window : option (Compile.log * N)),
  tail_count_sound r = true -> incr l -> wf_refs l = true ->
  MrFaithful l mr full -> HeadFaithful l full -> WindowSpec (p_limit P) l a window ->
  compile_fast r P texts ks mr full window l a = compile P texts l a.
Proof. exact (fun r P texts l a ks mr full window R S W => compile_input_transparent r P texts l a R S W ks mr full window). Qed.
Print Assumptions c04_compile_transparent_partial.

(* ... instantiated with the limits, the checkpoint visibility rule and the acceptance count of the CURRENT source
   (Gen/CompileConsts.v, regenerated on every run; obligation gen_tail_count_ok) *)
Theorem c04_compile_transparent_source_partial :
  forall (texts : N -> N) (l : Compile.log) (a : N) (ks : list nat) (mr full : cfile) (window : option (Compile.log * N)),
  incr l -> wf_refs l = true ->
  MrFaithful l mr full -> HeadFaithful l full -> WindowSpec (p_limit p_gen) l a window ->
  compile_fast gen_tail_count p_gen texts ks mr full window l a = compile p_gen texts l a.
Proof. exact (fun texts l a ks mr full window S W => compile_input_transparent gen_tail_count p_gen texts l a gen_tail_count_ok S W ks mr full window). Qed.
Print Assumptions c04_compile_transparent_source_partial.

(* with the healthy seek window of C08 in the window's place (builder compile's mr_window over the projection at the thread's
   cut — the producer c08_window_path_agrees is about; its admissibility argument is reused) no hypothesis about the window
   is left: whatever the mr sidecar and the full sidecar's tail hold outside K2m / K1, tail loop -> window -> replay
   give the replay's answer *)
Theorem c04_compile_transparent_healthy_window :
  forall (r : tail_count) (P : params) (texts : N -> N) (l : Compile.log) (a : N) (ks : list nat) (mr full : cfile),
  tail_count_sound r = true -> incr l -> wf_refs l = true ->
  MrFaithful l mr full -> HeadFaithful l full ->
  compile_fast r P texts ks mr full (healthy_window (p_limit P) l a) l a = compile P texts l a.
Proof. exact compile_input_transparent_healthy_window. Qed.
Print Assumptions c04_compile_transparent_healthy_window.

(* with every cache file gone the loader IS the replay (the reference side of the oracle) *)
Theorem c04_compile_without_caches :
  forall (r : tail_count) (P : params) (texts : N -> N) (ks : list nat) (l : Compile.log) (a : N),
  compile_fast r P texts ks None None None l a = compile P texts l a.
Proof. exact no_caches_is_replay. Qed.
Print Assumptions c04_compile_without_caches.

(* the faithful class is wide: what a rebuild writes; any lines at all followed by an unparsable one and then a tail
   of the projection (garbage in the middle, a torn record, a torn LAST record with nothing behind it) *)
Theorem c04_mr_rebuilt_faithful : forall l : Compile.log, MrFileFaithful l (map CGood (filter mr_keep l)).
Proof. exact projection_file_faithful. Qed.
Print Assumptions c04_mr_rebuilt_faithful.

Theorem c04_mr_damaged_faithful :
  forall (l x0 x2 : Compile.log) (front : list cline),
  filter mr_keep l = x0 ++ x2 -> MrFileFaithful l ((front ++ [CBad]) ++ map CGood x2).
Proof. exact damaged_file_faithful. Qed.
Print Assumptions c04_mr_damaged_faithful.

(* hypotheses satisfiable, on a 40-message thread: intact caches (the first scan budget is refused, the second
   accepted), two garbage lines in the middle of the mr sidecar, a torn last line, no mr sidecar *)
Example c04_compile_transparent_example :
  Compile.valid_log cc_log = true /\ wf_refs cc_log = true
  /\ MrFaithful cc_log (Some cc_mr) cc_full /\ MrFaithful cc_log (Some cc_mr_damaged) cc_full
  /\ MrFaithful cc_log (Some cc_mr_torn) cc_full /\ MrFaithful cc_log None cc_full
  /\ HeadFaithful cc_log cc_full /\ (forall a, WindowSpec 16 cc_log a None)
  /\ users (compile_fast CountUpToCut code16 no_texts cc_ks (Some cc_mr_damaged) cc_full None cc_log 25) = map N.of_nat (seq 10 16)
  /\ users (compile code16 no_texts cc_log 25) = map N.of_nat (seq 10 16).
Proof. exact compile_transparent_example. Qed.

(* K2m is not vacuous (S4): the mr sidecar re-created by the append of the 40th message after its loss *)
Theorem c04_K2m_changes_answer :
  ~ MrFaithful cc_log (Some cc_mr_recreated) cc_full
  /\ HeadFaithful cc_log cc_full
  /\ users (compile_fast CountUpToCut code16 no_texts cc_ks (Some cc_mr_recreated) cc_full None cc_log 40) = [40]
  /\ users (compile code16 no_texts cc_log 40) = map N.of_nat (seq 25 16).
Proof. exact K2m_changes_answer. Qed.
Print Assumptions c04_K2m_changes_answer.

(* ... and neither is the soundness of the acceptance count (seeded change C04-6 / C08-2: `<= head_seq` for
   `<= from_seq`): with intact caches the first, too short window is accepted and the compiled context has 5 messages;
   with the caches removed it has the 16 the log determines *)
Theorem c04_compile_count_all_refuted :
  MrFaithful cc_log (Some cc_mr) cc_full /\ HeadFaithful cc_log cc_full
  /\ users (compile_fast CountAll code16 no_texts cc_ks (Some cc_mr) cc_full None cc_log 25) = [21; 22; 23; 24; 25]
  /\ users (compile_fast CountAll code16 no_texts cc_ks None None None cc_log 25) = map N.of_nat (seq 10 16)
  /\ users (compile code16 no_texts cc_log 25) = map N.of_nat (seq 10 16).
Proof. exact compile_count_all_changes_answer. Qed.
Print Assumptions c04_compile_count_all_refuted.

(* ---------------------------------------------------------------- ... and the compiler's checkpoint look-ups through `.comp` / `.comp.idx` *)
(* compile_cached = the loader above + latest_compaction_checkpoint_for_compile_v1 and
   hierarchical_compaction_checkpoints_for_compile_v1 over the checkpoint sidecar and its index AS FOUND (ensure-from-the-
   full-sidecar, the one bounded backward scan that must be complete, the reader's own latest-first fold, load / rebuild /
   reload of the index with its validation, the caches-behind-head guard, `Ok(Some)` else replay): the whole read side of
   a run's context.  Outside K2m, K1-at-the-head and K2 for these two files — CompFaithfulC: a checkpoint sidecar whose
   every line parses is the projection (absent: a full sidecar that parses is the truth stream); IdxFaithful: an index
   that loads (parses, non-empty, seqs non-decreasing) is the projection — decision and bundle are the replay's, for
   every scan bound `me`, level count and both visibility rules. *)
Theorem c04_compiled_context_transparent_partial :
  forall (r : tail_count) (P : params) (texts : N -> N) (l : Compile.log) (a : N) (ks : list nat) (me : nat)
         (mr full comp idx : cfile) (window : option (Compile.log * N)),
  tail_count_sound r = true -> incr l -> wf_refs l = true ->
  MrFaithful l mr full -> HeadFaithful l full -> WindowSpec (p_limit P) l a window ->
  CompFaithfulC l comp full -> IdxFaithful l idx ->
  compile_cached r P texts ks me mr full comp idx window l a = compile P texts l a.
Proof. exact compile_cached_transparent. Qed.
Print Assumptions c04_compiled_context_transparent_partial.

Theorem c04_compiled_context_transparent_source_partial :
  forall (texts : N -> N) (l : Compile.log) (a : N) (ks : list nat) (me : nat)
         (mr full comp idx : cfile) (window : option (Compile.log * N)),
  incr l -> wf_refs l = true ->
  MrFaithful l mr full -> HeadFaithful l full -> WindowSpec (p_limit p_gen) l a window ->
  CompFaithfulC l comp full -> IdxFaithful l idx ->
  compile_cached gen_tail_count p_gen texts ks me mr full comp idx window l a = compile p_gen texts l a.
Proof. exact (fun texts l a ks me mr full comp idx window => compile_cached_transparent gen_tail_count p_gen texts l a ks me mr full comp idx window gen_tail_count_ok). Qed.
Print Assumptions c04_compiled_context_transparent_source_partial.

(* the checkpoint reader folds latest-first with its own tie-break (larger to_seq, then larger seq); the replay folds in
   stream order (later frame wins a tie): the same checkpoint on every stream with increasing seqs *)
Theorem c04_checkpoint_reader_fold_agrees :
  forall (fixed : bool) (from : N) (evs : Compile.log), incr evs ->
  fold_left (latest_step_cache fixed from) (rev evs) None = latest_any fixed from evs.
Proof. exact cache_fold_is_latest_any. Qed.
Print Assumptions c04_checkpoint_reader_fold_agrees.

(* hypotheses satisfiable: 8 messages, cumulative checkpoints to messages 4 and 8, one more message; intact caches / a
   checkpoint sidecar with an unparsable line + an index that does not load / neither file *)
Example c04_compiled_context_example :
  Compile.valid_log ck_log = true /\ wf_refs ck_log = true
  /\ MrFaithful ck_log ck_mr ck_full /\ HeadFaithful ck_log ck_full
  /\ CompFaithfulC ck_log (Some ck_comp) ck_full /\ CompFaithfulC ck_log (Some ck_comp_damaged) ck_full /\ CompFaithfulC ck_log None ck_full
  /\ IdxFaithful ck_log (Some ck_comp) /\ IdxFaithful ck_log (Some ck_idx_garbage) /\ IdxFaithful ck_log None
  /\ summaries (compile_cached CountUpToCut code16 no_texts [20%nat] 100%nat ck_mr ck_full (Some ck_comp) (Some ck_comp) None ck_log 11) = [4; 8]
  /\ summaries (compile_cached CountUpToCut code16 no_texts [20%nat] 100%nat ck_mr ck_full (Some ck_comp_damaged) (Some ck_idx_garbage) None ck_log 11) = [4; 8]
  /\ summaries (compile_cached CountUpToCut code16 no_texts [20%nat] 100%nat ck_mr ck_full None None None ck_log 11) = [4; 8]
  /\ summaries (compile code16 no_texts ck_log 11) = [4; 8]
  /\ users (compile code16 no_texts ck_log 11) = [11].
Proof. exact ck_examples. Qed.

(* K2 is not vacuous for the compiled context (S4): the checkpoint sidecar re-created by one append, index built from it:
   one summary ref and four messages too many *)
Theorem c04_K2_changes_compiled_context :
  ~ CompFaithfulC ck_log (Some ck_comp_recreated) ck_full
  /\ summaries (compile_cached CountUpToCut code16 no_texts [20%nat] 100%nat ck_mr ck_full (Some ck_comp_recreated) None None ck_log 11) = [4]
  /\ users (compile_cached CountUpToCut code16 no_texts [20%nat] 100%nat ck_mr ck_full (Some ck_comp_recreated) None None ck_log 11) = [5; 6; 7; 8; 11]
  /\ summaries (compile code16 no_texts ck_log 11) = [4; 8]
  /\ users (compile code16 no_texts ck_log 11) = [11].
Proof. exact K2_changes_compiled_context. Qed.
Print Assumptions c04_K2_changes_compiled_context.

(* ---------------------------------------------------------------- an ordinal index whose count was rejected (C04-F3, fixed in /repo) *)
(* message_count_messages_runs_v1 rejects an index whose last record is not the thread's last message and cut points take
   the count from the replay — but every ordinal was still looked up in that same index first, so an index that had lost a
   record in the middle AND its newest records resolved an ordinal to a later message (found by the thorough tier, seed 2).
   Since the fix the message list of the replay, once in hand, answers the look-ups: for ANY content of the ordinal index
   that fails the count check the cut points are the truth answer (no hypothesis about the index: K3 is left only for an
   index that passes the check). *)
Theorem c04_cut_points_rejected_index_not_consulted :
  forall (me mb : N) (comp full : sfile) (l : log) (ord : ofile) (known : N -> bool) (stride limit : N),
  valid_log l = true -> log_lens_pos l = true -> FullFaithful l full -> CompFaithful l comp full ->
  (forall n, ord_count ord (mr_last_of l) <> OSome n) ->
  cut_points_ord me mb comp full l ord known stride limit = cut_points_truth l stride limit.
Proof. exact (fun me mb comp full l ord known stride limit Hv Hp Hff Hcf Hrej => cut_points_ord_checked me mb comp full l ord known stride limit Hv Hp Hff Hcf (or_intror Hrej)). Qed.
Print Assumptions c04_cut_points_rejected_index_not_consulted.

(* the route before the fix: messages 1,3,5,7, index [1;5]: count rejected, ordinal 2 resolved to message 5 *)
Theorem c04_cut_points_rejected_index_refuted :
  valid_log wlog7 = true
  /\ ord_count (OFile [1; 5] 0) (mr_last_of wlog7) = OErr
  /\ map cp_to_seq (snd (cut_points_ord_unfixed 100 1000 None (Some (project_full wlog7)) wlog7 (OFile [1; 5] 0) (fun _ => true) 2 4)) = [7; 5]
  /\ map cp_to_seq (snd (cut_points_ord 100 1000 None (Some (project_full wlog7)) wlog7 (OFile [1; 5] 0) (fun _ => true) 2 4)) = [7; 3]
  /\ map cp_to_seq (snd (cut_points_truth wlog7 2 4)) = [7; 3].
Proof. exact rejected_index_unfixed. Qed.
Print Assumptions c04_cut_points_rejected_index_refuted.

(* ---------------------------------------------------------------- the seek index and the full-sidecar window read (Model/SeekIndex.v) *)
(* The compile input's producer when the messages+runs sidecar cannot be used: window_recent_messages_v1_from_seq over the
   full sidecar, which looks up "the greatest seek entry with seq <= target" twice (boundary_pos_for_seq_v1, the first frame
   of the window in window_recent_messages_v1_from_cut_v1).  Offsets in lines; the backward header scan taken to its
   fixpoint.  On an intact full sidecar, FOR EVERY STRIDE, limit and cut — whatever the position of the cut and of the
   window's first frame relative to the entries — the window read is the index-free specification: the messages and
   run_ended frames from the limit-th message at or below the cut (or the start of the thread) up to the cut. *)
Theorem c04_seek_window_transparent :
  forall (stride : N) (limit : nat) (l : Compile.log) (from : N),
  Compile.valid_log l = true ->
  seek_window best_offset stride limit l from = window_spec limit l from.
Proof. exact seek_window_correct. Qed.
Print Assumptions c04_seek_window_transparent.

(* what the window read needs of the lookup: it never starts beyond its target (any such lookup gives the same window) *)
Theorem c04_seek_window_any_sound_lookup :
  forall (look : list SeekIndex.entry -> N -> N) (stride : N) (limit : nat) (l : Compile.log) (from : N),
  Compile.valid_log l = true ->
  (forall t, look (seek_index stride l) t <= t) ->
  seek_window look stride limit l from = window_spec limit l from.
Proof. exact seek_window_sound. Qed.
Print Assumptions c04_seek_window_any_sound_lookup.

(* the lookup of the code on the index of an intact sidecar: the entry it returns is in the index, at or below the target,
   points at the frame of its seq, and every entry at or below the target is at or below it (the next entry is beyond the
   target); no entry at or below the target => offset 0 *)
Theorem c04_seek_lookup_greatest_entry_at_or_below :
  forall (stride : N) (l : Compile.log) (t : N),
  Compile.valid_log l = true ->
  match best_entry (seek_index stride l) t None with
  | Some e => In e (seek_index stride l) /\ fst e <= t /\ snd e = fst e
              /\ forall e', In e' (seek_index stride l) -> fst e' <= t -> fst e' <= fst e
  | None => forall e', In e' (seek_index stride l) -> t < fst e'
  end.
Proof. exact seek_lookup_spec. Qed.
Print Assumptions c04_seek_lookup_greatest_entry_at_or_below.

(* every offset class relative to the stride on a concrete thread (stride 4, 11 messages, entries 0 / 4 / 8, limit 2):
   cut = entry - 1, entry, entry + 1, mid-stride, last entry - 1, last entry, last entry + 1, the tail *)
Example c04_seek_window_positions :
  seek_index 4 sw_thread = [(0, 0); (4, 4); (8, 8)]
  /\ map (fun from => seqs (seek_window best_offset 4 2 sw_thread from)) [3; 4; 5; 6; 7; 8; 9; 10]
     = [[2; 3]; [3; 4]; [4; 5]; [5; 6]; [6; 7]; [7; 8]; [8; 9]; [9; 10]]
  /\ map (fun from => seqs (window_spec 2 sw_thread from)) [3; 4; 5; 6; 7; 8; 9; 10]
     = [[2; 3]; [3; 4]; [4; 5]; [5; 6]; [6; 7]; [7; 8]; [8; 9]; [9; 10]].
Proof. exact seek_window_positions. Qed.
Print Assumptions c04_seek_window_positions.

(* the lookup "first entry with seq >= target, else the last" (entries.partition_point(|e| e.seq < target); seed C04-11):
   one entry too far for every target that is not itself an entry and lies below the last one.  The window comes back
   EMPTY for the cuts 3, 6, 7 (the caller takes Ok(Some(window)) and never reaches the replay), short of its older message
   for 4, 5, 8, and right only where the whole window lies beyond the last entry *)
Theorem c04_seek_window_next_entry_refuted :
  Compile.valid_log sw_thread = true
  /\ best_offset (seek_index 4 sw_thread) 6 = 4 /\ best_offset_next (seek_index 4 sw_thread) 6 = 8
  /\ seqs (seek_window best_offset_next 4 2 sw_thread 6) = []
  /\ seqs (window_spec 2 sw_thread 6) = [5; 6]
  /\ map (fun from => seqs (seek_window best_offset_next 4 2 sw_thread from)) [3; 4; 5; 7; 8; 9; 10]
     = [[]; [4]; [4; 5]; []; [8]; [8; 9]; [9; 10]].
Proof. exact seek_window_next_entry_refuted. Qed.
Print Assumptions c04_seek_window_next_entry_refuted.

Theorem c04_seek_window_next_entry_exists_refuted :
  exists (stride : N) (limit : nat) (l : Compile.log) (from : N), Compile.valid_log l = true
    /\ seek_window best_offset_next stride limit l from <> window_spec limit l from.
Proof. exact seek_window_next_entry_exists. Qed.
Print Assumptions c04_seek_window_next_entry_exists_refuted.

(* ---------------------------------------------------------------- the compile input with the full-sidecar window in the window's place *)
(* the index-free window is admissible for the compiler (a suffix of the projection of the thread up to the cut that is all of
   it or holds `limit` messages): the argument of c08_window_path_agrees, for the window the full-sidecar read produces *)
Theorem c04_seek_window_admissible :
  forall (limit : nat) (l : Compile.log) (from : N),
  incr l -> admissible_input mr_keep limit l from (window_spec limit l from).
Proof. exact window_spec_admissible. Qed.
Print Assumptions c04_seek_window_admissible.

(* tail loop -> full-sidecar window over the seek index (the lookup of the code, any stride) -> replay: whatever the mr sidecar
   and the full sidecar's tail hold outside K2m / K1-at-the-head, on a thread whose frames carry seq 0,1,2,.. (the intact full
   sidecar IS that thread: its lines are read by offset), the loader followed by the compiler gives the replay's decision
   and bundle — no hypothesis about the window is left.  (The message-id index that finds the anchor's line is not modelled.) *)
Theorem c04_compile_transparent_seek_window :
  forall (r : tail_count) (P : params) (texts : N -> N) (l : Compile.log) (a : N) (ks : list nat)
         (mr full : cfile) (stride : N),
  tail_count_sound r = true -> Compile.valid_log l = true -> wf_refs l = true ->
  MrFaithful l mr full -> HeadFaithful l full ->
  compile_fast r P texts ks mr full (full_sidecar_window best_offset stride (p_limit P) l a) l a = compile P texts l a.
Proof. exact compile_input_transparent_seek_window. Qed.
Print Assumptions c04_compile_transparent_seek_window.

(* with the off-by-one lookup the loader's window for the anchor at seq 6 is Some (no events): the caller returns it *)
Theorem c04_full_sidecar_window_next_entry_refuted :
  option_map (fun w => seqs (fst w)) (full_sidecar_window best_offset_next 4 2 sw_thread 6) = Some []
  /\ option_map (fun w => seqs (fst w)) (full_sidecar_window best_offset 4 2 sw_thread 6) = Some [5; 6]
  /\ cut_point sw_thread 6 = Some 6.
Proof. exact full_sidecar_window_next_entry_refuted. Qed.
Print Assumptions c04_full_sidecar_window_next_entry_refuted.
