(* C06 — A stream subscriber sees every frame exactly once, in order.
   Statements only; proofs are in Proofs/SubscribeProofs.v; the model is Model/Subscribe.v.
   Vocabulary (Model/Subscribe.v):
     cfg            = (producer order, handler order, live filter, channel capacity)
     final c n m s  = state after schedule s (ANY list over {producer AP, subscriber AS i, AO = a frame of ANOTHER
                      stream published on the same channel}) on a stream of n
                      frames with m potential subscribers; a subscriber's first two steps are its attach
                      operations, so every attach moment relative to every publish/record step is a schedule
     ExactlyOnce    = delivered seqs are exactly 0..k-1 (once each, ascending), k covers every frame
                      published so far, k = n once the producer has finished
     NoLag          = no receiver overflowed its bounded channel in this run (explicit hypothesis)
     mfinal c span work m s = the same with SEVERAL producers on the one stream (producer j emits work[j] frames, each emit
                      = take the next seq number; record; publish), span = what the emitter's seq mutex covers
   gen_kinds (Gen/StreamOrder.v) is REGENERATED from /repo on every run: the orders of send/push/append in
   the three producers, of subscribe/snapshot + the filter expression in the three handlers, the channel
   capacities and the extent of the seq-mutex guard in TaskEmitter::emit (k_span). *)
From RipV Require Import Base.Prelude Model.Subscribe Proofs.SubscribeProofs Proofs.SubscribeRebuildProofs Gen.StreamOrder.
Local Open Scope nat_scope.

(* record-then-publish x subscribe-then-snapshot x `seq > last`: every n, every schedule, every number
   of subscribers, every attached subscriber, at every moment (stream ended or not) *)
Theorem c06_exactly_once : forall (c : cfg),
  c_p c = RecThenPub -> c_s c = SubThenSnap -> c_f c = FilterGtLast -> c_cap c = None ->
  forall (n m : nat) (sched : list actor) (i : nat) (x : sub),
  nth_error (g_subs (final c n m sched)) i = Some x -> attached x = true ->
  ExactlyOnce c n (final c n m sched) x.
Proof. exact exactly_once_thm. Qed.
Print Assumptions c06_exactly_once.

(* the same with the bounded broadcast channel of the code, NoLag explicit *)
Theorem c06_exactly_once_nolag : forall (c : cfg) (cap : nat),
  c_p c = RecThenPub -> c_s c = SubThenSnap -> c_f c = FilterGtLast -> c_cap c = Some cap ->
  forall (n m : nat) (sched : list actor) (i : nat) (x : sub),
  NoLag (final c n m sched) ->
  nth_error (g_subs (final c n m sched)) i = Some x -> attached x = true ->
  ExactlyOnce c n (final c n m sched) x.
Proof. exact exactly_once_nolag_thm. Qed.
Print Assumptions c06_exactly_once_nolag.

(* if the stream's frames plus the frames other streams put on the same channel during the run (the
   continuity channel is shared by all threads; 0 for session and task channels) fit the capacity,
   nothing lags — whatever the orders, the schedule, the subscribers *)
Theorem c06_lag_bound : forall (c : cfg) (cap n m : nat) (sched : list actor),
  c_cap c = Some cap -> n + count_other sched <= cap -> NoLag (final c n m sched).
Proof. exact lag_bound_thm. Qed.
Print Assumptions c06_lag_bound.

(* what has been written to the SSE body so far is, at every moment, a gap-free duplicate-free prefix *)
Theorem c06_body_is_prefix : forall (c : cfg),
  c_p c = RecThenPub -> c_s c = SubThenSnap -> c_f c = FilterGtLast -> c_cap c = None ->
  forall (n m : nat) (sched : list actor) (i : nat) (x : sub),
  nth_error (g_subs (final c n m sched)) i = Some x -> exists k, s_out x = seq 0 k /\ k <= n.
Proof. exact body_is_prefix_thm. Qed.
Print Assumptions c06_body_is_prefix.

(* today's source: the three stream kinds as extracted (session, task, thread), each with its own
   EVENT_CHANNEL_CAPACITY; gen_stream_order_ok is the generated obligation wf_kinds gen_kinds = true *)
Theorem c06_exactly_once_code : forall (k : kind_orders), In k gen_kinds ->
  forall (n m : nat) (sched : list actor) (i : nat) (x : sub),
  NoLag (final (kind_code_cfg k) n m sched) ->
  nth_error (g_subs (final (kind_code_cfg k) n m sched)) i = Some x -> attached x = true ->
  ExactlyOnce (kind_code_cfg k) n (final (kind_code_cfg k) n m sched) x.
Proof. exact (exactly_once_kinds gen_kinds gen_stream_order_ok). Qed.
Print Assumptions c06_exactly_once_code.

Theorem c06_exactly_once_code_short_stream : forall (k : kind_orders), In k gen_kinds ->
  forall (n m : nat) (sched : list actor) (i : nat) (x : sub), n + count_other sched <= kind_cap k ->
  nth_error (g_subs (final (kind_code_cfg k) n m sched)) i = Some x -> attached x = true ->
  ExactlyOnce (kind_code_cfg k) n (final (kind_code_cfg k) n m sched) x.
Proof. exact (short_stream_kinds gen_kinds gen_stream_order_ok). Qed.
Print Assumptions c06_exactly_once_code_short_stream.

Theorem c06_code_kinds_are_session_task_thread : map k_name gen_kinds = [0%N; 1%N; 2%N].
Proof. exact (wf_kinds_names gen_kinds gen_stream_order_ok). Qed.
Print Assumptions c06_code_kinds_are_session_task_thread.

(* several concurrent producers on ONE stream (a pipes task: stdout pump, stderr pump and the main task emit through
   clones of one TaskEmitter).  mfinal c span work m sched = the multi-producer system (producer j emits work[j] frames;
   each emit = Choose the next seq number; Rec; Pub; ANY schedule over {MP j, MS i, MO}); span = what the emitter's seq
   mutex covers.  With the mutex spanning the whole emit (SpanEmit) every subscriber is a subscriber of a ONE-producer
   stream of the same total length (mview = that view), hence exactly-once: *)
Theorem c06_multi_producer_exactly_once : forall (c : cfg),
  c_p c = RecThenPub -> c_s c = SubThenSnap -> c_f c = FilterGtLast -> c_cap c = None ->
  forall (work : list nat) (m : nat) (msched : list mactor) (i : nat) (x : sub),
  nth_error (m_subs (mfinal c SpanEmit work m msched)) i = Some x -> attached x = true ->
  ExactlyOnce c (fold_right Nat.add 0 work) (mview (mfinal c SpanEmit work m msched)) x.
Proof. exact multi_producer_exactly_once. Qed.
Print Assumptions c06_multi_producer_exactly_once.

(* ... stated for the span the extractor reads from TaskEmitter::emit today (k_span of the generated kinds) *)
Theorem c06_multi_producer_exactly_once_code : forall (k : kind_orders), In k gen_kinds ->
  forall (work : list nat) (m : nat) (msched : list mactor) (i : nat) (x : sub),
  nth_error (m_subs (mfinal (kind_cfg k None) (k_span k) work m msched)) i = Some x -> attached x = true ->
  ExactlyOnce (kind_cfg k None) (fold_right Nat.add 0 work) (mview (mfinal (kind_cfg k None) (k_span k) work m msched)) x.
Proof. exact (multi_producer_kinds gen_kinds gen_stream_order_ok). Qed.
Print Assumptions c06_multi_producer_exactly_once_code.

(* with the seq mutex narrowed to the counter (SpanCounter) two producers reorder the history and a late subscriber
   loses the overtaken frame: A takes 0, B takes 1, B records + publishes 1, the subscriber attaches (last = 1),
   A records + publishes 0 which `seq > last` drops.  History [1; 0], body [1], everybody finished. *)
Theorem c06_narrowed_seq_lock_refuted :
  m_hist (mfinal okc SpanCounter [1; 1] 1 narrowed_sched) = [1; 0]
  /\ map attached (m_subs (mfinal okc SpanCounter [1; 1] 1 narrowed_sched)) = [true]
  /\ map (delivered okc) (m_subs (mfinal okc SpanCounter [1; 1] 1 narrowed_sched)) = [[1]]
  /\ actives (m_prods (mfinal okc SpanCounter [1; 1] 1 narrowed_sched)) = []
  /\ work_left (m_prods (mfinal okc SpanCounter [1; 1] 1 narrowed_sched)) = 0.
Proof. exact span_counter_refuted. Qed.
Print Assumptions c06_narrowed_seq_lock_refuted.

Example c06_same_schedule_with_whole_emit_lock :
  map (delivered okc) (m_subs (mfinal okc SpanEmit [1; 1] 1 (narrowed_sched ++ [MP 1; MP 1; MP 1; MS 0]))) = [[0; 1]]
  /\ m_hist (mfinal okc SpanEmit [1; 1] 1 (narrowed_sched ++ [MP 1; MP 1; MP 1; MS 0])) = [0; 1].
Proof. exact span_emit_same_schedule. Qed.
Print Assumptions c06_same_schedule_with_whole_emit_lock.

(* S8 — publish-then-record (emit_event and TaskEmitter::emit before the repair) loses a frame:
   send(0) < subscribe < snapshot < push(0) *)
Theorem c06_pub_then_rec_refuted : exists n sched, Loses unfixed_cfg n sched.
Proof. exact pub_then_rec_refuted. Qed.
Print Assumptions c06_pub_then_rec_refuted.

(* ... and not only in a corner: in a stream of ANY length n, ANY frame k is lost by the schedule that attaches
   inside the window of frame k (s8_sched_for n k = 2k producer steps; Pub k; subscribe; snapshot; the rest) *)
Theorem c06_pub_then_rec_loses_any_frame : forall n k, k < n ->
  g_prog (final unfixed_cfg n 1 (s8_sched_for n k)) = [] /\
  map attached (g_subs (final unfixed_cfg n 1 (s8_sched_for n k))) = [true] /\
  map (delivered unfixed_cfg) (g_subs (final unfixed_cfg n 1 (s8_sched_for n k))) = [seq 0 k ++ seq (S k) (n - S k)].
Proof. exact pub_then_rec_loses_any_frame. Qed.
Print Assumptions c06_pub_then_rec_loses_any_frame.

(* each remaining hypothesis is necessary as well *)
Theorem c06_snap_then_sub_refuted : exists n sched, Loses (mk RecThenPub SnapThenSub FilterGtLast None) n sched.
Proof. exact snap_then_sub_refuted. Qed.
Print Assumptions c06_snap_then_sub_refuted.

Theorem c06_wrong_filter_refuted : forall f, f <> FilterGtLast ->
  exists n sched, Loses (mk RecThenPub SubThenSnap f None) n sched.
Proof. exact wrong_filter_refuted. Qed.
Print Assumptions c06_wrong_filter_refuted.

Theorem c06_lag_refuted : exists n sched, Loses (mk RecThenPub SubThenSnap FilterGtLast (Some 1)) n sched.
Proof. exact lag_refuted. Qed.
Print Assumptions c06_lag_refuted.

(* ---------- the recorded history over time (attach AFTER the stream ended included) ----------
   efinal c n m ops sched: the stream model plus the statements `ops` of the producer's code that touch the history
   buffer apart from the emitter's push (BRead | BTake | BRestore | BClear | BTruncate k); the schedule (any list over
   {EA a = a step of the stream model, EB = the next buffer statement runs}) decides when they run - at the end of the
   run, where run_session / finalize_snapshot write the snapshot file, or anywhere else.
   HistMonotone = the recorded history is prefix-ordered over time.  gen_buffer_ops (Gen/StreamOrder.v) = every such
   statement of crates/ripd/src read from today's source; gen_buffer_ops_ok = the generated obligation "they only read". *)
Theorem c06_history_monotone : forall (ops : list bufop), buffer_ops_ok ops = true ->
  forall (c : cfg) (n m : nat) (sched : list eactor), HistMonotone c n m ops sched.
Proof. exact history_monotone. Qed.
Print Assumptions c06_history_monotone.

Theorem c06_history_monotone_code : forall (c : cfg) (n m : nat) (sched : list eactor),
  HistMonotone c n m gen_buffer_ops sched.
Proof. exact (history_monotone gen_buffer_ops gen_buffer_ops_ok). Qed.
Print Assumptions c06_history_monotone_code.

(* exactly-once with the invariant it rests on as an explicit hypothesis: WHATEVER the buffer statements are, a run whose
   history stays prefix-ordered delivers 0..k-1 to every attached subscriber, at every moment (after the end included) *)
Theorem c06_exactly_once_monotone_history : forall (c : cfg),
  c_p c = RecThenPub -> c_s c = SubThenSnap -> c_f c = FilterGtLast -> c_cap c = None ->
  forall (ops : list bufop) (n m : nat) (sched : list eactor) (i : nat) (x : sub),
  HistMonotone c n m ops sched ->
  nth_error (g_subs (e_st (efinal c n m ops sched))) i = Some x -> attached x = true ->
  ExactlyOnce c n (e_st (efinal c n m ops sched)) x.
Proof. exact end_of_run_exactly_once. Qed.
Print Assumptions c06_exactly_once_monotone_history.

(* ... discharged for today's source: the three extracted kinds with the extracted buffer statements *)
Theorem c06_exactly_once_end_of_run_code : forall (k : kind_orders), In k gen_kinds ->
  forall (n m : nat) (sched : list eactor) (i : nat) (x : sub),
  nth_error (g_subs (e_st (efinal (kind_cfg k None) n m gen_buffer_ops sched))) i = Some x -> attached x = true ->
  ExactlyOnce (kind_cfg k None) n (e_st (efinal (kind_cfg k None) n m gen_buffer_ops sched)) x.
Proof. exact (end_of_run_kinds gen_kinds gen_stream_order_ok gen_buffer_ops gen_buffer_ops_ok). Qed.
Print Assumptions c06_exactly_once_end_of_run_code.

(* take-and-restore around the snapshot write (`let frames = mem::take(&mut *buf.lock().await); write; *buf.lock().await
   = frames`): 3 frames recorded and published, the buffer moved out, a subscriber attaches in the window (empty history,
   nothing live any more), the buffer put back: the history is [0;1;2] again and the subscriber has received NOTHING *)
Theorem c06_take_and_restore_refuted :
  ~ HistMonotone okc 3 1 take_restore_ops take_restore_sched
  /\ g_prog (e_st (efinal okc 3 1 take_restore_ops take_restore_sched)) = []
  /\ g_hist (e_st (efinal okc 3 1 take_restore_ops take_restore_sched)) = [0; 1; 2]
  /\ map attached (g_subs (e_st (efinal okc 3 1 take_restore_ops take_restore_sched))) = [true]
  /\ map (delivered okc) (g_subs (e_st (efinal okc 3 1 take_restore_ops take_restore_sched))) = [[]].
Proof. exact take_restore_refuted. Qed.
Print Assumptions c06_take_and_restore_refuted.

Example c06_same_schedule_reading_under_the_lock :
  buffer_ops_ok [BRead] = true
  /\ map (delivered okc) (g_subs (e_st (efinal okc 3 1 [BRead] take_restore_sched))) = [[0; 1; 2]].
Proof. exact read_only_same_schedule. Qed.
Print Assumptions c06_same_schedule_reading_under_the_lock.

(* ---------- the thread kind's history source ----------
   thread_history r side log = ContinuityStore::replay_events: the sidecar `side` when try_replay accepts it (non-empty,
   seqs checked with r), else the truth log.  gen_replay_check = (first expected seq, comparison) read from try_replay.
   Whatever the sidecar holds, a thread subscriber's history is the log or the gap-free run 0..k-1 the sidecar holds: *)
Theorem c06_thread_history_from_zero :
  forall (side : option (list nat)) (log : list nat),
  thread_history gen_replay_check side log = log
  \/ exists k, thread_history gen_replay_check side log = seq 0 k /\ side = Some (seq 0 k).
Proof. exact (thread_history_from_zero gen_replay_check gen_replay_check_ok). Qed.
Print Assumptions c06_thread_history_from_zero.

(* the cache lost (deleted) when the thread had j frames, the thread has n frames now (appended to or not since): the
   subscriber's history is the whole log *)
Theorem c06_thread_history_after_cache_loss : forall n j, j <= n ->
  thread_history gen_replay_check (sidecar_after_loss n j) (seq 0 n) = seq 0 n.
Proof. exact (fun n j _ => thread_history_after_loss gen_replay_check gen_replay_check_ok n j). Qed.
Print Assumptions c06_thread_history_after_cache_loss.

(* `seq < expected` (increasing instead of successor) hands out the truncated / holed sidecar *)
Theorem c06_weak_replay_check_refuted :
  thread_history weak_replay (sidecar_after_loss 10 7) (seq 0 10) = [7; 8; 9]
  /\ thread_history weak_replay (Some [0; 1; 3; 4]) (seq 0 5) = [0; 1; 3; 4]
  /\ thread_history code_replay (sidecar_after_loss 10 7) (seq 0 10) = seq 0 10
  /\ thread_history code_replay (Some [0; 1; 3; 4]) (seq 0 5) = seq 0 5.
Proof. exact weak_replay_refuted. Qed.
Print Assumptions c06_weak_replay_check_refuted.

(* ---------- L1 repaired: the handlers re-read the history when their receiver lagged ----------
   rfinal pol cap n m sched: the stream model with the orders of the code (record-then-publish, subscribe-then-snapshot),
   a channel of ANY capacity cap (an overflowing receiver loses its oldest pending frame and is told Lagged at its next
   recv) and the policy pol of the handler's live half: LagSkip = carry on with what the channel still holds (the
   handlers before the repair), LagRefill = server.rs live_frames: re-read the history, carry on after the last seq
   delivered.  With LagRefill exactly-once needs NO NoLag hypothesis: every capacity, every length, every schedule. *)
Theorem c06_exactly_once_with_refill : forall (cap n m : nat) (sched : list actor) (i : nat) (x : rsub),
  nth_error (r_subs (rfinal LagRefill cap n m sched)) i = Some x -> rattached x = true ->
  exists k, rdelivered LagRefill (rfinal LagRefill cap n m sched) x = seq 0 k
            /\ rpublished n (rfinal LagRefill cap n m sched) <= k /\ k <= n
            /\ (r_prog (rfinal LagRefill cap n m sched) = [] -> k = n).
Proof. exact exactly_once_with_refill. Qed.
Print Assumptions c06_exactly_once_with_refill.

(* ... for the policies read from today's three handlers (gen_lag_policy; obligation: all LagRefill) *)
Theorem c06_exactly_once_with_refill_code : forall (pol : lagpolicy), In pol gen_lag_policy ->
  forall (cap n m : nat) (sched : list actor) (i : nat) (x : rsub),
  nth_error (r_subs (rfinal pol cap n m sched)) i = Some x -> rattached x = true ->
  exists k, rdelivered pol (rfinal pol cap n m sched) x = seq 0 k
            /\ rpublished n (rfinal pol cap n m sched) <= k /\ k <= n
            /\ (r_prog (rfinal pol cap n m sched) = [] -> k = n).
Proof. exact (exactly_once_with_refill_policies gen_lag_policy gen_lag_policy_ok). Qed.
Print Assumptions c06_exactly_once_with_refill_code.

Theorem c06_code_handlers_all_refill : length gen_lag_policy = 3.
Proof. exact gen_lag_policy_all. Qed.
Print Assumptions c06_code_handlers_all_refill.

(* L1 as it was: capacity 1, the subscriber attaches, two frames are produced before it reads: LagSkip delivers [1],
   LagRefill [0; 1] *)
Theorem c06_lag_skip_refuted :
  r_prog (rfinal LagSkip 1 2 1 lag_sched) = []
  /\ map rattached (r_subs (rfinal LagSkip 1 2 1 lag_sched)) = [true]
  /\ map (rdelivered LagSkip (rfinal LagSkip 1 2 1 lag_sched)) (r_subs (rfinal LagSkip 1 2 1 lag_sched)) = [[1]]
  /\ map (rdelivered LagRefill (rfinal LagRefill 1 2 1 lag_sched)) (r_subs (rfinal LagRefill 1 2 1 lag_sched)) = [[0; 1]].
Proof. exact lag_skip_refuted. Qed.
Print Assumptions c06_lag_skip_refuted.

(* ---------- the WINDOW of the recovery: between the history re-read and the handler's next recv ----------
   wfinal pol cap n m sched: as rfinal, but a lagged drain STOPS after the history re-read (server.rs live_frames: `refill()`
   has answered, point sse.live.refilled) with its receiver untouched, and the subscriber's next step resumes it - so the
   schedule may put any number of producer steps (record, publish, frames of other streams) INSIDE the window.  LagRefill
   resumes with the receiver that was subscribed before the attach snapshot (a frame published in the window is in it, or
   pushed it over its capacity again, and then the history is re-read again); LagRefillResubscribe replaces it by a new
   receiver at the channel's tail first.  wdelivered = what the client has once it has read everything pending.
   Exactly-once for LagRefill: every capacity, length, schedule, subscriber. *)
Theorem c06_exactly_once_with_refill_window : forall (cap n m : nat) (sched : list actor) (i : nat) (x : wsub),
  nth_error (w_subs (wfinal LagRefill cap n m sched)) i = Some x -> wattached x = true ->
  exists k, wdelivered LagRefill (wfinal LagRefill cap n m sched) x = seq 0 k
            /\ wpublished n (wfinal LagRefill cap n m sched) <= k /\ k <= n
            /\ (w_prog (wfinal LagRefill cap n m sched) = [] -> k = n).
Proof. exact exactly_once_with_refill_window. Qed.
Print Assumptions c06_exactly_once_with_refill_window.

(* ... for the policies read from today's three handlers (the extractor reads the WHOLE Lagged arm: the history is queued and
   nothing else happens; a `receiver = receiver.resubscribe()` after it reads as LagRefillResubscribe, anything else fails) *)
Theorem c06_exactly_once_with_refill_window_code : forall (pol : lagpolicy), In pol gen_lag_policy ->
  forall (cap n m : nat) (sched : list actor) (i : nat) (x : wsub),
  nth_error (w_subs (wfinal pol cap n m sched)) i = Some x -> wattached x = true ->
  exists k, wdelivered pol (wfinal pol cap n m sched) x = seq 0 k
            /\ wpublished n (wfinal pol cap n m sched) <= k /\ k <= n
            /\ (w_prog (wfinal pol cap n m sched) = [] -> k = n).
Proof. exact (exactly_once_with_refill_window_policies gen_lag_policy gen_lag_policy_ok). Qed.
Print Assumptions c06_exactly_once_with_refill_window_code.

(* history first, (re)subscribe second - the join rule backwards: capacity 1, the subscriber attaches, frames 0 and 1 are
   produced (it lags), it reads (the history [0;1] is re-read), frame 2 is recorded and published in the window, it resumes
   with a NEW receiver, frame 3 is produced, everything is read: [0;1;3].  Frame 2 is in neither the re-read history nor the
   new receiver and the running last_seq hides it from every later re-read.  Same schedule: LagRefill [0;1;2;3]. *)
Theorem c06_resubscribe_after_refill_refuted :
  w_prog (wfinal LagRefillResubscribe 1 4 1 resub_sched) = []
  /\ map wattached (w_subs (wfinal LagRefillResubscribe 1 4 1 resub_sched)) = [true]
  /\ map (wdelivered LagRefillResubscribe (wfinal LagRefillResubscribe 1 4 1 resub_sched)) (w_subs (wfinal LagRefillResubscribe 1 4 1 resub_sched)) = [[0; 1; 3]]
  /\ map (wdelivered LagRefill (wfinal LagRefill 1 4 1 resub_sched)) (w_subs (wfinal LagRefill 1 4 1 resub_sched)) = [[0; 1; 2; 3]]
  /\ map (wdelivered LagSkip (wfinal LagSkip 1 4 1 resub_sched)) (w_subs (wfinal LagSkip 1 4 1 resub_sched)) = [[1; 2; 3]].
Proof. exact resubscribe_refuted. Qed.
Print Assumptions c06_resubscribe_after_refill_refuted.

Example c06_resubscribe_with_room_in_the_channel :
  w_prog (wfinal LagRefillResubscribe 4 8 1 resub_sched4) = []
  /\ map (wdelivered LagRefillResubscribe (wfinal LagRefillResubscribe 4 8 1 resub_sched4)) (w_subs (wfinal LagRefillResubscribe 4 8 1 resub_sched4)) = [[0; 1; 2; 3; 4; 5; 7]]
  /\ map (wdelivered LagRefill (wfinal LagRefill 4 8 1 resub_sched4)) (w_subs (wfinal LagRefill 4 8 1 resub_sched4)) = [[0; 1; 2; 3; 4; 5; 6; 7]].
Proof. exact resubscribe_refuted_cap4. Qed.
Print Assumptions c06_resubscribe_with_room_in_the_channel.

Example c06_refill_demo :
  r_prog (rfinal LagRefill 2 6 3 refill_demo_sched) = []
  /\ map rs_pend (r_subs (rfinal LagRefill 2 6 3 refill_demo_sched)) = [true; true; false]
  /\ map rattached (r_subs (rfinal LagRefill 2 6 3 refill_demo_sched)) = [true; true; true]
  /\ map (rdelivered LagRefill (rfinal LagRefill 2 6 3 refill_demo_sched)) (r_subs (rfinal LagRefill 2 6 3 refill_demo_sched))
     = [[0; 1; 2; 3; 4; 5]; [0; 1; 2; 3; 4; 5]; [0; 1; 2; 3; 4; 5]]
  /\ map (rdelivered LagSkip (rfinal LagSkip 2 6 3 refill_demo_sched)) (r_subs (rfinal LagSkip 2 6 3 refill_demo_sched))
     = [[0; 1; 2; 3; 4; 5]; [0; 4; 5]; [0; 1; 2; 4; 5]].
Proof. exact refill_demo. Qed.
Print Assumptions c06_refill_demo.

(* non-vacuity: three subscribers attaching at different moments of a 3-frame stream *)
Example c06_demo :
  g_prog (final okc 3 3 demo_sched) = []
  /\ map (delivered okc) (g_subs (final okc 3 3 demo_sched)) = [[0; 1; 2]; [0; 1; 2]; [0; 1; 2]]
  /\ map attached (g_subs (final okc 3 3 demo_sched)) = [true; true; true].
Proof. exact demo_run. Qed.
Print Assumptions c06_demo.

Example c06_demo_mid_run :
  g_prog (final okc 3 3 (firstn 7 demo_sched)) <> []
  /\ map attached (g_subs (final okc 3 3 (firstn 7 demo_sched))) = [true; true; false]
  /\ map (delivered okc) (g_subs (final okc 3 3 (firstn 7 demo_sched))) = [[0; 1]; [0; 1]; []].
Proof. exact demo_mid_run. Qed.
Print Assumptions c06_demo_mid_run.

Example c06_demo_shared_channel :
  NoLag (final (code_cfg (Some 7)) 3 3 demo_shared_sched)
  /\ g_prog (final (code_cfg (Some 7)) 3 3 demo_shared_sched) = []
  /\ map (delivered (code_cfg (Some 7))) (g_subs (final (code_cfg (Some 7)) 3 3 demo_shared_sched)) = [[0; 1; 2]; [0; 1; 2]; [0; 1; 2]]
  /\ count_other demo_shared_sched = 4.
Proof. exact demo_shared. Qed.
Print Assumptions c06_demo_shared_channel.

Example c06_demo_nolag :
  NoLag (final (code_cfg (Some 3)) 3 3 demo_sched)
  /\ map attached (g_subs (final (code_cfg (Some 3)) 3 3 demo_sched)) = [true; true; true].
Proof. exact demo_nolag. Qed.
Print Assumptions c06_demo_nolag.

(* ---------- the thread kind's history while the sidecar is being REBUILT (finding S3-live, repaired in /repo) ----------
   tfinal d n m sched = the thread store: one writer appending frames 0..n-1 (each append: seq mutex; log; sidecar line;
   broadcast + release), m readers (subscribe; try_replay; when refused: log read + sidecar rebuild; then live), ANY
   schedule over {TW writer step, TR i reader step, TRefuse i = reader i's next unlocked try_replay is refused although the
   sidecar is healthy (its read fell inside the append of the last line), TDrop = the cache file is lost}.
   d = the discipline of the rebuild: rd_locked (log read + rebuild under the writers' mutex, sidecar tried again under it),
   rd_atomic (temporary file renamed over the sidecar).  TExactlyOnce: what an attached reader has is 0..q-1, q covers every
   frame broadcast so far, q = n once the writer has finished. *)
Theorem c06_exactly_once_during_rebuild : forall (d : rdisc), rdisc_ok d = true ->
  forall (n m : nat) (sched : list tactor) (i : nat) (x : tsub),
  nth_error (t_subs (tfinal d n m sched)) i = Some x -> tattached x = true ->
  TExactlyOnce n (tfinal d n m sched) x.
Proof. exact rebuild_exactly_once. Qed.
Print Assumptions c06_exactly_once_during_rebuild.

(* today's source: the discipline read from ContinuityStore::replay_events / replay_events_locked and
   ContinuityStreamCache::rebuild_best_effort (obligation gen_rebuild_disc_ok) *)
Theorem c06_exactly_once_during_rebuild_code :
  forall (n m : nat) (sched : list tactor) (i : nat) (x : tsub),
  nth_error (t_subs (tfinal gen_rebuild_disc n m sched)) i = Some x -> tattached x = true ->
  TExactlyOnce n (tfinal gen_rebuild_disc n m sched) x.
Proof. exact (rebuild_exactly_once_checked gen_ok_replay_check gen_rebuild_disc gen_rebuild_disc_ok). Qed.
Print Assumptions c06_exactly_once_during_rebuild_code.

(* the code before the repair (rewrite in place, no lock shared with the writers): the witness replayed on the real code
   (corpus/C06/rebuild_lost_append.json): the rebuild's older replay overwrites an append; reader 1 has [0;1;3] of 0..3 *)
Theorem c06_rebuild_in_place_unlocked_refuted : TLoses in_place_unlocked 4 2 lost_append_sched.
Proof. exact lost_append_loses. Qed.
Print Assumptions c06_rebuild_in_place_unlocked_refuted.

(* neither half of the repair is enough alone: EVERY other discipline loses a frame under some schedule
   (rename without the lock: the older replay replaces a sidecar that already holds the next frame; lock without the rename:
   a reader - readers take no lock - is served the well-formed prefix the rewrite has reached, corpus/C06/rebuild_prefix_visible.json) *)
Theorem c06_rebuild_other_disciplines_refuted : forall (d : rdisc), rdisc_ok d = false ->
  exists (n m : nat) (sched : list tactor), TLoses d n m sched.
Proof. exact rebuild_other_disciplines_refuted. Qed.
Print Assumptions c06_rebuild_other_disciplines_refuted.

Example c06_lost_append_witness :
  t_wk (tfinal in_place_unlocked 4 2 lost_append_sched) = 4 /\ t_log (tfinal in_place_unlocked 4 2 lost_append_sched) = [0; 1; 2; 3]
  /\ t_side (tfinal in_place_unlocked 4 2 lost_append_sched) = [0; 1; 3]
  /\ map tattached (t_subs (tfinal in_place_unlocked 4 2 lost_append_sched)) = [true; true]
  /\ map tdelivered (t_subs (tfinal in_place_unlocked 4 2 lost_append_sched)) = [[0; 1; 2; 3]; [0; 1; 3]].
Proof. exact lost_append_witness. Qed.
Print Assumptions c06_lost_append_witness.

(* non-vacuity: the same schedule under the repaired discipline, and a rebuild that really runs under the mutex *)
Example c06_same_schedule_repaired :
  t_wk (tfinal okd 4 2 lost_append_sched) = 4 /\ t_side (tfinal okd 4 2 lost_append_sched) = [0; 1; 2; 3]
  /\ map tdelivered (t_subs (tfinal okd 4 2 lost_append_sched)) = [[0; 1; 2; 3]; [0; 1; 2; 3]].
Proof. exact lost_append_repaired. Qed.
Print Assumptions c06_same_schedule_repaired.

Example c06_rebuild_under_the_mutex :
  t_wk (tfinal okd 3 2 rebuild_under_lock_sched) = 3 /\ t_side (tfinal okd 3 2 rebuild_under_lock_sched) = [0; 1; 2] /\
  map tattached (t_subs (tfinal okd 3 2 rebuild_under_lock_sched)) = [true; true] /\
  map tdelivered (t_subs (tfinal okd 3 2 rebuild_under_lock_sched)) = [[0; 1; 2]; [0; 1; 2]].
Proof. exact rebuild_under_lock_example. Qed.
Print Assumptions c06_rebuild_under_the_mutex.
